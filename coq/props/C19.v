(* C19 — includes: each file once, cycles terminate, resolution order, located
   include errors, only named files are user inputs.  Property theorems only:
   each is closed by [exact] of a lemma of Proofs.IncludesProofs, followed by
   Print Assumptions.

   The file system is universally quantified: any type of paths with decidable
   equality and any functions canon (fs::canonicalize), is_dir, is_file, read_dir, join
   (PathBuf::push), parent (PathBuf::pop), file_name, ext_circom, starts_dot,
   has_sep, content.  The only premises about them are
     * [canon] is idempotent: the canonical form of a path canonicalises to itself;
     * (termination only) the canonical paths are finitely many ([universe])
       and the named directories nest to a finite depth ([depth_le]).
   Every theorem is about the current code ([d23 = false]); C19_D23_refuted is
   about the code before the repair.

   Fix 517e7a0 (`add_files` reads each canonical directory once):
   the mirror follows the fix ([add_files_once]).  The theorems that speak
   about the set [named] of files the command line stands for carry the
   premise [dirs_revisited .. = false] — no named directory was met twice while
   the arguments were expanded (then the fix changes nothing:
   C19_fix_changes_nothing_without_revisit).  The premise is a boolean of the
   mirror, printed by the driver for every project; where it is false (a
   directory linked back to itself or a parent) these theorems are silent and
   the premise-free ones remain: every user input is a named file and every
   non-directory argument is a user input (C19_user_set_sound), every file read
   is reachable from a named one (C19_reads_only_reachable), each file once,
   termination, located include errors, every include served.  That skipping a
   directory already read loses no file needs a coherence property of the file
   system (two spellings of a directory list the same entries) that a finite
   table cannot state: open, checked by the oracle on every project.

   The last group composes this model with Model.Runner (C03's mirror of
   cli/src/main.rs and analysis_runner.rs) through
   Model.IncludesRunner.file_library_user_inputs (FileLibrary::add_file):
   "files that were only included never produce findings of their own" is
   stated about what `main` displays, not only about the stored flag. *)
From Coq Require Import ZArith Ascii String.
From stdpp Require Import list strings.
Require Model.Runner Spec.RunnerSpec.
Require Import Model.Includes Spec.IncludesSpec Proofs.IncludesProofs.
Require Import Model.IncludesRunner Proofs.IncludesRunnerProofs.

(* no canonical path is read and parsed twice: every path handed to parse_file
   is canonical, and two positions of the read sequence holding paths with the
   same canonical form are the same position *)
Theorem C19_each_canonical_file_once :
  forall (path : Type) (EqDecision0 : EqDecision path)
         (canon : path -> option path) (is_dir is_file : path -> bool)
         (read_dir : path -> option (list path)) (join : path -> path -> path)
         (parent : path -> path) (file_name : path -> option path)
         (ext_circom starts_dot has_sep : path -> bool) (content : path -> file_content path),
    (forall p c, canon p = Some c -> canon c = Some c) ->
    forall (dfuel fuel : nat) (paths libs : list path) (s : parse_state),
      parse_files canon is_dir is_file read_dir join parent file_name ext_circom starts_dot has_sep content
                  false dfuel fuel paths libs = Ok s ->
      Forall (canonical canon) (ps_read s) /\
      (forall (i j : nat) (p q : path),
          ps_read s !! i = Some p -> ps_read s !! j = Some q -> canon p = canon q -> i = j).
Proof. exact @each_canonical_file_once. Qed.
Print Assumptions C19_each_canonical_file_once.

(* cyclic and diamond-shaped include graphs terminate: with more loop fuel than
   there are canonical paths (and more directory fuel than the nesting depth
   of the named directories) parse_files never runs out of fuel *)
Theorem C19_include_terminates :
  forall (path : Type) (EqDecision0 : EqDecision path)
         (canon : path -> option path) (is_dir is_file : path -> bool)
         (read_dir : path -> option (list path)) (join : path -> path -> path)
         (parent : path -> path) (file_name : path -> option path)
         (ext_circom starts_dot has_sep : path -> bool) (content : path -> file_content path),
    (forall p c, canon p = Some c -> canon c = Some c) ->
    forall (universe : list path) (k fuel : nat) (paths libs : list path),
      (forall p c, canon p = Some c -> c ∈ universe) ->
      Forall (depth_le is_dir read_dir join k) paths ->
      length universe < fuel ->
      parse_files canon is_dir is_file read_dir join parent file_name ext_circom starts_dot has_sep content
                  false (S k) fuel paths libs <> OutOfFuel.
Proof. exact @include_terminates. Qed.
Print Assumptions C19_include_terminates.

(* the measure: the number of files read never exceeds the number of canonical paths *)
Theorem C19_reads_bounded :
  forall (path : Type) (EqDecision0 : EqDecision path)
         (canon : path -> option path) (is_dir is_file : path -> bool)
         (read_dir : path -> option (list path)) (join : path -> path -> path)
         (parent : path -> path) (file_name : path -> option path)
         (ext_circom starts_dot has_sep : path -> bool) (content : path -> file_content path),
    (forall p c, canon p = Some c -> canon c = Some c) ->
    forall (universe : list path) (dfuel fuel : nat) (paths libs : list path) (s : parse_state),
      (forall p c, canon p = Some c -> c ∈ universe) ->
      parse_files canon is_dir is_file read_dir join parent file_name ext_circom starts_dot has_sep content
                  false dfuel fuel paths libs = Ok s ->
      length (ps_read s) <= length universe.
Proof. exact @reads_bounded. Qed.
Print Assumptions C19_reads_bounded.

(* resolution order, one include statement (only a file can be included, a
   directory of the name does not count): relative to the directory of the
   including file first, then the first -L library in the order given that
   offers the name (a directory library for names not starting with '.', a
   file library for single-component names equal to its file name); a resolved
   include is pushed (or skipped when already visited), an unresolved one
   yields the include error carrying the statement's file id and range *)
Theorem C19_resolution_order :
  forall (path : Type) (EqDecision0 : EqDecision path)
         (canon : path -> option path) (is_file : path -> bool) (join : path -> path -> path)
         (parent : path -> path) (file_name : path -> option path)
         (starts_dot has_sep : path -> bool)
         (st : file_stack) (inc : include) (cur : path) (st' : file_stack) (rep : option report),
    current_location st = Some (parent cur) ->
    add_include canon is_file join file_name starts_dot has_sep false st inc = Ok (st', rep) ->
    exists r : option path,
      resolves canon is_file join parent file_name starts_dot has_sep cur (libraries st) (inc_path inc) r /\
      match r with
      | Some c => rep = None /\ (st' = push c st \/ (c ∈ black_paths st /\ st' = st))
      | None => rep = Some (IncludeError (inc_path inc) (inc_file inc) (inc_start inc) (inc_end inc)) /\ st' = st
      end.
Proof. exact @add_include_spec. Qed.
Print Assumptions C19_resolution_order.

(* resolution order, whole run: the files read are exactly the files reachable
   from the named ones through includes resolved by that rule *)
Theorem C19_reads_exactly_reachable :
  forall (path : Type) (EqDecision0 : EqDecision path)
         (canon : path -> option path) (is_dir is_file : path -> bool)
         (read_dir : path -> option (list path)) (join : path -> path -> path)
         (parent : path -> path) (file_name : path -> option path)
         (ext_circom starts_dot has_sep : path -> bool) (content : path -> file_content path),
    (forall p c, canon p = Some c -> canon c = Some c) ->
    forall (dfuel fuel : nat) (paths libs : list path) (s : parse_state),
      dirs_revisited canon is_dir read_dir join ext_circom dfuel paths libs = false ->
      parse_files canon is_dir is_file read_dir join parent file_name ext_circom starts_dot has_sep content
                  false dfuel fuel paths libs = Ok s ->
      forall c : path,
        c ∈ ps_read s <->
        reachable canon is_file join parent file_name starts_dot has_sep content
                  (named canon is_dir read_dir join ext_circom paths)
                  (add_libraries canon is_dir ext_circom libs []).1 c.
Proof. exact @reads_exactly_reachable. Qed.
Print Assumptions C19_reads_exactly_reachable.

(* an include error carries the file id of a file that was read and the range
   of one of its include statements, and that statement is unresolvable;
   conversely every unresolvable include statement of a parsed file has its error *)
Theorem C19_unresolved_include_error_located :
  forall (path : Type) (EqDecision0 : EqDecision path)
         (canon : path -> option path) (is_dir is_file : path -> bool)
         (read_dir : path -> option (list path)) (join : path -> path -> path)
         (parent : path -> path) (file_name : path -> option path)
         (ext_circom starts_dot has_sep : path -> bool) (content : path -> file_content path),
    (forall p c, canon p = Some c -> canon c = Some c) ->
    forall (dfuel fuel : nat) (paths libs : list path) (s : parse_state),
      parse_files canon is_dir is_file read_dir join parent file_name ext_circom starts_dot has_sep content
                  false dfuel fuel paths libs = Ok s ->
      (forall (p : path) (fid : option nat) (a b : nat),
          IncludeError p fid a b ∈ ps_reports s ->
          exists (i : nat) (f : path) (u : bool) (incs : list (path * nat * nat)),
            fid = Some i /\ ps_files s !! i = Some (f, u) /\ f ∈ ps_read s /\
            content f = Parsed incs /\ (p, a, b) ∈ incs /\
            resolves canon is_file join parent file_name starts_dot has_sep f
                     (add_libraries canon is_dir ext_circom libs []).1 p None) /\
      (forall (f : path) (incs : list (path * nat * nat)) (p : path) (a b : nat),
          f ∈ ps_read s -> content f = Parsed incs -> (p, a, b) ∈ incs ->
          resolves canon is_file join parent file_name starts_dot has_sep f
                   (add_libraries canon is_dir ext_circom libs []).1 p None ->
          exists (i : nat) (u : bool),
            ps_files s !! i = Some (f, u) /\ IncludeError p (Some i) a b ∈ ps_reports s).
Proof. exact @unresolved_include_error_located. Qed.
Print Assumptions C19_unresolved_include_error_located.

(* the user-input set built by FileStack::new is the set of canonical files the
   command line names (a named path that is not a directory is an input file
   whatever its suffix, a named directory stands for the .circom files below it) *)
Theorem C19_user_set_is_argv_files :
  forall (path : Type) (EqDecision0 : EqDecision path)
         (canon : path -> option path) (is_dir : path -> bool)
         (read_dir : path -> option (list path)) (join : path -> path -> path)
         (ext_circom : path -> bool),
    (forall p c, canon p = Some c -> canon c = Some c) ->
    forall (dfuel : nat) (paths libs : list path) (st : file_stack) (reps : list report),
      dirs_revisited canon is_dir read_dir join ext_circom dfuel paths libs = false ->
      new canon is_dir read_dir join ext_circom dfuel paths libs [] = Ok (st, reps) ->
      forall c : path,
        is_user_input st c = true <-> named canon is_dir read_dir join ext_circom paths c.
Proof. exact @user_set_is_argv_files. Qed.
Print Assumptions C19_user_set_is_argv_files.

(* at this model's level "included-only files produce no findings" reads: the
   flag stored with every file of the library is true exactly for named files,
   so a file that was only included is never a user input (the report filter
   that uses the flag is C03's) *)
Theorem C19_included_only_files_are_not_user_inputs :
  forall (path : Type) (EqDecision0 : EqDecision path)
         (canon : path -> option path) (is_dir is_file : path -> bool)
         (read_dir : path -> option (list path)) (join : path -> path -> path)
         (parent : path -> path) (file_name : path -> option path)
         (ext_circom starts_dot has_sep : path -> bool) (content : path -> file_content path),
    (forall p c, canon p = Some c -> canon c = Some c) ->
    forall (dfuel fuel : nat) (paths libs : list path) (s : parse_state),
      dirs_revisited canon is_dir read_dir join ext_circom dfuel paths libs = false ->
      parse_files canon is_dir is_file read_dir join parent file_name ext_circom starts_dot has_sep content
                  false dfuel fuel paths libs = Ok s ->
      (forall c : path,
          is_user_input (ps_stack s) c = true <-> named canon is_dir read_dir join ext_circom paths c) /\
      (forall (i : nat) (f : path) (u : bool),
          ps_files s !! i = Some (f, u) ->
          f ∈ ps_read s /\ (u = true <-> named canon is_dir read_dir join ext_circom paths f)).
Proof. exact @included_only_files_are_not_user_inputs. Qed.
Print Assumptions C19_included_only_files_are_not_user_inputs.

(* D23 (repaired by the fix: commit recorded in known_findings.jsonl): on a
   well-formed two-file file system the code as it was read one canonical file
   under two spellings *)
Theorem C19_D23_refuted :
  canon_idempotent_b d23_fs = true /\
  parsed_twice d23_fs (run_project true d23_fs d23_argv d23_libs).
Proof. exact (conj d23_witness_wellformed d23_old_code_parses_twice). Qed.
Print Assumptions C19_D23_refuted.

(* the premises are satisfiable, and the concrete instance that is run against
   the implementation is an instance of the theorems: on the witness file
   system canon is idempotent, and the repaired code reads each file once *)
Example C19_premises_satisfiable :
  (forall p c, d_canon d23_fs p = Some c -> d_canon d23_fs c = Some c) /\
  exists s, run_project false d23_fs d23_argv d23_libs = Ok s /\
            ps_read s = [str "/r/p/main.circom"; str "/r/lib/x.circom"].
Proof. exact (conj d23_canon_idem d23_repaired_code_reads). Qed.

(* the extracted instance (file system given as tables): whenever the table's
   canon is idempotent — [canon_idempotent_b], evaluated on every generated
   project; a project whose table fails it is reported by the check — the run
   reads no canonical path twice and its fuel suffices *)
Theorem C19_run_project_each_file_once :
  forall (d : fs_data) (argv libs : list spath) (s : parse_state),
    canon_idempotent_b d = true ->
    run_project false d argv libs = Ok s ->
    forall (i j : nat) (p q : spath),
      ps_read s !! i = Some p -> ps_read s !! j = Some q -> d_canon d p = d_canon d q -> i = j.
Proof. exact run_project_each_file_once. Qed.
Print Assumptions C19_run_project_each_file_once.

(* both premises are booleans computed on the table; the driver prints them for
   every project and lib/props/C19.py reports a project on which one of them
   is false *)
Theorem C19_run_project_fuel_ok :
  forall (d : fs_data) (argv libs : list spath),
    canon_idempotent_b d = true ->
    depth_ok_b d argv = true ->
    run_project false d argv libs <> OutOfFuel.
Proof. exact run_project_fuel_ok_decided. Qed.
Print Assumptions C19_run_project_fuel_ok.

(* every include statement of a parsed file resolves to a file that is read,
   or is reported at the statement — without exception since the repair
   recorded as C19-include-unreadable (an include naming a directory used to
   end in an OS error without location) *)
Theorem C19_every_include_served :
  forall (path : Type) (EqDecision0 : EqDecision path)
         (canon : path -> option path) (is_dir is_file : path -> bool)
         (read_dir : path -> option (list path)) (join : path -> path -> path)
         (parent : path -> path) (file_name : path -> option path)
         (ext_circom starts_dot has_sep : path -> bool) (content : path -> file_content path),
    (forall p c, canon p = Some c -> canon c = Some c) ->
    forall (dfuel fuel : nat) (paths libs : list path) (s : parse_state)
           (f : path) (incs : list (path * nat * nat)) (p : path) (a b : nat),
      parse_files canon is_dir is_file read_dir join parent file_name ext_circom starts_dot has_sep content
                  false dfuel fuel paths libs = Ok s ->
      f ∈ ps_read s -> content f = Parsed incs -> (p, a, b) ∈ incs ->
      (exists c, resolves canon is_file join parent file_name starts_dot has_sep f
                          (add_libraries canon is_dir ext_circom libs []).1 p (Some c) /\ c ∈ ps_read s) \/
      (resolves canon is_file join parent file_name starts_dot has_sep f
                (add_libraries canon is_dir ext_circom libs []).1 p None /\
       exists (i : nat) (u : bool),
         ps_files s !! i = Some (f, u) /\ IncludeError p (Some i) a b ∈ ps_reports s).
Proof. exact @every_include_served. Qed.
Print Assumptions C19_every_include_served.

(* `include "sub";` with sub a directory next to the
   including file yields the include error at bytes 21..35 of file 0, and
   the directory is not read *)
Theorem C19_dir_include_is_located :
  canon_idempotent_b kf_dir_fs = true /\
  exists s, run_project false kf_dir_fs [str "q/main.circom"] [] = Ok s /\
            ps_read s = [str "/r/q/main.circom"] /\
            ps_reports s = [IncludeError (str "sub") (Some 0) 21 35].
Proof. exact dir_include_is_located. Qed.
Print Assumptions C19_dir_include_is_located.

(* a path p given on the command line that is not a directory, with canonical
   form c: c is a user input at the end of the run, c is read, every
   FileLibrary entry for c carries the flag true, and unless c cannot be opened
   it has such an entry whose file id is in FileLibrary::user_inputs.
   [paths] is any list (so: whichever position p has in it, whichever other
   arguments precede it), [content] is any function (so: whichever files
   include c, named or not, before or after c's own stack entry is popped). *)
Theorem C19_named_file_is_user_input :
  forall (path : Type) (EqDecision0 : EqDecision path)
         (canon : path -> option path) (is_dir is_file : path -> bool)
         (read_dir : path -> option (list path)) (join : path -> path -> path)
         (parent : path -> path) (file_name : path -> option path)
         (ext_circom starts_dot has_sep : path -> bool) (content : path -> file_content path),
    (forall p c, canon p = Some c -> canon c = Some c) ->
    forall (dfuel fuel : nat) (paths libs : list path) (s : parse_state) (p c : path),
      dirs_revisited canon is_dir read_dir join ext_circom dfuel paths libs = false ->
      parse_files canon is_dir is_file read_dir join parent file_name ext_circom starts_dot has_sep content
                  false dfuel fuel paths libs = Ok s ->
      p ∈ paths -> is_dir p = false -> canon p = Some c ->
      is_user_input (ps_stack s) c = true /\
      c ∈ ps_read s /\
      (forall (i : nat) (u : bool), ps_files s !! i = Some (c, u) -> u = true) /\
      (content c <> Unreadable ->
       exists i : nat, ps_files s !! i = Some (c, true) /\
                       In (Z.of_nat i) (file_library_user_inputs (ps_files s))).
Proof. intros. eapply named_is_user_input; eauto. by eapply argument_is_named. Qed.
Print Assumptions C19_named_file_is_user_input.

(* two runs on the same arguments in different orders (each with whatever fuel
   let it finish): the same files are read, the FileLibrary holds the same
   (file, is_user_input) entries, the stack answers is_user_input alike; only
   the numbering of the files depends on the order *)
Theorem C19_user_inputs_independent_of_argument_order :
  forall (path : Type) (EqDecision0 : EqDecision path)
         (canon : path -> option path) (is_dir is_file : path -> bool)
         (read_dir : path -> option (list path)) (join : path -> path -> path)
         (parent : path -> path) (file_name : path -> option path)
         (ext_circom starts_dot has_sep : path -> bool) (content : path -> file_content path),
    (forall p c, canon p = Some c -> canon c = Some c) ->
    forall (dfuel fuel dfuel' fuel' : nat) (paths paths' libs : list path) (s s' : parse_state),
      Permutation paths paths' ->
      dirs_revisited canon is_dir read_dir join ext_circom dfuel paths libs = false ->
      dirs_revisited canon is_dir read_dir join ext_circom dfuel' paths' libs = false ->
      parse_files canon is_dir is_file read_dir join parent file_name ext_circom starts_dot has_sep content
                  false dfuel fuel paths libs = Ok s ->
      parse_files canon is_dir is_file read_dir join parent file_name ext_circom starts_dot has_sep content
                  false dfuel' fuel' paths' libs = Ok s' ->
      (forall c : path, c ∈ ps_read s <-> c ∈ ps_read s') /\
      (forall (f : path) (u : bool), (f, u) ∈ ps_files s <-> (f, u) ∈ ps_files s') /\
      (forall c : path, is_user_input (ps_stack s) c = is_user_input (ps_stack s') c).
Proof. exact @user_inputs_order_independent. Qed.
Print Assumptions C19_user_inputs_independent_of_argument_order.

(* the FileLibrary, exactly: (f, u) is an entry iff f was read, could be
   opened, and u says whether f is named *)
Theorem C19_file_library_characterised :
  forall (path : Type) (EqDecision0 : EqDecision path)
         (canon : path -> option path) (is_dir is_file : path -> bool)
         (read_dir : path -> option (list path)) (join : path -> path -> path)
         (parent : path -> path) (file_name : path -> option path)
         (ext_circom starts_dot has_sep : path -> bool) (content : path -> file_content path),
    (forall p c, canon p = Some c -> canon c = Some c) ->
    forall (dfuel fuel : nat) (paths libs : list path) (s : parse_state),
      dirs_revisited canon is_dir read_dir join ext_circom dfuel paths libs = false ->
      parse_files canon is_dir is_file read_dir join parent file_name ext_circom starts_dot has_sep content
                  false dfuel fuel paths libs = Ok s ->
      forall (f : path) (u : bool),
        (f, u) ∈ ps_files s <->
        f ∈ ps_read s /\ content f <> Unreadable /\
        (u = true <-> named canon is_dir read_dir join ext_circom paths f).
Proof. exact @files_characterised. Qed.
Print Assumptions C19_file_library_characterised.

(* a report with at least one primary label, all of whose primary labels lie in
   files of the FileLibrary for which is_user_input answers false: rejected by
   filter_by_file applied to FileLibrary::user_inputs, hence by the filter
   chain under every option set, hence neither on stdout nor in the SARIF file
   of any run of main on any project with that user-input set (all
   definitions, all analysis orders; no well-formedness premise) *)
Theorem C19_included_only_report_never_displayed :
  forall (path : Type) (EqDecision0 : EqDecision path)
         (canon : path -> option path) (is_dir is_file : path -> bool)
         (read_dir : path -> option (list path)) (join : path -> path -> path)
         (parent : path -> path) (file_name : path -> option path)
         (ext_circom starts_dot has_sep : path -> bool) (content : path -> file_content path),
    (forall p c, canon p = Some c -> canon c = Some c) ->
    forall (dfuel fuel : nat) (paths libs : list path) (s : parse_state) (r : Runner.report),
      dirs_revisited canon is_dir read_dir join ext_circom dfuel paths libs = false ->
      parse_files canon is_dir is_file read_dir join parent file_name ext_circom starts_dot has_sep content
                  false dfuel fuel paths libs = Ok s ->
      Runner.r_pfiles r <> [] ->
      (forall z : Z, In z (Runner.r_pfiles r) ->
                     exists (i : nat) (f : path) (u : bool),
                       z = Z.of_nat i /\ ps_files s !! i = Some (f, u) /\
                       is_user_input (ps_stack s) f = false) ->
      Runner.filter_by_file r (file_library_user_inputs (ps_files s)) = false /\
      (forall o : Runner.opts, Runner.passes_filters o (file_library_user_inputs (ps_files s)) r = false) /\
      (forall (p : Runner.project) (o : Runner.opts) (order : list Runner.key),
          Runner.p_user p = file_library_user_inputs (ps_files s) ->
          ~ In r (Runner.res_shown (Runner.run_keys p o order)) /\
          (forall (results : list Runner.report) (rules : list Runner.rule),
              Runner.res_sarif (Runner.run_keys p o order) = Some (results, rules) -> ~ In r results)).
Proof. exact @included_only_report_never_displayed. Qed.
Print Assumptions C19_included_only_report_never_displayed.

(* conversely the file filter lets through every report with a primary label
   in a named file (so a named file that another named file includes keeps its
   findings) *)
Theorem C19_named_file_report_passes_file_filter :
  forall (path : Type) (EqDecision0 : EqDecision path)
         (canon : path -> option path) (is_dir is_file : path -> bool)
         (read_dir : path -> option (list path)) (join : path -> path -> path)
         (parent : path -> path) (file_name : path -> option path)
         (ext_circom starts_dot has_sep : path -> bool) (content : path -> file_content path),
    (forall p c, canon p = Some c -> canon c = Some c) ->
    forall (dfuel fuel : nat) (paths libs : list path) (s : parse_state) (r : Runner.report)
           (i : nat) (f : path) (u : bool),
      dirs_revisited canon is_dir read_dir join ext_circom dfuel paths libs = false ->
      parse_files canon is_dir is_file read_dir join parent file_name ext_circom starts_dot has_sep content
                  false dfuel fuel paths libs = Ok s ->
      In (Z.of_nat i) (Runner.r_pfiles r) -> ps_files s !! i = Some (f, u) ->
      named canon is_dir read_dir join ext_circom paths f ->
      Runner.filter_by_file r (file_library_user_inputs (ps_files s)) = true.
Proof. exact @named_file_report_passes_file_filter. Qed.
Print Assumptions C19_named_file_report_passes_file_filter.

(* everything main displays was produced by the parser or for a definition
   living in a named file, and is located nowhere (no primary label) or, at
   least with one primary label, in a named file *)
Theorem C19_displayed_findings_come_from_named_files :
  forall (path : Type) (EqDecision0 : EqDecision path)
         (canon : path -> option path) (is_dir is_file : path -> bool)
         (read_dir : path -> option (list path)) (join : path -> path -> path)
         (parent : path -> path) (file_name : path -> option path)
         (ext_circom starts_dot has_sep : path -> bool) (content : path -> file_content path),
    (forall p c, canon p = Some c -> canon c = Some c) ->
    forall (dfuel fuel : nat) (paths libs : list path) (s : parse_state)
           (p : Runner.project) (o : Runner.opts) (order : list Runner.key) (r : Runner.report),
      dirs_revisited canon is_dir read_dir join ext_circom dfuel paths libs = false ->
      parse_files canon is_dir is_file read_dir join parent file_name ext_circom starts_dot has_sep content
                  false dfuel fuel paths libs = Ok s ->
      Runner.p_user p = file_library_user_inputs (ps_files s) ->
      RunnerSpec.wf_project p -> RunnerSpec.analysis_order p order ->
      In r (Runner.res_shown (Runner.run_keys p o order)) ->
      (In r (Runner.p_parse p) \/
       exists (d : Runner.def) (i : nat) (f : path),
         In d (Runner.p_defs p) /\ In r (RunnerSpec.produced_def d) /\
         Runner.d_file d = Z.of_nat i /\ ps_files s !! i = Some (f, true) /\
         named canon is_dir read_dir join ext_circom paths f) /\
      (Runner.r_pfiles r = [] \/
       exists (i : nat) (f : path),
         In (Z.of_nat i) (Runner.r_pfiles r) /\ ps_files s !! i = Some (f, true) /\
         named canon is_dir read_dir join ext_circom paths f).
Proof. exact @displayed_findings_come_from_named_files. Qed.
Print Assumptions C19_displayed_findings_come_from_named_files.

(* the visited-directory set of fix 517e7a0 *)

(* when no directory was met twice the repaired FileStack::new computes what
   the code before the fix computed ([new_all]: every spelling expanded) *)
Theorem C19_fix_changes_nothing_without_revisit :
  forall (path : Type) (EqDecision0 : EqDecision path)
         (canon : path -> option path) (is_dir : path -> bool)
         (read_dir : path -> option (list path)) (join : path -> path -> path)
         (ext_circom : path -> bool)
         (fuel : nat) (paths libs : list path) (st : file_stack) (reps : list report),
    new canon is_dir read_dir join ext_circom fuel paths libs [] = Ok (st, reps) ->
    dirs_revisited canon is_dir read_dir join ext_circom fuel paths libs = false ->
    new_all canon is_dir read_dir join ext_circom fuel paths libs [] = Ok (st, reps).
Proof. exact @new_is_new_all. Qed.
Print Assumptions C19_fix_changes_nothing_without_revisit.

(* without the premise: a user input is a file the command line names, and an
   argument that is not a directory is a user input *)
Theorem C19_user_set_sound :
  forall (path : Type) (EqDecision0 : EqDecision path)
         (canon : path -> option path) (is_dir : path -> bool)
         (read_dir : path -> option (list path)) (join : path -> path -> path)
         (ext_circom : path -> bool),
    (forall p c, canon p = Some c -> canon c = Some c) ->
    forall (dfuel : nat) (paths libs : list path) (st : file_stack) (reps : list report),
      new canon is_dir read_dir join ext_circom dfuel paths libs [] = Ok (st, reps) ->
      (forall c : path, is_user_input st c = true -> named canon is_dir read_dir join ext_circom paths c) /\
      (forall p c : path, p ∈ paths -> is_dir p = false -> canon p = Some c -> is_user_input st c = true).
Proof. exact @user_set_sound. Qed.
Print Assumptions C19_user_set_sound.

(* without the premise: every file read is reachable from a named file through
   includes resolved by the rule, and the files read are closed under resolved includes *)
Theorem C19_reads_only_reachable :
  forall (path : Type) (EqDecision0 : EqDecision path)
         (canon : path -> option path) (is_dir is_file : path -> bool)
         (read_dir : path -> option (list path)) (join : path -> path -> path)
         (parent : path -> path) (file_name : path -> option path)
         (ext_circom starts_dot has_sep : path -> bool) (content : path -> file_content path),
    (forall p c, canon p = Some c -> canon c = Some c) ->
    forall (dfuel fuel : nat) (paths libs : list path) (s : parse_state),
      parse_files canon is_dir is_file read_dir join parent file_name ext_circom starts_dot has_sep content
                  false dfuel fuel paths libs = Ok s ->
      (forall c : path,
          c ∈ ps_read s ->
          reachable canon is_file join parent file_name starts_dot has_sep content
                    (named canon is_dir read_dir join ext_circom paths)
                    (add_libraries canon is_dir ext_circom libs []).1 c) /\
      (forall (f : path) (incs : list (path * nat * nat)) (x : path * nat * nat) (c : path),
          f ∈ ps_read s -> content f = Parsed incs -> x ∈ incs ->
          resolves canon is_file join parent file_name starts_dot has_sep f
                   (add_libraries canon is_dir ext_circom libs []).1 x.1.1 (Some c) ->
          c ∈ ps_read s).
Proof.
  intros. split; [eapply reads_only_reachable|intros; eapply reads_closed]; eauto.
Qed.
Print Assumptions C19_reads_only_reachable.

(* the hypotheses are satisfiable and the conclusions not vacuous: main.circom
   includes lib.circom and inc.circom, lib.circom and main.circom are named in
   both orders.  Named first, lib.circom is first reached through main's
   include entry and is a user input all the same; a finding located only in
   inc.circom (file 1, is_user_input = false) is filtered, one that also has a
   primary label in lib.circom (file 2) is not *)
Example C19_argument_order_witness :
  canon_idempotent_b ord_fs = true /\
  exists s s' : parse_state,
    run_project false ord_fs [str "lib.circom"; str "main.circom"] [] = Ok s /\
    run_project false ord_fs [str "main.circom"; str "lib.circom"] [] = Ok s' /\
    ps_files s = [(str "/r/main.circom", true); (str "/r/inc.circom", false); (str "/r/lib.circom", true)] /\
    ps_files s' = [(str "/r/lib.circom", true); (str "/r/main.circom", true); (str "/r/inc.circom", false)] /\
    file_library_user_inputs (ps_files s) = [0%Z; 2%Z] /\
    file_library_user_inputs (ps_files s') = [0%Z; 1%Z] /\
    is_user_input (ps_stack s) (str "/r/inc.circom") = false /\
    Runner.filter_by_file ord_report_inc (file_library_user_inputs (ps_files s)) = false /\
    Runner.filter_by_file ord_report_both (file_library_user_inputs (ps_files s)) = true.
Proof. exact ord_witness. Qed.
