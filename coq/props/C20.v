(* C20 - cutting propagation short never makes a claim wrong.
   Soundness of the claims is a property of the annotated graph alone
   (Justify.vjust_cfg), not of how many passes produced it: the check runs the
   verified validator on the implementation's output at every pass budget
   0, 1, 2, ..., fixpoint, and compares Model.Propagate.values_passes k with
   the implementation at the same budgets. *)
From Coq Require Import ZArith List Bool Znumtheory.
Require Import Model.Base Model.Field Model.Ir Model.Propagate Model.Justify Model.Clean.
Require Import Spec.FieldSpec Spec.ValueSem Proofs.ValueProofs Proofs.CutProofs Proofs.CutInvariant Proofs.DegErase Proofs.PropagateTotal.
Import ListNotations.
Local Open Scope Z_scope.

(* whatever the cut point, a validated graph only carries true constants *)
Theorem C20_any_cut_validated_claims_true : forall p c s0 s e v k,
  prime p -> 2 < p -> Z.log2 p < 2 ^ 64 ->
  vjust_cfg p c = true ->
  init_ok (all_stmts (c_blocks c)) p s0 -> reachable (all_stmts (c_blocks c)) p s0 s ->
  occurs_in c e -> evalR p s e v -> expr_val e = Some k -> claim_ok k v.
Proof. exact validated_graph_claims_true. Qed.
Print Assumptions C20_any_cut_validated_claims_true.

(* the cut before the first pass: a graph without any value claim is validated *)
Theorem C20_clean_graph_validated : forall p c, clean_cfg c = true -> vjust_cfg p c = true.
Proof. exact clean_cfg_validated. Qed.
Print Assumptions C20_clean_graph_validated.

(* a zero budget runs no pass at all *)
Theorem C20_budget_zero_is_identity : forall p idom c,
  propagate 0 0 p idom c = Ok (set_blocks c (c_blocks c)).
Proof. exact budget_zero_identity. Qed.
Print Assumptions C20_budget_zero_is_identity.

(* once a pass reports no first write, a larger budget changes nothing: every
   cut point is a prefix of the run to the fixpoint *)
Theorem C20_values_fixpoint_stable : forall k p env bs bs' env',
  pv_blocks p env false bs = Ok (false, bs', env') ->
  values_passes (S k) p env bs = Ok (bs', env').
Proof. exact values_passes_fix. Qed.
Print Assumptions C20_values_fixpoint_stable.

Theorem C20_degrees_fixpoint_stable : forall k idom env bs bs' env',
  pd_blocks idom env false [] bs = (false, bs', env') ->
  degrees_passes (S k) idom env bs = (bs', env').
Proof. exact degrees_passes_fix. Qed.
Print Assumptions C20_degrees_fixpoint_stable.

(* THE UNIVERSAL STATEMENT: for every graph that carries no claim yet and in
   which a local has a single defining assignment (SSA, C14), and for EVERY
   number of passes k, whatever Model.Propagate has attached after k passes is
   accepted by the validator - hence true, by C20_any_cut_validated_claims_true.
   The proof shows that each single statement visit preserves "every claim is
   justified by the environment and every environment binding is the claim of
   the defining assignment", so it also covers every prefix of a pass. *)
Theorem C20_mirror_validated_at_every_budget : forall k p c bs env,
  clean_cfg c = true -> ldefs_unique (all_stmts (c_blocks c)) = true ->
  values_passes k p [] (c_blocks c) = Ok (bs, env) ->
  vjust_cfg p (set_blocks c bs) = true.
Proof. exact mirror_validated_at_every_budget. Qed.
Print Assumptions C20_mirror_validated_at_every_budget.

(* the same for the whole propagation: value passes under budget kv followed
   by degree passes under budget kd - degree propagation never touches a value
   claim (it commutes with erasing all degree knowledge, and the validator only
   reads the erased graph) *)
Theorem C20_propagate_validated_at_every_budget : forall kv kd p idom c c',
  clean_cfg c = true -> ldefs_unique (all_stmts (c_blocks c)) = true ->
  propagate kv kd p idom c = Ok c' -> vjust_cfg p c' = true.
Proof. exact propagate_validated_at_every_budget. Qed.
Print Assumptions C20_propagate_validated_at_every_budget.

Theorem C20_degree_passes_keep_value_claims : forall idom k env bs,
  map serase (all_stmts (fst (degrees_passes k idom env bs))) = map serase (all_stmts bs).
Proof. exact degrees_passes_pres. Qed.
Print Assumptions C20_degree_passes_keep_value_claims.

(* one statement visit (the unit a cut inside a pass can separate) preserves the invariant *)
Theorem C20_single_visit_preserves_invariant : forall p A s B env b s' env',
  uniq (map sigq (A ++ s :: B)) ->
  Inv p (A ++ s :: B) env -> pv_stmt p env s = Ok (b, s', env') ->
  Inv p (A ++ s' :: B) env' /\ map sigq (A ++ s' :: B) = map sigq (A ++ s :: B) /\ env_le env env'.
Proof. exact step_inv. Qed.
Print Assumptions C20_single_visit_preserves_invariant.

Theorem C20_invariant_implies_validated : forall p ss env,
  Inv p ss env -> forallb (vjust_stmt ss p) ss = true.
Proof. exact Inv_validated. Qed.
Print Assumptions C20_invariant_implies_validated.

(* "at whatever point they stop ... the tool still completes normally": on a graph
   without claims and with unique local definitions (what lifting and SSA conversion
   hand over; both conditions are evaluated on every explored definition), for EVERY
   pair of budgets the mirror returns Ok: the assert_eq! of add_variable never fires
   (a repeated visit finds the value it stored) and the field functions neither panic
   nor run out of fuel (their operands are canonical at every moment) *)
Theorem C20_propagate_completes : forall p, prime p -> 2 < p -> Z.log2 p < 2 ^ 64 ->
  forall kv kd idom c, clean_cfg c = true -> ldefs_unique (all_stmts (c_blocks c)) = true ->
  exists c', propagate kv kd p idom c = Ok c'.
Proof. exact propagate_completes. Qed.
Print Assumptions C20_propagate_completes.

(* non-vacuity: a clean two-statement graph  x.1 = 2 + 3; return x.1 * 2  meets both
   hypotheses; cut before the first pass it carries no claim, after one pass the
   literals and the sum are known, at the fixpoint the product is 3 = 10 mod 7; every
   one of these graphs is accepted by the validator *)
Definition ex20_k0 : know := {| kval := None; kdeg := None |}.
Definition ex20_x1 : vname := {| vn_name := [120%N]; vn_suffix := None; vn_version := Some 1%N |}.
Definition ex20_m : meta := {| m_start := 0%N; m_end := 0%N; m_file := None |}.
Definition ex20_graph : cfg :=
  {| c_kind := KFunction; c_params := []; c_decls := [];
     c_blocks := [ {| b_index := 0%N; b_depth := 0%N; b_preds := []; b_succs := [];
       b_stmts := [ SSubst ex20_m ex20_x1 OpVar (EInfix IAdd (ENum 2 ex20_k0) (ENum 3 ex20_k0) ex20_k0) None (Some TLocal);
                    SRet ex20_m (EInfix IMul (EVar ex20_x1 ex20_k0) (ENum 2 ex20_k0) ex20_k0) ] |} ] |}.
Definition ex20_ret_claim (o : outcome cfg) : option (option vred) :=
  match o with
  | Ok c => match c_blocks c with
            | [b] => match b_stmts b with [_; SRet _ e] => Some (expr_val e) | _ => None end
            | _ => None
            end
  | _ => None
  end.
Example C20_example :
  clean_cfg ex20_graph = true /\ ldefs_unique (all_stmts (c_blocks ex20_graph)) = true /\
  ex20_ret_claim (propagate 0 0 7 [None] ex20_graph) = Some None /\
  ex20_ret_claim (propagate 1 0 7 [None] ex20_graph) = Some None /\
  ex20_ret_claim (propagate 9 9 7 [None] ex20_graph) = Some (Some (VField 3)) /\
  forallb (fun k => match propagate k k 7 [None] ex20_graph with Ok c => vjust_cfg 7 c | _ => false end) [0; 1; 2; 3; 4; 9]%nat = true.
Proof. vm_compute. repeat split; reflexivity. Qed.

(* ------------------------------------------------------------------ *)
(* THE UNIVERSAL STATEMENT FOR DEGREE CLAIMS.  For every graph meeting the
   syntactic hypotheses Model.DegWf.deg_wf (no degree claim yet; assignment
   targets are declared non-parameters marked local exactly when the table says
   so; declaration statements agree with the table; the array read by an
   element-wise update is a parameter, a signal/component declared by an earlier
   statement, or a local not assigned from that statement on; a local has one
   defining assignment; a phi occurs only as the whole right-hand side of an
   assignment - all evaluated by the check on every graph the
   implementation hands to propagation), for EVERY table that has the shape of an
   immediate-dominator table (DegJustify.idom_shape: every entry names an earlier
   block, every predecessor is a block of the graph; evaluated by the check as well) and
   for EVERY number of degree passes k,
   the ranges Model.Propagate has attached after k passes are accepted by the
   validator DegJustify.djust_cfg (which judges a phi with the control of its block
   read off the final graph: control dependence, /repo D18) - hence upper bounds of the true polynomial
   degree, by C07 (Proofs.DegGraphProofs.justified_degrees_true).  As for values,
   the proof shows that every single statement visit preserves the invariant, so
   it covers every prefix of a pass. *)
Require Import Model.DegJustify Model.DegWf Proofs.DegInvariant.

Theorem C20_degrees_validated_at_every_budget : forall k idom c bs env,
  deg_wf c = true -> idom_shape c idom = true ->
  degrees_passes k idom (denv_init (c_kind c) (c_params c)) (c_blocks c) = (bs, env) ->
  djust_cfg (set_blocks c bs) idom = true.
Proof. exact degrees_validated_at_every_budget. Qed.
Print Assumptions C20_degrees_validated_at_every_budget.

(* the same for the whole propagation: value passes under budget kv (they leave
   degree claims, targets, types, declared names and the shape of every expression
   untouched, so deg_wf still holds of their output; neither kind of pass changes the
   number of blocks or a predecessor list, so idom_shape is kept), then degree passes
   under budget kd *)
Theorem C20_propagate_degrees_validated_at_every_budget : forall kv kd p idom c c',
  deg_wf c = true -> idom_shape c idom = true -> propagate kv kd p idom c = Ok c' -> djust_cfg c' idom = true.
Proof. exact propagate_degrees_validated_at_every_budget. Qed.
Print Assumptions C20_propagate_degrees_validated_at_every_budget.

(* non-vacuity: function f(a) { var x = a * 2; var y = x + 1; var z[2]; z[0] = y; return y * z[1]; }
   as the SSA graph the implementation builds (a loop-free assignment chain with an
   element-wise update of the never-assigned z.0) meets deg_wf; cut at 0, 1, 2, 9, 20 or
   40 degree passes the graph is accepted by the validator; the range of the returned
   product is still unknown after 9 passes and constant..quadratic at the fixpoint *)
Definition ex20d_v (c : N) (ver : N) : vname := {| vn_name := [c]; vn_suffix := None; vn_version := Some ver |}.
Definition ex20d_a0 : vname := ex20d_v 97 0.
Definition ex20d_x0 : vname := ex20d_v 120 0.
Definition ex20d_y0 : vname := ex20d_v 121 0.
Definition ex20d_z0 : vname := ex20d_v 122 0.
Definition ex20d_z1 : vname := ex20d_v 122 1.
Definition ex20d_graph : cfg :=
  {| c_kind := KFunction; c_params := [ex20d_a0];
     c_decls := [(ex20d_a0, TLocal); (ex20d_x0, TLocal); (ex20d_y0, TLocal); (ex20d_z0, TLocal); (ex20d_z1, TLocal)];
     c_blocks := [ {| b_index := 0%N; b_depth := 0%N; b_preds := []; b_succs := [];
       b_stmts := [ SDecl ex20_m [ex20d_x0] TLocal [];
                    SSubst ex20_m ex20d_x0 OpVar (EInfix IMul (EVar ex20d_a0 ex20_k0) (ENum 2 ex20_k0) ex20_k0) None (Some TLocal);
                    SSubst ex20_m ex20d_y0 OpVar (EInfix IAdd (EVar ex20d_x0 ex20_k0) (ENum 1 ex20_k0) ex20_k0) None (Some TLocal);
                    SSubst ex20_m ex20d_z1 OpVar (EUpdate ex20d_z0 [AIdx (ENum 0 ex20_k0)] (EVar ex20d_y0 ex20_k0) ex20_k0) None (Some TLocal);
                    SRet ex20_m (EInfix IMul (EVar ex20d_y0 ex20_k0) (EAccess ex20d_z1 [AIdx (ENum 1 ex20_k0)] ex20_k0) ex20_k0) ] |} ] |}.
Definition ex20d_ret_deg (o : outcome cfg) : option (option drange) :=
  match o with
  | Ok c => match c_blocks c with
            | [b] => match b_stmts b with [_; _; _; _; SRet _ e] => Some (expr_deg e) | _ => None end
            | _ => None
            end
  | _ => None
  end.
Example C20_degrees_example :
  deg_wf ex20d_graph = true /\
  idom_shape ex20d_graph [None] = true /\
  forallb (fun k => match propagate k k 7 [None] ex20d_graph with Ok c => djust_cfg c [None] | _ => false end) [0; 1; 2; 9; 20; 40]%nat = true /\
  forallb (fun k => match propagate 9 k 7 [None] ex20d_graph with Ok c => djust_cfg c [None] | _ => false end) [0; 1; 2; 9; 20; 40]%nat = true /\
  ex20d_ret_deg (propagate 0 0 7 [None] ex20d_graph) = Some None /\
  ex20d_ret_deg (propagate 9 9 7 [None] ex20d_graph) = Some None /\
  ex20d_ret_deg (propagate 40 40 7 [None] ex20d_graph) = Some (Some (DConst, DQuad)).
Proof. vm_compute. repeat split; reflexivity. Qed.

(* non-vacuity for control dependence: the four-block diamond
     if (a == 1) { x.1 = 1 } else { x.2 = 2 }   x.3 = phi(x.1, x.2);   b <-- x.3
   with a an input signal (the graph of Props.C07.exc_graph without any claim) meets
   deg_wf; cut at 0, 1, 2, 3, 9 or 20 degree passes it is accepted by the validator;
   at the fixpoint the condition a == 1 is known not to be constant, so the phi carries
   constant..NON-QUADRATIC (not a constant upper end: which argument is taken depends
   on the input), and so does the read of x.3 *)
Definition ex20c_x (n : N) : vname := {| vn_name := [120%N]; vn_suffix := None; vn_version := Some n |}.
Definition ex20c_a : vname := {| vn_name := [97%N]; vn_suffix := None; vn_version := None |}.
Definition ex20c_b : vname := {| vn_name := [98%N]; vn_suffix := None; vn_version := None |}.
Definition ex20c_graph : cfg :=
  {| c_kind := KTemplate; c_params := [];
     c_decls := [(ex20c_x 1, TLocal); (ex20c_x 2, TLocal); (ex20c_x 3, TLocal); (ex20c_a, TSigIn); (ex20c_b, TSigOut)];
     c_blocks :=
       [ {| b_index := 0%N; b_depth := 0%N; b_preds := []; b_succs := [1%N; 2%N];
            b_stmts := [ SDecl ex20_m [ex20c_a] TSigIn [];
                         SIf ex20_m (EInfix IEq (EVar ex20c_a ex20_k0) (ENum 1 ex20_k0) ex20_k0) 1%N (Some 2%N) ] |};
         {| b_index := 1%N; b_depth := 0%N; b_preds := [0%N]; b_succs := [3%N];
            b_stmts := [ SSubst ex20_m (ex20c_x 1) OpVar (ENum 1 ex20_k0) None (Some TLocal) ] |};
         {| b_index := 2%N; b_depth := 0%N; b_preds := [0%N]; b_succs := [3%N];
            b_stmts := [ SSubst ex20_m (ex20c_x 2) OpVar (ENum 2 ex20_k0) None (Some TLocal) ] |};
         {| b_index := 3%N; b_depth := 0%N; b_preds := [1%N; 2%N]; b_succs := [];
            b_stmts := [ SSubst ex20_m (ex20c_x 3) OpVar (EPhi [ex20c_x 1; ex20c_x 2] ex20_k0) None (Some TLocal);
                         SSubst ex20_m ex20c_b OpSig (EVar (ex20c_x 3) ex20_k0) None (Some TSigOut) ] |} ] |}.
Definition ex20c_idom : list (option N) := [None; Some 0%N; Some 0%N; Some 0%N].
Definition ex20c_phi_deg (o : outcome cfg) : option (option drange * option drange) :=
  match o with
  | Ok c => match c_blocks c with
            | [_; _; _; b] =>
              match b_stmts b with
              | [SSubst _ _ _ e _ _; SSubst _ _ _ e' _ _] => Some (expr_deg e, expr_deg e')
              | _ => None
              end
            | _ => None
            end
  | _ => None
  end.
Example C20_control_example :
  deg_wf ex20c_graph = true /\
  idom_shape ex20c_graph ex20c_idom = true /\
  forallb (fun k => match propagate 9 k 7 ex20c_idom ex20c_graph with Ok c => djust_cfg c ex20c_idom | _ => false end)
          [0; 1; 2; 3; 9; 20]%nat = true /\
  ex20c_phi_deg (propagate 9 0 7 ex20c_idom ex20c_graph) = Some (None, None) /\
  ex20c_phi_deg (propagate 9 20 7 ex20c_idom ex20c_graph) = Some (Some (DConst, DNonQuad), Some (DConst, DNonQuad)).
Proof. vm_compute. repeat split; reflexivity. Qed.

(* ------------------------------------------------------------------ *)
(* THE DEGREE HALF READ ON CONCRETE EXECUTIONS (third audit).  Whatever the two pass
   budgets, the ranges Model.Propagate has attached to the graph are true of the concrete
   values of every family of runs of Spec.DegRun (one valuation each, numbers, a path of
   blocks that follows the branch conditions) that follow the same path of blocks:
   position by position,  valuation |-> value of e at the end of its run  has the degree
   the range attached to e says.  (Composition of
   C20_propagate_degrees_validated_at_every_budget with C07_concrete_runs_claims_true; what
   is NOT covered - families whose paths differ, signal-dependent trip counts - is listed in
   the header of props/C07.v.) *)
Require Import Model.SsaCheck Spec.PolyDeg Spec.DegSem Spec.DegRun.
Require Import Proofs.DegreeProofs Proofs.DegGraphProofs Proofs.DegRunProofs Proofs.DegSemTotal Proofs.DegCutRuns.

Theorem C20_any_cut_degree_claims_true_of_concrete_runs :
  forall (V : Type) (line : V -> V -> Z -> V) (p : Z)
         (sem2 : infix_op -> Z -> Z -> Z) (sem1 : prefix_op -> Z -> Z) (call_sem : ident -> list Z -> Z)
         (name_code : ident -> Z),
  (forall op, op_den p op (sem2 op)) -> (forall op, prefix_den p op (sem1 op)) ->
  forall (kv kd : nat) (q : Z) (idom : list (option N)) (c c' : cfg),
  deg_wf c = true -> idom_shape c idom = true -> propagate kv kd q idom c = Ok c' ->
  forall (S0 : fstore V) (L0 : vmap) (pi : list nat) (s0 s : V -> cstore),
  finit_ok V line p c' S0 ->
  (forall rho, rel_store V rho (s0 rho) S0) ->
  (forall rho, cexec_path p sem2 sem1 call_sem name_code c' L0 (s0 rho) pi = Some (s rho)) ->
  forall e r (val : V -> cell),
  djust_expr c' e = true -> expr_deg e = Some r ->
  (forall rho, cval p sem2 sem1 call_sem name_code (s rho) e = Some (val rho)) ->
  forall i, SemDeg V line p (snd r) (fun rho => val rho i).
Proof. exact any_cut_degree_claims_true_of_concrete_runs. Qed.
Print Assumptions C20_any_cut_degree_claims_true_of_concrete_runs.

(* its hypotheses are satisfiable on the diamond with a phi under the signal-dependent
   branch `if (a == 1)` (ex20c_graph), cut after 1 degree pass: operators modulo 7, the
   valuations rho |-> a = 7 rho + 1, every run follows 0 -> 1 -> 3 and the phi copies x.1 *)
Definition ex20r_sem2 (op : infix_op) (x y : Z) : Z :=
  match op with
  | IAdd => (x + y) mod 7 | ISub => (x - y) mod 7 | IMul => (x * y) mod 7
  | IDiv => (x * (y ^ 5 mod 7)) mod 7
  | IEq => if x mod 7 =? y mod 7 then 1 else 0
  | _ => 0
  end.
Definition ex20r_sem1 (op : prefix_op) (x : Z) : Z := match op with PNeg => (x * -1) mod 7 | _ => 0 end.
Definition ex20r_cut : cfg := match propagate 9 1 7 ex20c_idom ex20c_graph with Ok c => c | _ => ex20c_graph end.
Definition ex20r_S0 : fstore Z := fun x => if vname_eqb ex20c_a x then Some (fun _ rho => rho * 7 + 1) else None.
Definition ex20r_s0 (rho : Z) : cstore := fun x => if vname_eqb ex20c_a x then Some (fun _ => rho * 7 + 1) else None.
Definition ex20r_s (rho : Z) : cstore :=
  cupd (cupd (ex20r_s0 rho) (ex20c_x 1) (Some (fun _ => 1 mod 7))) (ex20c_x 3) (Some (fun _ => 1 mod 7)).

Example C20_concrete_runs_example :
  (forall op, op_den 7 op (ex20r_sem2 op)) /\ (forall op, prefix_den 7 op (ex20r_sem1 op)) /\
  deg_wf ex20c_graph = true /\ idom_shape ex20c_graph ex20c_idom = true /\
  propagate 9 1 7 ex20c_idom ex20c_graph = Ok ex20r_cut /\
  finit_ok Z zline 7 ex20r_cut ex20r_S0 /\
  (forall rho, rel_store Z rho (ex20r_s0 rho) ex20r_S0) /\
  (forall rho, cexec_path 7 ex20r_sem2 ex20r_sem1 (fun _ _ => 0) (fun _ => 0) ex20r_cut [] (ex20r_s0 rho) [0; 1; 3]%nat
               = Some (ex20r_s rho)).
Proof.
  split; [intros []; cbn; auto; exists (fun y => y ^ 5 mod 7); reflexivity|].
  split; [intros []; cbn; auto|].
  split; [vm_compute; reflexivity|]. split; [vm_compute; reflexivity|]. split; [vm_compute; reflexivity|].
  split.
  { assert (Hd : decl_of ex20r_cut ex20c_a = Some TSigIn) by (vm_compute; reflexivity).
    assert (Hp : is_param ex20r_cut ex20c_a = false) by (vm_compute; reflexivity).
    intros x F Hx. unfold ex20r_S0 in Hx. destruct (vname_eqb ex20c_a x) eqn:E; [|discriminate].
    apply vname_eqb_eq in E. subst x. injection Hx as <-.
    right. left. split; [exact Hp|]. split; [exists TSigIn; split; [exact Hd|discriminate]|].
    intros i rho delta t. cbn [Dn]. unfold Dd, zline. replace (_ - _) with 0 by ring. reflexivity. }
  split.
  { intros rho x. unfold ex20r_s0, ex20r_S0. destruct (vname_eqb ex20c_a x); cbn; [intros i; reflexivity|exact I]. }
  intros rho.
  assert (E : ex20r_cut = ltac:(let t := eval vm_compute in ex20r_cut in exact t)) by (vm_compute; reflexivity).
  rewrite E. cbn. rewrite (Z.add_comm (rho * 7) 1), Z_mod_plus_full. reflexivity.
Qed.
