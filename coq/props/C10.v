(* C10 -- names resolve by lexical scope, and every shadowing declaration is
   reported.  Property theorems only: each is closed by [exact] of a lemma of
   Proofs.UniqueVarsProofs, followed by Print Assumptions.

   Model.UniqueVars mirrors ensure_unique_variables (unique_vars.rs) on the
   named projection of the AST; Spec.ScopeSpec is the lexical scope resolver:
   [resolve_def params ploc body] lists every variable occurrence in visit
   order with the index k of the declaration of its name it denotes ("the
   k-th declaration of n", parameters first) and lists the redeclarations of
   visible names with the declaration they shadow.  The resolver is a static
   environment that is thrown away at the end of every block, loop body and
   branch; it does not copy how the pass treats a loop body or a branch that is
   not a block.  [branch_closed body] is the shape of every parsed program (no
   loop body or branch declares a name outside a block of its own: a
   declaration is only derivable inside braces and in a `for` header) and the
   domain of the two theorems that compare the pass with the resolver;
   C10_branch_closed_is_needed shows they fail outside it.  [vname_of n k] is
   n for k = 0 and n.(k-1) otherwise.

   The key of the SSA version maps (Environment::version_key, private) is a
   transcription, Model.UniqueVars.ssa_key; it is tied to the code through the
   behaviour of into_ssa on every run (two (name, suffix) pairs that share a key
   share a version counter: lib/props/C10.py ssa_failures), and read from the
   text of ssa_impl.rs by a lint outside these obligations (c10key.py). *)
From Coq Require Import List NArith.
Require Import Model.Base Model.Ir Model.UniqueVars Spec.ScopeSpec Proofs.ScopeStack Proofs.UniqueVarsProofs Proofs.ScopeBridge Proofs.UniqueVarsTable.
Import ListNotations.

(* every occurrence (declaration, assignment target, use) is renamed to the
   name of exactly the declaration the resolver assigns to it; an occurrence
   of an undeclared name is left alone *)
Theorem C10_renaming_preserves_binding : forall params ploc body body' reports,
  ensure_unique_variables params ploc body = Renamed body' reports ->
  branch_closed body = true ->
  occs body' = map ren_of (fst (resolve_def params ploc body)).
Proof. exact renaming_preserves_binding_spec. Qed.
Print Assumptions C10_renaming_preserves_binding.

(* distinct declaration occurrences (parameters included) lift to distinct
   (name, suffix) pairs, and every renamed name lifts *)
Theorem C10_renaming_injective_on_declarations : forall params ploc body body' reports,
  ensure_unique_variables params ploc body = Renamed body' reports ->
  Forall nodot (params ++ declared body) ->
  NoDup (map lift_name (params ++ decl_names (occs body'))) /\
  Forall (fun n => lift_name n <> None) (params ++ decl_names (occs body')).
Proof. exact renaming_injective_on_declarations. Qed.
Print Assumptions C10_renaming_injective_on_declarations.

(* the reports pushed are, in order, exactly the declarations that redeclare a
   visible name: primary location the redeclaration, secondary location the
   declaration it shadows *)
Theorem C10_shadowing_reports_exact : forall params ploc body body' reports,
  ensure_unique_variables params ploc body = Renamed body' reports ->
  branch_closed body = true ->
  reports = map report_of (snd (resolve_def params ploc body)).
Proof. exact shadowing_reports_exact_spec. Qed.
Print Assumptions C10_shadowing_reports_exact.

(* a parameter list is rejected exactly when a name repeats, and the error
   names the first repeated parameter *)
Theorem C10_duplicate_parameters_reported : forall params ploc ss,
  (NoDup params -> exists body' reports,
     ensure_unique_variables params ploc (UBlock ss) = Renamed body' reports) /\
  (~ NoDup params -> exists l1 p l2,
     params = l1 ++ p :: l2 /\ NoDup l1 /\ In p l1 /\
     ensure_unique_variables params ploc (UBlock ss) = Collision (ParamCollision p ploc)).
Proof. exact duplicate_parameters_reported. Qed.
Print Assumptions C10_duplicate_parameters_reported.

(* neither assert of environment.rs can fire on a function or template body *)
Theorem C10_pass_never_panics : forall params ploc ss site,
  ensure_unique_variables params ploc (UBlock ss) <> Panicked site.
Proof. exact block_body_never_panics. Qed.
Print Assumptions C10_pass_never_panics.

(* the split of lifting.rs inverts the join of the renaming pass *)
Theorem C10_lifted_names_roundtrip : forall v,
  vn_version v = None -> nodot (vn_name v) ->
  (forall s, vn_suffix v = Some s -> nodot s) ->
  lift_name (join_name v) = Some v.
Proof. exact lifted_names_roundtrip. Qed.
Print Assumptions C10_lifted_names_roundtrip.

(* the `Declarations` table of the CFG header as control_flow_graph/lifting.rs
   builds it, BEFORE into_ssa (one add_declaration per parameter and per
   Declaration statement of the renamed body, keyed by the lifted name;
   declarations.rs asserts that no key is inserted twice): on the output of the
   pass it is built without that assert firing and without an invalid name, has
   one row per parameter and declaration under pairwise different keys, and
   get_declaration answers for the lifted name of a DECLARATION with the
   location and kind of that declaration (for a parameter: the parameter list,
   a local variable).  This is the table into_ssa's `is_local` consults.
   Not stated here: (1) the composite "a USE the resolver assigns to the k-th
   declaration of n is looked up as that declaration" -- C10_renaming_preserves_
   binding gives the use the NAME of that declaration, this theorem the row of
   every declaration's name, but nothing links the resolver's index k with the
   location carried by the Declaration statement; the oracle clause `dcl` of
   lib/props/C10.py judges it on every generated case.  (2) The table the
   analysis passes see: into_ssa replaces this table by one keyed WITH versions
   (ssa_impl.rs update_declarations) while get_declaration still strips the
   version; that table is not modelled (oracle clauses `tab2`, `d=`, `dcl2`). *)
Theorem C10_declaration_table_keyed_by_declaration : forall params ploc body body' reports,
  ensure_unique_variables params ploc body = Renamed body' reports ->
  Forall nodot (params ++ declared body) ->
  exists t,
    build_table params ploc body' = Ok (Some t) /\
    length t = length params + length (decl_entries body') /\
    NoDup (map fst t) /\
    (forall p, In p params -> get_declaration_of (vname_plain p) t = Some (ploc, KVar)) /\
    (forall n d v, In (n, d) (decl_entries body') -> lift_name n = Some v -> get_declaration_of v t = Some d).
Proof. exact declaration_table_keyed_by_declaration. Qed.
Print Assumptions C10_declaration_table_keyed_by_declaration.

(* identifiers of the grammar contain no `.` *)
Theorem C10_identifiers_have_no_dot : forall n, ident_ok n = true -> nodot n.
Proof. exact ident_ok_nodot. Qed.
Print Assumptions C10_identifiers_have_no_dot.

(* outside [branch_closed] the pass is NOT the scoping rule: on
     { var x; if (..) var x; else log(x); log(x); }
   (not derivable in Circom) the declaration of the then-branch reaches the
   else-branch and the code after the `if`.  What the pass computes there is the
   block-only resolver of the simulation proof, Proofs.ScopeStack. *)
Theorem C10_branch_closed_is_needed : exists body body' reports,
  branch_closed body = false /\
  ensure_unique_variables [] (0, 0) body = Renamed body' reports /\
  occs body' <> map ren_of (fst (resolve_def [] (0, 0) body)) /\
  occs body' = map ren_of (fst (stk_resolve_def [] (0, 0) body)).
Proof. exact unbraced_declaration_leaks. Qed.
Print Assumptions C10_branch_closed_is_needed.

(* a key format -- without a suffix: the name; with one: the name, a literal
   whose first byte is no identifier character, the suffix -- identifies the
   pair (name, suffix) *)
Theorem C10_separating_key_formats_injective : forall some none,
  key_format_ok some none = true ->
  forall v1 v2,
  ident_ok (vn_name v1) = true -> ident_ok (vn_name v2) = true ->
  ssa_key_with some none v1 = ssa_key_with some none v2 ->
  vn_name v1 = vn_name v2 /\ vn_suffix v1 = vn_suffix v2.
Proof. exact separating_key_formats_injective. Qed.
Print Assumptions C10_separating_key_formats_injective.

(* the format of Model.UniqueVars.ssa_key (`name` / `name.suffix`) is one, hence
   the key of the SSA version maps (after the repair of D20) identifies the
   pair (name, suffix) *)
Theorem C10_ssa_keys_injective : forall v1 v2,
  ident_ok (vn_name v1) = true -> ident_ok (vn_name v2) = true ->
  ssa_key v1 = ssa_key v2 ->
  vn_name v1 = vn_name v2 /\ vn_suffix v1 = vn_suffix v2.
Proof. exact ssa_keys_injective. Qed.
Print Assumptions C10_ssa_keys_injective.

(* D20 (repaired by the fix: commit): the printed form used as key before did not *)
Theorem C10_ssa_keys_injective_refuted : exists v1 v2,
  ident_ok (vn_name v1) = true /\ ident_ok (vn_name v2) = true /\
  ssa_key_old v1 = ssa_key_old v2 /\
  (vn_name v1, vn_suffix v1) <> (vn_name v2, vn_suffix v2).
Proof. exact ssa_keys_injective_refuted. Qed.
Print Assumptions C10_ssa_keys_injective_refuted.

(* non-vacuity: the witness of D20,
     function f(a) { var x = a; var x_0 = 1; { var x = 2; x_0 = x + x_0; } return x + x_0; }
   is renamed to x, x_0, x.0; one shadowing report; the lifted names are
   pairwise distinct although `x` with suffix 0 prints like the identifier x_0 *)
Definition nx : name := [120%N].
Definition nx0 : name := [120%N; 95%N; 48%N].
Definition na : name := [97%N].
Definition d20 : ustmt :=
  UBlock [UInit [UDecl KVar nx (20, 29) []; USubst nx [na]];
          UInit [UDecl KVar nx0 (35, 46) []; USubst nx0 []];
          UBlock [UInit [UDecl KVar nx (62, 71) []; USubst nx []]; USubst nx0 [nx; nx0]];
          UExpr EReturn [nx; nx0]].

Example C10_witness :
  exists body',
    ensure_unique_variables [na] (11, 12) d20 = Renamed body' [Shadowing nx (62, 71) (20, 29)] /\
    decl_names (occs body') = [nx; nx0; nx ++ [46%N; 48%N]] /\
    map lift_name (decl_names (occs body')) =
      [Some (lifted_of nx 0); Some (lifted_of nx0 0); Some (lifted_of nx 1)] /\
    ssa_key_old (lifted_of nx0 0) = ssa_key_old (lifted_of nx 1) /\
    ssa_key (lifted_of nx0 0) <> ssa_key (lifted_of nx 1) /\
    branch_closed d20 = true /\
    Forall nodot ([na] ++ declared d20).
Proof.
  eexists. split; [vm_compute; reflexivity|]. split; [vm_compute; reflexivity|].
  split; [vm_compute; reflexivity|]. split; [vm_compute; reflexivity|].
  split; [vm_compute; discriminate|]. split; [reflexivity|].
  repeat constructor; unfold nodot; vm_compute; intuition discriminate.
Qed.

(* key_format_ok rejects the formats that collide: nothing, `_` or `$` between
   name and suffix identify x + suffix 0 with the identifiers x0, x_0, x$0 *)
Definition nx0' : name := [120%N; 48%N].
Definition nxd0 : name := [120%N; 36%N; 48%N].
Example C10_colliding_key_formats :
  key_format_ok [KName; KSuffix] [KName] = false /\
  key_format_ok [KName; KLit [95%N]; KSuffix] [KName] = false /\
  key_format_ok [KName; KLit [36%N]; KSuffix] [KName] = false /\
  ssa_key_with [KName; KSuffix] [KName] (lifted_of nx 1) = ssa_key_with [KName; KSuffix] [KName] (lifted_of nx0' 0) /\
  ssa_key_with [KName; KLit [95%N]; KSuffix] [KName] (lifted_of nx 1) = ssa_key_with [KName; KLit [95%N]; KSuffix] [KName] (lifted_of nx0 0) /\
  ssa_key_with [KName; KLit [36%N]; KSuffix] [KName] (lifted_of nx 1) = ssa_key_with [KName; KLit [36%N]; KSuffix] [KName] (lifted_of nxd0 0) /\
  ident_ok nx = true /\ ident_ok nx0' = true /\ ident_ok nx0 = true /\ ident_ok nxd0 = true.
Proof. repeat split; vm_compute; reflexivity. Qed.

(* the table of the same witness: four rows; the inner x (renamed x.0) is found
   under (x, suffix 0) with its own location, the outer x under (x, no suffix) *)
Example C10_witness_table :
  exists body' t,
    ensure_unique_variables [na] (11, 12) d20 = Renamed body' [Shadowing nx (62, 71) (20, 29)] /\
    build_table [na] (11, 12) body' = Ok (Some t) /\ length t = 4 /\
    get_declaration_of (lifted_of nx 1) t = Some ((62, 71), KVar) /\
    get_declaration_of (lifted_of nx 0) t = Some ((20, 29), KVar) /\
    get_declaration_of (lifted_of na 0) t = Some ((11, 12), KVar).
Proof.
  (* [repeat split] would also split the equations, i.e. solve them by unification, without the VM *)
  eexists. eexists. split; [vm_compute; reflexivity|]. split; [vm_compute; reflexivity|].
  split; [vm_compute; reflexivity|]. split; [vm_compute; reflexivity|].
  split; vm_compute; reflexivity.
Qed.

Example C10_duplicate_parameter :
  ensure_unique_variables [na; nx; na] (11, 18) d20 = Collision (ParamCollision na (11, 18)).
Proof. vm_compute. reflexivity. Qed.
