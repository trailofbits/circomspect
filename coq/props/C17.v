(* C17 — findings are a function of the sources.  Property theorems only.
   Model.Runner (see C03.v) is the report path with the stage outputs as data;
   Model.RunnerSrc puts the source level on top of it: the pass results of a
   definition are a FUNCTION of the answers to the lookups its passes make (a
   modelling assumption, see "THE MODELLED INTERFACE" below), so that
   "definitions it does not reference" has a meaning in the model.
   Model.RunnerLib mirrors how the name maps are built from the parsed files
   after the repair of defect D22 (file-id order, first definition of a name
   kept).  One known finding: when a name is defined in two files that are both
   named on the command line, naming them in another order keeps another
   definition (C17_files_in_another_order needs the names distinct, and is
   refuted otherwise: C17-duplicate-name-file-order).
   Proofs.DesugarOrder covers the HashMap loops of remove_syntactic_sugar over
   Model.Desugar (the mirror of C18).  These theorems cover ALL iteration
   orders of the name maps, all lookup sequences and all orders of the
   desugaring loops; orders inside the other stages (SSA, dominators, taint
   maps, declaration maps) are observed by the repeated runs of
   lib/props/C17.py only. *)
From Coq Require Import ZArith NArith List Bool Arith Permutation String.
Require Import Model.Base Gen.Category Model.Runner Model.RunnerSrc Model.RunnerLib
               Spec.RunnerSpec Spec.RunnerSrcSpec Proofs.RunnerProofs Proofs.RunnerSrcProofs Proofs.RunnerLibProofs
               Proofs.RunnerFileIds Proofs.RunnerFileOrder.
Require Model.Ast Model.Desugar Proofs.DesugarOrder.
Import ListNotations.

(* whatever order the HashMaps of names are iterated in (and hence whichever
   template is looked up before or after it is analysed): same displayed
   multiset, same exit status, same summary, same SARIF results *)
Theorem C17_runner_order_independent : forall p o order1 order2,
  wf_project p -> analysis_order p order1 -> analysis_order p order2 ->
  Permutation (res_shown (run_keys p o order1)) (res_shown (run_keys p o order2)) /\
  res_exit (run_keys p o order1) = res_exit (run_keys p o order2) /\
  res_summary (run_keys p o order1) = res_summary (run_keys p o order2) /\
  match res_sarif (run_keys p o order1), res_sarif (run_keys p o order2) with
  | Some (r1, _), Some (r2, _) => Permutation r1 r2
  | None, None => True
  | _, _ => False
  end.
Proof. exact runner_order_independent. Qed.
Print Assumptions C17_runner_order_independent.

(* in every state the runner can be in between two operations, a lookup
   succeeds exactly when the template lifts: what a pass sees does not depend
   on the history of the caches *)
Theorem C17_lookup_result_is_lift_result : forall ds P s k,
  Inv ds P s -> (snd (cache ds k s) = true <-> lifts ds k).
Proof. intros ds P s k. apply cache_result. Qed.
Print Assumptions C17_lookup_result_is_lift_result.

Theorem C17_lookups_keep_invariant : forall ds P ns s, Inv ds P s -> Inv ds P (fold_left (lookup ds) ns s).
Proof. exact lookups_preserve. Qed.
Print Assumptions C17_lookups_keep_invariant.

(* THE MODELLED INTERFACE.  In Model.RunnerSrc the passes of a definition are a
   field [s_pass : list answer -> list report]: they receive NOTHING but the
   answers to the lookups [s_refs] (an answer = the output signals of the looked-up
   template with their numbers of dimensions, or None).  "Findings depend on other
   definitions only through the answers to the lookups" is therefore true in the
   model BY CONSTRUCTION; it is not a theorem here (the one-line lemma
   Proofs.RunnerSrcProofs.findings_function_of_answers is kept as a lemma, not as an
   obligation).  It is an ASSUMPTION about the Rust passes, and it is what check (3)
   of lib/props/C17.py evaluates on every run: harness `c17 deps` records, through
   a wrapper around the real AnalysisContext, the lookups each definition's passes
   make and exactly that summary of each answer; findings grouped by (own source,
   lookups with answers) must coincide across projects, the number of groups that can
   tell (met in two projects, with lookups; with a looked-up definition whose SOURCE
   differs) is recorded and a run with fewer than 5 is a violation.

   CONSEQUENCES OF THE INTERFACE (they hold for the real tool only as far as that
   assumption does): the whole-project theorems
   C17_unreferenced_definitions_irrelevant, C17_included_definitions_irrelevant,
   C17_definitions_reordered below.  What they add to the interface is how the
   ANSWERS behave: [answer_of] over an extended / permuted library, that the
   runner's caches give those answers in every state and that the display is
   assembled per definition.  (The per-definition statements
   findings_unchanged_by_unreferenced / _by_reordering are one-step unfoldings of
   [inst] over find_sdef_app / find_sdef_perm: lemmas of Proofs.RunnerSrcProofs,
   not obligations.) *)

(* the runner's caches answer a lookup as the source level says, in every state
   the runner can be in: Ok exactly when the template exists and lifts *)
Theorem C17_runner_answer_is_source_answer : forall ds P s n,
  Inv (map (inst ds) ds) P s ->
  (snd (cache (map (inst ds) ds) (KTemplate, n) s) = true <-> answer_of ds n <> None).
Proof. exact runner_answer_is_source_answer. Qed.
Print Assumptions C17_runner_answer_is_source_answer.

(* in a run of main, whatever was analysed and looked up before: what the
   analysis of [k] adds to the display is the kept part of its findings *)
Theorem C17_definition_findings_in_any_run : forall sp o pre k post d,
  wf_sproject sp -> analysis_order (inst_project sp) (pre ++ k :: post) ->
  find_sdef (sp_defs sp) k = Some d ->
  let ds := p_defs (inst_project sp) in
  let s0 := write_reports o (sp_user sp) (sp_parse sp) init in
  shown_by ds o (sp_user sp) (fold_left (analyze ds o (sp_user sp)) pre s0) k
  = filter (passes_filters o (sp_user sp)) (produced_def (inst (sp_defs sp) d)).
Proof. exact definition_findings_in_any_run. Qed.
Print Assumptions C17_definition_findings_in_any_run.

(* whole projects: adding definitions that no analysed definition looks up
   leaves the findings of all others untouched; the displayed multiset only
   gains the kept findings of the added user definitions *)
Theorem C17_unreferenced_definitions_irrelevant : forall sp extra o order order',
  wf_sproject (sadd sp extra) ->
  analysis_order (inst_project sp) order -> analysis_order (inst_project (sadd sp extra)) order' ->
  (forall d x, In d (filter (s_user_b (sp_user sp)) (sp_defs sp)) -> In x extra ->
               ~ (s_kind x = KTemplate /\ In (s_name x) (s_refs d))) ->
  Permutation (res_shown (run_src (sadd sp extra) o order'))
              (res_shown (run_src sp o order)
               ++ filter (keep_b o (sp_user sp))
                    (flat_map (fun x => produced_def (inst (sp_defs sp ++ extra) x))
                              (filter (s_user_b (sp_user sp)) extra))).
Proof. exact unreferenced_definitions_irrelevant_src. Qed.
Print Assumptions C17_unreferenced_definitions_irrelevant.

(* definitions that live in included files only and are not looked up change nothing at all *)
Theorem C17_included_definitions_irrelevant : forall sp extra o order,
  wf_sproject (sadd sp extra) -> analysis_order (inst_project sp) order ->
  (forall x, In x extra -> s_user_b (sp_user sp) x = false) ->
  (forall d x, In d (filter (s_user_b (sp_user sp)) (sp_defs sp)) -> In x extra ->
               ~ (s_kind x = KTemplate /\ In (s_name x) (s_refs d))) ->
  analysis_order (inst_project (sadd sp extra)) order /\
  Permutation (res_shown (run_src (sadd sp extra) o order)) (res_shown (run_src sp o order)).
Proof. exact included_unreferenced_definitions_irrelevant. Qed.
Print Assumptions C17_included_definitions_irrelevant.

(* WITHOUT the "is not looked up" hypothesis both statements are false (as they
   are for the real tool: unused_output_signal): an included template that an
   analysed template instantiates changes the findings of the latter *)
Theorem C17_referenced_definition_matters :
  exists sp extra o order,
    wf_sproject (sadd sp extra) /\
    analysis_order (inst_project sp) order /\ analysis_order (inst_project (sadd sp extra)) order /\
    (forall x, In x extra -> s_user_b (sp_user sp) x = false) /\
    (exists d x, In d (filter (s_user_b (sp_user sp)) (sp_defs sp)) /\ In x extra /\
                 s_kind x = KTemplate /\ In (s_name x) (s_refs d)) /\
    ~ Permutation (res_shown (run_src (sadd sp extra) o order))
                  (res_shown (run_src sp o order)
                   ++ filter (keep_b o (sp_user sp))
                        (flat_map (fun x => produced_def (inst (sp_defs sp ++ extra) x))
                                  (filter (s_user_b (sp_user sp)) extra))).
Proof. exact referenced_definition_matters. Qed.
Print Assumptions C17_referenced_definition_matters.

(* the same definitions enumerated in another order by the maps *)
Theorem C17_definitions_reordered : forall sp ds' o order order',
  wf_sproject sp -> Permutation (sp_defs sp) ds' ->
  analysis_order (inst_project sp) order -> analysis_order (inst_project (swith sp ds')) order' ->
  Permutation (res_shown (run_src sp o order)) (res_shown (run_src (swith sp ds') o order')) /\
  res_exit (run_src sp o order) = res_exit (run_src (swith sp ds') o order').
Proof. exact definitions_reordered. Qed.
Print Assumptions C17_definitions_reordered.

(* the table of templates handed to remove_anonymous_from_statement is read by
   name only: tables that answer every lookup alike desugar every body alike *)
Theorem C17_desugar_lookup_by_name_only : forall e1 e2 lib,
  (forall id, Desugar.lookup_template id e1 = Desugar.lookup_template id e2) ->
  forall body, Desugar.desugar_template e1 lib body = Desugar.desugar_template e2 lib body.
Proof. exact DesugarOrder.desugar_template_env. Qed.
Print Assumptions C17_desugar_lookup_by_name_only.

(* `for (name, template) in templates`: every iteration order gives the same
   surviving templates and the same reports (as multisets), or no result in both *)
Theorem C17_desugar_templates_order_independent : forall env lib ts ts',
  Permutation ts ts' ->
  match Desugar.desugar_templates env lib ts [] [], Desugar.desugar_templates env lib ts' [] [] with
  | Desugar.DOk (x, r), Desugar.DOk (x', r') => Permutation x x' /\ Permutation r r'
  | Desugar.DOk _, _ | _, Desugar.DOk _ => False
  | _, _ => True
  end.
Proof. exact DesugarOrder.desugar_templates_order_independent. Qed.
Print Assumptions C17_desugar_templates_order_independent.

(* the whole function, both maps enumerated in any order (the lookup table is
   built from the same map, enumerated in the same other order) *)
Theorem C17_remove_syntactic_sugar_order_independent : forall lib ts ts' fs fs',
  NoDup (map fst ts) -> Permutation ts ts' -> Permutation fs fs' ->
  match Desugar.remove_syntactic_sugar lib ts fs, Desugar.remove_syntactic_sugar lib ts' fs' with
  | Desugar.DOk x, Desugar.DOk y =>
      Permutation (Desugar.d_templates x) (Desugar.d_templates y) /\
      Permutation (Desugar.d_functions x) (Desugar.d_functions y) /\
      Permutation (Desugar.d_reports x) (Desugar.d_reports y)
  | Desugar.DOk _, _ | _, Desugar.DOk _ => False
  | _, _ => True
  end.
Proof. exact DesugarOrder.remove_syntactic_sugar_order_independent. Qed.
Print Assumptions C17_remove_syntactic_sugar_order_independent.

(* the statement distinguishes: for the loop that removes dropped templates
   from its lookup table while iterating (seeded/C17-desugar-known-templates-
   hash-order; not the code of /repo) it is false *)
Theorem C17_desugar_tracking_variant_order_dependent :
  exists lib ts ts',
    NoDup (map fst ts) /\ Permutation ts ts' /\
    ~ DesugarOrder.same_up_to_order
        (DesugarOrder.desugar_templates_tracking (Desugar.env_of ts) lib ts [] [])
        (DesugarOrder.desugar_templates_tracking (Desugar.env_of ts) lib ts' [] []) /\
    DesugarOrder.same_up_to_order
        (Desugar.desugar_templates (Desugar.env_of ts) lib ts [] [])
        (Desugar.desugar_templates (Desugar.env_of ts) lib ts' [] []).
Proof. exact DesugarOrder.tracking_variant_order_dependent. Qed.
Print Assumptions C17_desugar_tracking_variant_order_dependent.

(* ---- the name maps built from the parsed files (Model.RunnerLib: the code of
   TemplateLibrary::new / ProgramArchive::new / Merger after the repair of D22,
   /repo f1ec9dc) ----------------------------------------------------------------- *)

(* `collect(); sort_unstable_by_key(file_id)`: whatever order the
   HashMap<FileID, Vec<Definition>> is iterated in, the same sequence of files *)
Theorem C17_files_sorted_the_same_for_every_map_order : forall es1 es2,
  NoDup (map fst es1) -> Permutation es1 es2 -> sort_entries es1 = sort_entries es2.
Proof. exact sort_entries_order_irrelevant. Qed.
Print Assumptions C17_files_sorted_the_same_for_every_map_order.

(* ... and that sequence IS the files in FileID order: sorted, and nothing lost or
   invented (without this, "first" in C17_library_keeps_first_definition would hang
   on an unpinned function) *)
Theorem C17_files_are_sorted_by_file_id : forall es,
  sorted_ids (sort_entries es) /\ Permutation es (sort_entries es).
Proof. intros es. split. apply sort_entries_sorted. apply sort_entries_perm. Qed.
Print Assumptions C17_files_are_sorted_by_file_id.

(* ... hence the same name maps and the same definitions blamed as duplicates,
   DUPLICATED NAMES INCLUDED (no carve-out any more) *)
Theorem C17_library_same_for_every_map_order : forall es1 es2,
  NoDup (map fst es1) -> Permutation es1 es2 ->
  library_of es1 = library_of es2 /\ duplicates_of es1 = duplicates_of es2.
Proof. exact library_order_irrelevant. Qed.
Print Assumptions C17_library_same_for_every_map_order.

(* a name denotes the FIRST definition in (file id, source position) order,
   function or template alike *)
Theorem C17_library_keeps_first_definition : forall es n,
  first_named n (library_of es) = first_named n (definitions_in_file_order es).
Proof. exact library_keeps_first_definition. Qed.
Print Assumptions C17_library_keeps_first_definition.

(* the hypothesis [wf_project] of the runner theorems holds for every project
   the tool can build: it is not an assumption about the input *)
Theorem C17_library_is_well_formed : forall parse es user,
  NoDup (map d_name (library_of es)) /\            (* one definition per NAME, function or template *)
  wf_project (mkProject parse (library_of es) user).
Proof. intros. split. apply library_names_distinct. apply library_wf. Qed.
Print Assumptions C17_library_is_well_formed.

(* whole runs, FileIDs FIXED: the order in which the map of parsed files is ITERATED,
   the order of the parser's reports and the order of the name maps are all
   irrelevant; [NoDup (map fst es1)] says that [es1] lists the entries of a map
   (FileIDs are its keys).  This is NOT the clause "input files given in another
   order" (the files then get other FileIDs): that is C17_files_in_another_order. *)
Theorem C17_file_map_iteration_order_irrelevant : forall parse1 parse2 es1 es2 user o order1 order2,
  NoDup (map fst es1) -> Permutation es1 es2 -> Permutation parse1 parse2 ->
  let p1 := mkProject parse1 (library_of es1) user in
  let p2 := mkProject parse2 (library_of es2) user in
  analysis_order p1 order1 -> analysis_order p2 order2 ->
  Permutation (res_shown (run_keys p1 o order1)) (res_shown (run_keys p2 o order2)) /\
  res_exit (run_keys p1 o order1) = res_exit (run_keys p2 o order2) /\
  duplicates_of es1 = duplicates_of es2.
Proof. exact file_order_irrelevant_lib. Qed.
Print Assumptions C17_file_map_iteration_order_irrelevant.

(* files given in another order are NUMBERED differently (FileLibrary hands out
   consecutive FileIDs as the files are read): every [d_file], every
   primary-label file of every report and the list of user inputs change
   together.  Renumbering by any injective map changes nothing but those
   numbers: the same findings are displayed (with their files renumbered), the
   same exit status.  (It renumbers an already built project; composed with the construction of the
   name maps below.) *)
Theorem C17_file_ids_are_names : forall f,
  (forall x y, f x = f y -> x = y) ->
  forall p o order order',
  wf_project p -> analysis_order p order -> analysis_order p order' ->
  Permutation (res_shown (run_keys (rn_project f p) o order'))
              (map (rn_report f) (res_shown (run_keys p o order))) /\
  res_exit (run_keys (rn_project f p) o order') = res_exit (run_keys p o order).
Proof. exact file_ids_renumbered. Qed.
Print Assumptions C17_file_ids_are_names.

Example C17_file_ids_swap_is_injective : forall x y, swap01 x = swap01 y -> x = y.
Proof. exact swap01_injective. Qed.

(* "input files given in another order", end to end over the models: the files get
   other FileIDs (any injective [f]), the map of parsed files [es'] is any
   enumeration of the renumbered entries, and the name maps are REBUILT from them.
   If no name is defined twice: the same findings (renumbered), the same exit. *)
Theorem C17_files_in_another_order : forall f parse es es' user o order order',
  (forall x y, f x = f y -> x = y) ->
  NoDup (map d_name (flat_map snd es)) ->
  Permutation es' (map (rn_entry f) es) ->
  let p := mkProject parse (library_of es) user in
  let p' := mkProject (map (rn_report f) parse) (library_of es') (map f user) in
  analysis_order p order -> analysis_order p' order' ->
  Permutation (res_shown (run_keys p' o order')) (map (rn_report f) (res_shown (run_keys p o order))) /\
  res_exit (run_keys p' o order') = res_exit (run_keys p o order).
Proof. exact files_in_another_order. Qed.
Print Assumptions C17_files_in_another_order.

(* the hypothesis is needed: with a name defined in two files the definition with
   the smaller NEW FileID is kept, so the name maps differ - known finding
   C17-duplicate-name-file-order (`a.circom b.circom` vs `b.circom a.circom`) *)
Theorem C17_files_in_another_order_refuted_with_duplicated_name :
  exists f es,
    (forall x y, f x = f y -> x = y) /\ NoDup (map fst es) /\
    ~ NoDup (map d_name (flat_map snd es)) /\
    ~ Permutation (library_of (map (rn_entry f) es)) (map (rn_def f) (library_of es)).
Proof. exact files_in_another_order_refuted_with_duplicated_name. Qed.
Print Assumptions C17_files_in_another_order_refuted_with_duplicated_name.

(* non-vacuity with a duplicated name: both orders of the map keep the
   definitions of file 0 and blame those of file 1 *)
Example C17_duplicates_first_file_kept :
  library_of [(1%Z, [ex_b; ex_g]); (0%Z, [ex_a; ex_f])] = [ex_a; ex_f] /\
  library_of [(0%Z, [ex_a; ex_f]); (1%Z, [ex_b; ex_g])] = [ex_a; ex_f] /\
  duplicates_of [(1%Z, [ex_b; ex_g]); (0%Z, [ex_a; ex_f])] = [(ex_b, ex_a); (ex_g, ex_f)].
Proof. exact duplicates_first_file_kept. Qed.

(* non-vacuity: two orders of a project in which U looks T up *)
Definition ex_shadow : report := mkReport Warning 1 1 [0%Z] 100.
Definition ex_unused : report := mkReport Warning 18 18 [0%Z] 101.
Definition ex_T : def := mkDef KTemplate 1 0 [ex_shadow] None [] [].
Definition ex_U : def := mkDef KTemplate 2 0 [] None [ex_unused] [1%Z; 1%Z; 9%Z].
Definition ex_p : project := mkProject [] [ex_T; ex_U] [0%Z].

Example C17_witnesses :
  wf_project ex_p /\
  analysis_order ex_p [(KTemplate, 1%Z); (KTemplate, 2%Z)] /\ analysis_order ex_p [(KTemplate, 2%Z); (KTemplate, 1%Z)] /\
  res_shown (run_keys ex_p (mkOpts Info [] false true) [(KTemplate, 1%Z); (KTemplate, 2%Z)]) = [ex_shadow; ex_unused] /\
  res_shown (run_keys ex_p (mkOpts Info [] false true) [(KTemplate, 2%Z); (KTemplate, 1%Z)]) = [ex_unused; ex_shadow].
Proof.
  split. { unfold wf_project. simpl. repeat constructor; simpl; intuition discriminate. }
  split. { vm_compute. apply Permutation_refl. }
  split. { vm_compute. apply perm_swap. }
  vm_compute. split; reflexivity.
Qed.

(* non-vacuity of the source-level hypotheses: U looks T up (and reports iff T
   answers with an output signal), X is added next to them and nobody looks it up *)
Definition ex_sT : sdef := mkSDef KTemplate 1 0 [ex_shadow] None [(7%Z, 0%nat)] [] (fun _ => []).
Definition ex_sU : sdef :=
  mkSDef KTemplate 2 0 [] None [] [1%Z; 1%Z; 9%Z]
         (fun a => match a with Some (_ :: _) :: _ => [ex_unused] | _ => [] end).
Definition ex_sX : sdef := mkSDef KTemplate 3 0 [] None [(8%Z, 0%nat)] [2%Z] (fun _ => [ex_shadow]).
Definition ex_sp : sproject := mkSProject [] [ex_sT; ex_sU] [0%Z].

Example C17_src_witnesses :
  wf_sproject (sadd ex_sp [ex_sX]) /\
  (forall d x, In d (filter (s_user_b (sp_user ex_sp)) (sp_defs ex_sp)) -> In x [ex_sX] ->
               ~ (s_kind x = KTemplate /\ In (s_name x) (s_refs d))) /\
  inst_project ex_sp = ex_p /\
  answer_of (sp_defs ex_sp) 1%Z = Some [(7%Z, 0%nat)] /\
  res_shown (run_src (sadd ex_sp [ex_sX]) (mkOpts Info [] false true)
                     [(KTemplate, 3%Z); (KTemplate, 2%Z); (KTemplate, 1%Z)]) = [ex_shadow; ex_unused; ex_shadow] /\
  (* without T the lookup of U fails and U has no finding *)
  res_shown (run_src (mkSProject [] [ex_sU] [0%Z]) (mkOpts Info [] false true) [(KTemplate, 2%Z)]) = [].
Proof.
  split. { unfold wf_sproject. simpl. repeat constructor; simpl; intuition discriminate. }
  split. { simpl. intros d x [<-|[<-|[]]] [<-|[]] [_ H]; simpl in H; intuition discriminate. }
  vm_compute. repeat split; reflexivity.
Qed.
