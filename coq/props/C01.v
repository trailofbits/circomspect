(* C01 — totality: no input makes the analyzer panic, abort or hang.
   Decided partially (DESIGN §4 C01): the panic-site inventory is regenerated
   from the current source and every site is accounted for; the literal actions
   and split_string are proved total for all tokens / all valid UTF-8 strings;
   the stages that have mirrors (include resolution, desugaring, renaming + lifting +
   IR lifting, dominator tree, SSA construction, propagation) are chained in
   Model.PipelineMirrors -- from the desugared syntax tree onwards no stage of that chain
   is a parameter; the LALRPOP parser is one -- and [C01_pipeline_mirrors_never_panic]
   composes their totality theorems, with the bridges between them proved; the remaining
   stages (parser automaton, analysis passes, output) are covered by NO theorem: observed
   by the engine, their panic sites inventoried (third audit: the generic assembly over
   abstract stages is no obligation any more).
   Property theorems only: each is closed by [exact] of a lemma, followed by
   Print Assumptions. *)
From Coq Require Import ZArith List Bool String.
Require Import Model.Base Model.Pipeline Proofs.PipelineProofs Proofs.PanicSiteProofs.
Require Import Gen.PanicSites Gen.PanicMap.
(* developments of other properties that C01 builds on, by qualified name only
   (std++ notations are not imported here) *)
Require Model.Lift Spec.CfgSpec Proofs.LiftTotalFlat Proofs.LiftComplexity Model.Includes Proofs.IncludesNoPanic.
Require Model.Ir Model.Ssa Proofs.SsaNoPanic Proofs.SsaFuel Proofs.SsaClean.
(* the chain of the actual mirrors (Model.PipelineMirrors) and its bridges *)
Require Model.Ast Model.Desugar Model.Dom Model.Propagate Model.Justify Model.Clean Spec.ExpandSpec Spec.DomSpec.
Require Model.LiftFull Proofs.LiftFullTotal Proofs.LiftFullIr Proofs.SsaConstruction Proofs.SsaLocalDefs.
Require Model.PipelineMirrors Proofs.PipelineMirrorsProofs Proofs.MirrorsShape Proofs.MirrorsDom
        Proofs.MirrorsExample.
Import ListNotations.
Local Open Scope Z_scope.

(* every syntactic panic site of the anchored files (regenerated) has an entry in
   the validated map (regenerated): discharged by a theorem, syntactically
   guarded, outside the model, or observed only *)
Theorem C01_every_panic_site_discharged :
  forallb (fun s => existsb (fun e => String.eqb (fst e) (s_id s)) panic_map) sites = true.
Proof. exact every_panic_site_discharged. Qed.
Print Assumptions C01_every_panic_site_discharged.

(* (the former obligation C01_every_map_entry_justified -- every disposition string is
   non-empty -- said nothing and was removed: the citations of the map are now resolved
   by Coq itself, `Check Props.Cnn.<name>.` for every cited theorem in the generated
   file coq/gen/PanicCites.v, which ./check C01 compiles after this file; the guards are
   re-validated against the current source by lib/panicsites.py on every run) *)

Theorem C01_no_anchored_file_missing : anchored_files_missing = [].
Proof. exact no_anchored_file_missing. Qed.
Print Assumptions C01_no_anchored_file_missing.

(* DECNUMBER: on every token of r'[0-9]+' the action returns a number *)
Theorem C01_decnumber_action_total : forall tok, dec_token tok = true ->
  exists v, decnumber_action tok = Ok v /\ 0 <= v.
Proof. exact decnumber_action_total. Qed.
Print Assumptions C01_decnumber_action_total.

(* HEXNUMBER: on every token of r'0x[0-9A-Fa-f]+' the slice [2..] is in range
   and the action returns a number *)
Theorem C01_hexnumber_action_total : forall tok, hex_token tok = true ->
  exists v, hexnumber_action tok = Ok v /\ 0 <= v.
Proof. exact hexnumber_action_total. Qed.
Print Assumptions C01_hexnumber_action_total.

(* D1 (fixed by 4e93f91): the old terminal r'0x[0-9A-Fa-f]*' accepts `0x`, on
   which the action panics *)
Theorem C01_hexnumber_old_regex_refuted :
  hex_token_old d1_witness = true /\ hexnumber_action d1_witness = Panic site_parse_base16.
Proof. exact hexnumber_old_regex_refuted. Qed.
Print Assumptions C01_hexnumber_old_regex_refuted.

(* SMALL_DECNUMBER / Version since bdf3e60: never a panic, whatever the tokens *)
Theorem C01_version_action_never_panics : forall a b c s,
  version_action a b c <> Panic s /\ version_action a b c <> OutOfFuel.
Proof. exact version_action_never_panics. Qed.
Print Assumptions C01_version_action_never_panics.

(* D2: the old action panics on a 23-digit version number, the new one errs *)
Theorem C01_version_action_old_refuted :
  dec_token d2_witness = true /\ small_decnumber_action_old d2_witness = Panic site_parse_number /\
  small_decnumber_action d2_witness = Err (EOther 1).
Proof. exact small_decnumber_old_refuted. Qed.
Print Assumptions C01_version_action_old_refuted.

(* STRING: on every valid UTF-8 token of r#''[^']*''# the slice 1..len-1 is
   in range and on char boundaries *)
Theorem C01_string_action_total : forall tok, string_token tok = true -> utf8 tok ->
  exists s, string_action tok = Ok s.
Proof. exact string_action_total. Qed.
Print Assumptions C01_string_action_total.

(* split_string (since c447a1c), for every valid UTF-8 string: neither split_at
   nor the usize decrement panics, the loop ends within |s| rounds, the chunks
   concatenate to the string, and every chunk is a non-empty valid UTF-8 string
   of at most 230 bytes, i.e. no scalar is ever cut *)
Theorem C01_split_string_never_panics : forall s, utf8 s ->
  exists chunks, split_string (length s) s = Ok chunks /\ concat chunks = s /\
    Forall (fun c => utf8 c /\ c <> [] /\ (length c <= 230)%nat) chunks.
Proof. exact split_string_never_panics. Qed.
Print Assumptions C01_split_string_never_panics.

(* D26 (fixed by c447a1c): the old loop panics on 'x' followed by 125 two-byte scalars *)
Theorem C01_split_string_old_refuted :
  utf8 d26_witness /\ split_string_old (length d26_witness) d26_witness = Panic site_split_at.
Proof. exact split_string_old_refuted. Qed.
Print Assumptions C01_split_string_old_refuted.

(* lifting (control_flow_graph/lifting.rs, mirror Model.Lift of C12) never panics on
   the shape the DESUGARER hands on: the body is a block and every entry of an
   initialisation block is straight-line (a leaf, or a block / initialisation
   block of such) -- remove_tuples_from_statement turns `var (a, b) = (1, 2);`
   into a block of substitutions inside the initialisation block, which C12's
   parser_shaped (leaves only) does not admit. Both assert!s and every indexing
   of lifting.rs are Panic sites of the mirror. *)
Theorem C01_lift_never_panics_on_desugared_shape : forall body : Model.Lift.sk,
  Proofs.LiftTotalFlat.desugared_shape body -> exists g, Model.Lift.lift body = Ok g.
Proof. exact Proofs.LiftTotalFlat.lift_never_panics_desugared. Qed.
Print Assumptions C01_lift_never_panics_on_desugared_shape.

(* the class of C12_lift_never_panics is contained in it *)
Theorem C01_parser_shaped_is_desugared_shape : forall body : Model.Lift.sk,
  Spec.CfgSpec.parser_shaped body -> Proofs.LiftTotalFlat.desugared_shape body.
Proof. exact Proofs.LiftTotalFlat.parser_shaped_desugared_shape. Qed.
Print Assumptions C01_parser_shaped_is_desugared_shape.

(* neither `expect` of parser/src/include_logic.rs fires (mirror Model.Includes of
   C19, sites 1901/1902): for every file system in which a canonical path that is
   not a directory has a file name, every command line, library list and fuel,
   parse_files never returns Panic. (C19_include_terminates / C19_run_project_fuel_ok
   exclude OutOfFuel.) *)
Theorem C01_includes_never_panic :
  forall (path : Type) (EqDecision0 : stdpp.base.EqDecision path)
         (canon : path -> option path) (is_dir is_file : path -> bool)
         (read_dir : path -> option (list path)) (join : path -> path -> path)
         (parent : path -> path) (file_name : path -> option path)
         (ext_circom starts_dot has_sep : path -> bool)
         (content : path -> Model.Includes.file_content path),
    (forall p c, is_dir p = false -> canon p = Some c -> file_name c <> None) ->
    forall (d23 : bool) (dfuel fuel : nat) (paths libs : list path) (s : Z),
      Model.Includes.parse_files canon is_dir is_file read_dir join parent file_name ext_circom
                                 starts_dot has_sep content d23 dfuel fuel paths libs <> Panic s.
Proof. exact @Proofs.IncludesNoPanic.parse_files_no_panic. Qed.
Print Assumptions C01_includes_never_panic.

(* the SSA construction (mirror Model.Ssa of C14: insert_phi_statements,
   insert_ssa_variables_impl, visit_expression, Statement::insert_ssa_variables)
   never reaches an assert!/expect site, for every hash order of the dominance
   frontiers and children lists, on a graph
     - whose variables are still unversioned (IR lifting builds names with
       from_string / with_suffix only), and
     - whose dominator-tree children lists satisfy three order facts: a child is a
       block of the graph with a larger index than its parent (the parent strictly
       dominates it: C15_idom_exact, and dominance implies <=: C12_dom_implies_le),
       a children list has no duplicates, and a block is the child of at most one
       block (C15_dom_tree_children_invert_idom: children invert the idom function).
   The proof shows that the pre-order walk visits every block at most once
   (children_tree_of_order), that phi insertion and the updates of successor phis
   keep unvisited blocks unversioned, and that renaming an unversioned block never
   asserts.  SFuel (fuelled work list / recursion of the mirror) is excluded by the next
   theorem; SErrUndefined (the `used before defined` error report) is a legitimate
   answer.  That the children lists of the tree DominatorTree::new computes on a lifted
   graph satisfy the three facts is C01_lifted_children_order_facts below. *)
Theorem C01_into_ssa_never_panics :
  forall (frontier children : list (list N)) (c : Model.Ir.cfg),
    Proofs.SsaNoPanic.unversioned c -> (0 < length (Model.Ir.c_blocks c))%nat ->
    (forall j k, In k (Proofs.SsaNoPanic.kids children j) -> (j < k)%nat /\ (k < length (Model.Ir.c_blocks c))%nat) ->
    (forall j, NoDup (Proofs.SsaNoPanic.kids children j)) ->
    (forall j j' k, In k (Proofs.SsaNoPanic.kids children j) -> In k (Proofs.SsaNoPanic.kids children j') -> j = j') ->
    Model.Ssa.into_ssa frontier children c <> Model.Ssa.SPanic.
Proof. exact Proofs.SsaNoPanic.into_ssa_never_panics_tree. Qed.
Print Assumptions C01_into_ssa_never_panics.

(* ... and the fuel of the mirror suffices, so SFuel is not an outcome either (in
   particular it cannot mask a later SPanic).  Work list (insert_phi_statements):
   fuel n*n*(D+1)+n+1 for n blocks and D declarations; the measure
   |work list| + number of (block, declared name) pairs without a phi statement is at
   most n + n*D at the start, a pop costs one unit of fuel and lowers it by one, and
   every push is paid for by a phi statement inserted for a declared, unversioned
   name into a block that had none.  Tree walk: fuel n+1; a child has a larger index
   than its parent and is a block, so the depth below block cur is at most n - cur.
   One more hypothesis is needed: every local that is assigned is among the
   declarations of the definition ([written_declared], decidable) ... *)
Theorem C01_into_ssa_fuel_suffices :
  forall (frontier children : list (list N)) (c : Model.Ir.cfg),
    Proofs.SsaNoPanic.unversioned c -> Proofs.SsaFuel.written_declared c = true ->
    (0 < List.length (Model.Ir.c_blocks c))%nat ->
    (forall j k, In k (Proofs.SsaNoPanic.kids children j) -> (j < k)%nat /\ (k < List.length (Model.Ir.c_blocks c))%nat) ->
    Model.Ssa.into_ssa frontier children c <> Model.Ssa.SFuel.
Proof. exact Proofs.SsaFuel.into_ssa_never_out_of_fuel. Qed.
Print Assumptions C01_into_ssa_fuel_suffices.

(* ... and it cannot be dropped: a single block that is its own dominance frontier and
   assigns three undeclared locals meets every other hypothesis and the work list of the
   mirror runs out of its fuel 1*1*(0+1)+1+1 = 3 (the fuel of Model.Ssa is a bound for
   well-formed graphs only) *)
Theorem C01_into_ssa_fuel_needs_declared :
  Proofs.SsaNoPanic.unversioned Proofs.SsaFuel.fx_graph /\
  Proofs.SsaFuel.written_declared Proofs.SsaFuel.fx_graph = false /\
  (forall j k, In k (Proofs.SsaNoPanic.kids [[]] j) ->
               (j < k)%nat /\ (k < List.length (Model.Ir.c_blocks Proofs.SsaFuel.fx_graph))%nat) /\
  Model.Ssa.into_ssa [[0%N]] [[]] Proofs.SsaFuel.fx_graph = Model.Ssa.SFuel.
Proof. exact Proofs.SsaFuel.fuel_needs_declared. Qed.
Print Assumptions C01_into_ssa_fuel_needs_declared.

(* BRIDGE SSA -> propagation: the construction keeps a graph free of value claims
   (renaming copies the knowledge slot of every node, inserted phi statements carry none),
   so the first hypothesis of C20_propagate_completes holds for what into_ssa returns
   whenever it holds for what lifting built *)
Theorem C01_into_ssa_keeps_clean :
  forall (frontier children : list (list N)) (c c1 : Model.Ir.cfg),
    Model.Clean.clean_cfg c = true -> Model.Ssa.into_ssa frontier children c = Model.Ssa.SOk c1 ->
    Model.Clean.clean_cfg c1 = true.
Proof. exact Proofs.SsaClean.into_ssa_keeps_clean. Qed.
Print Assumptions C01_into_ssa_keeps_clean.

(* `2 + edges - nodes` of definition_complexity.rs cannot underflow: a lifted graph
   has at least (number of blocks - 1) entries in its successor lists, because every
   block but the entry is reachable (C12_all_reachable) and so is the target of an edge *)
Theorem C01_complexity_does_not_underflow : forall (body : Model.Lift.sk) (g : list Model.Lift.block),
  Model.Lift.lift body = Ok g ->
  (length g <= 2 + list_sum (map (fun b => length (Model.Lift.b_succs b)) g))%nat.
Proof. exact Proofs.LiftComplexity.complexity_does_not_underflow. Qed.
Print Assumptions C01_complexity_does_not_underflow.

(* ------------------------------------------------------------------------ *)
(* THE CHAIN OF THE ACTUAL MIRRORS (Model.PipelineMirrors)                    *)
(*                                                                            *)
(*   Model.Includes.parse_files -> [parse: the LALRPOP parser, a PARAMETER --  *)
(*      the only stage of the chain that is one]                              *)
(*   -> per template Model.Desugar.desugar_template / per function            *)
(*      check_function                                                        *)
(*   -> Model.LiftFull.lift_to_ir: ensure_unique_variables (unique_vars.rs),   *)
(*      try_lift_impl / build_basic_blocks (control_flow_graph/lifting.rs),    *)
(*      every TryLift impl (intermediate_representation/lifting.rs),          *)
(*      declarations.rs, propagate_types; compared with the real into_cfg on  *)
(*      every ./check C13 (engine liftfull) and on the definitions of C01's   *)
(*      own engine                                                            *)
(*   -> Model.Dom.dominator_tree -> Model.Ssa.into_ssa                        *)
(*   -> Model.Propagate.propagate                                             *)
(*                                                                            *)
(* The analysis passes and the output stage are not part of the chain (they   *)
(* are observed by the engine only; no theorem of this file covers them).     *)
(* ------------------------------------------------------------------------ *)

(* LIFTING (renaming pass, block construction, IR lifting of every statement and
   expression, declarations).  [definition_wf] is decidable: the body is a block, free of
   sugar (C18_desugar_output_sugar_free / C18_function_kept_iff, bridged below), of the shape
   the desugarer hands on (C01_desugar_output_has_desugared_shape), and the keys handed to
   Declarations::add_declaration -- parameters and declared names after the renaming pass --
   are pairwise different (PipelineMirrors.names_distinct: evaluated on every explored
   definition, NOT derived from C10's theorem about its own mirror of the renaming pass).
   Panic sites covered (line numbers of the mirrored files): lifting.rs 192, 228, 288, 382;
   intermediate_representation/lifting.rs 119, 193 (the catch-all arms
   `panic!("failed to convert AST statement / expression to IR")`); declarations.rs 17;
   unique_vars.rs 184; environment.rs add_variable / remove_variable_block asserts. *)
Theorem C01_liftfull_never_panics : forall kind params pfile ploc body,
  Model.LiftFull.definition_wf params pfile ploc body = true ->
  (forall site, Model.LiftFull.try_lift_impl kind params pfile ploc body <> Panic site) /\
  Model.LiftFull.try_lift_impl kind params pfile ploc body <> OutOfFuel.
Proof. exact Proofs.LiftFullTotal.liftfull_never_panics'. Qed.
Print Assumptions C01_liftfull_never_panics.

(* the same for the mirror followed by the erasure onto Model.Ir (the function the chain,
   and the C04 / C08 theorems, speak about) *)
Theorem C01_lift_to_ir_never_panics : forall kind params pfile ploc body,
  Model.LiftFull.definition_wf params pfile ploc body = true ->
  (forall site, Model.LiftFull.lift_to_ir kind params pfile ploc body <> Panic site) /\
  Model.LiftFull.lift_to_ir kind params pfile ploc body <> OutOfFuel.
Proof. exact Proofs.LiftFullTotal.lift_to_ir_never_panics. Qed.
Print Assumptions C01_lift_to_ir_never_panics.

(* BRIDGE desugar -> lift (1).  The body that the desugarer hands on is a block whose
   initialisation blocks are flat -- two of the four clauses of definition_wf -- and its
   skeleton has the shape that C01_lift_never_panics_on_desugared_shape asks for, whenever
   the initialisation blocks of the parsed body hold declarations and (multi-)substitutions
   only ([ast_init_ok], decidable).  Proved through C18_desugar_refines_expand: the answer of
   the two passes is the specified expansion, which keeps that shape. *)
Theorem C01_desugar_output_has_desugared_shape :
  forall (lib : list (list N)) (ts : list (string * Model.Ast.statement)) (m : Model.Ast.meta)
         (l : list Model.Ast.statement) (body' : Model.Ast.statement),
    Forall Spec.ExpandSpec.wf_node (Spec.ExpandSpec.stmt_exprs (Model.Ast.Block m l)) ->
    Forall Spec.ExpandSpec.short_node (Spec.ExpandSpec.sub_stmts (Model.Ast.Block m l)) ->
    Model.PipelineMirrors.ast_init_ok (Model.Ast.Block m l) = true ->
    Model.Desugar.desugar_template (Model.Desugar.env_of ts) lib (Model.Ast.Block m l) = Model.Desugar.DOk body' ->
    Model.LiftFull.is_block body' = true /\ Model.LiftFull.ast_init_flat body' = true /\
    forall key : Model.Ir.meta -> nat, Proofs.LiftTotalFlat.desugared_shape (Model.LiftFull.skel key body').
Proof. exact Proofs.MirrorsShape.desugar_output_shape. Qed.
Print Assumptions C01_desugar_output_has_desugared_shape.

(* BRIDGE desugar -> lift (2).  What C18 proves of a body handed on
   (Spec.ExpandSpec.sugar_free_stmt: no tuple, no anonymous component among ALL expression
   nodes, no multi-substitution among all statements) is the sugar clause of definition_wf. *)
Theorem C01_sugar_free_spec_is_wf_clause : forall s : Model.Ast.statement,
  Spec.ExpandSpec.sugar_free_stmt s -> Model.LiftFull.stmt_sugar_free s = true.
Proof. exact Proofs.MirrorsShape.stmt_sugar_free_of_spec. Qed.
Print Assumptions C01_sugar_free_spec_is_wf_clause.

(* BRIDGE lift -> SSA.  Whatever graph the lifting mirror returns,
     - no variable occurrence carries a version (names are built by from_string and
       split('.') only): the first hypothesis of C01_into_ssa_never_panics;
     - an assignment tagged Local assigns a declared name (the tag is what propagate_types
       found in the declarations): the hypothesis [written_declared] of
       C01_into_ssa_fuel_suffices;
     - the predecessor / successor lists DominatorTree::new reads are those of the graph
       Model.Lift builds from the skeleton of the body (C13_liftfull_skeleton), so
       C01_lifted_graph_is_rooted and C01_lifted_children_order_facts speak about it.
   Until the second audit these were hypotheses (`lifted_ok`) about three parameters. *)
Theorem C01_lifted_graph_feeds_ssa : forall kind params pfile ploc body r,
  Model.LiftFull.try_lift_impl kind params pfile ploc body = Ok r ->
  let c := Model.LiftFull.erase_cfg (Model.LiftFull.l_cfg r) in
  Proofs.SsaNoPanic.unversioned c /\ Proofs.SsaFuel.written_declared c = true /\
  forall key : Model.Ir.meta -> nat,
    let g := map (Model.LiftFull.skel_block key) (Model.LiftFull.xc_blocks (Model.LiftFull.l_cfg r)) in
    Model.Lift.lift (Model.LiftFull.skel key body) = Ok g /\
    Model.PipelineMirrors.dom_of_ir c = Proofs.MirrorsDom.to_dom g /\
    List.length (Model.Ir.c_blocks c) = List.length g.
Proof. exact Proofs.LiftFullIr.lifted_feeds_ssa. Qed.
Print Assumptions C01_lifted_graph_feeds_ssa.

(* BRIDGE lift -> propagation.  The lifted graph carries no value claim, and its literals
   are non-negative when those of the body are ([stmt_lits_ok], decidable; the renaming pass
   keeps literals): with C01_into_ssa_keeps_clean, the first hypothesis of
   C20_propagate_completes. *)
Theorem C01_lifted_graph_is_clean : forall kind params pfile ploc body c,
  Model.PipelineMirrors.stmt_lits_ok body = true ->
  Model.LiftFull.lift_to_ir kind params pfile ploc body = Ok c -> Model.Clean.clean_cfg c = true.
Proof. exact Proofs.LiftFullIr.lifted_clean. Qed.
Print Assumptions C01_lifted_graph_is_clean.

(* BRIDGE lift -> dominator tree.  The predecessor / successor lists of a lifted graph
   form a rooted graph (C12_entry_no_pred, C12_preds_succs_mirror, C12_all_reachable), so
   DominatorTree::new returns (C15_no_panic) ... *)
Theorem C01_lifted_graph_is_rooted : forall (body : Model.Lift.sk) (g : list Model.Lift.block),
  Model.Lift.lift body = Ok g -> Spec.DomSpec.rooted (Proofs.MirrorsDom.to_dom g).
Proof. exact Proofs.MirrorsDom.lifted_rooted. Qed.
Print Assumptions C01_lifted_graph_is_rooted.

(* BRIDGE dominator tree -> SSA.  ... and the children sets of the tree, enumerated in
   any order, satisfy the three order facts that C01_into_ssa_never_panics and
   C01_into_ssa_fuel_suffices ask for: this is the translation from C15's bit-mask
   statements (the invariant of idom_loop, C15_idom_unique) and C12_dom_implies_le into
   the list form, which used to be prose. *)
Theorem C01_lifted_children_order_facts :
  forall (body : Model.Lift.sk) (g : list Model.Lift.block),
    Model.Lift.lift body = Ok g ->
    forall ord : nat -> list nat -> list nat, Spec.DomSpec.order_ok ord ->
    forall t : Model.Dom.dom_tree,
      Model.Dom.dominator_tree (Model.Dom.dom_fuel (Proofs.MirrorsDom.to_dom g)) ord (Proofs.MirrorsDom.to_dom g) = Ok t ->
      forall horder : list nat -> list nat, (forall l, Permutation.Permutation (horder l) l) ->
      let children := Model.PipelineMirrors.sets_of horder (Model.Dom.dt_children t) in
      (forall j k, In k (Proofs.SsaNoPanic.kids children j) -> (j < k < List.length g)%nat) /\
      (forall j, NoDup (Proofs.SsaNoPanic.kids children j)) /\
      (forall j j' k, In k (Proofs.SsaNoPanic.kids children j) -> In k (Proofs.SsaNoPanic.kids children j') -> j = j').
Proof. exact Proofs.MirrorsDom.lifted_children_facts. Qed.
Print Assumptions C01_lifted_children_order_facts.

(* BRIDGE SSA -> propagation (2): ONE DEFINING ASSIGNMENT PER LOCAL in what into_ssa returns --
   Justify.ldefs_unique, the second hypothesis of C20_propagate_completes.  Until the second
   audit this was assumed of the mirror's own output (`ssa_output_ok`).  Derived from C14's
   construction theorems: C14_construction_unique_defs (a versioned name is assigned once), the
   fact T4 of Proofs.SsaConstruction (a target of the output is versioned exactly when it is a
   declared local, when the tree walk reaches every block) and an invariant proved here
   (Proofs.SsaLocalDefs: an assignment TAGGED Local assigns a declared local -- kept by phi
   insertion, renaming and the re-issue of declarations; the tag is what ldefs_unique goes by,
   the declaration key is what the construction versions by).  For every frontier and children
   table: *)
Theorem C01_into_ssa_unique_local_definitions :
  forall (frontier children : list (list N)) (c c' : Model.Ir.cfg),
    Proofs.SsaNoPanic.unversioned c ->
    Proofs.SsaLocalDefs.tags_ok (Model.Ir.c_decls c) (Model.Ir.c_blocks c) ->
    Proofs.SsaConstruction.children_cover children (List.length (Model.Ir.c_blocks c)) ->
    Model.Ssa.into_ssa frontier children c = Model.Ssa.SOk c' ->
    Model.Justify.ldefs_unique (Model.Justify.all_stmts (Model.Ir.c_blocks c')) = true.
Proof. exact Proofs.SsaLocalDefs.into_ssa_ldefs_unique. Qed.
Print Assumptions C01_into_ssa_unique_local_definitions.

(* ... its hypothesis about the tags holds of every graph the lifting mirror returns (the tag
   of a lifted substitution is what propagate_types found in the declarations for the name) ... *)
Theorem C01_lifted_graph_tags_agree_with_declarations : forall kind params pfile ploc body c,
  Model.LiftFull.lift_to_ir kind params pfile ploc body = Ok c ->
  Proofs.SsaLocalDefs.tags_ok (Model.Ir.c_decls c) (Model.Ir.c_blocks c).
Proof. exact Proofs.LiftFullIr.lifted_tags_ok. Qed.
Print Assumptions C01_lifted_graph_tags_agree_with_declarations.

(* ... and the tree walk over the children table the dominator-tree mirror computes reaches
   every block (Proofs.SsaDomBridge.c15_children_tree, from C15), so in the chain the former
   hypothesis is a theorem: for EVERY definition and body, whatever lifting makes of it *)
Theorem C01_chain_ssa_output_unique_local_defs :
  forall (ord : nat -> list nat -> list nat) (horder : list nat -> list nat),
    Spec.DomSpec.order_ok ord -> (forall l : list nat, Permutation.Permutation (horder l) l) ->
    forall (d : Model.PipelineMirrors.definition) (body : Model.Ast.statement),
      Model.PipelineMirrors.ssa_output_ok ord horder d body = true.
Proof. exact Proofs.PipelineMirrorsProofs.lifted_ssa_output_ok. Qed.
Print Assumptions C01_chain_ssa_output_unique_local_defs.

(* THE COMPOSITION.  For every file system in which a canonical non-directory path has a
   file name, every command line, every hash order, every prime and every pair of pass
   budgets: if the program the parser returns meets [program_ok], then the chain ends with
   a list of per-definition outcomes each of which is a graph handed to the analysis
   passes (DROk) or an error report (DRReport) -- never DRPanic, never DRFuel -- or with
   an error of the file stage; it does not end with Panic, and the only way to end with
   OutOfFuel is the fuel of the include loop (excluded by C19_include_terminates under
   its own hypotheses).
   [parse] -- the LALRPOP parser -- is the one stage that is a parameter: a panic inside the
   parser cannot be expressed here (its actions: C01_decnumber_action_total .. above; the
   automaton is observed by the engine).  Every later stage is a mirror, with its panic sites.
   Proofs.PipelineMirrorsProofs.program_ok spells out what REMAINS A HYPOTHESIS, all of it
   decidable on the concrete program:
     per template  wf_template (C18: metas belong to a file of the library, log strings
                   <= 230 bytes, named inputs one per argument, the body is a block);
                   ast_init_ok (initialisation blocks hold declarations and
                   (multi-)substitutions);
     per function  metas known, the body is a block, ast_init_ok;
     per body handed to lifting, PipelineMirrors.body_ok (extracted; evaluated by ./check C01
     on every definition the real parser + desugarer produce for its inputs, coverage key
     `chain`):
       names_distinct  the declaration keys after the renaming pass are pairwise different
                       (what C10 proves of ITS mirror of the renaming pass; evaluated here);
       stmt_lits_ok    number literals are non-negative.
     (`ssa_output_ok` -- one defining assignment per local in the graph into_ssa returns, the
     second hypothesis of C20_propagate_completes -- was a third clause until the second audit;
     it is now proved: C01_chain_ssa_output_unique_local_defs.)
   Proved, not assumed: the desugarer does not crash (C18), its output is free of sugar and
   has the shape lifting accepts, renaming / lifting / IR lifting return a graph or one of
   the two error reports (C01_lift_to_ir_never_panics), that graph is unversioned, assigns
   declared locals only and is clean, the dominator tree is computed (C15) and its children
   lists are a tree with growing indices, into_ssa returns SOk or the `used before defined`
   error (no SPanic, no SFuel), what it returns carries no value claim and has one defining
   assignment per local (the two hypotheses of C20_propagate_completes), propagation completes
   at every budget (C20). *)
Theorem C01_pipeline_mirrors_never_panic :
  forall (ord : nat -> list nat -> list nat) (horder : list nat -> list nat) (p : Z) (kv kd : nat),
    Spec.DomSpec.order_ok ord ->
    (forall l : list nat, Permutation.Permutation (horder l) l) ->
    Znumtheory.prime p -> 2 < p -> Z.log2 p < 2 ^ 64 ->
    forall (path : Type) (EqDecision0 : stdpp.base.EqDecision path)
           (canon : path -> option path) (is_dir is_file : path -> bool)
           (read_dir : path -> option (list path)) (join : path -> path -> path)
           (parent : path -> path) (file_name : path -> option path)
           (ext_circom starts_dot has_sep : path -> bool)
           (content : path -> Model.Includes.file_content path)
           (parse : Model.Includes.parse_state -> Model.PipelineMirrors.program),
      (forall q c, is_dir q = false -> canon q = Some c -> file_name c <> None) ->
      forall (d23 : bool) (dfuel fuel : nat) (paths libs : list path),
        (forall st, Model.Includes.parse_files canon is_dir is_file read_dir join parent file_name ext_circom
                                               starts_dot has_sep content d23 dfuel fuel paths libs = Ok st ->
                    Proofs.PipelineMirrorsProofs.program_ok (parse st)) ->
        match Model.PipelineMirrors.run_pipeline_mirrors ord horder p kv kd canon is_dir is_file
                read_dir join parent file_name ext_circom starts_dot has_sep content parse d23 dfuel fuel paths libs with
        | Ok ds => Forall Proofs.PipelineMirrorsProofs.fine ds
        | Err _ => True
        | Panic _ => False
        | OutOfFuel => Model.Includes.parse_files canon is_dir is_file read_dir join parent file_name ext_circom
                                                  starts_dot has_sep content d23 dfuel fuel paths libs = OutOfFuel
        end.
Proof. exact @Proofs.PipelineMirrorsProofs.run_pipeline_mirrors_never_panics. Qed.
Print Assumptions C01_pipeline_mirrors_never_panic.

(* the per-definition core of the composition, in the form the driver evaluates it: a body
   that is a block, free of sugar, with flat initialisation blocks and [body_ok] ends DROk or
   DRReport -- for every hash order, prime and budget *)
Theorem C01_definition_chain_never_panics :
  forall (ord : nat -> list nat -> list nat) (horder : list nat -> list nat) (p : Z) (kv kd : nat),
    Spec.DomSpec.order_ok ord ->
    (forall l : list nat, Permutation.Permutation (horder l) l) ->
    Znumtheory.prime p -> 2 < p -> Z.log2 p < 2 ^ 64 ->
    forall (d : Model.PipelineMirrors.definition) (body : Model.Ast.statement),
      Model.LiftFull.is_block body = true -> Model.LiftFull.stmt_sugar_free body = true ->
      Model.LiftFull.ast_init_flat body = true ->
      Model.PipelineMirrors.body_ok d body = true ->
      Proofs.PipelineMirrorsProofs.fine (Model.PipelineMirrors.analyse_body ord horder p kv kd d body).
Proof. exact Proofs.PipelineMirrorsProofs.analyse_body_fine. Qed.
Print Assumptions C01_definition_chain_never_panics.

(* the hypotheses of the composition are satisfiable and the chain computes: the template
     template T() { var x = 0; while (x < 3) { x = x + 1; } }
   meets program_ok, the identity orders are orders, 3 is a prime, and the chain (desugarer,
   renaming + lifting + IR lifting, dominator tree, SSA construction, propagation) ends with
   DROk on an SSA graph that has a two-argument phi statement at the loop header *)
Example C01_pipeline_mirrors_example :
  Proofs.PipelineMirrorsProofs.program_ok Proofs.MirrorsExample.ex_program /\
  (Spec.DomSpec.order_ok Model.Dom.id_order /\ (forall l : list nat, Permutation.Permutation ((fun l => l) l) l)) /\
  Znumtheory.prime 3 /\
  match Proofs.MirrorsExample.ex_run with
  | Ok [d] => Proofs.MirrorsExample.is_drok d && Proofs.MirrorsExample.has_phi_in_block_1 d
  | _ => false
  end = true.
Proof.
  exact (conj Proofs.MirrorsExample.ex_program_ok
          (conj Proofs.MirrorsExample.ex_orders_ok (conj Znumtheory.prime_3 Proofs.MirrorsExample.ex_run_ok))).
Qed.

(* the hypotheses of C01_into_ssa_never_panics and C01_into_ssa_fuel_suffices are met by
   the pre-SSA graph of that template (what Model.LiftFull.lift_to_ir returns for the
   desugared body: three blocks, a loop) with the children and frontier lists that the
   dominator-tree mirror computes for it, and into_ssa returns a graph *)
Example C01_into_ssa_example :
  match Model.Dom.dominator_tree (Model.Dom.dom_fuel (Model.PipelineMirrors.dom_of_ir Proofs.MirrorsExample.ex_pre))
          Model.Dom.id_order (Model.PipelineMirrors.dom_of_ir Proofs.MirrorsExample.ex_pre) with
  | Ok t => Model.PipelineMirrors.sets_of (fun l => l) (Model.Dom.dt_children t) = Proofs.MirrorsExample.ex_children /\
            Model.PipelineMirrors.sets_of (fun l => l) (Model.Dom.dt_frontier t) = Proofs.MirrorsExample.ex_frontier
  | _ => False
  end /\
  Proofs.SsaNoPanic.unversioned Proofs.MirrorsExample.ex_pre /\
  Proofs.SsaFuel.written_declared Proofs.MirrorsExample.ex_pre = true /\
  (0 < List.length (Model.Ir.c_blocks Proofs.MirrorsExample.ex_pre))%nat /\
  (forall j k, In k (Proofs.SsaNoPanic.kids Proofs.MirrorsExample.ex_children j) ->
               (j < k)%nat /\ (k < List.length (Model.Ir.c_blocks Proofs.MirrorsExample.ex_pre))%nat) /\
  (forall j, NoDup (Proofs.SsaNoPanic.kids Proofs.MirrorsExample.ex_children j)) /\
  (forall j j' k, In k (Proofs.SsaNoPanic.kids Proofs.MirrorsExample.ex_children j) ->
                  In k (Proofs.SsaNoPanic.kids Proofs.MirrorsExample.ex_children j') -> j = j') /\
  exists c1, Model.Ssa.into_ssa Proofs.MirrorsExample.ex_frontier Proofs.MirrorsExample.ex_children
                                Proofs.MirrorsExample.ex_pre = Model.Ssa.SOk c1.
Proof.
  (* not [exact (conj _ _)]: elaborating the pair re-evaluates the dominator tree in the
     conversion check, here and again at Qed *)
  split.
  - exact Proofs.MirrorsExample.ex_tree_is_computed.
  - exact Proofs.MirrorsExample.ex_pre_hypotheses.
Qed.

(* the hypothesis of C01_includes_never_panic is met by the file system of C19's example
   (a main file including one library file under two spellings, a directory library on
   the command line): every canonical path of the table has a file name -- decided by
   Proofs.MirrorsExample.canon_named_b -- and the run reads both files *)
Example C01_includes_example :
  (forall q c, Model.Includes.d_is_dir Proofs.IncludesProofs.d23_fs q = false ->
               Model.Includes.d_canon Proofs.IncludesProofs.d23_fs q = Some c -> Model.Includes.s_file_name c <> None) /\
  exists s, Model.Includes.run_project false Proofs.IncludesProofs.d23_fs Proofs.IncludesProofs.d23_argv
                                       Proofs.IncludesProofs.d23_libs = Ok s /\
            List.length (Model.Includes.ps_read s) = 2%nat.
Proof. exact Proofs.MirrorsExample.ex_fs_hypothesis. Qed.

(* Third audit: the former obligation C01_pipeline_total (the generic assembly over ABSTRACT stage functions:
   "if no stage panics or runs out of fuel and the output stage ends with 0 or 1, run_pipeline ends with 0 or 1")
   is NO LONGER AN OBLIGATION.  Every premise of it was an abstract function with an assumed totality; for the
   stages files / desugar / lift / ssa / propagate the premises are discharged, with the mirrors, in
   C01_pipeline_mirrors_never_panic above; for the parser automaton, the 13 analysis passes and the output stage
   nothing instantiates them (those stages are OBSERVED by the engine, and their syntactic panic sites are in the
   inventory).  The statement stays available as the lemma Proofs.PipelineProofs.pipeline_total; it is not counted
   as proved coverage of C01. *)

(* the hypotheses are satisfiable and the definitions compute: the repaired
   witnesses, and a pipeline instance in which one definition fails to lift *)
Example C01_witnesses :
  hexnumber_action [48; 120; 70; 102] = Ok 255 /\
  decnumber_action [48; 49; 50] = Ok 12 /\
  version_action [50] [49] [52] = Ok (2, 1, 4) /\
  hex_token d1_witness = false /\
  string_action [34; 195; 169; 34] = Ok [195; 169] /\
  (exists chunks, split_string (length d26_witness) d26_witness = Ok chunks /\ map (@length Z) chunks = [229; 22]%nat) /\
  run_pipeline unit Z Z Z Z Z Z (fun _ => Ok [1; 2]) (fun s => if s =? 1 then Ok s else Err (EOther 7))
    (fun asts => Ok (asts ++ [5], [])) (fun d => if d =? 5 then Err (EOther 9) else Ok d) (fun c => Ok c) (fun s => Ok s)
    (fun s => Ok [s]) (fun e => match e with EOther c => c | _ => 0 end)
    (fun rs => if (length rs =? 0)%nat then Ok 0 else Ok 1) tt = Ok 1.
Proof.
  repeat split; try (vm_compute; reflexivity).
  eexists. split; vm_compute; reflexivity.
Qed.

(* the hypothesis of C01_liftfull_never_panics is satisfiable, and it is needed: the same
   body with a tuple in it is not well-formed and lifting panics at the site of
   `panic!("failed to convert AST expression to IR")`;
   `function f(x) { var y = x; while (y) { y = 1; } return y; }` *)
Local Open Scope string_scope.
Local Open Scope N_scope.
Example C01_liftfull_example :
  let m (a b : N) := Model.Ast.Meta a b (Some 0%N) in
  let v n a b := Model.Ast.Variable_ (m a b) n [] in
  let body rhs := Model.Ast.Block (m 14 60)
    [Model.Ast.InitializationBlock (m 16 26) Model.Ast.VVar
       [Model.Ast.Declaration (m 16 26) Model.Ast.VVar "y" [] false;
        Model.Ast.Substitution (m 16 26) "y" [] Model.Ast.AssignVar (v "x" 24 25)];
     Model.Ast.While (m 27 48) (v "y" 34 35)
       (Model.Ast.Block (m 37 48) [Model.Ast.Substitution (m 39 45) "y" [] Model.Ast.AssignVar rhs]);
     Model.Ast.Return (m 49 58) (v "y" 56 57)] in
  let good := body (Model.Ast.Number (m 43 44) 1) in
  let bad := body (Model.Ast.Tuple (m 43 44) []) in
  Model.LiftFull.definition_wf ["x"] (Some 0%N) (11, 12)%N good = true /\
  is_ok (Model.LiftFull.try_lift_impl Model.Ir.KFunction ["x"] (Some 0%N) (11, 12)%N good) = true /\
  Model.LiftFull.definition_wf ["x"] (Some 0%N) (11, 12)%N bad = false /\
  Model.LiftFull.try_lift_impl Model.Ir.KFunction ["x"] (Some 0%N) (11, 12)%N bad
    = Panic Model.LiftFull.site_expr_not_liftable.
Proof. vm_compute. repeat split; reflexivity. Qed.
