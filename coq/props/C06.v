(* C06 - constant propagation is sound: a claimed constant holds in every run.
   The claims are judged through the verified validator Justify.vjust_cfg,
   which the check runs on the implementation's real annotated SSA graph of
   every explored definition (and which Model.Propagate is compared with). *)
From Coq Require Import ZArith List Bool Znumtheory String.
Require Import Model.Base Model.Field Model.Ir Model.Propagate Model.Justify.
Require Import Model.ConstCond Proofs.ConstCondProofs.
Require Import Model.SsaCheck Spec.FieldSpec Spec.ValueSem Spec.SsaSpec Spec.SsaRun Proofs.ValueProofs Proofs.SsaRunProofs.
Import ListNotations.
Local Open Scope Z_scope.

(* every constant attached to a node of a validated graph equals the value the
   node evaluates to, in every state reachable by the execution steps *)
Theorem C06_validated_graph_claims_true : forall p c s0 s e v k,
  prime p -> 2 < p -> Z.log2 p < 2 ^ 64 ->
  vjust_cfg p c = true ->
  init_ok (all_stmts (c_blocks c)) p s0 -> reachable (all_stmts (c_blocks c)) p s0 s ->
  occurs_in c e -> evalR p s e v -> expr_val e = Some k -> claim_ok k v.
Proof. exact validated_graph_claims_true. Qed.
Print Assumptions C06_validated_graph_claims_true.

(* the same along CONCRETE executions of the SSA graph: walk any path from the
   entry; a phi copies the argument whose version arrives along the edge taken
   (Spec.SsaRun, using the running version map of C14); every claim met is true *)
Theorem C06_claims_true_along_paths : forall c p s0 pi s e v k,
  prime p -> 2 < p -> Z.log2 p < 2 ^ 64 ->
  vjust_cfg p c = true -> init_ok (all_stmts (c_blocks c)) p s0 ->
  run_path c p (params_map (c_params c)) s0 pi s ->
  occurs_in c e -> evalR p s e v -> expr_val e = Some k -> claim_ok k v.
Proof. exact claims_true_along_paths. Qed.
Print Assumptions C06_claims_true_along_paths.

(* and such executions do not get stuck at a phi: on a graph accepted by the SSA
   validator, whenever a version of the phi's variable arrives along the edge,
   it is one of the phi's arguments (an edge that carries NO version used to be the
   finding C06-phi-missing-default, repaired in /repo 2b7419e: such an edge now
   contributes the unversioned name, for which nothing is claimed) *)
Theorem C06_phi_arguments_available : forall c idom pi i b L,
  ssa_check c idom = true -> path_from_entry c (pi ++ [i]) ->
  exec_path c (params_map (c_params c)) pi = Some L -> nth_error (c_blocks c) i = Some b ->
  forall s x args n, In s (fst (leading_phis (b_stmts b))) -> phi_parts s = Some (x, args) ->
  vget L (key_of x) = Some n ->
  exists a, In a args /\ key_of a = key_of x /\ vn_version a = Some n.
Proof. exact phi_arguments_available. Qed.
Print Assumptions C06_phi_arguments_available.

(* `constant branch condition`: a condition claimed always true (false) never evaluates to false (true) *)
(* third audit: the corollary `constant_condition_claim_true` (claim_ok unfolded for a Boolean claim:
   v <> 0 <-> b = true) is no longer an obligation - it restates C06_validated_graph_claims_true; the statement
   about the FINDING is C06_constant_condition_finding_true below. Lemma Proofs.*.constant_condition_claim_true stays. *)

(* THE FINDING ITSELF (CS0009, constant_conditional.rs, mirrored by Model.ConstCond and
   compared with the real pass, label text included, on every explored definition; that
   the mirror reports exactly the if statements whose condition carries a boolean claim,
   with "always true" exactly for the claim true, are definitional facts about the mirror
   kept as lemmas in Proofs.ConstCondProofs, not counted as obligations): *)
(* on a validated graph a reported condition never takes the other truth value *)
Theorem C06_constant_condition_finding_true : forall p c s0 s bi i b,
  prime p -> 2 < p -> Z.log2 p < 2 ^ 64 ->
  vjust_cfg p c = true ->
  init_ok (all_stmts (c_blocks c)) p s0 -> reachable (all_stmts (c_blocks c)) p s0 s ->
  In (bi, i, b) (find_constant_conditional c) ->
  exists blk k m e t f, In blk (c_blocks c) /\ b_index blk = bi /\ i = N.of_nat k /\
                        nth_error (b_stmts blk) k = Some (SIf m e t f) /\
                        forall v, evalR p s e v -> (v <> 0 <-> b = true).
Proof. exact constant_condition_finding_true. Qed.
Print Assumptions C06_constant_condition_finding_true.
(* Num2Bits/Bits2Num: a size claimed to be a constant below a bound is below it *)
(* third audit: `size_claim_true` (v = z and z < bound give v < bound) is no longer an obligation: it is claim_ok
   unfolded for a field claim and says nothing about the Num2Bits pass; the threshold itself is C11's. *)

(* operator level: the table of expression_impl.rs over field elements *)
Theorem C06_infix_field_sound : forall p, prime p -> 2 < p -> Z.log2 p < 2 ^ 64 ->
  forall op a b c v, 0 <= a < p -> 0 <= b < p ->
  infix_values op (Some (VField a)) (Some (VField b)) p = Ok (Some c) ->
  sem_infix op a b p v -> claim_ok c v.
Proof. exact infix_field_sound. Qed.
Print Assumptions C06_infix_field_sound.

Theorem C06_infix_bool_sound : forall p op (x y : bool) c v,
  infix_values op (Some (VBool x)) (Some (VBool y)) p = Ok (Some c) ->
  sem_infix op (b2z x) (b2z y) p v -> claim_ok c v.
Proof. exact infix_bool_sound. Qed.
Print Assumptions C06_infix_bool_sound.

(* prefix operators (-, !, ~) at operator level (third audit: no theorem covered them on their own): whatever
   prefix_values attaches to `op x`, for an operand whose claim is true, is the value Circom's semantics gives *)
Theorem C06_prefix_sound : forall p, 2 < p -> Z.log2 p < 2 ^ 64 ->
  forall op cl a c v, 0 <= a < p -> claim_ok cl a ->
  prefix_values op (Some cl) p = Some c -> sem_prefix op a p v -> claim_ok c v.
Proof. intros p Hp _. exact (prefix_sound p Hp). Qed.
Print Assumptions C06_prefix_sound.

(* the step relation keeps every defined cell consistent with the claims about it *)
Theorem C06_step_preserves : forall p, prime p -> 2 < p -> Z.log2 p < 2 ^ 64 ->
  forall ss, forallb (vjust_stmt ss p) ss = true ->
  forall s s', store_ok p ss s -> step ss p s s' -> store_ok p ss s'.
Proof. exact step_preserves. Qed.
Print Assumptions C06_step_preserves.

(* non-vacuity: a validated graph with a non-literal claim, and a false claim rejected *)
Definition ex_k (v : option vred) : know := {| kval := v; kdeg := None |}.
Definition ex_x1 : vname := {| vn_name := [120%N]; vn_suffix := None; vn_version := Some 1%N |}.
Definition ex_m : meta := {| m_start := 0%N; m_end := 0%N; m_file := None |}.
Definition ex_graph (claim : Z) : cfg :=
  {| c_kind := KFunction; c_params := []; c_decls := [];
     c_blocks := [ {| b_index := 0%N; b_depth := 0%N; b_preds := []; b_succs := [];
       b_stmts := [ SSubst ex_m ex_x1 OpVar (EInfix IAdd (ENum 2 (ex_k (Some (VField 2)))) (ENum 3 (ex_k (Some (VField 3)))) (ex_k (Some (VField 5))))
                           (Some (VField 5)) (Some TLocal);
                    SRet ex_m (EInfix IMul (EVar ex_x1 (ex_k (Some (VField 5)))) (ENum 2 (ex_k (Some (VField 2)))) (ex_k (Some (VField claim)))) ] |} ] |}.
Example C06_finding_example :
  find_constant_conditional
    {| c_kind := KFunction; c_params := []; c_decls := [];
       c_blocks := [ {| b_index := 0%N; b_depth := 0%N; b_preds := []; b_succs := [1%N];
         b_stmts := [ SIf ex_m (EInfix IEq (ENum 2 (ex_k (Some (VField 2)))) (ENum 3 (ex_k (Some (VField 3)))) (ex_k (Some (VBool false)))) 1%N None;
                      SIf ex_m (ENum 1 (ex_k (Some (VField 1)))) 1%N None ] |} ] |}
  = [(0%N, 0%N, false)].
Proof. vm_compute. reflexivity. Qed.
Example C06_validator_accepts_and_rejects :
  vjust_cfg 7 (ex_graph 3) = true /\ vjust_cfg 7 (ex_graph 4) = false.
Proof. vm_compute. split; reflexivity. Qed.
