(* C03 — report conservation and the output contract.  Property theorems only:
   each is closed by [exact] of a lemma of Proofs.RunnerProofs and followed by
   Print Assumptions.  Model.Runner mirrors analysis_runner.rs / writers.rs /
   sarif_conversion.rs / cli main.rs after the fix: commits 62ddfef, 9edc4b5,
   77caaad; Gen.Category is regenerated from the current MessageCategory. *)
From Coq Require Import ZArith List Bool Arith Permutation String.
Require Import Model.Base Gen.Category Model.Runner Spec.RunnerSpec Proofs.RunnerProofs Proofs.RunnerC03.
Import ListNotations.

(* every finding produced for a definition of a user file (and every parser
   finding) is displayed exactly once iff it is to be kept — as multisets, for
   all definition sets, all analysis orders (HashMap orders), all lookups the
   passes make, all option sets *)
Theorem C03_conservation : forall p o order,
  wf_project p -> analysis_order p order ->
  Permutation (res_shown (run_keys p o order)) (filter (keep_b o (p_user p)) (produced p)).
Proof. exact conservation. Qed.
Print Assumptions C03_conservation.

(* the executable keep_b is the `keep` of the property text *)
Theorem C03_keep_b_is_keep : forall o user r, keep_b o user r = true <-> keep o user r.
Proof. exact keep_b_keep. Qed.
Print Assumptions C03_keep_b_is_keep.

(* and the three filters of main.rs compute it *)
Theorem C03_filters_are_keep : forall o user r, passes_filters o user r = true <-> keep o user r.
Proof. exact passes_filters_keep. Qed.
Print Assumptions C03_filters_are_keep.

Theorem C03_displayed_iff_kept : forall p o order r,
  wf_project p -> analysis_order p order ->
  (In r (res_shown (run_keys p o order)) <-> In r (produced p) /\ keep o (p_user p) r).
Proof. exact displayed_iff_kept. Qed.
Print Assumptions C03_displayed_iff_kept.

Theorem C03_summary_counts_displayed : forall p o order,
  wf_project p -> analysis_order p order ->
  res_summary (run_keys p o order) = length (res_shown (run_keys p o order)) /\
  exists pre, res_log (run_keys p o order) = pre ++ [MSummary (length (res_shown (run_keys p o order)))].
Proof. exact summary_counts_displayed. Qed.
Print Assumptions C03_summary_counts_displayed.

(* the SARIF results are exactly the displayed list (same reports, same
   order), with one rule descriptor per (name, id) *)
Theorem C03_sarif_equals_displayed : forall p o order,
  wf_project p -> analysis_order p order ->
  match res_sarif (run_keys p o order) with
  | None => o_sarif o = false
  | Some (results, rules) =>
      o_sarif o = true /\
      results = res_shown (run_keys p o order) /\
      NoDup rules /\
      (forall x, In x rules <-> exists r, In r results /\ x = (r_name r, r_id r)) /\
      (In MSarifWritten (res_log (run_keys p o order)) <-> results <> [])
  end.
Proof. exact sarif_equals_displayed. Qed.
Print Assumptions C03_sarif_equals_displayed.

(* filter law over the whole lattice: whatever the level and allow-set, the
   displayed list is the list displayed under (Info, no allow), filtered *)
Theorem C03_filter_law : forall p o order,
  wf_project p -> analysis_order p order ->
  res_shown (run_keys p o order) =
  filter (keep_b o (p_user p)) (res_shown (run_keys p (bottom o) order)) /\
  Permutation (res_shown (run_keys p (bottom o) order))
    (filter (fun r => negb (match r_pfiles r with [] => false | _ => true end &&
                            forallb (fun f => negb (existsb (Z.eqb f) (p_user p))) (r_pfiles r))) (produced p)).
Proof. exact filter_law. Qed.
Print Assumptions C03_filter_law.

Theorem C03_filter_monotone : forall p o1 o2 order r,
  wf_project p -> analysis_order p order ->
  (rank (o_level o1) <= rank (o_level o2))%nat -> incl (o_allow o1) (o_allow o2) ->
  In r (res_shown (run_keys p o2 order)) -> In r (res_shown (run_keys p o1 order)).
Proof. exact filter_monotone. Qed.
Print Assumptions C03_filter_monotone.

(* the regenerated MessageCategory: Info < Warning < Error is a total order,
   all comparison operators agree with it, to_level and from_str are as
   documented, the default level is WARNING *)
Theorem C03_category_total_order :
  (forall a b, Category.cmp a b = Nat.compare (rank a) (rank b)) /\
  (forall a b, Category.ge a b = (rank b <=? rank a)%nat) /\
  (forall a b, Category.gt a b = (rank b <? rank a)%nat) /\
  (forall a b, Category.le a b = (rank a <=? rank b)%nat) /\
  (forall a b, Category.lt a b = (rank a <? rank b)%nat) /\
  (forall a b, Category.eqb a b = Nat.eqb (rank a) (rank b)) /\
  (Category.to_level Info = SNote /\ Category.to_level Warning = SWarning /\ Category.to_level Error = SError) /\
  forallb (fun e => option_level_eqb (snd e) (spec_from_str (fst e))) Category.from_str_table = true /\
  spec_from_str Category.default_level = Some Warning.
Proof. exact category_total_order. Qed.
Print Assumptions C03_category_total_order.

Theorem C03_from_str_table_covers : forall s,
  In s ["info"; "INFO"; "Info"; "warning"; "WARNING"; "Warning"; "error"; "ERROR"; "Error"; "note"; "warn"; ""]%string ->
  In s (map fst Category.from_str_table).
Proof. exact from_str_table_covers. Qed.
Print Assumptions C03_from_str_table_covers.

(* Not obligations: RunnerProofs.verbose_invariant (Model.Runner never reads [o_verbose], so it holds by
   [reflexivity]; that --verbose changes nothing but the codes shown in the headers is OBSERVED: every project is run with
   and without it and compared with the same model output) and RunnerProofs.exit_zero_iff_nothing_displayed (the second
   and third conjunct of C03_exit_status_all_runs below, which needs no hypothesis). *)

(* the exit-status clause for ALL runs of the mirror: no hypothesis on the
   project (duplicate keys allowed), the options or the analysis order (any
   list of keys), hence for every number of displayed diagnostics (255, 256,
   257, 512, ...): the summary number is that count, the exit status is 0
   exactly when nothing was displayed, it is 0 or 1, and 1 for every positive
   count.  (The real exit status is compared with the mirror's on every run,
   including runs with exactly 256 and 512 displayed diagnostics.) *)
Theorem C03_exit_status_all_runs : forall p o order,
  res_summary (run_keys p o order) = length (res_shown (run_keys p o order)) /\
  (res_exit (run_keys p o order) = 0%Z <-> res_shown (run_keys p o order) = []) /\
  (res_exit (run_keys p o order) = 0%Z \/ res_exit (run_keys p o order) = 1%Z) /\
  (forall n, length (res_shown (run_keys p o order)) = S n -> res_exit (run_keys p o order) = 1%Z).
Proof. exact exit_status_all_runs. Qed.
Print Assumptions C03_exit_status_all_runs.

(* "exactly once" as multiplicities: if [order] is a permutation of the user
   keys, every finding is displayed as often as the stages produced it when it
   is to be kept, and never otherwise *)
Theorem C03_each_finding_counted : forall p o order x,
  wf_project p -> analysis_order p order ->
  count_occ report_eq_dec (res_shown (run_keys p o order)) x =
  if keep_b o (p_user p) x then count_occ report_eq_dec (produced p) x else 0.
Proof. exact each_finding_counted. Qed.
Print Assumptions C03_each_finding_counted.

(* distinct produced findings (real reports differ in position or message)
   are displayed exactly once each, and nothing is displayed twice *)
Theorem C03_each_finding_exactly_once : forall p o order,
  wf_project p -> analysis_order p order -> NoDup (produced p) ->
  NoDup (res_shown (run_keys p o order)) /\
  forall x, In x (produced p) -> keep o (p_user p) x ->
            count_occ report_eq_dec (res_shown (run_keys p o order)) x = 1.
Proof. exact each_finding_exactly_once. Qed.
Print Assumptions C03_each_finding_exactly_once.

(* why [analysis_order] must be established independently of the binary: fed
   with an order that leaves a definition out, the mirror displays only the
   parser's reports and the findings of the definitions in that order, so a
   definition skipped by the binary is skipped by a mirror that reads the
   binary's log.  lib/props/C03.py therefore compares the logged order on every
   run with the definitions the generator wrote into the user files. *)
Theorem C03_only_analysed_definitions_displayed : forall p o order x,
  NoDup order -> (forall k, In k order -> exists d, find_def (p_defs p) k = Some d) ->
  In x (res_shown (run_keys p o order)) ->
  In x (p_parse p) \/
  exists d, In d (p_defs p) /\ In (d_key d) order /\ In x (produced_def d).
Proof. exact only_analysed_definitions_displayed. Qed.
Print Assumptions C03_only_analysed_definitions_displayed.

Theorem C03_skipped_definition_not_displayed : forall p o order d x,
  NoDup order -> (forall k, In k order -> exists d, find_def (p_defs p) k = Some d) ->
  In d (p_defs p) -> ~ In (d_key d) order ->
  In x (produced_def d) -> ~ In x (p_parse p) ->
  (forall d', In d' (p_defs p) -> d' <> d -> ~ In x (produced_def d')) ->
  ~ In x (res_shown (run_keys p o order)).
Proof. exact skipped_definition_not_displayed. Qed.
Print Assumptions C03_skipped_definition_not_displayed.

(* non-vacuity: a project with two templates where U looks T up, T's CFG
   generation reports a shadowing warning; both orders display it once
   (the witness of the repaired defect D11), a label-less error passes the file
   filter (D9), a finding located only in an included file does not *)
Definition ex_shadow : report := mkReport Warning 1 1 [0%Z] 100.
Definition ex_unused : report := mkReport Warning 18 18 [0%Z] 101.
Definition ex_missing : report := mkReport Error 1000 1000 [] 102.
Definition ex_included : report := mkReport Warning 5 5 [1%Z] 103.
Definition ex_T : def := mkDef KTemplate 1 0 [ex_shadow] None [] [].
Definition ex_U : def := mkDef KTemplate 2 0 [] None [ex_unused] [1%Z].
Definition ex_L : def := mkDef KTemplate 3 1 [] None [ex_included] [].
Definition ex_p : project := mkProject [ex_missing; ex_included] [ex_T; ex_U; ex_L] [0%Z].
Definition ex_o : opts := mkOpts Warning [] true true.

(* The statements about Model.ReportLabels
   (primary_file_ids = the file ids of the primary labels for every add_primary / add_secondary sequence; the file
   filter read on the labels) are not obligations: they are inductions over a three-line hand mirror that nothing
   extracts or compares (lemmas of Proofs.ReportLabelsProofs).  What ties `primary_file_ids()` to the labels is the
   comparison made on every report of every run (lib/e2e.py Truth.pfile_problems), and the oracle reads the labels. *)

Example C03_witnesses :
  wf_project ex_p /\
  analysis_order ex_p [(KTemplate, 1%Z); (KTemplate, 2%Z)] /\
  analysis_order ex_p [(KTemplate, 2%Z); (KTemplate, 1%Z)] /\
  res_shown (run_keys ex_p ex_o [(KTemplate, 1%Z); (KTemplate, 2%Z)]) = [ex_missing; ex_shadow; ex_unused] /\
  res_shown (run_keys ex_p ex_o [(KTemplate, 2%Z); (KTemplate, 1%Z)]) = [ex_missing; ex_unused; ex_shadow] /\
  res_exit (run_keys ex_p ex_o [(KTemplate, 2%Z); (KTemplate, 1%Z)]) = 1%Z /\
  res_summary (run_keys ex_p ex_o [(KTemplate, 2%Z); (KTemplate, 1%Z)]) = 3.
Proof.
  split. { unfold wf_project. simpl. repeat constructor; simpl; intuition discriminate. }
  split. { vm_compute. apply Permutation_refl. }
  split. { vm_compute. apply perm_swap. }
  vm_compute. repeat split; reflexivity.
Qed.

(* non-vacuity of the added theorems: 300 label-less errors are displayed,
   exit status 1 (a count >= 256); the produced findings of ex_p are distinct;
   an order that leaves U out satisfies the hypotheses of
   C03_skipped_definition_not_displayed and loses U's kept finding *)
Definition ex_many : project := mkProject (repeat ex_missing 300) [] [0%Z].

Example C03_witnesses_added :
  length (res_shown (run_keys ex_many ex_o [])) = 300 /\
  res_summary (run_keys ex_many ex_o []) = 300 /\
  res_exit (run_keys ex_many ex_o []) = 1%Z /\
  NoDup (produced ex_p) /\
  count_occ report_eq_dec (res_shown (run_keys ex_p ex_o [(KTemplate, 2%Z); (KTemplate, 1%Z)])) ex_shadow = 1 /\
  count_occ report_eq_dec (res_shown (run_keys ex_p ex_o [(KTemplate, 2%Z); (KTemplate, 1%Z)])) ex_included = 0 /\
  (NoDup [(KTemplate, 1%Z)] /\
   (forall k, In k [(KTemplate, 1%Z)] -> exists d, find_def (p_defs ex_p) k = Some d) /\
   In ex_U (p_defs ex_p) /\ ~ In (d_key ex_U) [(KTemplate, 1%Z)] /\
   In ex_unused (produced_def ex_U) /\ keep ex_o (p_user ex_p) ex_unused /\
   res_shown (run_keys ex_p ex_o [(KTemplate, 1%Z)]) = [ex_missing; ex_shadow]).
Proof.
  split. { vm_compute. reflexivity. }
  split. { vm_compute. reflexivity. }
  split. { vm_compute. reflexivity. }
  split. { vm_compute. repeat constructor; simpl; intuition discriminate. }
  split. { vm_compute. reflexivity. }
  split. { vm_compute. reflexivity. }
  split. { repeat constructor. simpl. tauto. }
  split. { intros k [Hk|[]]. subst k. eexists. vm_compute. reflexivity. }
  split. { simpl. auto. }
  split. { simpl. intros [H|[]]. discriminate. }
  split. { simpl. auto. }
  split. { apply keep_b_keep. vm_compute. reflexivity. }
  vm_compute. reflexivity.
Qed.
