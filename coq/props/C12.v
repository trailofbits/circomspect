(* C12 — the control-flow graph of every definition is well formed.
   Property theorems only: each is closed by [exact] of a lemma of
   Proofs.LiftTheorems / Proofs.LiftTotal, followed by Print Assumptions.
   [lift] is the mirror of build_basic_blocks (Model.Lift); [path], [reachable],
   [dominates], [nesting], [graph_items], [parser_shaped] are Spec.CfgSpec;
   [desugared_shape] is Proofs.LiftTotalFlat. *)
From stdpp Require Import list.
Require Import Model.Lift Spec.CfgSpec Proofs.LiftTheorems Proofs.LiftTotal Proofs.LiftComplexity Proofs.LiftTotalFlat.
Require Model.Ast Model.Ir Model.LiftFull Proofs.MirrorsShape.
Import Base(outcome, Ok, Panic).

(* block 0 is the entry (a block's index is its position) and has no predecessor *)
Theorem C12_entry_no_pred : forall body g, lift body = Ok g ->
  (forall i b, g !! i = Some b -> b_index b = i) /\
  exists b0, g !! 0 = Some b0 /\ b_preds b0 = [].
Proof. exact entry_no_pred. Qed.
Print Assumptions C12_entry_no_pred.

(* every block is reachable from block 0 along successor edges *)
Theorem C12_all_reachable : forall body g, lift body = Ok g ->
  forall j, j < length g -> reachable g j.
Proof. exact all_reachable. Qed.
Print Assumptions C12_all_reachable.

(* successor and predecessor sets mirror each other (and name existing blocks) *)
Theorem C12_preds_succs_mirror : forall body g, lift body = Ok g ->
  forall i j,
    (exists bi, g !! i = Some bi /\ j ∈ b_succs bi) <-> (exists bj, g !! j = Some bj /\ i ∈ b_preds bj).
Proof. exact preds_succs_mirror. Qed.
Print Assumptions C12_preds_succs_mirror.

(* a branch statement occurs only as the last statement of a block *)
Theorem C12_branch_only_last : forall body g, lift body = Ok g ->
  forall i b k c t f,
    g !! i = Some b -> b_items b !! k = Some (IBranch c t f) -> S k = length (b_items b).
Proof. exact branch_only_last. Qed.
Print Assumptions C12_branch_only_last.

(* its targets are existing blocks contained in the successor set (the true
   target is the next block; a recorded false target differs from it) *)
Theorem C12_branch_targets_exist_and_are_succs : forall body g, lift body = Ok g ->
  forall i b c t f,
    g !! i = Some b -> last (b_items b) = Some (IBranch c t f) ->
    t = S i /\ t < length g /\ t ∈ b_succs b /\
    forall x, f = Some x -> x < length g /\ x ∈ b_succs b /\ x <> t.
Proof. exact branch_targets_exist_and_are_succs. Qed.
Print Assumptions C12_branch_targets_exist_and_are_succs.

(* no block has more than two successors, one without a branch *)
Theorem C12_at_most_two_succs : forall body g, lift body = Ok g ->
  forall i b, g !! i = Some b ->
    NoDup (b_succs b) /\ length (b_succs b) <= 2 /\ (~ ends_in_branch b -> length (b_succs b) <= 1).
Proof. exact at_most_two_succs. Qed.
Print Assumptions C12_at_most_two_succs.

(* whenever block i dominates block j (every path from the entry to j passes i), i <= j *)
Theorem C12_dom_implies_le : forall body g, lift body = Ok g ->
  forall i j, j < length g -> dominates g i j -> i <= j.
Proof. exact dom_implies_le. Qed.
Print Assumptions C12_dom_implies_le.

(* every block is reached by a path that stays below it (the fact behind the
   previous theorem and behind "2 + edges - nodes" not underflowing) *)
Theorem C12_descending_path : forall body g, lift body = Ok g ->
  forall j, j < length g -> exists l, path g 0 l j /\ forall x, x ∈ 0 :: l -> x <= j.
Proof. exact descending_path. Qed.
Print Assumptions C12_descending_path.

(* the counting step for program_analysis/src/definition_complexity.rs
   (`let complexity = 2 + edges - nodes;` on usize, edges = sum of
   `successors().len()` over the blocks, nodes = number of blocks): the blocks
   are at most one more than the edges, so (2 + edges) - nodes does not
   underflow and the complexity is at least 1.  Proved from
   C12_descending_path: every block j > 0 ends a non-empty path from block 0,
   so it is the target of an edge, and edges with different targets are
   different members of the successor lists (which are duplicate-free by
   C12_at_most_two_succs, so their lengths are the set sizes the code adds up) *)
Theorem C12_complexity_no_underflow : forall body g, lift body = Ok g ->
  length g <= 1 + list_sum (map (fun b => length (b_succs b)) g) /\
  1 <= 2 + list_sum (map (fun b => length (b_succs b)) g) - length g.
Proof. exact complexity_no_underflow. Qed.
Print Assumptions C12_complexity_no_underflow.

(* the statements of the graph in block order, each with the recorded loop
   depth of its block, are exactly the statements and conditions of the source
   in source order, each with its syntactic loop nesting (a loop condition
   counting outside its loop) *)
Theorem C12_loop_depth_is_nesting : forall body g, lift body = Ok g ->
  graph_items g = nesting 0 body.
Proof. exact loop_depth_is_nesting. Qed.
Print Assumptions C12_loop_depth_is_nesting.

(* every statement and condition of the source occurs exactly once, in source order *)
Theorem C12_every_item_exactly_once : forall body g, lift body = Ok g ->
  concat (map (fun b => map item_key (b_items b)) g) = map fst (nesting 0 body).
Proof. exact every_item_exactly_once. Qed.
Print Assumptions C12_every_item_exactly_once.

(* neither assert! of lifting.rs nor any NonEmptyVec indexing fails on a body
   the parser + desugarer can produce.
   Third audit: the hypothesis used to be Spec.CfgSpec.parser_shaped (an
   initialisation block holds only leaves), which is FALSE for real desugared
   template bodies: remove_tuples_from_statement / the anonymous-component pass put
   a Block of substitutions into an InitializationBlock (`var (a, b) = (1, 2);`,
   `var x = A()(1);`).  [desugared_shape] (Proofs.LiftTotalFlat: the body is a
   block; an entry of an initialisation block is [flat] - leaves, blocks and
   initialisation blocks of flat statements, no `while` / `if`) is the shape they do
   have; it contains parser_shaped (C12_parser_shaped_is_desugared_shape).  The
   check EVALUATES it on every real desugared body of its template stage through the
   decision of C12_desugared_shape_decided (lib/props/C12.py,
   coverage hypothesis_desugared_shape); an unmet hypothesis is a violation. *)
Theorem C12_lift_never_panics : forall body, desugared_shape body -> exists g, lift body = Ok g.
Proof. exact lift_never_panics_desugared. Qed.
Print Assumptions C12_lift_never_panics.

Theorem C12_parser_shaped_is_desugared_shape : forall body, parser_shaped body -> desugared_shape body.
Proof. exact parser_shaped_desugared_shape. Qed.
Print Assumptions C12_parser_shaped_is_desugared_shape.

(* how the hypothesis is decided on a real syntax tree: the two booleans the
   extracted model driver evaluates (Model.LiftFull.is_block, ast_init_flat) give
   desugared_shape of the skeleton, whatever function of the metas names the leaves *)
Theorem C12_desugared_shape_decided : forall (key : Model.Ir.meta -> nat) (body : Model.Ast.statement),
  Model.LiftFull.is_block body = true -> Model.LiftFull.ast_init_flat body = true ->
  desugared_shape (Model.LiftFull.skel key body).
Proof. exact Proofs.MirrorsShape.skel_desugared_shape. Qed.
Print Assumptions C12_desugared_shape_decided.

(* non-vacuity: the `while` test of the repository lifts to its four blocks; a
   body that is not a block and a loop inside an initialisation block hit the
   two assert!s *)
Example C12_witnesses :
  lift (SBlock [SInit [SLeaf 1 false; SLeaf 2 false]; SWhile 3 (SBlock [SLeaf 4 false]); SLeaf 5 true]) =
    Ok [Block 0 0 [ILeaf 1; ILeaf 2] [] [1];
        Block 1 0 [IBranch 3 2 (Some 3)] [0; 2] [2; 3];
        Block 2 1 [ILeaf 4] [1] [1];
        Block 3 0 [ILeaf 5] [1] []] /\
  lift (SLeaf 1 false) = Panic site_body_not_block /\
  lift (SBlock [SInit [SWhile 1 (SLeaf 2 false)]]) = Panic site_init_nonempty /\
  parser_shaped (SBlock [SIf 1 (SLeaf 2 false) None]).
Proof. vm_compute. repeat split; try reflexivity. by eexists. Qed.

(* `var (a, b) = (1, 2);` after the desugarer: a block inside an initialisation
   block - of desugared shape, not parser shaped, and it lifts *)
Example C12_desugared_shape_witness :
  let body := SBlock [SInit [SLeaf 1 false; SLeaf 2 false; SBlock [SLeaf 3 false; SLeaf 4 false]]; SLeaf 5 true] in
  desugared_shape body /\ ~ parser_shaped body /\
  lift body = Ok [Block 0 0 [ILeaf 1; ILeaf 2; ILeaf 3; ILeaf 4; ILeaf 5] [] []].
Proof.
  split; [split; [by eexists|reflexivity]|]. split; [|reflexivity].
  intros [_ H]. vm_compute in H. discriminate.
Qed.

(* ======================================================================== *)
(* AFTER into_ssa (proof round 4).  The theorems above are about the graph   *)
(* lifting builds; the ones below are about the graph the SSA conversion     *)
(* makes of it: Model.Ssa.into_ssa (the mirror compared with the real        *)
(* into_ssa by C14's check), for ALL dominance-frontier and children tables. *)
(* The clauses are those of Spec.IrCfgSpec (graphs WITH statements, Model.Ir) *)
(* ======================================================================== *)
Require Model.Ssa Model.SsaPre Spec.IrCfgSpec Spec.IrSkel.
Require Proofs.SsaWellFormed Proofs.SsaLiftedWf Proofs.SsaWellFormedExample.

(* (1) no hypothesis: the conversion keeps the number of blocks, and block i keeps
   its index, its loop depth, its predecessor list and its successor list.
   Fourth audit: for the MIRROR this is a by-construction fact (Model.Ssa writes blocks only
   through Ir.set_stmts; SsaWellFormed.stages_keep says a relation closed under set_stmts survives);
   that the Rust into_ssa (which holds `&mut self.basic_blocks`) keeps the frames is not
   implied by it: the check evaluates it on every REAL (before, after) pair, as the
   `same_frame` half of IrCfgSpec.ssa_shape_of (C12_ssa_shape_b_sound below). *)
Theorem C12_ssa_keeps_blocks_edges_depths : forall frontier children c c',
  Ssa.into_ssa frontier children c = Ssa.SOk c' ->
  length (Ir.c_blocks c') = length (Ir.c_blocks c) /\
  forall i b b', nth_error (Ir.c_blocks c) i = Some b -> nth_error (Ir.c_blocks c') i = Some b' ->
    Ir.b_index b' = Ir.b_index b /\ Ir.b_depth b' = Ir.b_depth b /\
    Ir.b_preds b' = Ir.b_preds b /\ Ir.b_succs b' = Ir.b_succs b.
Proof. exact Proofs.SsaWellFormed.into_ssa_blocks_kept. Qed.
Print Assumptions C12_ssa_keeps_blocks_edges_depths.

(* hence, still without hypothesis: the same paths along successor edges, the same
   reachable blocks, the same (path-based) dominance relation - the dominance order
   of the graph is untouched *)
Theorem C12_ssa_same_paths_and_dominance : forall frontier children c c',
  Ssa.into_ssa frontier children c = Ssa.SOk c' ->
  (forall i l j, IrCfgSpec.path c' i l j <-> IrCfgSpec.path c i l j) /\
  (forall j, IrCfgSpec.reachable c' j <-> IrCfgSpec.reachable c j) /\
  (forall i j, IrCfgSpec.dominates c' i j <-> IrCfgSpec.dominates c i j).
Proof. exact Proofs.SsaWellFormed.into_ssa_same_paths. Qed.
Print Assumptions C12_ssa_same_paths_and_dominance.

(* (2) on a graph without phi expressions (SsaPre.phi_free: decidable, evaluated per
   definition by the `ssapre` command of the ir driver; lifting never builds one,
   C12_lifted_graph_wf): every block of the output is  phis ++ body  where every
   statement of phis is a top-level phi assignment, no statement of body is one, and
   body is the statement list of the input block one for one and of the same kind
   (same constructor and location; a branch keeps both targets) *)
Theorem C12_ssa_blocks_are_phis_then_image : forall frontier children c c',
  SsaPre.phi_free c = true -> Ssa.into_ssa frontier children c = Ssa.SOk c' ->
  Forall2 (fun b b' =>
             IrCfgSpec.same_frame b b' /\
             exists phis body,
               Ir.b_stmts b' = phis ++ body /\
               Forall IrCfgSpec.is_phi phis /\
               Forall (fun s => ~ IrCfgSpec.is_phi s) body /\
               Forall2 IrCfgSpec.same_kind (Ir.b_stmts b) body)
          (Ir.c_blocks c) (Ir.c_blocks c').
Proof. exact Proofs.SsaWellFormed.into_ssa_shape. Qed.
Print Assumptions C12_ssa_blocks_are_phis_then_image.

(* the hypothesis cannot simply be dropped: the mirror copies a phi assignment that
   already stands behind another statement of the input *)
Theorem C12_ssa_shape_needs_phi_free :
  SsaPre.phi_free Proofs.SsaWellFormed.Needed.c_phi = false /\
  exists c', Ssa.into_ssa [[]] [[]] Proofs.SsaWellFormed.Needed.c_phi = Ssa.SOk c' /\
             ~ IrCfgSpec.ssa_shape_of Proofs.SsaWellFormed.Needed.c_phi c'.
Proof. exact Proofs.SsaWellFormed.Needed.phi_free_needed. Qed.
Print Assumptions C12_ssa_shape_needs_phi_free.

(* in particular a block of the output ends in a branch exactly when the block of the
   input does, with the same location and the same targets *)
Theorem C12_ssa_branch_last_iff : forall frontier children c c',
  SsaPre.phi_free c = true -> Ssa.into_ssa frontier children c = Ssa.SOk c' ->
  forall i b b', nth_error (Ir.c_blocks c) i = Some b -> nth_error (Ir.c_blocks c') i = Some b' ->
  forall m t f,
    (exists e, IrCfgSpec.last_stmt b' = Some (Ir.SIf m e t f)) <->
    (exists e, IrCfgSpec.last_stmt b = Some (Ir.SIf m e t f)).
Proof. exact Proofs.SsaWellFormed.into_ssa_last_branch. Qed.
Print Assumptions C12_ssa_branch_last_iff.

(* (3) every clause of C12 on graphs with statements (IrCfgSpec.cfg_wf: index = position,
   entry without predecessor, edges in range, predecessors mirror successors, a branch only
   last, its targets existing successors with true target = next block, at most two
   successors and one without a branch, every block reachable, dominance implies <=,
   descending paths) is carried from c to any c' of that shape - a statement about two
   graphs, no mirror involved ... *)
Theorem C12_phis_in_front_keep_wf : forall c c',
  IrCfgSpec.ssa_shape_of c c' -> IrCfgSpec.cfg_wf c -> IrCfgSpec.cfg_wf c'.
Proof. exact Proofs.SsaWellFormed.ssa_shape_keeps_wf. Qed.
Print Assumptions C12_phis_in_front_keep_wf.

(* ... hence by the SSA conversion *)
Theorem C12_ssa_keeps_wf : forall frontier children c c',
  SsaPre.phi_free c = true -> Ssa.into_ssa frontier children c = Ssa.SOk c' ->
  IrCfgSpec.cfg_wf c -> IrCfgSpec.cfg_wf c'.
Proof. exact Proofs.SsaWellFormed.into_ssa_keeps_wf. Qed.
Print Assumptions C12_ssa_keeps_wf.

(* the bridge from the theorems about Model.Lift.lift: the graph WITH statements that the
   content-carrying lifting mirror returns (Model.LiftFull.lift_to_ir, tied to the real
   try_lift_impl by C13's liftfull stage) holds no phi expression and satisfies every clause
   (through C13_liftfull_skeleton: its skeleton is the graph Model.Lift.lift builds) *)
Theorem C12_lifted_graph_wf : forall kind params pfile ploc body c,
  Model.LiftFull.lift_to_ir kind params pfile ploc body = Ok c ->
  SsaPre.phi_free c = true /\ IrCfgSpec.cfg_wf c.
Proof. exact Proofs.SsaLiftedWf.lifted_graph_wf. Qed.
Print Assumptions C12_lifted_graph_wf.

(* after into_cfg AND after into_ssa, no hypothesis left: whatever the tables, the SSA form
   of a lifted definition has the shape of (2) and satisfies every clause *)
Theorem C12_lifted_ssa_graph_wf : forall kind params pfile ploc body c frontier children c',
  Model.LiftFull.lift_to_ir kind params pfile ploc body = Ok c ->
  Ssa.into_ssa frontier children c = Ssa.SOk c' ->
  IrCfgSpec.ssa_shape_of c c' /\ IrCfgSpec.cfg_wf c'.
Proof. exact Proofs.SsaLiftedWf.lifted_ssa_cfg_wf. Qed.
Print Assumptions C12_lifted_ssa_graph_wf.

(* the skeleton of the SSA graph behind its leading phi assignments (Spec.IrSkel.ir_skel)
   IS the graph Model.Lift.lift builds from the skeleton of the body, for any naming [key]
   of statements by their location: every theorem of this file and of props/C13.v stated
   under `lift body = Ok g` speaks about the graph after into_ssa ... *)
Theorem C12_lifted_ssa_skeleton : forall key kind params pfile ploc body r frontier children c',
  Model.LiftFull.try_lift_impl kind params pfile ploc body = Ok r ->
  Ssa.into_ssa frontier children (Model.LiftFull.erase_cfg (Model.LiftFull.l_cfg r)) = Ssa.SOk c' ->
  lift (Model.LiftFull.skel key body) = Ok (IrSkel.ir_skel key c').
Proof. exact Proofs.SsaLiftedWf.lifted_ssa_skeleton. Qed.
Print Assumptions C12_lifted_ssa_skeleton.

(* ... for instance C12_loop_depth_is_nesting: the statements of the SSA graph behind the
   phis, in block order with the recorded loop depth of their block, are the statements
   and conditions of the source in source order with their syntactic loop nesting *)
Theorem C12_ssa_loop_depth_is_nesting : forall key kind params pfile ploc body r frontier children c',
  Model.LiftFull.try_lift_impl kind params pfile ploc body = Ok r ->
  Ssa.into_ssa frontier children (Model.LiftFull.erase_cfg (Model.LiftFull.l_cfg r)) = Ssa.SOk c' ->
  graph_items (IrSkel.ir_skel key c') = nesting 0 (Model.LiftFull.skel key body).
Proof. exact Proofs.SsaLiftedWf.lifted_ssa_loop_depths. Qed.
Print Assumptions C12_ssa_loop_depth_is_nesting.

(* non-vacuity:  var x = 0; while (x < 3) { x = x + 1; }  x = x + 4;  lifts to four blocks,
   the conversion (tables of its dominator tree) puts a phi assignment in front of the
   branch of the loop header - phis first, branch last -, and the theorems apply *)
Example C12_after_ssa_witness :
  let c := Proofs.SsaWellFormedExample.ex_c0 in
  let c' := Proofs.SsaWellFormedExample.ex_c1 in
  Model.LiftFull.lift_to_ir Ir.KTemplate [] (Some 0%N) (10%N, 12%N) Proofs.SsaWellFormedExample.ex_body = Ok c /\
  Ssa.into_ssa Proofs.SsaWellFormedExample.ex_frontier Proofs.SsaWellFormedExample.ex_children c = Ssa.SOk c' /\
  map (fun b => map IrSkel.is_phi_b (Ir.b_stmts b)) (Ir.c_blocks c') =
    [[false; false]; [true; false]; [false]; [false]] /\
  SsaPre.phi_free c = true /\ IrCfgSpec.ssa_shape_of c c' /\ IrCfgSpec.cfg_wf c' /\
  lift (Model.LiftFull.skel Proofs.SsaWellFormedExample.ex_key Proofs.SsaWellFormedExample.ex_body) =
    Ok (IrSkel.ir_skel Proofs.SsaWellFormedExample.ex_key c').
Proof.
  destruct Proofs.SsaWellFormedExample.ex_runs as (H1 & H2 & _ & _). cbv zeta.
  split; [exact H1|]. split; [exact H2|]. split; [vm_compute; reflexivity|].
  destruct (C12_lifted_graph_wf _ _ _ _ _ _ H1) as [Hp _]. split; [exact Hp|].
  destruct (C12_lifted_ssa_graph_wf _ _ _ _ _ _ _ _ _ H1 H2) as [Hs Hw]. split; [exact Hs|]. split; [exact Hw|].
  vm_compute. reflexivity.
Qed.

(* ======================================================================== *)
(* Fourth audit: the TIE of the theorems above inside C12's own run.         *)
(* The harness dumps the REAL graph with its statements before and after    *)
(* into_ssa for every definition of the template stage; the model driver    *)
(* evaluates on each pair  SsaPre.phi_free before  (the hypothesis of (2)), *)
(* IrCfgCheck.cfg_wf_b before / after  and  IrCfgCheck.ssa_shape_b before   *)
(* after.  These decision procedures are sound for the specification        *)
(* predicates the theorems are stated with:                                 *)
(* ======================================================================== *)
Require Model.IrCfgCheck Proofs.IrCfgCheckSound.

(* same frames; every block of c' = top-level phi assignments ++ the statements of the block of
   c one for one and of the same kind, none a phi assignment: in particular PHIS FIRST *)
Theorem C12_ssa_shape_b_sound : forall c c',
  IrCfgCheck.ssa_shape_b c c' = true -> IrCfgSpec.ssa_shape_of c c'.
Proof. exact Proofs.IrCfgCheckSound.ssa_shape_b_sound. Qed.
Print Assumptions C12_ssa_shape_b_sound.

(* the ten clauses of IrCfgSpec.cfg_wf (seven decided as they stand; reachability, "i dominates j
   implies i <= j" and the descending paths from the sufficient condition "every block but the
   first has a predecessor with a smaller index").  cfg_wf holds NEITHER "loop depth = nesting"
   (C12_loop_depth_is_nesting / C12_ssa_loop_depth_is_nesting, through the skeleton; on real
   graphs: the depth clause of lifteng.wellformed_failures, by span containment) NOR "phis first"
   (part of ssa_shape_of, above). *)
Theorem C12_cfg_wf_b_sound : forall c,
  IrCfgCheck.cfg_wf_b c = true -> IrCfgSpec.cfg_wf c.
Proof. exact Proofs.IrCfgCheckSound.cfg_wf_b_sound. Qed.
Print Assumptions C12_cfg_wf_b_sound.
