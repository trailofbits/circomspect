(* A WEAKER validator of degree claims (C07, third audit "false alarms"): where
   Model.DegJustify.deg_claim_is demands that a claimed range EQUAL the range the tables
   give for the claimed ranges of the operands, [deg_claim_le] only demands that its UPPER
   END be at least the upper end the tables give (an upper end NonQuadratic is always
   accepted: it claims nothing).  A sound implementation that is more conservative than
   the tables (NonQuadratic more often, a wider upper end) is accepted by this validator
   and rejected by the strict one; every graph the strict one accepts is accepted here
   (Proofs.DegGraphProofs.djust_cfg_implies_le), and the soundness theorem holds for this one
   (Proofs.DegGraphProofs.justified_degrees_true_le).  The lower ends of ranges carry no
   obligation here (no theorem speaks about them).  The range a read of a variable refers
   to is still the claim of its (single) defining assignment (DegJustify.var_range).
   Definitions only. *)
From Coq Require Import ZArith NArith List Bool.
Require Import Model.Base Model.Ir Model.Propagate Model.Justify Model.DegJustify Gen.DegreeTable.
Import ListNotations.

Definition deg_rank_m (d : degree) : nat :=
  match d with DConst => 0 | DLin => 1 | DQuad => 2 | DNonQuad => 3 end.
Definition deg_le_m (a b : degree) : bool := Nat.leb (deg_rank_m a) (deg_rank_m b).

Definition deg_claim_le (k : know) (o : option drange) : bool :=
  match kdeg k with
  | None => true
  | Some r =>
    match snd r with
    | DNonQuad => true
    | _ => match o with Some t => deg_le_m (snd t) (snd r) | None => false end
    end
  end.

Fixpoint djust_expr_le (c : cfg) (e : expr) {struct e} : bool :=
  let fix dj_list (es : list expr) : bool :=
      match es with [] => true | x :: tl => djust_expr_le c x && dj_list tl end in
  let fix dj_acc (acc : list (access expr)) : bool :=
      match acc with
      | [] => true
      | AIdx x :: tl => djust_expr_le c x && dj_acc tl
      | AComp _ :: tl => dj_acc tl
      end in
  match e with
  | ENum _ k => deg_claim_le k (Some (DConst, DConst))
  | EVar v k => deg_claim_le k (var_range c v)
  | EInfix op l r k =>
    djust_expr_le c l && djust_expr_le c r && deg_claim_le k (opt_range_infix op (expr_deg l) (expr_deg r))
  | EPrefix op x k =>
    djust_expr_le c x && deg_claim_le k (opt_range_prefix op (expr_deg x))
  | ESwitch cd t f k =>
    djust_expr_le c cd && djust_expr_le c t && djust_expr_le c f &&
    deg_claim_le k (match expr_deg cd with
                    | Some rc => if range_is_constant rc then iter_opt [expr_deg t; expr_deg f] else None
                    | None => None
                    end)
  | ECall _ args k =>
    dj_list args && deg_claim_le k (if all_constant args then Some (DConst, DConst) else None)
  | EPhi args k => match kdeg k with None => true | Some _ => false end
  | EArray vs k => dj_list vs && deg_claim_le k (iter_opt (map expr_deg vs))
  | EAccess v acc k => dj_acc acc && deg_claim_le k (opt_index_adjust acc (var_range c v))
  | EUpdate v acc rhe k =>
    dj_acc acc && djust_expr_le c rhe &&
    deg_claim_le k (opt_index_adjust acc (update_base_range c v (expr_deg rhe)))
  end.

Definition djust_stmt_le (c : cfg) (m : mctl) (s : stmt) : bool :=
  match s with
  | SDecl _ _ _ dims => forallb (djust_expr_le c) dims
  | SIf _ cd _ _ => djust_expr_le c cd
  | SRet _ e => djust_expr_le c e
  | SSubst _ _ _ (EPhi args k) _ _ => deg_claim_le k (phi_adjust m (iter_opt (map (var_range c) args)))
  | SSubst _ _ _ rhe _ _ => djust_expr_le c rhe
  | SCeq _ l r => djust_expr_le c l && djust_expr_le c r
  | SLog _ args => forallb (fun a => match a with LStr => true | LExpr e => djust_expr_le c e end) args
  | SAssert _ e => djust_expr_le c e
  end.

Definition djust_block_le (c : cfg) (idom : list (option N)) (b : block) : bool :=
  forallb (djust_stmt_le c (block_ctl (c_blocks c) idom b)) (b_stmts b).

Definition djust_cfg_le (c : cfg) (idom : list (option N)) : bool :=
  idom_shape c idom && forallb (djust_block_le c idom) (c_blocks c).
