(* C04: the provenance of the statement metas through IR lifting, from the
   content-carrying lifting mirror Model.LiftFull (Proofs.LiftFullProofs), in the
   vocabulary of C04 (Spec.MetaSpec.cfg_stmt_metas, Proofs.LabelsDesugar.ir_meta_of,
   Spec.ExpandSpec.stmt_metas).  For statement metas this proves the
   hypothesis about lifting of C04_labels_wellformed_through_desugaring_and_ssa. *)
From Coq Require Import NArith List Bool.
Require Import Model.Base Model.Ir Model.Labels Model.Ssa.
Require Import Spec.MetaSpec Proofs.LabelsProofs Proofs.LabelsDesugar Proofs.LabelsPipeline.
Require Model.Ast Model.Desugar Spec.ExpandSpec Model.LiftFull Proofs.LiftFullProofs.
Import ListNotations.

Lemma erase_stmt_meta x : stmt_meta (LiftFull.erase_stmt x) = LiftFull.xstmt_meta x.
Proof. destruct x; reflexivity. Qed.

Lemma cfg_stmt_metas_erase c :
  cfg_stmt_metas (LiftFull.erase_cfg c) = map LiftFull.xstmt_meta (LiftFull.graph_stmts (LiftFull.xc_blocks c)).
Proof.
  unfold cfg_stmt_metas, LiftFull.erase_cfg, LiftFull.graph_stmts. simpl.
  induction (LiftFull.xc_blocks c) as [|b g IH]; [reflexivity|].
  simpl. rewrite map_app, IH. f_equal. rewrite map_map. apply map_ext. intros x. apply erase_stmt_meta.
Qed.

(* The statement metas of the lifted graph, read block by block, ARE the metas of
   the statements of the body (every statement except blocks and initialization
   blocks), in source order: each statement's location is the location of exactly
   one source statement, none is lost, none invented. *)
Theorem lift_stmt_metas_from_ast : forall kind params pfile ploc body c,
  LiftFull.lift_to_ir kind params pfile ploc body = Ok c ->
  cfg_stmt_metas c = map ir_meta_of (map Model.Ast.stmt_meta (LiftFull.lifted_stmts body)).
Proof.
  intros kind params pfile ploc body c H. apply LiftFullProofs.lift_to_ir_inv in H as (r & E & ->).
  rewrite cfg_stmt_metas_erase, (LiftFullProofs.liftfull_stmt_metas _ _ _ _ _ _ E), map_map. reflexivity.
Qed.

Lemma incl_flat_map {A B} (f g : A -> list B) l :
  Forall (fun x => incl (f x) (g x)) l -> incl (flat_map f l) (flat_map g l).
Proof.
  intros H s Hs. apply in_flat_map in Hs as (x & Hx & Hs). apply in_flat_map. exists x. split; [exact Hx|].
  rewrite Forall_forall in H. exact (H x Hx s Hs).
Qed.

Lemma lifted_in_sub_stmts body : incl (LiftFull.lifted_stmts body) (Spec.ExpandSpec.sub_stmts body).
Proof.
  induction body as [m c t e IHt IHe|m c b IH|m t l IH|m l IH|m t n d c|s0 Hp] using LiftFullProofs.stmt_ind'; simpl.
  - apply incl_cons; [left; reflexivity|]. apply incl_tl, incl_app_app; [exact IHt|].
    destruct e as [e|]; [exact IHe|apply incl_refl].
  - apply incl_cons; [left; reflexivity|]. apply incl_tl. exact IH.
  - apply incl_tl, incl_flat_map. exact IH.
  - apply incl_tl, incl_flat_map. exact IH.
  - apply incl_refl.
  - destruct s0; try contradiction; apply incl_refl.
Qed.

(* the form of the hypothesis of labels_wellformed_through_desugaring_and_ssa *)
Theorem lift_stmt_metas_in_body : forall kind params pfile ploc body c,
  LiftFull.lift_to_ir kind params pfile ploc body = Ok c ->
  forall m, In m (cfg_stmt_metas c) -> In m (map ir_meta_of (Spec.ExpandSpec.stmt_metas body)).
Proof.
  intros kind params pfile ploc body c H m Hm.
  rewrite (lift_stmt_metas_from_ast _ _ _ _ _ _ H) in Hm.
  apply in_map_iff in Hm as (am & <- & Ham). apply in_map. unfold Spec.ExpandSpec.stmt_metas.
  apply in_or_app. right. apply in_map_iff in Ham as (s & <- & Hs). apply in_map. apply lifted_in_sub_stmts. exact Hs.
Qed.

(* the end-to-end statement with the desugarer's, the lifting's (statement metas)
   and the SSA construction's provenance proved: in place of hypothesis 3 of
   labels_wellformed_through_desugaring_and_ssa stands "the lifting mirror
   produced the graph" *)
Theorem labels_wellformed_through_desugaring_lifting_and_ssa :
  forall (P : N -> N -> Prop) env lib body body' kind params pfile ploc frontier children c c' ctor ls l,
    Forall (fun m => P (Model.Ast.m_start m) (Model.Ast.m_end m)) (Spec.ExpandSpec.stmt_metas body) ->
    Model.Desugar.desugar_template env lib body = Model.Desugar.DOk body' ->
    LiftFull.lift_to_ir kind params pfile ploc body' = Ok c ->
    into_ssa frontier children c = SOk c' ->
    P 0%N 0%N ->
    (forall m, In m (nodes_of ctor) -> In m (cfg_stmt_metas c')) ->
    (forall r, In r (parser_ranges_of ctor) -> P (fst r) (snd r)) ->
    labels_of (sources_of ctor) = Ok ls -> In l ls -> P (l_start l) (l_end l).
Proof.
  intros P env lib body body' kind params pfile ploc frontier children c c' ctor ls l Hp Hd Hl Hs H0 Hn Hr Hls Hin.
  apply (labels_wellformed_through_desugaring_and_ssa P env lib body body' frontier children c c' ctor ls l); try assumption.
  intros m Hm. left. exact (lift_stmt_metas_in_body _ _ _ _ _ _ Hl m Hm).
Qed.
