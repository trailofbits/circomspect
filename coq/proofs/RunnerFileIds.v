(* FileIDs are names: when the files are given in another order they are
   numbered differently (FileLibrary hands out consecutive ids in the order in
   which the files are read), so every [d_file], every primary-label file of
   every report and the list of user inputs change together.  Over
   Model.Runner: renumbering by an injective map changes nothing but those
   numbers.  (The payload of a report - message, label texts, notes - is
   opaque data in Model.Runner and is taken not to mention FileIDs.) *)
From Coq Require Import ZArith List Bool Permutation.
Require Import Model.Base Gen.Category Model.Runner Spec.RunnerSpec Proofs.RunnerProofs.
Import ListNotations.
Local Open Scope Z_scope.

Definition rn_report (f : Z -> Z) (r : report) : report :=
  mkReport (r_level r) (r_id r) (r_name r) (map f (r_pfiles r)) (r_payload r).

Definition rn_def (f : Z -> Z) (d : def) : def :=
  mkDef (d_kind d) (d_name d) (f (d_file d)) (map (rn_report f) (d_lift d))
        (option_map (rn_report f) (d_err d)) (map (rn_report f) (d_pass d)) (d_lookups d).

Definition rn_project (f : Z -> Z) (p : project) : project :=
  mkProject (map (rn_report f) (p_parse p)) (map (rn_def f) (p_defs p)) (map f (p_user p)).

Definition injective (f : Z -> Z) : Prop := forall x y, f x = f y -> x = y.

Section Renumbering.
  Variable f : Z -> Z.
  Hypothesis f_inj : injective f.

  Lemma existsb_eqb_map : forall x l, existsb (Z.eqb (f x)) (map f l) = existsb (Z.eqb x) l.
  Proof.
    intros x l. induction l as [|a l IH]; simpl; auto. rewrite IH. f_equal.
    destruct (x =? a) eqn:E.
    - apply Z.eqb_eq in E. subst. apply Z.eqb_refl.
    - apply Z.eqb_neq in E. apply Z.eqb_neq. intro H. apply E. apply f_inj. exact H.
  Qed.

  Lemma user_def_b_rn : forall user d, user_def_b (map f user) (rn_def f d) = user_def_b user d.
  Proof. intros. unfold user_def_b. simpl. apply existsb_eqb_map. Qed.

  Lemma user_defs_rn : forall p, user_defs (rn_project f p) = map (rn_def f) (user_defs p).
  Proof.
    intros p. unfold user_defs. simpl. apply filter_map_comm. intros d. apply user_def_b_rn.
  Qed.

  Lemma produced_def_rn : forall d, produced_def (rn_def f d) = map (rn_report f) (produced_def d).
  Proof.
    intros d. unfold produced_def. simpl. rewrite map_app. f_equal. destruct (d_err d); reflexivity.
  Qed.

  Lemma flat_map_produced_rn : forall ds,
    flat_map produced_def (map (rn_def f) ds) = map (rn_report f) (flat_map produced_def ds).
  Proof.
    induction ds as [|d ds IH]; simpl; auto. rewrite map_app, IH, produced_def_rn. reflexivity.
  Qed.

  Lemma produced_rn : forall p, produced (rn_project f p) = map (rn_report f) (produced p).
  Proof.
    intros p. unfold produced. rewrite user_defs_rn, flat_map_produced_rn, map_app. reflexivity.
  Qed.

  Lemma forallb_not_user_rn : forall user l,
    forallb (fun x => negb (existsb (Z.eqb x) (map f user))) (map f l) =
    forallb (fun x => negb (existsb (Z.eqb x) user)) l.
  Proof.
    intros user l. induction l as [|a l IH]; simpl; auto. rewrite IH, existsb_eqb_map. reflexivity.
  Qed.

  Lemma keep_b_rn : forall o user r, keep_b o (map f user) (rn_report f r) = keep_b o user r.
  Proof.
    intros o user r. unfold keep_b. simpl. rewrite forallb_not_user_rn.
    destruct (r_pfiles r); reflexivity.
  Qed.

  Lemma keys_rn : forall ds, map d_key (map (rn_def f) ds) = map d_key ds.
  Proof. intros ds. rewrite map_map. apply map_ext. intros d. reflexivity. Qed.

  Lemma wf_project_rn : forall p, wf_project p -> wf_project (rn_project f p).
  Proof. intros p H. unfold wf_project. simpl. rewrite keys_rn. exact H. Qed.

  Lemma analysis_order_rn : forall p order, analysis_order p order <-> analysis_order (rn_project f p) order.
  Proof. intros p order. unfold analysis_order. rewrite user_defs_rn, keys_rn. tauto. Qed.

  Theorem file_ids_renumbered : forall p o order order',
    wf_project p -> analysis_order p order -> analysis_order p order' ->
    Permutation (res_shown (run_keys (rn_project f p) o order'))
                (map (rn_report f) (res_shown (run_keys p o order))) /\
    res_exit (run_keys (rn_project f p) o order') = res_exit (run_keys p o order).
  Proof.
    intros p o order order' Hwf Ho Ho'.
    apply (renamed_findings_same_display (rn_report f)); auto using wf_project_rn.
    - apply -> analysis_order_rn. exact Ho'.
    - rewrite produced_rn. reflexivity.
    - intros r. apply keep_b_rn.
  Qed.
End Renumbering.

(* non-vacuity: swapping the ids of two files *)
Definition swap01 (x : Z) : Z := if x =? 0 then 1 else if x =? 1 then 0 else x.

Lemma swap01_injective : injective swap01.
Proof.
  intros x y. unfold swap01.
  destruct (Z.eqb_spec x 0), (Z.eqb_spec y 0), (Z.eqb_spec x 1), (Z.eqb_spec y 1); intros; subst; congruence.
Qed.
