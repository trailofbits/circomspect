(* Used by C19 (props/C19.v, through Proofs.IncludesRunnerProofs): whatever the
   definitions, the analysis order and the caches, every diagnostic that
   Model.Runner.run_keys puts on stdout or into the SARIF file passed the three
   filters of cli/src/main.rs.  No well-formedness premise: [shown] only ever
   grows by `write_reports`, which filters (RunnerProofs.run_keys_any). *)
From Coq Require Import ZArith List Bool Lia.
Require Import Model.Base Gen.Category Model.Runner Spec.RunnerSpec Proofs.RunnerProofs.
Import ListNotations.

Lemma shown_passes_filters : forall p o order r,
  In r (res_shown (run_keys p o order)) -> passes_filters o (p_user p) r = true.
Proof. intros p o order r. destruct (run_keys_any p o order) as [A _]. rewrite A, filter_In. tauto. Qed.

Lemma sarif_passes_filters : forall p o order results rules r,
  res_sarif (run_keys p o order) = Some (results, rules) -> In r results ->
  passes_filters o (p_user p) r = true.
Proof.
  intros p o order results rules r. destruct (run_keys_any p o order) as (_ & _ & _ & D & _). rewrite D.
  destruct (o_sarif o); [|discriminate]. intros [= <- _] Hr. apply filter_In in Hr. tauto.
Qed.

Lemma passes_filters_file o user r : passes_filters o user r = true -> filter_by_file r user = true.
Proof. unfold passes_filters. rewrite !andb_true_iff. tauto. Qed.

Lemma filter_by_file_false r user :
  r_pfiles r <> [] -> (forall f, In f (r_pfiles r) -> ~ In f user) -> filter_by_file r user = false.
Proof. intros Hne Hall. rewrite <- not_true_iff_false, filter_by_file_spec. intros H. apply H. split; assumption. Qed.
