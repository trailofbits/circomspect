(* C01 (bridge SSA -> propagation): the SSA construction mirror keeps a graph free of
   value claims.  Renaming changes variable names only (the knowledge slot of every
   node is copied), the inserted phi statements carry no knowledge, phi arguments and
   the version lists of declarations are not claims.  So [Clean.clean_cfg], the first
   hypothesis of C20_propagate_completes, holds for what into_ssa returns whenever it
   holds for what lifting built. *)
From Coq Require Import ZArith NArith List Bool Lia.
Require Import Model.Base Model.Ir Model.SsaCheck Model.Ssa Model.Justify Model.Clean Proofs.IrInd Proofs.SsaNoPanic.
Import ListNotations.

Fixpoint clist (es : list expr) : bool :=
  match es with [] => true | x :: tl => clean_expr x && clist tl end.
Fixpoint cacc (acc : list (access expr)) : bool :=
  match acc with
  | [] => true
  | AIdx x :: tl => clean_expr x && cacc tl
  | AComp _ :: tl => cacc tl
  end.

Lemma clean_call n args k : clean_expr (ECall n args k) = claim_none k && clist args.
Proof. reflexivity. Qed.
Lemma clean_array vs k : clean_expr (EArray vs k) = claim_none k && clist vs.
Proof. reflexivity. Qed.
Lemma clean_access v acc k : clean_expr (EAccess v acc k) = claim_none k && cacc acc.
Proof. reflexivity. Qed.
Lemma clean_update v acc rhe k : clean_expr (EUpdate v acc rhe k) = claim_none k && (clean_expr rhe && cacc acc).
Proof. reflexivity. Qed.

Section Rename.
Variable decls : list (vname * vtype).

Lemma rename_read_ok env v v' : rename_read decls env v = SOk v' -> True.
Proof. trivial. Qed.

(* the knowledge slot of a node is copied: only the variable names change *)
Lemma ssa_rename_clean :
  (forall e env e' env', ssa_expr decls env e = SOk (e', env') -> clean_expr e = true -> clean_expr e' = true) /\
  (forall es env es' env', ssa_exprs decls env es = SOk (es', env') -> clist es = true -> clist es' = true) /\
  (forall acc env acc' env', ssa_acc decls env acc = SOk (acc', env') -> cacc acc = true -> cacc acc' = true).
Proof.
  apply (ssa_expr_ind decls (fun _ e e' _ => clean_expr e = true -> clean_expr e' = true)
           (fun _ es es' _ => clist es = true -> clist es' = true)
           (fun _ acc acc' _ => cacc acc = true -> cacc acc' = true)).
  - auto.
  - intros env x x' env1 tl tl' env2 Hx Htl. apply andb_mono; assumption.
  - auto.
  - auto.
  - intros env x x' env1 tl tl' env2 Hx Htl. apply andb_mono; assumption.
  - auto.
  - auto.
  - auto.
  - intros env op l r k l' env1 r' env2 Hl Hr. cbn [clean_expr expr_know].
    apply andb_mono; [auto|apply andb_mono; assumption].
  - intros env op x k x' env1 Hx. cbn [clean_expr expr_know]. apply andb_mono; auto.
  - intros env c t f k c' env1 t' env2 f' env3 Hc Ht Hf. cbn [clean_expr expr_know].
    apply andb_mono; [auto|apply andb_mono; [apply andb_mono|]; assumption].
  - intros env n args k args' env1 Ha. rewrite !clean_call. apply andb_mono; auto.
  - intros env vs k vs' env1 Ha. rewrite !clean_array. apply andb_mono; auto.
  - intros env v acc k acc' env1 v' Ha _. rewrite !clean_access. apply andb_mono; auto.
  - intros env v acc rhe k rhe' env1 acc' env2 v' env3 Hr Ha _. rewrite !clean_update.
    apply andb_mono; [auto|apply andb_mono; assumption].
Qed.

Definition clean_logarg (a : logarg) : bool := match a with LStr => true | LExpr e => clean_expr e end.

Lemma ssa_logargs_clean : forall es env es' env', ssa_logargs decls env es = SOk (es', env') ->
  forallb clean_logarg es = true -> forallb clean_logarg es' = true.
Proof.
  apply (ssa_logargs_ind decls _ (fun _ es es' _ => forallb clean_logarg es = true -> forallb clean_logarg es' = true)
           (proj1 ssa_rename_clean)); auto.
  intros env x x' env1 tl tl' env2 Hx Htl. apply andb_mono; assumption.
Qed.

Lemma ssa_stmt_clean : forall s env s' env', ssa_stmt decls env s = SOk (s', env') ->
  clean_stmt s = true -> clean_stmt s' = true.
Proof.
  destruct ssa_rename_clean as (He & Hl & _).
  apply (ssa_stmt_cases decls (fun _ s s' _ => clean_stmt s = true -> clean_stmt s' = true)); cbn [clean_stmt].
  - intros env m names t dims dims' env1. apply Hl.
  - intros env m c t f c' env1. apply He.
  - intros env m e e' env1. apply He.
  - intros env m v op rhe sv st rhe' env1 v' env2 _ E _. apply andb_mono; [exact (He _ _ _ _ E)|auto].
  - intros env m l r l' env1 r' env2 E1 E2. apply andb_mono; [exact (He _ _ _ _ E1)|exact (He _ _ _ _ E2)].
  - intros env m args args' env1. apply ssa_logargs_clean.
  - intros env m e e' env1. apply He.
Qed.
End Rename.

Lemma clean_cfg_Forall c :
  clean_cfg c = true <-> Forall (fun b => Forall (fun s => clean_stmt s = true) (b_stmts b)) (c_blocks c).
Proof.
  unfold clean_cfg, all_stmts. rewrite forallb_forall, Forall_forall. split.
  - intros H b Hb. apply Forall_forall. intros s Hs. apply H, in_flat_map. eauto.
  - intros H s Hs. apply in_flat_map in Hs as (b & Hb & Hs). specialize (H b Hb). rewrite Forall_forall in H. auto.
Qed.

Lemma ensure_phi_arg_clean env s : clean_stmt (ensure_phi_arg env s) = clean_stmt s.
Proof. apply ensure_phi_arg_same. reflexivity. Qed.

Lemma update_decl_stmt_clean env s : clean_stmt (update_decl_stmt env s) = clean_stmt s.
Proof. apply update_decl_stmt_same. reflexivity. Qed.

(* the inserted phi statements carry no knowledge; phi arguments and the version lists of
   declarations are not claims *)
Theorem into_ssa_keeps_clean frontier children c c1 :
  clean_cfg c = true -> into_ssa frontier children c = SOk c1 -> clean_cfg c1 = true.
Proof.
  rewrite !clean_cfg_Forall. intros Hc H. apply forall2_of_Forall in Hc.
  eapply Forall_of_forall2, (into_ssa_keeps (fun _ => True)); [| | | | |exact H|exact Hc]; cbn beta.
  - trivial.
  - intros _ b v _ Hb. constructor; [reflexivity|exact Hb].
  - intros _ b env ss env' Hb E. exact (ssa_stmts_Forall _ _ (ssa_stmt_clean _) _ _ _ _ E Hb).
  - intros _ b env Hb. apply update_phis_Forall; [|exact Hb]. intros s. rewrite ensure_phi_arg_clean. auto.
  - intros _ b env Hb. apply Forall_map. eapply Forall_impl; [|exact Hb]. intros s. rewrite update_decl_stmt_clean. auto.
Qed.
