(* C13: when the decisions run out at a condition, the walk of the lifted graph
   stops exactly where the structured execution stops (walk = trace).

   The simulation of Proofs.LiftSim gives a finite walk that observes the
   trace.  What is added here is an accounting argument that needs no second
   pass over the lifting: an Exhausted execution observes exactly |ds|+1
   conditions, the last one as the last element of its trace; every condition
   the walk observes consumes one decision while there is one; so the walk meets
   the last condition with no decision left, moves to the offset behind that
   branch, and a branch is the last statement of its block in a well-formed
   graph: the walk is stuck there. *)
From stdpp Require Import list sets.
Require Import Model.Lift Spec.CfgSpec Proofs.LiftBasics Proofs.LiftInv Proofs.LiftSteps Proofs.LiftProofs
  Proofs.LiftTheorems Proofs.LiftSim Proofs.CfgContains.
Import Base(outcome, Ok, Err, Panic, OutOfFuel, bind).

Fixpoint conds (tr : list key) : nat :=
  match tr with
  | [] => 0
  | KCond _ :: r => S (conds r)
  | KLeaf _ :: r => conds r
  end.

Lemma conds_app a b : conds (a ++ b) = conds a + conds b.
Proof. induction a as [|[?|?] a IH]; simpl; [done|done|by rewrite IH]. Qed.

(* every observed condition consumed one decision, except the one at which the
   decisions ran out, which is then the last observation *)
Definition acct_res (ds : list bool) (r : result) : Prop :=
  let '(tr, ds', st) := r in
  match st with
  | Exhausted => ds' = [] /\ exists tr0 c, tr = tr0 ++ [KCond c] /\ conds tr0 = length ds
  | _ => conds tr + length ds' = length ds
  end.

Definition acct (s : sk) : Prop := forall ds, acct_res ds (run s ds).

Lemma acct_then ds r k :
  acct_res ds r -> (forall ds1, acct_res ds1 (k ds1)) -> acct_res ds (then_ r k).
Proof.
  destruct r as [[tr1 ds1] st1]. intros H1 Hk. destruct st1; try exact H1.
  specialize (Hk ds1). simpl in *. destruct (k ds1) as [[tr2 ds2] st2]. simpl in *.
  destruct st2; try (rewrite conds_app; lia).
  destruct Hk as (-> & tr0 & c & -> & Hc). split; [done|].
  exists (tr1 ++ tr0), c. split; [by rewrite app_assoc|]. rewrite conds_app. lia.
Qed.

Lemma acct_obs c b ds r : acct_res ds r -> acct_res (b :: ds) (obs (KCond c) r).
Proof.
  destruct r as [[tr ds'] st]. simpl. destruct st; try lia.
  intros (-> & tr0 & c' & -> & Hc). split; [done|]. exists (KCond c :: tr0), c'. split; [done|]. simpl. lia.
Qed.

Lemma acct_branch c rt rf ds :
  (forall ds1, acct_res ds1 (rt ds1)) -> (forall ds1, acct_res ds1 (rf ds1)) ->
  acct_res ds (branch_res c rt rf ds).
Proof.
  intros Ht Hf. destruct ds as [|[] ds1]; [|by apply acct_obs..]. split; [done|]. by exists [], c.
Qed.

Lemma acct_seq ss : Forall acct ss -> forall ds, acct_res ds (run_seq ss ds).
Proof.
  induction 1 as [|s r Hs _ IH]; intros ds; [done|].
  change (run_seq (s :: r) ds) with (then_ (run s ds) (run_seq r)). by apply acct_then.
Qed.

Lemma acct_loop c body : acct body -> forall fuel ds, acct_res ds (run_loop c (run body) fuel ds).
Proof.
  intros Hb. induction fuel as [|fuel IH]; intros ds; [done|]. rewrite run_loop_S.
  apply acct_branch; intros ds1; [by apply acct_then|simpl; lia].
Qed.

Theorem acct_all s : acct s.
Proof.
  induction s as [id r|ss IH|ss IH|c body IH|c t e IHt IHe] using sk_ind'; intros ds.
  - simpl. by destruct r.
  - rewrite run_init. by apply acct_seq.
  - rewrite run_block. by apply acct_seq.
  - rewrite run_while. by apply acct_loop.
  - destruct e as [e|].
    + change (run (SIf c t (Some e)) ds) with (branch_res c (run t) (run e) ds).
      apply acct_branch; [done|by apply IHe].
    + change (run (SIf c t None) ds) with (branch_res c (run t) (fun ds1 => ([], ds1, Running)) ds).
      apply acct_branch; [done|]. intros ds1. simpl. lia.
Qed.

(* a step that observes a condition drops one decision (if there is one); any
   other step leaves the decisions alone; a condition met without a decision
   moves to the offset behind its branch *)
Lemma step_cases G p ds o p1 ds1 :
  step G p ds = Some (o, p1, ds1) ->
  match o with
  | Some (KCond c) =>
      ds1 = tail ds /\
      (ds = [] -> exists i k B t f, p = (i, k) /\ G !! i = Some B /\
                    b_items B !! k = Some (IBranch c t f) /\ p1 = (i, S k))
  | _ => ds1 = ds
  end.
Proof.
  unfold step. destruct p as [i k]. destruct (G !! i) as [B|] eqn:EB; [|done].
  destruct (b_items B !! k) as [[id|c t f]|] eqn:Ek.
  - by intros [= <- <- <-].
  - destruct ds as [|[] ds0].
    + intros [= <- <- <-]. split; [done|]. intros _. by exists i, k, B, t, f.
    + by intros [= <- <- <-].
    + destruct (false_target (b_succs B) t f); by intros [= <- <- <-].
  - case_decide; [|done]. destruct (last (b_items B)) as [[|]|]; try done;
      destruct (b_succs B) as [|x [|]]; try done; by intros [= <- <- <-].
Qed.

(* what LiftTheorems.branch_only_last says of a lifted graph *)
Definition branch_last (G : graph) : Prop :=
  forall i B k c t f, G !! i = Some B -> b_items B !! k = Some (IBranch c t f) -> S k = length (b_items B).

Lemma stuck_behind_branch G i B k c t f ds :
  branch_last G -> G !! i = Some B -> b_items B !! k = Some (IBranch c t f) -> stuck G (i, S k) ds.
Proof.
  intros Hbl HB Hk. pose proof (Hbl _ _ _ _ _ _ HB Hk) as Hlen.
  unfold stuck, step. rewrite HB. rewrite (lookup_ge_None_2 (b_items B)) by lia.
  rewrite decide_True by done.
  assert (last (b_items B) = Some (IBranch c t f)) as ->; [|done].
  rewrite last_lookup', <- Hlen. simpl. by rewrite Nat.sub_0_r.
Qed.

Lemma walks_from_stuck G p ds tr q ds' : stuck G p ds -> walks G p ds tr q ds' -> q = p /\ ds' = ds /\ tr = [].
Proof. intros Hst Hw. destruct Hw as [|? ? ? ? ? ? ? ? Hs _]; [done|]. unfold stuck in Hst. congruence. Qed.

(* a walk whose observations end with the (|ds|+1)-th condition is stuck *)
Lemma walks_exhausted_stuck G p ds tr q ds' :
  branch_last G -> walks G p ds tr q ds' ->
  forall tr0 c, tr = tr0 ++ [KCond c] -> conds tr0 = length ds -> stuck G q ds'.
Proof.
  intros Hbl. induction 1 as [p ds|p ds o p1 ds1 tr p2 ds2 Hs Hw IH]; intros tr0 c Htr Hc.
  - by destruct tr0.
  - pose proof (step_cases _ _ _ _ _ _ Hs) as Hcase.
    destruct o as [[id|c']|]; simpl in Htr.
    + subst ds1. destruct tr0 as [|k0 tr0]; [done|]. injection Htr as <- ->. simpl in Hc.
      by eapply IH.
    + destruct Hcase as [-> Hnil]. destruct tr0 as [|k0 tr0].
      * injection Htr as <- ->. simpl in Hc. destruct ds; [|done].
        destruct (Hnil eq_refl) as (i & k & B & t & f & -> & HB & Hk & ->). simpl in Hw.
        assert (Hst : stuck G (i, S k) []) by (by eapply stuck_behind_branch).
        destruct (walks_from_stuck _ _ _ _ _ _ Hst Hw) as (-> & -> & _). done.
      * injection Htr as <- ->. simpl in Hc. destruct ds as [|b ds]; [done|]. simpl in *.
        eapply IH; [done|lia].
    + subst ds1. by eapply IH.
Qed.

Theorem cfg_equals_source_exhausted body g ds :
  lift body = Ok g -> final_status body ds = Exhausted ->
  exists n0, forall n, n0 <= n -> walk n g ds = trace body ds.
Proof.
  intros Hl Hfin.
  destruct (cfg_contains_source_walks body g ds Hl) as (q & ds' & Hw).
  pose proof (acct_all body ds) as Ha. unfold trace, final_status in *.
  destruct (run body ds) as [[tr ds0] st]. simpl in *. subst st.
  destruct Ha as (_ & tr0 & c & Htr & Hc).
  eapply walks_stuck_walk_from; [exact Hw|].
  eapply walks_exhausted_stuck; [exact (branch_only_last body g Hl)|exact Hw|exact Htr|exact Hc].
Qed.
