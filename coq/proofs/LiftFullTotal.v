(* Totality of the content-carrying lifting mirror: on a definition that
   satisfies the decidable predicate LiftFull.definition_wf (evaluated on every
   parsed and desugared definition by the engine `liftfull`), try_lift_impl never
   reaches a Panic site (and there is no fuel): it returns a graph or one of the
   two errors.

   The graph panic sites (192, 228, 288, 382, the model-only one) are excluded
   through Model.Lift: LiftFull.visit and Lift.visit run in lock step on a graph
   and its skeleton ([rel]), and Model.Lift never panics on the shape the
   desugarer hands on (Proofs.LiftTotalFlat, C01).  The content panic sites (1119,
   1193: sugar reaching lifting; 2017: a declaration key tracked twice) are
   excluded by the hypotheses; 3184, 4001, 4002 by an invariant of the renaming
   pass. *)
From Coq Require Import ZArith NArith Ascii String.
From stdpp Require Import list.
Require Import Model.Lift Model.LiftFull Proofs.LiftBasics Proofs.LiftProofs Proofs.LiftFullProofs Proofs.LiftTotalFlat.
Require Model.Ast Model.Ir Proofs.DesugarProofs Proofs.PipelineProofs.
Import Base(outcome, Ok, Err, Panic, OutOfFuel, bind, EOther).
Local Open Scope nat_scope.

Definition np {A} (m : outcome A) : Prop :=
  match m with Panic _ | OutOfFuel => False | _ => True end.

Lemma np_bind {A B} (m : outcome A) (f : A -> outcome B) :
  np m -> (forall a, m = Ok a -> np (f a)) -> np (bind m f).
Proof. destruct m; simpl; auto. Qed.

Lemma lift_name_np n : np (lift_name n).
Proof. unfold lift_name. destruct (split_dot n) as [|a [|b [|c r]]]; done. Qed.

Lemma lift_expr_var_eq m n acc :
  lift_expr (Ast.Variable_ m n acc) =
  match acc with
  | [] => bind (lift_name n) (fun v => Ok (XVar (lift_meta m) v))
  | _ => bind (lift_name n) (fun v => bind (LiftFull.lift_accs acc) (fun acc' => Ok (XAccess (lift_meta m) v acc')))
  end.
Proof. destruct acc; reflexivity. Qed.

Lemma lift_expr_call_eq m id args :
  lift_expr (Ast.Call m id args) = bind (LiftFull.lift_exprs args) (fun a => Ok (XCall (lift_meta m) id a)).
Proof. reflexivity. Qed.

Lemma lift_expr_array_eq m vs :
  lift_expr (Ast.ArrayInLine m vs) = bind (LiftFull.lift_exprs vs) (fun a => Ok (XArray (lift_meta m) a)).
Proof. reflexivity. Qed.

Definition expr_np (e : Ast.expression) : Prop := expr_sugar_free e = true -> np (lift_expr e).

Lemma lift_exprs_np l : Forall expr_np l -> forallb expr_sugar_free l = true -> np (LiftFull.lift_exprs l).
Proof.
  induction 1 as [|e l He _ IH]; simpl; [done|]. intros H. apply andb_prop in H as [H1 H2].
  apply np_bind; [by apply He|]. intros x _. apply np_bind; [by apply IH|]. done.
Qed.

Lemma lift_accs_np l : Forall (DesugarProofs.access_all expr_np) l ->
  forallb access_sugar_free l = true -> np (LiftFull.lift_accs l).
Proof.
  induction 1 as [|a l Ha _ IH]; simpl; [done|]. intros H. apply andb_prop in H as [H1 H2].
  destruct a as [s|i]; simpl in *.
  - apply np_bind; [by apply IH|]. done.
  - apply np_bind; [by apply Ha|]. intros x _. apply np_bind; [by apply IH|]. done.
Qed.

Lemma expr_sugar_free_var m n acc :
  expr_sugar_free (Ast.Variable_ m n acc) = forallb access_sugar_free acc.
Proof. reflexivity. Qed.

Lemma lift_expr_np e : expr_np e.
Proof.
  induction e using DesugarProofs.expression_ind'; intros Hsf.
  - simpl in Hsf. apply andb_prop in Hsf as [H1 H2]. simpl.
    apply np_bind; [auto|]. intros a _. apply np_bind; [auto|]. done.
  - simpl in *. apply np_bind; [auto|]. done.
  - simpl in Hsf. apply andb_prop in Hsf as [H12 H3]. apply andb_prop in H12 as [H1 H2]. simpl.
    apply np_bind; [auto|]. intros a _. apply np_bind; [auto|]. intros b _. apply np_bind; [auto|]. done.
  - simpl in *. auto.
  - rewrite expr_sugar_free_var in Hsf. rewrite lift_expr_var_eq. destruct acc as [|a0 acc0].
    + apply np_bind; [apply lift_name_np|done].
    + apply np_bind; [apply lift_name_np|]. intros v _.
      apply np_bind; [by apply lift_accs_np|done].
  - done.
  - rewrite lift_expr_call_eq. apply np_bind; [by apply lift_exprs_np|done].
  - done.
  - rewrite lift_expr_array_eq. apply np_bind; [by apply lift_exprs_np|done].
  - done.
Qed.

Lemma lift_exprs_np' l : forallb expr_sugar_free l = true -> np (LiftFull.lift_exprs l).
Proof. apply lift_exprs_np. apply Forall_forall. intros e _. apply lift_expr_np. Qed.

Lemma lift_accs_np' l : forallb access_sugar_free l = true -> np (LiftFull.lift_accs l).
Proof.
  apply lift_accs_np. apply Forall_forall. intros [s|i] _; simpl; [done|apply lift_expr_np].
Qed.

Lemma lift_logargs_np l : forallb logarg_sugar_free l = true -> np (lift_logargs l).
Proof.
  induction l as [|a l IH]; simpl; [done|]. intros H. apply andb_prop in H as [H1 H2].
  destruct a as [s|e]; simpl in *.
  - apply np_bind; [auto|done].
  - apply np_bind; [by apply lift_expr_np|]. intros x _. apply np_bind; [auto|done].
Qed.


(* TryLift for a statement that is appended as it is *)
Lemma lift_plain_np s : plain_stmt s -> stmt_sugar_free s = true -> np (lift_stmt s).
Proof.
  destruct s; try done; simpl; intros _ Hsf.
  - apply np_bind; [by apply lift_expr_np|done].
  - apply andb_prop in Hsf as [H1 H2]. apply np_bind.
    + destruct acc as [|a0 acc0]; [by apply lift_expr_np|].
      apply np_bind; [apply lift_name_np|]. intros v _.
      apply np_bind; [by apply lift_accs_np'|]. intros a _.
      apply np_bind; [by apply lift_expr_np|done].
    + intros a _. apply np_bind; [apply lift_name_np|done].
  - apply andb_prop in Hsf as [H1 H2].
    apply np_bind; [by apply lift_expr_np|]. intros a _. apply np_bind; [by apply lift_expr_np|done].
  - apply np_bind; [by apply lift_logargs_np|done].
  - apply np_bind; [by apply lift_expr_np|done].
Qed.

Lemma forallb_map_ext {A B} (f : B -> bool) (g : A -> B) (h : A -> bool) l :
  Forall (fun a => f (g a) = h a) l -> forallb f (map g l) = forallb h l.
Proof. induction 1 as [|a l Ha _ IH]; simpl; [done|]. by rewrite Ha, IH. Qed.

Lemma forallb_Forall2 {A} (f : A -> bool) l l' : Forall2 (fun a b => f b = f a) l l' -> forallb f l' = forallb f l.
Proof. induction 1 as [|a b l l' Hab _ IH]; simpl; [done|]. by rewrite Hab, IH. Qed.

Lemma ren_expr_sf env e : expr_sugar_free (ren_expr env e) = expr_sugar_free e.
Proof.
  induction e using DesugarProofs.expression_ind'; simpl; try done.
  - by rewrite IHe1, IHe2.
  - by rewrite IHe1, IHe2, IHe3.
  - apply forallb_map_ext. eapply Forall_impl; [exact H|]. intros [s|i]; simpl; done.
  - apply forallb_map_ext. exact H.
  - apply forallb_map_ext. exact H.
Qed.

Lemma ren_exprs_sf env l : forallb expr_sugar_free (map (ren_expr env) l) = forallb expr_sugar_free l.
Proof. apply forallb_map_ext. apply Forall_forall. intros e _. apply ren_expr_sf. Qed.

Lemma ren_accs_sf env l : forallb access_sugar_free (map (ren_access env) l) = forallb access_sugar_free l.
Proof. apply forallb_map_ext. apply Forall_forall. intros [s|i] _; simpl; [done|apply ren_expr_sf]. Qed.

Lemma ren_logargs_sf env l : forallb logarg_sugar_free (map (ren_logarg env) l) = forallb logarg_sugar_free l.
Proof. apply forallb_map_ext. apply Forall_forall. intros [s|e] _; simpl; [done|apply ren_expr_sf]. Qed.

Definition ren_sf (s : Ast.statement) : Prop :=
  forall st r, ren_stmt s st = Ok r -> stmt_sugar_free (fst r) = stmt_sugar_free s.

Lemma ren_sf_all s : ren_sf s.
Proof.
  induction s as [m c t e IHt IHe|m c body IH|m t ss IH|m ss IH|m t n dd cst|s Hplain] using stmt_ind';
    intros st r Hr.
  - simpl in Hr. inv_bind Hr. destruct e as [e|].
    + inv_bind Hr. injection Hr as <-. simpl. by rewrite ren_expr_sf, (IHt _ _ E), (IHe _ _ E0).
    + injection Hr as <-. simpl. by rewrite ren_expr_sf, (IHt _ _ E).
  - simpl in Hr. inv_bind Hr. injection Hr as <-. simpl. by rewrite ren_expr_sf, (IH _ _ E).
  - rewrite ren_init_eq in Hr. inv_bind Hr. injection Hr as <-.
    exact (forallb_Forall2 _ _ _ (ren_stmts_Forall2 _ ss IH _ _ E)).
  - rewrite ren_block_eq in Hr. inv_bind Hr. inv_bind Hr. injection Hr as <-.
    exact (forallb_Forall2 _ _ _ (ren_stmts_Forall2 _ ss IH _ _ E)).
  - simpl in Hr. inv_bind Hr. destruct (fst a); injection Hr as <-; simpl; apply ren_exprs_sf.
  - destruct s; try done; simpl in Hr; injection Hr as <-; simpl;
      rewrite ?ren_expr_sf, ?ren_accs_sf, ?ren_logargs_sf; done.
Qed.

(* the three environments keep their depth, so the asserts of VarEnvironment hold *)
Definition good (e : denv) : Prop :=
  1 <= length (declarations e) /\ 1 <= length (scoped_versions e) /\ 1 <= length (global_versions e).

Definition depths (e : denv) : nat * nat * nat :=
  (length (declarations e), length (scoped_versions e), length (global_versions e)).

Lemma add_declaration_ok n d e : good e ->
  exists r, add_declaration n d e = Ok r /\ good (snd r) /\ depths (snd r) = depths e.
Proof.
  destruct e as [[|b1 r1] [|b2 r2] [|b3 r3]]; unfold good; simpl; try lia. intros _.
  unfold add_declaration, get_next_version. simpl.
  destruct (match assoc n b3 with Some v => Some v | None => get_variable n r3 end) as [[v|]|]; simpl;
    eexists; (split; [done|]); unfold good, depths; simpl; (split; [lia|done]).
Qed.

Definition ren_total (s : Ast.statement) : Prop :=
  forall st, good (fst st) -> exists r, ren_stmt s st = Ok r /\ good (fst (snd r)) /\ depths (fst (snd r)) = depths (fst st).

Lemma ren_stmts_total ss : Forall ren_total ss ->
  forall st, good (fst st) -> exists r, ren_stmts ss st = Ok r /\ good (fst (snd r)) /\ depths (fst (snd r)) = depths (fst st).
Proof.
  induction 1 as [|s l Hs _ IH]; intros st G; simpl.
  - eexists. split; [done|]. done.
  - destruct (Hs st G) as (a & -> & Ga & Da). simpl.
    destruct (IH (snd a) Ga) as (b & -> & Gb & Db). simpl.
    eexists. split; [done|]. simpl. split; [done|]. by rewrite Db.
Qed.

Lemma ren_total_all s : ren_total s.
Proof.
  induction s as [m c t e IHt IHe|m c body IH|m t ss IH|m ss IH|m t n dd cst|s Hplain] using stmt_ind';
    intros st G.
  - simpl. destruct (IHt st G) as (rt & -> & Gt & Dt). simpl. destruct e as [e|].
    + destruct (IHe (snd rt) Gt) as (re & -> & Ge & De). simpl.
      eexists. split; [done|]. simpl. split; [done|]. by rewrite De.
    + eexists. split; [done|]. done.
  - simpl. destruct (IH st G) as (rb & -> & Gb & Db). simpl. eexists. split; [done|]. done.
  - rewrite ren_init_eq. destruct (ren_stmts_total ss IH st G) as (r & -> & Gr & Dr). simpl.
    eexists. split; [done|]. done.
  - rewrite ren_block_eq.
    assert (G' : good (fst (denv_add_block (fst st), snd st))).
    { destruct G as (G1 & G2 & G3). unfold good, denv_add_block. simpl. lia. }
    destruct (ren_stmts_total ss IH _ G') as (r & -> & Gr & Dr). cbn [bind].
    unfold depths, denv_add_block in Dr. simpl in Dr. injection Dr as D1 D2 D3.
    unfold denv_remove_block.
    destruct (declarations (fst (snd r))) as [|b1 r1] eqn:E1; [simpl in D1; lia|].
    destruct (scoped_versions (fst (snd r))) as [|b2 r2] eqn:E2; [simpl in D2; lia|].
    simpl. eexists. split; [done|]. unfold good, depths. simpl in *.
    destruct G as (G1 & G2 & G3). split; [lia|]. f_equal; [f_equal|]; lia.
  - simpl. destruct (add_declaration_ok n (Ast.m_file m, meta_loc m) (fst st) G) as (r & -> & Gr & Dr). simpl.
    destruct (fst r); eexists; (split; [done|]); done.
  - destruct s; try done; simpl; eexists; (split; [done|]); done.
Qed.

Lemma env_of_params_np ps d e : good e -> np (env_of_params ps d e) /\
  forall e', env_of_params ps d e = Ok e' -> good e'.
Proof.
  revert e. induction ps as [|p r IH]; intros e G; simpl; [split; [done|by intros e' [= <-]]|].
  destruct (add_declaration_ok p d e G) as (a & -> & Ga & _). simpl.
  destruct (fst a); [split; [done|done]|]. by apply IH.
Qed.

Lemma ensure_unique_np params pfile ploc body : is_block body = true ->
  np (ensure_unique_variables params pfile ploc body).
Proof.
  intros Hb. unfold ensure_unique_variables. rewrite Hb. simpl.
  assert (G0 : good denv_new) by (unfold good, denv_new; simpl; lia).
  destruct (env_of_params_np params (pfile, ploc) denv_new G0) as [Hnp Hg].
  apply np_bind; [exact Hnp|]. intros env He.
  destruct (ren_total_all body (env, []) (Hg _ He)) as (r & -> & _). done.
Qed.


Lemma nodup_names_app_l a b : nodup_names (a ++ b) = true -> nodup_names a = true.
Proof.
  induction a as [|x a IH]; simpl; [done|]. intros H. apply andb_prop in H as [H1 H2].
  rewrite (IH H2), andb_true_r. rewrite existsb_app, negb_orb in H1. by apply andb_prop in H1 as [-> _].
Qed.

Lemma nodup_names_snoc l v : nodup_names (l ++ [v]) = true -> existsb (fun x => Ir.vname_eqb x v) l = false.
Proof.
  induction l as [|x l IH]; simpl; [done|]. intros H. apply andb_prop in H as [H1 H2].
  rewrite (IH H2), orb_false_r. rewrite existsb_app, negb_orb in H1. apply andb_prop in H1 as [_ H1].
  simpl in H1. rewrite orb_false_r in H1. by apply negb_true_iff in H1.
Qed.

Lemma decl_tracked_names v ds : decl_tracked v ds = existsb (fun x => Ir.vname_eqb x v) (map xd_name ds).
Proof. unfold decl_tracked. induction ds as [|d ds IH]; simpl; [done|]. by rewrite IH. Qed.

Lemma decls_add_ok d ds : nodup_names (map xd_name ds ++ [xd_name d]) = true ->
  decls_add d ds = Ok (ds ++ [d]).
Proof. intros H. unfold decls_add. by rewrite decl_tracked_names, (nodup_names_snoc _ _ H). Qed.

Lemma names_of_lifted_app a b : names_of_lifted (a ++ b) = names_of_lifted a ++ names_of_lifted b.
Proof. unfold names_of_lifted. by rewrite flat_map_app. Qed.

Lemma decls_of_params_ok ps pfile ploc ds : nodup_names (map xd_name ds ++ ps) = true ->
  exists ds', decls_of_params ps pfile ploc ds = Ok ds' /\ map xd_name ds' = map xd_name ds ++ ps.
Proof.
  revert ds. induction ps as [|p r IH]; intros ds H; simpl.
  - exists ds. by rewrite app_nil_r.
  - rewrite decls_add_ok.
    + cbn [bind]. destruct (IH (ds ++ [{| xd_name := p; xd_type := (Ir.TLocal, []); xd_dims := []; xd_file := pfile; xd_loc := ploc |}]))
        as (ds' & -> & Hn).
      * rewrite map_app. simpl. by rewrite <- app_assoc.
      * exists ds'. split; [done|]. rewrite Hn, map_app. simpl. by rewrite <- app_assoc.
    + simpl. apply (nodup_names_app_l _ r). by rewrite <- app_assoc.
Qed.


Section LockStep.
  Context (key : Ir.meta -> nat).
  Notation er := (map (skel_block key)).

  (* the relation between the outcome of the content-carrying visit and the
     outcome of the skeleton visit: equal graphs (up to content) and predecessor
     sets, the declaration keys grow by [names]; a panic of the content-carrying
     side is a panic of the skeleton side at the same site *)
  Definition rel (ds0 names : list Ir.vname) (xr : outcome (lstate * list nat)) (lr : outcome (graph * list nat)) : Prop :=
    match xr with
    | Ok res => lr = Ok (er (fst (fst res)), snd res) /\ map xd_name (snd (fst res)) = ds0 ++ names
    | Panic site => lr = Panic site
    | Err _ => True
    | OutOfFuel => lr = OutOfFuel
    end.

  (* a graph operation: the skeleton side is its image *)
  Lemma rel_graph ds0 names (m : outcome xgraph) kx kl :
    (forall g, rel ds0 names (kx g) (kl (er g))) -> rel ds0 names (bind m kx) (bind (er_out key m) kl).
  Proof. intros H. destruct m; simpl; auto. Qed.

  (* an operation with the same outcome on both sides *)
  Lemma rel_same {A} ds0 names (m : outcome A) kx kl :
    (forall a, rel ds0 names (kx a) (kl a)) -> rel ds0 names (bind m kx) (bind m kl).
  Proof. intros H. destruct m; simpl; auto. Qed.

  (* a content operation: only the content-carrying side performs it *)
  Lemma rel_content {A} ds0 names (m : outcome A) kx lr :
    np m -> (forall a, m = Ok a -> rel ds0 names (kx a) lr) -> rel ds0 names (bind m kx) lr.
  Proof. intros Hnp H. destruct m; simpl in *; auto; done. Qed.

  (* a sub-visit, which adds the keys [n1] *)
  Lemma rel_visit ds0 n1 ds names xr lr kx kl :
    rel ds0 n1 xr lr ->
    (forall res : lstate * list nat,
       map xd_name (snd (fst res)) = ds0 ++ n1 -> rel ds names (kx res) (kl (er (fst (fst res)), snd res))) ->
    rel ds names (bind xr kx) (bind lr kl).
  Proof.
    intros Hr H. destruct xr as [res|e|s|]; simpl in *; [|done|by rewrite Hr..].
    destruct Hr as [-> Hn]. by apply H.
  Qed.

  Lemma rel_assoc ds0 n1 n2 xr lr : rel (ds0 ++ n1) n2 xr lr -> rel ds0 (n1 ++ n2) xr lr.
  Proof. destruct xr; simpl; [|done..]. by rewrite app_assoc. Qed.

  Definition dnames (s : Ast.statement) : list Ir.vname := names_of_lifted (declared_names s).

  Definition tot (s : Ast.statement) : Prop :=
    forall d st, stmt_sugar_free s = true ->
      nodup_names (map xd_name (snd st) ++ dnames s) = true ->
      rel (map xd_name (snd st)) (dnames s) (LiftFull.visit s d st) (Lift.visit (skel key s) d (er (fst st))).

  Definition dnames_l (ss : list Ast.statement) : list Ir.vname := names_of_lifted (flat_map declared_names ss).

  Lemma dnames_l_cons s ss : dnames_l (s :: ss) = dnames s ++ dnames_l ss.
  Proof. apply names_of_lifted_app. Qed.

  Lemma tot_seq ss : Forall tot ss ->
    forall d ps st, forallb stmt_sugar_free ss = true ->
      nodup_names (map xd_name (snd st) ++ dnames_l ss) = true ->
      rel (map xd_name (snd st)) (dnames_l ss) (xvisit_seq d ss ps st) (visit_seq d (map (skel key) ss) ps (er (fst st))).
  Proof.
    induction 1 as [|s r Hs _ IH]; intros d ps st Hsf Hn; simpl.
    - split; [done|]. by rewrite app_nil_r.
    - apply andb_prop in Hsf as [Hsf1 Hsf2]. rewrite dnames_l_cons, app_assoc in Hn. rewrite dnames_l_cons.
      assert (Hc : (if is_nil ps then Ok (er (fst st)) else Lift.complete (er (fst st)) ps d)
                   = er_out key (if is_nil ps then Ok (fst st)
                                 else LiftFull.complete (fst st) (lift_meta (Ast.stmt_meta s)) ps d)).
      { destruct (is_nil ps); [done|]. apply er_complete. }
      rewrite Hc. apply rel_graph. intros g.
      apply (rel_visit _ _ _ _ _ _ _ _ (Hs d (g, snd st) Hsf1 (nodup_names_app_l _ _ Hn))).
      intros res Hres. cbn [snd] in Hres. apply rel_assoc. rewrite <- Hres in Hn |- *. exact (IH d _ _ Hsf2 Hn).
  Qed.

  Lemma tot_init ss : Forall tot ss ->
    forall d st, forallb stmt_sugar_free ss = true ->
      nodup_names (map xd_name (snd st) ++ dnames_l ss) = true ->
      rel (map xd_name (snd st)) (dnames_l ss) (xvisit_init d ss st) (visit_init d (map (skel key) ss) (er (fst st))).
  Proof.
    induction 1 as [|s r Hs _ IH]; intros d st Hsf Hn; simpl.
    - split; [done|]. by rewrite app_nil_r.
    - apply andb_prop in Hsf as [Hsf1 Hsf2]. rewrite dnames_l_cons, app_assoc in Hn. rewrite dnames_l_cons.
      apply (rel_visit _ _ _ _ _ _ _ _ (Hs d st Hsf1 (nodup_names_app_l _ _ Hn))).
      intros res Hres. cbn [fst snd]. destruct (is_nil (snd res)); [|done].
      apply rel_assoc. rewrite <- Hres in Hn |- *. exact (IH d _ Hsf2 Hn).
  Qed.

  Lemma tot_all s : tot s.
  Proof.
    induction s as [m c t e IHt IHe|m c body IH|m t ss IH|m ss IH|m t n dd cst|s Hplain] using stmt_ind';
      intros d st Hsf Hn.
    - (* if *)
      simpl in Hsf. apply andb_prop in Hsf as [Hsf12 Hsf3]. apply andb_prop in Hsf12 as [Hsf1 Hsf2].
      cbn [LiftFull.visit skel Lift.visit]. rewrite er_last_index.
      apply rel_same. intros cur.
      apply rel_content; [by apply lift_expr_np|]. intros c' _.
      rewrite (er_push key (XIf (lift_meta m) c' (cur + 1) None)).
      apply rel_graph. intros g1.
      rewrite (er_complete key _ (lift_meta (Ast.stmt_meta t))).
      apply rel_graph. intros g2.
      unfold dnames in Hn |- *. simpl declared_names in Hn |- *. rewrite names_of_lifted_app in Hn |- *.
      rewrite app_assoc in Hn.
      apply (rel_visit _ _ _ _ _ _ _ _ (IHt d (g2, snd st) Hsf2 (nodup_names_app_l _ _ Hn))).
      intros rt Hrt. unfold dnames in Hrt. cbn [fst snd] in Hrt |- *. rewrite er_or_last.
      apply rel_same. intros ps_if.
      destruct e as [e|]; cbn [option_map].
      + rewrite (er_complete key _ (lift_meta (Ast.stmt_meta e))).
        apply rel_graph. intros g3. rewrite <- Hrt in Hn.
        apply (rel_visit _ _ _ _ _ _ _ _ (IHe d (g3, snd (fst rt)) Hsf3 Hn)).
        intros re Hre. cbn [fst snd] in Hre |- *. rewrite er_or_last.
        apply rel_same. intros ps_else.
        split; [done|]. cbn [fst snd]. by rewrite Hre, Hrt, app_assoc.
      + split; [done|]. cbn [fst snd]. by rewrite Hrt, app_nil_r.
    - (* while *)
      simpl in Hsf. apply andb_prop in Hsf as [Hsf1 Hsf2].
      cbn [LiftFull.visit skel Lift.visit]. rewrite er_last_index.
      apply rel_same. intros cur.
      rewrite (er_complete key _ (lift_meta m)).
      apply rel_graph. intros g1.
      apply rel_content; [by apply lift_expr_np|]. intros c' _.
      rewrite (er_push key (XIf (lift_meta m) c' (cur + 2) None)).
      apply rel_graph. intros g2.
      rewrite (er_complete key _ (lift_meta (Ast.stmt_meta body))).
      apply rel_graph. intros g3.
      apply (rel_visit _ _ _ _ _ _ _ _ (IH (d + 1) (g3, snd st) Hsf2 Hn)).
      intros rb Hrb. cbn [fst snd]. rewrite er_or_last.
      apply rel_same. intros ps.
      change (Ok (er (fst (fst rb)))) with (er_out key (Ok (fst (fst rb)))). rewrite er_fold_back.
      apply rel_graph. intros g4. split; [done|exact Hrb].
    - (* initialization block *)
      change (skel key (Ast.InitializationBlock m t ss)) with (SInit (map (skel key) ss)).
      rewrite xvisit_init_eq, visit_init_eq, er_last_index.
      apply rel_same. intros cur.
      apply (tot_init ss IH d st Hsf Hn).
    - (* block *)
      change (skel key (Ast.Block m ss)) with (SBlock (map (skel key) ss)).
      rewrite xvisit_block_eq, visit_block_eq, er_last_index.
      apply rel_same. intros cur.
      apply (tot_seq ss IH d [] st Hsf Hn).
    - (* declaration: the two lifts succeed, so TryLift for the statement succeeds *)
      cbn [LiftFull.visit skel Lift.visit Ast.stmt_meta lift_stmt]. rewrite er_last_index.
      apply rel_same. intros cur.
      unfold dnames, names_of_lifted in Hn |- *. cbn [declared_names flat_map] in Hn |- *.
      rewrite app_nil_r in Hn |- *.
      pose proof (lift_name_np n) as Hnn. pose proof (lift_exprs_np' dd Hsf) as Hdd.
      destruct (lift_name n) as [v| | |]; cbn [bind]; try done.
      destruct (LiftFull.lift_exprs dd) as [dims'| | |]; cbn [bind]; try done.
      rewrite decls_add_ok by exact Hn. cbn [bind].
      rewrite (er_push key (XDecl (lift_meta m) [v] (lift_type t) dims')).
      apply rel_graph. intros g1. split; [done|]. exact (map_app _ _ _).
    - (* other leaves *)
      rewrite (visit_plain_eq _ _ _ Hplain).
      assert (Hs : skel key s = SLeaf (key (lift_meta (Ast.stmt_meta s))) (is_return s) /\ dnames s = [])
        by (destruct s; done).
      destruct Hs as [-> ->]. cbn [Lift.visit]. rewrite er_last_index.
      apply rel_same. intros cur.
      apply rel_content; [by apply lift_plain_np|]. intros x Hx.
      destruct (lift_stmt_ok _ _ Hx) as (_ & _ & _ & Hk). rewrite <- (Hk key), er_push.
      apply rel_graph. intros g1. split; [done|]. by rewrite app_nil_r.
  Qed.
End LockStep.


Lemma skel_flat key s : flat (skel key s) = ast_flat s.
Proof.
  induction s as [m c t e IHt IHe|m c body IH|m t ss IH|m ss IH|m t n dd cst|s Hplain] using stmt_ind'; simpl; try done.
  - by apply forallb_map_ext.
  - by apply forallb_map_ext.
  - destruct s; done.
Qed.

Lemma skel_init_flat key s : init_flat (skel key s) = ast_init_flat s.
Proof.
  induction s as [m c t e IHt IHe|m c body IH|m t ss IH|m ss IH|m t n dd cst|s Hplain] using stmt_ind'; simpl; try done.
  - rewrite IHt. destruct e as [e|]; simpl; [by rewrite IHe|done].
  - apply forallb_map_ext. apply Forall_forall. intros x _. apply skel_flat.
  - by apply forallb_map_ext.
  - destruct s; done.
Qed.

Lemma ensure_unique_sf params pfile ploc body u :
  ensure_unique_variables params pfile ploc body = Ok u -> stmt_sugar_free (fst u) = stmt_sugar_free body.
Proof. intros (st & r & Hr & ->)%ensure_unique_inv. by eapply ren_sf_all. Qed.

(* build_basic_blocks: the graph panic sites are excluded through Model.Lift, which succeeds
   on the skeleton *)
Lemma build_np key body ds : desugared_shape (skel key body) -> stmt_sugar_free body = true ->
  nodup_names (map xd_name ds ++ dnames body) = true -> np (build_basic_blocks body ds).
Proof.
  intros Hshape Hsf Hn. destruct (lift_never_panics_desugared _ Hshape) as (g & Hg).
  destruct Hshape as [(ss & Hss) _]. destruct body as [| | | | | | | | |m l|]; try done.
  pose proof (tot_all key _ 0 ([new_block (lift_meta m) 0 0], ds) Hsf Hn) as Hrel.
  unfold build_basic_blocks. unfold Lift.lift in Hg.
  change (skel key (Ast.Block m l)) with (SBlock (map (skel key) l)) in Hg, Hrel.
  change (map (skel_block key) (fst ([new_block (lift_meta m) 0 0], ds))) with [Lift.new_block 0 0] in Hrel.
  destruct (Lift.visit _ 0 [Lift.new_block 0 0]); [|done..].
  destruct (LiftFull.visit _ 0 _); simpl in *; done.
Qed.

(* On a definition that satisfies the decidable predicate [definition_wf] the
   lifting mirror never reaches a panic site (nor runs out of fuel: it has none):
   it returns a graph, or InvalidVariableNameError / ParameterNameCollisionError. *)
Theorem liftfull_never_panics : forall kind params pfile ploc body,
  definition_wf params pfile ploc body = true ->
  np (try_lift_impl kind params pfile ploc body).
Proof.
  intros kind params pfile ploc body Hwf. unfold definition_wf in Hwf.
  apply andb_prop in Hwf as [Hwf Hn]. apply andb_prop in Hwf as [Hwf Hflat]. apply andb_prop in Hwf as [Hb Hsf].
  unfold try_lift_impl.
  apply np_bind; [by apply ensure_unique_np|]. intros u Eu. rewrite Eu in Hn.
  destruct (decls_of_params_ok (map vname_plain params) pfile ploc []) as (ds0 & -> & Hds0).
  { exact (nodup_names_app_l _ _ Hn). }
  cbn [bind]. apply np_bind; [|done].
  apply (build_np (fun _ => 0)).
  - rewrite (proj1 (ensure_unique_same _ _ _ _ _ Eu)). destruct body; try done.
    split; [by eexists|]. rewrite skel_init_flat. exact Hflat.
  - by rewrite (ensure_unique_sf _ _ _ _ _ Eu).
  - by rewrite Hds0.
Qed.

(* [np] is PipelineProofs.no_panic, the form in which C01 states totality *)
Lemma np_no_panic {A} (m : outcome A) : np m <-> PipelineProofs.no_panic m.
Proof.
  unfold PipelineProofs.no_panic. destruct m as [a|e|s|]; simpl; split; try done.
  - intros [H _]. exact (H s eq_refl).
  - intros [_ H]. exact (H eq_refl).
Qed.

Theorem liftfull_never_panics' : forall kind params pfile ploc body,
  definition_wf params pfile ploc body = true ->
  (forall site, try_lift_impl kind params pfile ploc body <> Panic site) /\
  try_lift_impl kind params pfile ploc body <> OutOfFuel.
Proof. intros kind params pfile ploc body Hwf. by apply np_no_panic, liftfull_never_panics. Qed.

(* and the erased form *)
Theorem lift_to_ir_never_panics : forall kind params pfile ploc body,
  definition_wf params pfile ploc body = true ->
  (forall site, lift_to_ir kind params pfile ploc body <> Panic site) /\
  lift_to_ir kind params pfile ploc body <> OutOfFuel.
Proof.
  intros kind params pfile ploc body Hwf. apply np_no_panic.
  apply np_bind; [by apply liftfull_never_panics|done].
Qed.
