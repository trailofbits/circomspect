(* Proofs for C08 over Model.SignalAssign against Spec.SigAssignSpec. *)
From Coq Require Import ZArith NArith List Bool Lia.
Require Import Model.Base Model.Ir Model.SignalAssign Spec.SigAssignSpec Proofs.IrInd Proofs.BaseFacts.
Import ListNotations.

Lemma nth_error_app_l : forall A (l l' : list A) i, i < length l -> nth_error (l ++ l') i = nth_error l i.
Proof. intros. apply nth_error_app1. assumption. Qed.

Lemma fold_insert_distinct : forall A (eqb : A -> A -> bool) (l acc : list A),
  distinct_keys eqb (acc ++ l) -> fold_left (set_insert eqb) l acc = acc ++ l.
Proof.
  intros A eqb l. induction l as [|x l IH]; intros acc H; simpl.
  - now rewrite app_nil_r.
  - unfold set_insert at 2.
    assert (E : existsb (eqb x) acc = false).
    { destruct (existsb (eqb x) acc) eqn:Ex; [|reflexivity].
      apply existsb_exists in Ex. destruct Ex as [y [Hy Hxy]].
      apply In_nth_error in Hy. destruct Hy as [i Hi].
      assert (Hlt : i < length acc) by (apply nth_error_Some; congruence).
      rewrite (H (length acc) i x y) in Hxy; [discriminate | lia | |].
      - rewrite nth_error_app2 by lia. now rewrite Nat.sub_diag.
      - rewrite nth_error_app1 by assumption. assumption. }
    rewrite E. rewrite IH.
    + now rewrite <- app_assoc.
    + now rewrite <- app_assoc.
Qed.

Lemma fold_insert_subset : forall A (eqb : A -> A -> bool) (l acc : list A) x,
  In x (fold_left (set_insert eqb) l acc) -> In x acc \/ In x l.
Proof.
  intros A eqb l. induction l as [|y l IH]; intros acc x H; simpl in *.
  - now left.
  - apply IH in H. destruct H as [H|H]; [|now right; right].
    unfold set_insert in H. destruct (existsb (eqb y) acc).
    + now left.
    + apply in_app_or in H. destruct H as [H|[H|[]]]; [now left | right; left; assumption].
Qed.

Lemma pairwise_distinct_spec : forall A (eqb : A -> A -> bool) (l : list A),
  pairwise_distinct eqb l = true <-> distinct_keys eqb l.
Proof.
  intros A eqb l. induction l as [|x l IH]; simpl.
  - split; [|reflexivity]. intros _ i j a b _ Hi. destruct i; discriminate.
  - rewrite !andb_true_iff, !negb_true_iff, IH. split.
    + intros [[H1 H2] H3] i j a b Hij Hi Hj.
      destruct i as [|i], j as [|j]; simpl in *.
      * congruence.
      * injection Hi as <-. apply nth_error_In in Hj.
        destruct (eqb x b) eqn:E; [|reflexivity].
        assert (existsb (eqb x) l = true) by (apply existsb_exists; eauto). congruence.
      * injection Hj as <-. apply nth_error_In in Hi.
        destruct (eqb a x) eqn:E; [|reflexivity].
        assert (existsb (fun y => eqb y x) l = true) by (apply existsb_exists; eauto). congruence.
      * apply (H3 i j); auto.
    + intros H. repeat split.
      * destruct (existsb (eqb x) l) eqn:E; [|reflexivity].
        apply existsb_exists in E. destruct E as [y [Hy Hxy]].
        apply In_nth_error in Hy. destruct Hy as [j Hj].
        rewrite (H 0 (S j) x y) in Hxy; simpl; auto; discriminate.
      * destruct (existsb (fun y => eqb y x) l) eqn:E; [|reflexivity].
        apply existsb_exists in E. destruct E as [y [Hy Hxy]].
        apply In_nth_error in Hy. destruct Hy as [j Hj].
        rewrite (H (S j) 0 y x) in Hxy; simpl; auto; discriminate.
      * intros i j a b Hij Hi Hj. apply (H (S i) (S j)); simpl; auto.
Qed.

Lemma keys_distinct_b_spec : forall g, keys_distinct_b g = true <-> keys_distinct g.
Proof. intros. apply pairwise_distinct_spec. Qed.

Lemma constraint_keys_distinct_b_spec : forall g,
  constraint_keys_distinct_b g = true <-> constraint_keys_distinct g.
Proof. intros. apply pairwise_distinct_spec. Qed.

Lemma subkeys_distinct_b_spec : forall g, subkeys_distinct_b g = true <-> subkeys_distinct g.
Proof. intros. apply pairwise_distinct_spec. Qed.

(* equal Assignment keys have equal sub-keys ... *)
Lemma accs_eqb_ports : forall a b, accs_eqb a b = true -> idents_eqb (acc_ports a) (acc_ports b) = true.
Proof.
  induction a as [|x a IH]; intros [|y b] H; simpl in *; try discriminate; [reflexivity|].
  apply andb_true_iff in H. destruct H as [Hxy Hab].
  destruct x as [ex|nx], y as [ey|ny]; simpl in Hxy; try discriminate.
  - now apply IH.
  - simpl. rewrite Hxy. now apply IH.
Qed.

Lemma assignment_eqb_subkey : forall a b, assignment_eqb a b = true -> subkey_eqb a b = true.
Proof.
  intros a b H. unfold assignment_eqb in H. unfold subkey_eqb.
  apply andb_true_iff in H. destruct H as [H Hd].
  apply andb_true_iff in H. destruct H as [H Ha].
  apply andb_true_iff in H. destruct H as [Hm Hv].
  unfold vname_eqb in Hv.
  apply andb_true_iff in Hv. destruct Hv as [Hv _].
  apply andb_true_iff in Hv. destruct Hv as [Hn _].
  rewrite Hm, Hn. simpl. now apply accs_eqb_ports.
Qed.

(* ... so distinct sub-keys are distinct keys *)
Lemma subkeys_distinct_suffice : forall g, subkeys_distinct g -> keys_distinct g.
Proof.
  intros g H i j a b Hij Hi Hj.
  destruct (assignment_eqb a b) eqn:E; [|reflexivity].
  apply assignment_eqb_subkey in E. rewrite (H i j a b Hij Hi Hj) in E. discriminate.
Qed.

Lemma filter_map_app : forall A B (f : A -> option B) l l',
  filter_map f (l ++ l') = filter_map f l ++ filter_map f l'.
Proof.
  intros A B f l l'. induction l as [|x l IH]; simpl; [reflexivity|].
  destruct (f x); simpl; now rewrite IH.
Qed.

Lemma filter_map_in : forall A B (f : A -> option B) l y,
  In y (filter_map f l) -> exists x, In x l /\ f x = Some y.
Proof.
  intros A B f l y. induction l as [|x l IH]; simpl; [tauto|].
  destruct (f x) eqn:E; simpl.
  - intros [<-|H]; [eauto|]. destruct (IH H) as [x' [? ?]]. eauto.
  - intros H. destruct (IH H) as [x' [? ?]]. eauto.
Qed.

(* the two sets the walk collects, as folds over the statements *)
Definition insert_all (ds : decls) (su : signal_use) (ss : list stmt) : signal_use :=
  {| su_assignments := fold_left (set_insert assignment_eqb) (filter_map assignment_of ss) (su_assignments su);
     su_constraints := fold_left (set_insert constraint_eqb) (filter_map (constraint_of ds) ss) (su_constraints su) |}.

Lemma visit_stmts : forall ds ss su, fold_left (visit_statement ds) ss su = insert_all ds su ss.
Proof.
  intros ds ss. induction ss as [|s ss IH]; intros su; simpl; [now destruct su|].
  rewrite IH. destruct s as [| | |m v op rhe sv st| | |]; try reflexivity.
  destruct op; reflexivity.
Qed.

Lemma visit_blocks : forall ds bs su,
  fold_left (visit_block ds) bs su = insert_all ds su (flat_map b_stmts bs).
Proof.
  intros ds bs. induction bs as [|b bs IH]; intros su; simpl; [now destruct su|].
  rewrite IH. unfold visit_block. rewrite visit_stmts. unfold insert_all. simpl.
  now rewrite !filter_map_app, !fold_left_app.
Qed.

Lemma collect_assignments : forall g,
  su_assignments (collect g)
  = fold_left (set_insert assignment_eqb) (filter_map assignment_of (all_stmts g)) [].
Proof. intros. unfold collect. now rewrite visit_blocks. Qed.

Lemma collect_constraints : forall g,
  su_constraints (collect g)
  = fold_left (set_insert constraint_eqb) (filter_map (constraint_of (c_decls g)) (all_stmts g)) [].
Proof. intros. unfold collect. now rewrite visit_blocks. Qed.

Lemma collect_assignments_distinct : forall g, keys_distinct g ->
  su_assignments (collect g) = filter_map assignment_of (all_stmts g).
Proof. intros g H. rewrite collect_assignments. now rewrite fold_insert_distinct. Qed.

Lemma collect_constraints_distinct : forall g, constraint_keys_distinct g ->
  su_constraints (collect g) = filter_map (constraint_of (c_decls g)) (all_stmts g).
Proof. intros g H. rewrite collect_constraints. now rewrite fold_insert_distinct. Qed.

Definition all_reads (u : uses) : list vuse := u_sigread u ++ u_compread u.

Definition uses_list ds (xs : list expr) : uses :=
  (fix go (xs : list expr) : uses :=
     match xs with [] => uses0 | x :: xs' => uses_app (expr_uses ds x) (go xs') end) xs.

Definition uses_accs ds (xs : list (access expr)) : uses :=
  (fix goa (xs : list (access expr)) : uses :=
     match xs with
     | [] => uses0
     | AIdx x :: xs' => uses_app (expr_uses ds x) (goa xs')
     | AComp _ :: xs' => goa xs'
     end) xs.

Lemma in_all_reads_app : forall a b x,
  In x (all_reads (uses_app a b)) <-> In x (all_reads a) \/ In x (all_reads b).
Proof.
  intros a b x. unfold all_reads, uses_app; simpl. rewrite !in_app_iff. tauto.
Qed.

Lemma compwritten_app : forall a b, u_compwritten (uses_app a b) = u_compwritten a ++ u_compwritten b.
Proof. reflexivity. Qed.

Lemma in_all_reads_classify : forall ds v acc x,
  In x (all_reads (classify ds v acc)) <-> sig_or_comp ds v /\ x = (v, acc).
Proof.
  intros ds v acc x. unfold classify, sig_or_comp.
  destruct (decl_type ds v) as [t|] eqn:E.
  - destruct (is_signal t) eqn:Es; [|destruct (is_comp t) eqn:Ec]; unfold all_reads; simpl.
    + split; [intros [<-|[]]; split; eauto | intros [_ ->]; now left].
    + split; [intros [<-|[]]; split; eauto | intros [_ ->]; now left].
    + split; [tauto|]. intros [[t' [Ht [H|H]]] _]; injection Ht as <-; congruence.
  - unfold all_reads; simpl. split; [tauto|]. intros [[t' [Ht _]] _]. discriminate.
Qed.

Lemma classify_compwritten : forall ds v acc, u_compwritten (classify ds v acc) = [].
Proof.
  intros. unfold classify. destruct (decl_type ds v) as [t|]; [|reflexivity].
  destruct (is_signal t); [reflexivity|]. destruct (is_comp t); reflexivity.
Qed.

(* the cached reads of an expression are its signal / component occurrences,
   and an expression writes no component *)
Definition uses_ok ds (e : expr) : Prop :=
  (forall v acc, In (v, acc) (all_reads (expr_uses ds e)) <-> occurs ds e v acc)
  /\ u_compwritten (expr_uses ds e) = [].

Lemma uses_list_spec : forall ds l, Forall (uses_ok ds) l ->
  (forall v acc, In (v, acc) (all_reads (uses_list ds l)) <-> exists x, In x l /\ occurs ds x v acc)
  /\ u_compwritten (uses_list ds l) = [].
Proof.
  intros ds l H. induction H as [|x l [Hx Bx] Hl [IHa IHb]]; simpl.
  - split; [|reflexivity]. intros. split; [tauto | intros [x [[] _]]].
  - fold (uses_list ds l). split; [|now rewrite Bx, IHb].
    intros v acc. rewrite in_all_reads_app, Hx, IHa. split.
    + intros [Ho|[y [Hy Ho]]]; eauto.
    + intros [y [[<-|Hy] Ho]]; eauto.
Qed.

Lemma uses_accs_spec : forall ds acc, Forall (uses_ok ds) (acc_exprs acc) ->
  (forall w a, In (w, a) (all_reads (uses_accs ds acc)) <-> exists x, In (AIdx x) acc /\ occurs ds x w a)
  /\ u_compwritten (uses_accs ds acc) = [].
Proof.
  intros ds acc. induction acc as [|[x|n] l IH]; simpl; intros H.
  - split; [|reflexivity]. intros. split; [tauto | intros [x [[] _]]].
  - fold (uses_accs ds l). inversion H as [|? ? [Hx Bx] Hl]; subst. destruct (IH Hl) as [IHa IHb].
    split; [|now rewrite Bx, IHb].
    intros w a. rewrite in_all_reads_app, Hx, IHa. split.
    + intros [Ho|[y [Hy Ho]]]; eauto.
    + intros [y [[[= <-]|Hy] Ho]]; eauto.
  - fold (uses_accs ds l). destruct (IH H) as [IHa IHb]. split; [|assumption].
    intros w a. rewrite IHa. split.
    + intros [y [Hy Ho]]; eauto.
    + intros [y [[E|Hy] Ho]]; [discriminate | eauto].
Qed.

Lemma expr_uses_spec : forall ds e,
  (forall v acc, In (v, acc) (all_reads (expr_uses ds e)) <-> occurs ds e v acc)
  /\ u_compwritten (expr_uses ds e) = [].
Proof.
  intros ds e. change (uses_ok ds e). induction e using expr_ind'; unfold uses_ok.
  - split; [|reflexivity]. intros; simpl; split; [tauto | inversion 1].
  - split; [|apply classify_compwritten]. intros w acc. simpl. rewrite in_all_reads_classify. split.
    + intros [H [= -> ->]]. now constructor.
    + inversion 1; subst. split; auto.
  - destruct IHe1 as [A1 B1], IHe2 as [A2 B2]. split.
    + intros w acc. simpl. rewrite in_all_reads_app, A1, A2. split.
      * intros [H|H]; [now apply occ_infix_l | now apply occ_infix_r].
      * inversion 1; subst; tauto.
    + simpl. now rewrite B1, B2.
  - destruct IHe as [A B]. split; [|assumption].
    intros w acc. simpl. rewrite A. split; [now apply occ_prefix | inversion 1; subst; assumption].
  - destruct IHe1 as [A1 B1], IHe2 as [A2 B2], IHe3 as [A3 B3]. split.
    + intros w acc. simpl. rewrite !in_all_reads_app, A1, A2, A3. split.
      * intros [H|[H|H]]; [now apply occ_switch_c | now apply occ_switch_t | now apply occ_switch_f].
      * inversion 1; subst; tauto.
    + simpl. now rewrite B1, B2, B3.
  - change (expr_uses ds (ECall n args k)) with (uses_list ds args).
    destruct (uses_list_spec ds args H) as [LA LB]. split; [|assumption].
    intros v acc. rewrite LA. split.
    + intros [x [Hx Ho]]. eapply occ_call; eauto.
    + inversion 1; subst. eauto.
  - change (expr_uses ds (EArray vs k)) with (uses_list ds vs).
    destruct (uses_list_spec ds vs H) as [LA LB]. split; [|assumption].
    intros v acc. rewrite LA. split.
    + intros [x [Hx Ho]]. eapply occ_array; eauto.
    + inversion 1; subst. eauto.
  - change (expr_uses ds (EAccess v acc k)) with (uses_app (uses_accs ds acc) (classify ds v acc)).
    destruct (uses_accs_spec ds acc H) as [LA LB]. split.
    + intros w a. rewrite in_all_reads_app, LA, in_all_reads_classify. split.
      * intros [[x [Hx Ho]]|[Hs [= -> ->]]]; [eapply occ_access_idx; eauto|now constructor].
      * inversion 1; subst; [right; split; auto | left; eauto].
    + now rewrite compwritten_app, LB, classify_compwritten.
  - change (expr_uses ds (EUpdate v acc e k))
      with (uses_app (expr_uses ds e) (uses_app (uses_accs ds acc) (classify ds v []))).
    destruct IHe as [A B], (uses_accs_spec ds acc H) as [LA LB]. split.
    + intros w a. rewrite !in_all_reads_app, A, LA, in_all_reads_classify. split.
      * intros [Ho|[[x [Hx Ho]]|[Hs [= -> ->]]]].
        -- now apply occ_update_rhe.
        -- eapply occ_update_idx; eauto.
        -- now constructor.
      * inversion 1; subst; [right; right; split; auto | right; left; eauto | now left].
    + now rewrite !compwritten_app, B, LB, classify_compwritten.
  - split; [|reflexivity]. intros; simpl; split; [tauto | inversion 1].
Qed.

Lemma existsb_reads_mentions : forall ds e v acc,
  existsb (use_matches v acc) (all_reads (expr_uses ds e)) = true <-> expr_mentions ds e v acc.
Proof.
  intros ds e v acc. rewrite existsb_exists. unfold expr_mentions, same_use, use_matches. split.
  - intros [[v' acc'] [Hin Hm]]. apply andb_true_iff in Hm. simpl in Hm.
    exists v', acc'. split; [now apply expr_uses_spec | assumption].
  - intros [v' [acc' [Ho Hm]]]. exists (v', acc'). split; [now apply expr_uses_spec|].
    simpl. now apply andb_true_iff.
Qed.

Lemma existsb_app_true : forall A (f : A -> bool) l l',
  existsb f (l ++ l') = true <-> existsb f l = true \/ existsb f l' = true.
Proof. intros. rewrite existsb_app. apply orb_true_iff. Qed.

(* the boolean the model filters constraint statements with *)
Definition stmt_mentions_b ds (v : vname) (acc : list (access expr)) (s : stmt) : bool :=
  match constraint_of ds s with
  | Some c => constraint_mentions ds v acc c
  | None => false
  end.

Lemma existsb_cons_true : forall A (f : A -> bool) x l,
  existsb f (x :: l) = true <-> f x = true \/ existsb f l = true.
Proof. intros. simpl. apply orb_true_iff. Qed.

Lemma existsb_nil_true : forall A (f : A -> bool), existsb f [] = true <-> False.
Proof. intros. simpl. split; [discriminate | tauto]. Qed.

Lemma use_matches_same : forall v acc w a, use_matches v acc (w, a) = true <-> same_use v acc w a.
Proof. intros. unfold use_matches, same_use. simpl. apply andb_true_iff. Qed.

Ltac norm_existsb :=
  repeat first [ rewrite existsb_app_true | rewrite existsb_cons_true
               | rewrite existsb_nil_true | rewrite use_matches_same ].

Lemma any_read_mentions : forall ds e v acc,
  any_read ds v acc e = true <-> expr_mentions ds e v acc.
Proof. intros. unfold any_read. apply (existsb_reads_mentions ds e v acc). Qed.

Lemma existsb_idx_mentions : forall ds v acc target,
  existsb (fun a => match a with AIdx x => any_read ds v acc x | AComp _ => false end) target = true
  <-> exists x, In (AIdx x) target /\ expr_mentions ds x v acc.
Proof.
  intros ds v acc target. rewrite existsb_exists. split.
  - intros [a [Hin Ha]]. destruct a as [x|n]; [|discriminate].
    exists x. split; [assumption | now apply any_read_mentions].
  - intros [x [Hin Hm]]. exists (AIdx x). split; [assumption | now apply any_read_mentions].
Qed.

Lemma update_mentions_b_spec : forall ds v acc var target rhe,
  use_matches v acc (var, target) || any_read ds v acc rhe
  || existsb (fun a => match a with AIdx x => any_read ds v acc x | AComp _ => false end) target = true
  <-> update_mentions ds var target rhe v acc.
Proof.
  intros. unfold update_mentions.
  rewrite !orb_true_iff, use_matches_same, any_read_mentions, existsb_idx_mentions. tauto.
Qed.

Lemma typed_spec : forall st : option vtype,
  (exists t, st = Some t /\ (is_signal t = true \/ is_comp t = true)) <->
  match st with Some t => is_signal t = true \/ is_comp t = true | None => False end.
Proof.
  intros [t|]; split.
  - intros (? & [= <-] & H). exact H.
  - eauto.
  - intros (? & [=] & _).
  - intros [].
Qed.

Lemma stmt_mentions_b_spec : forall ds v acc s,
  stmt_mentions_b ds v acc s = true <-> stmt_mentions ds s v acc.
Proof.
  intros ds v acc s. unfold stmt_mentions_b.
  destruct s as [| | |m w op rhe sv st|m l r| |]; simpl; try (split; [discriminate | tauto]).
  - destruct op; simpl; try (split; [discriminate | tauto]).
    unfold constraint_mentions; simpl.
    assert (G : existsb (use_matches v acc)
                  (u_sigread (subst_uses ds w OpCSig rhe st) ++ u_compread (subst_uses ds w OpCSig rhe st))
                || any_read ds v acc rhe
                || existsb (use_matches v acc) (u_compwritten (subst_uses ds w OpCSig rhe st)) = true
                <-> expr_mentions ds rhe v acc \/
                    ((exists t, st = Some t /\ (is_signal t = true \/ is_comp t = true))
                     /\ same_use v acc w (subst_access rhe))).
    { (* the uses of `w <== rhe` are the reads of rhe, plus (w, access) as a signal read or
         a component write exactly when w is declared a signal resp. a component: in each of
         the four cases of [subst_uses] both sides are the same propositional combination *)
      pose proof (existsb_reads_mentions ds rhe v acc) as HR. unfold all_reads in HR.
      rewrite existsb_app_true in HR. rewrite !orb_true_iff, any_read_mentions. unfold subst_uses.
      destruct st as [t|]; [destruct (is_signal t) eqn:Es; [|destruct (is_comp t) eqn:Ec]|];
        cbn [u_sigread u_compread u_compwritten]; norm_existsb; rewrite typed_spec; intuition congruence. }
    destruct rhe; try exact G.
    apply update_mentions_b_spec.
  - unfold constraint_mentions; simpl.
    assert (G : existsb (use_matches v acc) (u_sigread (expr_uses ds l) ++ u_compread (expr_uses ds l))
                || any_read ds v acc r
                || existsb (use_matches v acc) (u_compwritten (expr_uses ds l)) = true
                <-> expr_mentions ds l v acc \/ expr_mentions ds r v acc).
    { (* an expression writes no component, so the third disjunct is [false] *)
      pose proof (existsb_reads_mentions ds l v acc) as HL. unfold all_reads in HL.
      destruct (expr_uses_spec ds l) as [_ Bl]. rewrite Bl.
      rewrite !orb_true_iff, any_read_mentions, HL. simpl. intuition discriminate. }
    destruct r; try exact G.
    apply update_mentions_b_spec.
Qed.

Lemma constraints_filter : forall ds v acc l,
  map c_meta (filter (constraint_mentions ds v acc) (filter_map (constraint_of ds) l))
  = map stmt_meta (filter (stmt_mentions_b ds v acc) (filter is_constraint l)).
Proof.
  intros ds v acc l. induction l as [|s l IH]; simpl; [reflexivity|].
  destruct s as [| | |m w op rhe sv st|m a b| |]; simpl; try exact IH.
  - destruct op; simpl; try exact IH.
    unfold stmt_mentions_b; simpl.
    destruct (constraint_mentions ds v acc _); simpl; [f_equal|]; exact IH.
  - unfold stmt_mentions_b; simpl.
    destruct (constraint_mentions ds v acc _); simpl; [f_equal|]; exact IH.
Qed.

Lemma flat_map_map : forall A B C (f : A -> B) (g : B -> list C) l,
  flat_map g (map f l) = flat_map (fun x => g (f x)) l.
Proof. intros. induction l; simpl; [reflexivity | now rewrite IHl]. Qed.

Lemma quadratic_claim : forall m v rhe,
  assignment_quadratic {| a_meta := m; a_signal := v; a_access := subst_access rhe; a_degree := expr_deg rhe |} = true
  <-> claimed_quadratic rhe.
Proof.
  intros. unfold assignment_quadratic, claimed_quadratic, range_quadratic; simpl.
  destruct (expr_deg rhe) as [[lo hi]|]; simpl.
  - split.
    + intros H. exists (lo, hi). split; [reflexivity|]. simpl. destruct hi; congruence.
    + intros [r [E H]]. injection E as <-. simpl in H. destruct hi; congruence.
  - split; [discriminate | intros [r [E _]]; discriminate].
Qed.

Lemma assignment_of_some : forall s a, assignment_of s = Some a ->
  exists m v rhe sv st, s = SSubst m v OpSig rhe sv st /\
    a = {| a_meta := m; a_signal := v; a_access := subst_access rhe; a_degree := expr_deg rhe |}.
Proof. intros [| | |m v [] rhe sv st| | |] a [= <-]. now exists m, v, rhe, sv, st. Qed.

Lemma constraint_of_some : forall ds s c, constraint_of ds s = Some c ->
  is_constraint s = true /\ c_meta c = stmt_meta s.
Proof. intros ds s k. destruct s as [| | |? ? [] ? ? ?|? ? ?| |]; intros [= <-]; auto. Qed.

(* code and labels of the report for one `<--` statement, whatever the sets hold *)
Lemma report_of_shape : forall ds su m v rhe,
  let r := report_of ds su {| a_meta := m; a_signal := v; a_access := subst_access rhe; a_degree := expr_deg rhe |} in
  let found := flat_map label_of (get_constraint_metas ds su v (subst_access rhe)) in
  r_primary r = label_of m /\
  (claimed_quadratic rhe -> r_code r = CS0013 /\ r_secondary r = []) /\
  (~ claimed_quadratic rhe -> r_code r = CS0005 /\ r_secondary r = found) /\
  incl (r_secondary r) found.
Proof.
  intros ds su m v rhe. pose proof (quadratic_claim m v rhe) as Q. unfold report_of.
  destruct (assignment_quadratic _); simpl.
  - split; [reflexivity|]. split; [auto|]. split; [|intros l []]. intros N. exfalso. apply N. now apply Q.
  - split; [reflexivity|]. split; [|split; [auto|apply incl_refl]]. intros H. apply Q in H. discriminate.
Qed.

Lemma report_of_finding : forall g s a, constraint_keys_distinct g -> assignment_of s = Some a ->
  finding_for g s (report_of (c_decls g) (collect g) a).
Proof.
  intros g s a HC (m & v & rhe & sv & st & -> & ->)%assignment_of_some.
  destruct (report_of_shape (c_decls g) (collect g) m v rhe) as (Hp & Hq & Hn & _).
  split; [exact Hp|]. split; [exact Hq|]. intros N. destruct (Hn N) as [Hc ->]. split; [exact Hc|].
  exists (filter (stmt_mentions_b (c_decls g) v (subst_access rhe)) (constraint_stmts g)).
  split; [|split].
  - unfold get_constraint_metas. rewrite collect_constraints_distinct by assumption.
    unfold constraint_stmts. rewrite constraints_filter. now rewrite flat_map_map.
  - intros c. rewrite filter_In, stmt_mentions_b_spec. tauto.
  - eexists. reflexivity.
Qed.

Lemma Forall2_assign : forall (R : stmt -> report -> Prop) (f : assignment -> report) l,
  (forall s a, assignment_of s = Some a -> R s (f a)) ->
  Forall2 R (filter is_assign l) (map f (filter_map assignment_of l)).
Proof.
  intros R f l H. induction l as [|s l IH]; simpl; [constructor|].
  destruct s as [| | |m v [] rhe sv st| | |]; simpl; try exact IH.
  constructor; [now apply H | exact IH].
Qed.

Theorem sigassign_bijection : forall g,
  c_kind g = KTemplate ->
  keys_distinct g ->
  constraint_keys_distinct g ->
  Forall2 (finding_for g) (assign_stmts g) (find_signal_assignments g).
Proof.
  intros g K HA HC. unfold find_signal_assignments, assign_stmts. rewrite K. simpl.
  rewrite collect_assignments_distinct by assumption.
  apply Forall2_assign. intros. now apply report_of_finding.
Qed.

Corollary sigassign_count : forall g,
  c_kind g = KTemplate -> keys_distinct g -> constraint_keys_distinct g ->
  length (find_signal_assignments g) = length (assign_stmts g).
Proof.
  intros g K HA HC. symmetry. eapply Forall2_len. now apply sigassign_bijection.
Qed.

Theorem no_reports_for_function_or_custom : forall g,
  c_kind g <> KTemplate -> find_signal_assignments g = [].
Proof.
  intros g H. unfold find_signal_assignments. destruct (c_kind g); simpl; congruence.
Qed.

(* Without any hypothesis: every report is anchored at a `<--` statement of
   the cfg (never at a `<==`, `=`, `===`, declaration, ...), carries one of the
   two codes by that statement's degree claim, and its secondary labels are
   metas of constraint statements that mention the assigned signal. *)
Theorem only_assign_signal_reported : forall g r,
  In r (find_signal_assignments g) ->
  c_kind g = KTemplate /\
  exists m v rhe sv st,
    In (SSubst m v OpSig rhe sv st) (all_stmts g) /\
    r_primary r = label_of m /\
    (claimed_quadratic rhe -> r_code r = CS0013 /\ r_secondary r = []) /\
    (~ claimed_quadratic rhe -> r_code r = CS0005) /\
    (forall l, In l (r_secondary r) ->
       exists c, In c (constraint_stmts g) /\ stmt_mentions (c_decls g) c v (subst_access rhe)
                 /\ In l (label_of (stmt_meta c))).
Proof.
  intros g r H. unfold find_signal_assignments in H.
  destruct (c_kind g) eqn:K; simpl in H; try contradiction.
  split; [reflexivity|].
  apply in_map_iff in H. destruct H as [a [<- Ha]].
  rewrite collect_assignments in Ha. apply fold_insert_subset in Ha. destruct Ha as [[]|Ha].
  apply filter_map_in in Ha. destruct Ha as [s [Hs (m & v & rhe & sv & st & -> & ->)%assignment_of_some]].
  exists m, v, rhe, sv, st. split; [assumption|].
  destruct (report_of_shape (c_decls g) (collect g) m v rhe) as (Hp & Hq & Hn & Hsub).
  split; [exact Hp|]. split; [exact Hq|]. split; [intro N; apply (Hn N)|].
  intros l Hl%Hsub. apply in_flat_map in Hl. destruct Hl as [mm [Hmm Hl]].
  unfold get_constraint_metas in Hmm. apply in_map_iff in Hmm. destruct Hmm as [c [<- Hc]].
  apply filter_In in Hc. destruct Hc as [Hc Hm].
  rewrite collect_constraints in Hc. apply fold_insert_subset in Hc. destruct Hc as [[]|Hc].
  apply filter_map_in in Hc. destruct Hc as [s [Hs' Ec]].
  destruct (constraint_of_some _ _ _ Ec) as [Hk Hmeta].
  exists s. split; [now apply filter_In|]. split; [|now rewrite <- Hmeta].
  apply stmt_mentions_b_spec. unfold stmt_mentions_b. now rewrite Ec.
Qed.

(* the hypothesis is needed: with two `<--` statements of equal key the hash
   set keeps one, so one statement stays without its own finding *)
Definition dup_meta : meta := {| m_start := 10; m_end := 20; m_file := Some 0%N |}.
Definition dup_var : vname := {| vn_name := [97%N]; vn_suffix := None; vn_version := None |}.
Definition dup_stmt : stmt := SSubst dup_meta dup_var OpSig (ENum 1 know0) None (Some TSigOut).
Definition dup_cfg : cfg :=
  {| c_kind := KTemplate; c_params := []; c_decls := [(dup_var, TSigOut)];
     c_blocks := [{| b_index := 0; b_depth := 0; b_stmts := [dup_stmt; dup_stmt]; b_preds := []; b_succs := [] |}] |}.

Lemma keys_distinct_needed :
  exists g, c_kind g = KTemplate /\ ~ keys_distinct g /\
            length (assign_stmts g) = 2 /\ length (find_signal_assignments g) = 1.
Proof.
  exists dup_cfg. split; [reflexivity|]. split; [|split; reflexivity].
  intros H. apply keys_distinct_b_spec in H. vm_compute in H. discriminate.
Qed.

(* the source-level hypothesis gives the bijection as well *)
Theorem sigassign_bijection_source_keys : forall g,
  c_kind g = KTemplate -> subkeys_distinct g -> constraint_keys_distinct g ->
  Forall2 (finding_for g) (assign_stmts g) (find_signal_assignments g).
Proof. intros g Hk Hs Hc. apply sigassign_bijection; auto using subkeys_distinct_suffice. Qed.

(* [keys_distinct] does NOT follow from the parser giving distinct statements
   distinct ranges: the SSA cfg the real front end builds for

     template D() {
         signal input x;
         signal (b, b) <-- (x % 2, x % 2);
     }

   (transcribed from the dump of the harness; known finding
   C08-decl-tuple-duplicate-name).  split_declaration_into_single_nodes_and_
   multi_substitution gives every element of a declaration tuple the
   declaration's meta (39..71), the second declaration of `b` is renamed `b_0`
   and both elements resolve to it: two `<--` statements, one Assignment key,
   one finding. *)
Definition kf_x : vname := {| vn_name := [120%N]; vn_suffix := None; vn_version := None |}.
Definition kf_b : vname := {| vn_name := [98%N]; vn_suffix := None; vn_version := None |}.
Definition kf_b0 : vname := {| vn_name := [98%N]; vn_suffix := Some [48%N]; vn_version := None |}.
Definition kf_decl : meta := {| m_start := 39; m_end := 71; m_file := Some 0%N |}.
Definition kf_rhe : expr :=
  EInfix IMod (EVar kf_x {| kval := None; kdeg := Some (DLin, DLin) |})
    (ENum 2 {| kval := Some (VField 2); kdeg := Some (DConst, DConst) |})
    {| kval := None; kdeg := Some (DNonQuad, DNonQuad) |}.
Definition kf_subst : stmt := SSubst kf_decl kf_b0 OpSig kf_rhe None (Some TSigInt).
Definition kf_cfg : cfg :=
  {| c_kind := KTemplate; c_params := [];
     c_decls := [(kf_b, TSigInt); (kf_b0, TSigInt); (kf_x, TSigIn)];
     c_blocks := [{| b_index := 0; b_depth := 0; b_preds := []; b_succs := [];
       b_stmts := [ SDecl {| m_start := 19; m_end := 33; m_file := Some 0%N |} [kf_x] TSigIn [];
                    SDecl kf_decl [kf_b] TSigInt []; SDecl kf_decl [kf_b0] TSigInt [];
                    kf_subst; kf_subst ] |}] |}.

Lemma keys_distinct_fails_on_lifted_source :
  c_kind kf_cfg = KTemplate /\ ~ keys_distinct kf_cfg /\ ~ subkeys_distinct kf_cfg /\
  length (assign_stmts kf_cfg) = 2 /\
  find_signal_assignments kf_cfg =
    [ {| r_code := CS0005; r_primary := [(39, 71, 0)%N]; r_secondary := [] |} ].
Proof.
  split; [reflexivity|]. split; [|split; [|split; reflexivity]].
  - intros H. apply keys_distinct_b_spec in H. vm_compute in H. discriminate.
  - intros H. apply subkeys_distinct_b_spec in H. vm_compute in H. discriminate.
Qed.
