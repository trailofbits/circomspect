(* C07: the hypotheses of Proofs.CtlBridge.lifted_split_decides are satisfiable - the
   diamond `if (a == 1) {x.1 = 1} else {x.2 = 2}; x.3 = phi(x.1, x.2); b <-- x.3` (a phi
   under a signal-dependent branch) has the edges of the lifted skeleton
   `if (c1) {s2} else {s3}; s4`; block 0 can change the edge along which the join 3 is
   entered, and the table walk names its condition. *)
From Coq Require Import ZArith Lia.
From stdpp Require Import list list_numbers sets.
Require Model.Base Model.Ir Model.Lift Model.Dom Model.DegGraph Model.DegJustify.
Require Spec.CfgSpec Spec.CtlSpec Spec.DegSem.
Require Proofs.MirrorsDom Proofs.CtlStructure Proofs.CtlBridge.
Import Model.Ir.

Definition exb_k (d : option drange) : know := {| kval := None; kdeg := d |}.
Definition exb_cc : option drange := Some (DConst, DConst).
Definition exb_m : meta := {| m_start := 0%N; m_end := 0%N; m_file := None |}.
Definition exb_x (n : N) : vname := {| vn_name := [120%N]; vn_suffix := None; vn_version := Some n |}.
Definition exb_a : vname := {| vn_name := [97%N]; vn_suffix := None; vn_version := None |}.
Definition exb_b : vname := {| vn_name := [98%N]; vn_suffix := None; vn_version := None |}.
Definition exb_cond : expr :=
  EInfix IEq (EVar exb_a (exb_k (Some (DLin, DLin)))) (ENum 1 (exb_k exb_cc)) (exb_k (Some (DNonQuad, DNonQuad))).
Definition exb_claim : option drange := Some (DConst, DNonQuad).
Definition exb_join : block :=
  {| b_index := 3%N; b_depth := 0%N; b_preds := [1%N; 2%N]; b_succs := [];
     b_stmts := [ SSubst exb_m (exb_x 3) OpVar (EPhi [exb_x 1; exb_x 2] (exb_k exb_claim)) None (Some TLocal);
                  SSubst exb_m exb_b OpSig (EVar (exb_x 3) (exb_k exb_claim)) None (Some TSigOut) ] |}.
Definition exb_graph : cfg :=
  {| c_kind := KTemplate; c_params := [];
     c_decls := [(exb_x 1, TLocal); (exb_x 2, TLocal); (exb_x 3, TLocal); (exb_a, TSigIn); (exb_b, TSigOut)];
     c_blocks :=
       [ {| b_index := 0%N; b_depth := 0%N; b_preds := []; b_succs := [1%N; 2%N];
            b_stmts := [ SIf exb_m exb_cond 1%N (Some 2%N) ] |};
         {| b_index := 1%N; b_depth := 0%N; b_preds := [0%N]; b_succs := [3%N];
            b_stmts := [ SSubst exb_m (exb_x 1) OpVar (ENum 1 (exb_k exb_cc)) None (Some TLocal) ] |};
         {| b_index := 2%N; b_depth := 0%N; b_preds := [0%N]; b_succs := [3%N];
            b_stmts := [ SSubst exb_m (exb_x 2) OpVar (ENum 2 (exb_k exb_cc)) None (Some TLocal) ] |};
         exb_join ] |}.
Definition exb_idom : list (option N) := [None; Some 0%N; Some 0%N; Some 0%N].

Definition exb_body : Lift.sk :=
  Lift.SBlock [Lift.SIf 1 (Lift.SBlock [Lift.SLeaf 2 false]) (Some (Lift.SBlock [Lift.SLeaf 3 false])); Lift.SLeaf 4 false].

Definition exb_skel : list Lift.block :=
  [Lift.Block 0 0 [Lift.IBranch 1 1 (Some 2)] [] [1; 2]; Lift.Block 1 0 [Lift.ILeaf 2] [0] [3];
   Lift.Block 2 0 [Lift.ILeaf 3] [0] [3]; Lift.Block 3 0 [Lift.ILeaf 4] [1; 2] []].

Lemma bridge_example :
  Lift.lift exb_body = Base.Ok exb_skel ∧
  DegGraph.dom_graph_of exb_graph = MirrorsDom.to_dom exb_skel ∧
  DegGraph.graph_consistent exb_graph = true ∧
  DegGraph.idom_is_dominator_table exb_graph exb_idom = true ∧
  DegJustify.djust_cfg exb_graph exb_idom = true ∧
  CtlSpec.can_split exb_skel 0 3 ∧ CtlSpec.is_join exb_skel 3 ∧
  DegSem.decides exb_graph exb_idom exb_join exb_cond.
Proof.
  assert (Hl : Lift.lift exb_body = Base.Ok exb_skel) by (vm_compute; reflexivity).
  assert (Hs : DegGraph.dom_graph_of exb_graph = MirrorsDom.to_dom exb_skel) by (vm_compute; reflexivity).
  assert (Hgc : DegGraph.graph_consistent exb_graph = true) by (vm_compute; reflexivity).
  assert (Htab : DegGraph.idom_is_dominator_table exb_graph exb_idom = true) by (vm_compute; reflexivity).
  assert (Hv : DegJustify.djust_cfg exb_graph exb_idom = true) by (vm_compute; reflexivity).
  assert (Hj : CtlSpec.is_join exb_skel 3) by (eexists; split; [reflexivity|simpl; lia]).
  assert (Hc : CtlSpec.can_split exb_skel 0 3).
  { apply (CtlStructure.diamond_split _ 0 1 2 3);
      [CtlStructure.ex_edge|CtlStructure.ex_edge|CtlStructure.ex_edge|CtlStructure.ex_edge|..]; simpl; lia. }
  repeat (split; [assumption|]).
  assert (Hshape : DegJustify.idom_shape exb_graph exb_idom = true) by (vm_compute; reflexivity).
  eapply (CtlBridge.lifted_split_decides exb_graph exb_idom exb_skel Hs Hgc Htab Hshape exb_body Hl 3 exb_join 0 _ exb_m exb_cond 1%N (Some 2%N));
    [reflexivity|reflexivity|exact Hc|exact Hj|reflexivity].
Qed.
