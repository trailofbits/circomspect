(* C01, bridge between C18 (desugaring) and lifting: the body that the desugarer
   hands on has the shape that Proofs.LiftTotalFlat needs.

   1. The specified expansion (Spec.ExpandSpec.expand_spec, which the two passes
      equal by C18_desugar_refines_expand) keeps "every entry of an initialisation
      block is a statement without control flow" ([ast_init_ok]): a substitution
      becomes a substitution or a block [pre ++ [substitution]] where [pre] consists
      of blocks of substitutions, a tuple assignment becomes a block of
      substitutions, and the two initialisation blocks that expand_spec itself builds
      hold declarations only.
   2. [ast_init_ok] is LiftFull.ast_init_flat (a clause of LiftFull.definition_wf), which
      LiftFull.skel sends to [init_flat], and a block to a block: [desugared_shape]. *)
From Coq Require Import ZArith NArith List Bool String Lia.
Require Import Model.Ast Model.Desugar Spec.ExpandSpec Proofs.DesugarProofs Proofs.DesugarRefine Proofs.DesugarAlpha.
Require Model.PipelineMirrors Model.Lift Model.LiftFull Model.Ir Proofs.LiftTotalFlat Proofs.LiftFullTotal.
Import ListNotations.
Local Open Scope list_scope.

Module PM := Model.PipelineMirrors.

Lemma forallb_flat_map {A B} (f : B -> bool) (g : A -> list B) l :
  Forall (fun x => forallb f (g x) = true) l -> forallb f (flat_map g l) = true.
Proof. induction 1 as [|x l Hx _ IH]; simpl; [reflexivity|]. rewrite forallb_app, Hx, IH. reflexivity. Qed.

Lemma flat_init_ok : forall s, PM.ast_flat s = true -> PM.ast_init_ok s = true.
Proof.
  apply (statement_ind' (fun s => PM.ast_flat s = true -> PM.ast_init_ok s = true)); simpl; try (intros; reflexivity);
    try (intros; discriminate).
  - intros m t l _ H. exact H.
  - intros m l IH H. rewrite forallb_forall in *. rewrite Forall_forall in IH. intros x Hx. apply IH; [exact Hx|]. apply H. exact Hx.
Qed.

Section Expand.
  Variable sig_of : string -> option (list string * list string).
  Variable comp_name : string -> meta -> option string.
  Variable counter_name : meta -> option string.

  Notation xv := (xvals sig_of comp_name).
  Notation xs := (xstmt sig_of comp_name counter_name).

  Definition flat_res (r : option (list statement * list statement * list expression)) : Prop :=
    forall p d v, r = Some (p, d, v) -> forallb PM.ast_flat p = true.

  Lemma is_single_some e r p d v : is_single e r = Some (p, d, v) -> r = Some (p, d, [v]).
  Proof.
    unfold is_single. destruct e; try discriminate;
      destruct r as [[[p' d'] [|v' [|? ?]]]|]; try discriminate; intros [= -> -> ->]; reflexivity.
  Qed.

  Lemma xanon_flat ix m id par ps args names argres :
    Forall flat_res argres -> flat_res (xanon sig_of comp_name ix m id par ps args names argres).
  Proof.
    intros HF p d v. unfold xanon.
    destruct (sig_of id) as [[ins outs]|]; [|discriminate]. destruct (comp_name id m) as [c|]; [|discriminate].
    match goal with |- context [if ?b then _ else _] => destruct b end; [|discriminate].
    match goal with |- context [all_some (map ?g ?l)] => set (feed := g); set (L := l) end.
    destruct (all_some (map feed L)) as [fed|] eqn:E; [|discriminate].
    intros [= <- _ _]. cbn [forallb PM.ast_flat]. rewrite andb_true_r.
    apply forallb_flat_map.
    apply (mapO_Forall feed (fun y => forallb PM.ast_flat (fst y) = true) L fed E).
    apply Forall_forall. intros [k input] _ y. unfold feed.
    destruct (argument_of names k input) as [[j o]|]; [|discriminate].
    destruct (nth_error args j) as [a|]; [|discriminate].
    destruct (nth_error argres j) as [r|] eqn:Er; [|discriminate].
    destruct (is_single a r) as [[[p1 d1] v1]|] eqn:Es; [|discriminate].
    cbn [option_map]. intros [= <-]. cbn [fst].
    apply is_single_some in Es. subst r.
    rewrite forallb_app. rewrite Forall_forall in HF.
    rewrite (HF _ (nth_error_In _ _ Er) p1 d1 [v1] eq_refl). reflexivity.
  Qed.

  Definition Qe (e : expression) : Prop := forall ix, flat_res (xv ix e).
  Definition Pe (e : expression) : Prop := Qe e /\ forall m, Qe (ParallelOp m e).

  Lemma plain_res_flat (b : bool) e : flat_res (if b then Some ([], [], [e]) else None).
  Proof. intros p d v. destruct b; [|discriminate]. intros [= <- _ _]. reflexivity. Qed.

  Lemma xvals_flat_all : forall e, Pe e.
  Proof.
    (* every node but a parallel operator, an anonymous component and a tuple is handed on as it is *)
    apply expression_ind'; unfold Pe, Qe; try (intros; split; intros; cbn [xvals]; apply plain_res_flat).
    - intros m r [_ IH]. split; [apply IH|]. intros m' ix. cbn [xvals]. apply plain_res_flat.
    - intros m id par ps ss names _ IHs.
      assert (HF : forall ix, Forall flat_res (map (xv ix) ss)).
      { intros ix. apply Forall_forall. intros r Hr. apply in_map_iff in Hr. destruct Hr as (a & <- & Ha).
        rewrite Forall_forall in IHs. exact (proj1 (IHs a Ha) ix). }
      split; [intros ix|intros m' ix]; cbn [xvals]; apply xanon_flat; apply HF.
    - intros m vs IH. split; [|intros m' ix; cbn [xvals]; apply plain_res_flat].
      intros ix p d v. cbn [xvals]. unfold xconcat.
      destruct (all_some (map (xv ix) vs)) as [rs|] eqn:E; [|discriminate].
      cbn [option_map]. intros [= <- _ _].
      apply forallb_flat_map.
      apply (mapO_Forall (xv ix) (fun r => forallb PM.ast_flat (fst (fst r)) = true) vs rs E).
      apply Forall_forall. intros a Ha [[p1 d1] v1] Hy. cbn [fst].
      rewrite Forall_forall in IH. exact (proj1 (IH a Ha) ix p1 d1 v1 Hy).
  Qed.

  Lemma xvals_flat ix e p d v : xv ix e = Some (p, d, v) -> forallb PM.ast_flat p = true.
  Proof. apply (proj1 (xvals_flat_all e) ix). Qed.

  Lemma seq_block_flat m pre s : forallb PM.ast_flat pre = true -> PM.ast_flat s = true ->
    PM.ast_flat (seq_block m pre s) = true.
  Proof.
    intros Hp Hs. unfold seq_block. destruct pre as [|x pre]; [exact Hs|].
    cbn [PM.ast_flat]. rewrite forallb_app, Hp. simpl. rewrite Hs. reflexivity.
  Qed.

  Lemma assignments_flat o ls rs : forallb PM.ast_flat (assignments o ls rs) = true.
  Proof.
    unfold assignments. apply forallb_flat_map. apply Forall_forall. intros [l r] _.
    destruct l; try reflexivity. destruct (String.eqb name "_"); reflexivity.
  Qed.

  Definition Ps (s : statement) : Prop := forall ix s' d, xs ix s = Some (s', d) ->
    (PM.ast_flat s = true -> PM.ast_flat s' = true) /\ (PM.ast_init_ok s = true -> PM.ast_init_ok s' = true).

  Lemma leaf_case (s s' : statement) :
    PM.ast_flat s' = true -> (PM.ast_flat s = true -> PM.ast_flat s' = true) /\ (PM.ast_init_ok s = true -> PM.ast_init_ok s' = true).
  Proof. intros H. split; intros _; [exact H|apply flat_init_ok; exact H]. Qed.

  Lemma mapO_parts : forall l rs ix, Forall Ps l -> mapO (xs ix) l = Some rs ->
    (forallb PM.ast_flat l = true -> forallb PM.ast_flat (map fst rs) = true) /\
    (forallb PM.ast_init_ok l = true -> forallb PM.ast_init_ok (map fst rs) = true).
  Proof.
    unfold mapO. induction l as [|x l IH]; simpl; intros rs ix HF H.
    - inversion H. simpl. auto.
    - inversion HF as [|? ? Hx Hl]; subst.
      destruct (xs ix x) as [[x' dx]|] eqn:Ex; [|discriminate].
      destruct (all_some (map (xs ix) l)) as [rs'|] eqn:El; [|discriminate].
      simpl in H. inversion H. subst. simpl.
      destruct (Hx ix x' dx Ex) as [F1 F2]. destruct (IH rs' ix Hl El) as [G1 G2].
      split; intros HH; apply andb_prop in HH; destruct HH as [H1 H2]; apply andb_true_intro; auto.
  Qed.

  Lemma xstmt_shape_all : forall s, Ps s.
  Proof.
    apply statement_ind'; unfold Ps.
    - (* IfThenElse *)
      intros m c i e IHi IHe ix s' d. cbn [xstmt]. destruct (plain c); [|discriminate].
      destruct (xs ix i) as [[i' di]|] eqn:Ei; [|discriminate].
      destruct e as [e'|].
      + destruct (xs ix e') as [[e2 d2]|] eqn:Ee; [|discriminate]. intros [= <- _].
        split; [intros; discriminate|]. cbn [PM.ast_init_ok]. intros H. apply andb_prop in H. destruct H as [H1 H2].
        rewrite (proj2 (IHi ix i' di Ei) H1), (proj2 (IHe e' eq_refl ix e2 d2 Ee) H2). reflexivity.
      + intros [= <- _]. split; [intros; discriminate|]. cbn [PM.ast_init_ok]. intros H. apply andb_prop in H. destruct H as [H1 _].
        rewrite (proj2 (IHi ix i' di Ei) H1). reflexivity.
    - (* While *)
      intros m c b IHb ix s' d. cbn [xstmt]. destruct (plain c); [|discriminate].
      destruct (counter_name m) as [k|]; [|discriminate].
      destruct (xs [ArrayAccess (Variable_ m k [])] b) as [[b' db]|] eqn:Eb; [|discriminate].
      pose proof (proj2 (IHb _ b' db Eb)) as Hb.
      destruct (existsb (counted_by k) db); intros [= <- _]; (split; [intros; discriminate|]); cbn [PM.ast_init_ok forallb]; intros H.
      + rewrite (Hb H). reflexivity.
      + apply Hb. exact H.
    - (* Return *)
      intros m v ix s' d. cbn [xstmt]. destruct (plain v); [|discriminate]. intros [= <- _]. apply leaf_case. reflexivity.
    - (* InitializationBlock *)
      intros m t l IH ix s' d. rewrite xstmt_init_gen.
      destruct (mapO (xs ix) l) as [rs|] eqn:E; [|discriminate]. cbn [option_map]. intros [= <- _].
      destruct (mapO_parts l rs ix IH E) as [F1 _]. cbn [PM.ast_flat PM.ast_init_ok]. split; exact F1.
    - (* Declaration *)
      intros m t n dims c ix s' d. cbn [xstmt]. destruct (forallb plain dims); [|discriminate]. intros [= <- _].
      apply leaf_case. reflexivity.
    - (* Substitution *)
      intros m v acc o rhe ix s' d. cbn [xstmt]. destruct (acc_plain acc); [|discriminate].
      destruct (is_single rhe (xv ix rhe)) as [[[pre dec] value]|] eqn:Es; [|discriminate]. intros [= <- _].
      apply leaf_case. apply is_single_some in Es. apply seq_block_flat; [exact (xvals_flat _ _ _ _ _ Es)|].
      destruct (String.eqb v "_"); reflexivity.
    - (* MultiSubstitution *)
      intros m lhe o rhe ix s' d. cbn [xstmt].
      destruct lhe; try discriminate. destruct (lvalues _) as [ls|]; [|discriminate].
      destruct (tuple_valued sig_of rhe); [|discriminate].
      destruct (xv ix rhe) as [[[pre dec] rs]|] eqn:Ex; [|discriminate].
      destruct (Nat.eqb _ _); [|discriminate]. intros [= <- _].
      apply leaf_case. apply seq_block_flat; [exact (xvals_flat _ _ _ _ _ Ex)|].
      cbn [PM.ast_flat]. apply assignments_flat.
    - (* ConstraintEquality *)
      intros m l r ix s' d. cbn [xstmt]. destruct (plain l && plain r); [|discriminate]. intros [= <- _].
      apply leaf_case. reflexivity.
    - (* LogCall *)
      intros m a ix s' d. cbn [xstmt]. destruct (all_some (map xlog a)) as [l|]; [|discriminate]. cbn [option_map].
      intros [= <- _]. apply leaf_case. reflexivity.
    - (* Block *)
      intros m l IH ix s' d. rewrite xstmt_block_gen.
      destruct (mapO (xs ix) l) as [rs|] eqn:E; [|discriminate]. cbn [option_map]. intros [= <- _].
      destruct (mapO_parts l rs ix IH E) as [F1 F2]. cbn [PM.ast_flat PM.ast_init_ok]. split; assumption.
    - (* Assert *)
      intros m a ix s' d. cbn [xstmt]. destruct (plain a); [|discriminate]. intros [= <- _]. apply leaf_case. reflexivity.
  Qed.

  Lemma filter_decl_flat (p : variable_type -> bool) decls :
    forallb PM.ast_flat (filter (is_decl_of p) decls) = true.
  Proof.
    apply forallb_forall. intros x Hx. apply filter_In in Hx. destruct Hx as [_ Hx].
    destruct x; try discriminate. reflexivity.
  Qed.

  Lemma filter_subst_init_ok decls :
    forallb PM.ast_init_ok (filter (fun s => match s with Substitution _ _ _ _ _ => true | _ => false end) decls) = true.
  Proof.
    apply forallb_forall. intros x Hx. apply filter_In in Hx. destruct Hx as [_ Hx].
    destruct x; try discriminate. reflexivity.
  Qed.

  (* the expansion of a body with well-shaped initialisation blocks is a block with
     well-shaped initialisation blocks *)
  Theorem expand_spec_shape body body' :
    PM.ast_init_ok body = true -> expand_spec sig_of comp_name counter_name body = Some body' ->
    (exists m l, body' = Block m l) /\ PM.ast_init_ok body' = true.
  Proof.
    intros Hok. unfold expand_spec.
    destruct (xs [] body) as [[b1 decls]|] eqn:E; [|discriminate].
    destruct b1 as [| | | | | | | | |m stmts|]; try discriminate. intros [= <-].
    split; [eauto|].
    pose proof (proj2 (xstmt_shape_all body [] _ _ E) Hok) as H1. cbn [PM.ast_init_ok] in H1.
    cbn [forallb PM.ast_init_ok]. rewrite !forallb_app. cbn [forallb PM.ast_init_ok].
    rewrite !filter_decl_flat, filter_subst_init_ok, H1. reflexivity.
  Qed.
End Expand.

(* PM.ast_flat / PM.ast_init_ok are LiftFull.ast_flat / LiftFull.ast_init_flat (the
   clause of LiftFull.definition_wf) *)
Lemma ast_flat_eq : forall s, PM.ast_flat s = LiftFull.ast_flat s.
Proof. reflexivity. Qed.   (* the two fixpoints have the same body *)

Lemma ast_init_ok_flat : forall s, PM.ast_init_ok s = LiftFull.ast_init_flat s.
Proof. reflexivity. Qed.

(* a block with well-shaped initialisation blocks has a skeleton of the shape
   Proofs.LiftTotalFlat asks for, whatever function of the metas names the leaves *)
Theorem skel_desugared_shape (key : Ir.meta -> nat) body :
  LiftFull.is_block body = true -> LiftFull.ast_init_flat body = true ->
  LiftTotalFlat.desugared_shape (LiftFull.skel key body).
Proof.
  intros Hb H. destruct body; try discriminate Hb. split.
  - cbn [LiftFull.skel]. eauto.
  - rewrite LiftFullTotal.skel_init_flat. exact H.
Qed.

(* what C18 hands on: the answer of the two passes is the specified expansion
   (C18_desugar_refines_expand), whose shape is the one above: two of the four
   clauses of LiftFull.definition_wf, and the shape of the skeleton *)
Theorem desugar_output_shape (lib : file_library) ts m l body' :
  Forall wf_node (stmt_exprs (Block m l)) ->
  Forall short_node (sub_stmts (Block m l)) ->
  PM.ast_init_ok (Block m l) = true ->
  desugar_template (env_of ts) lib (Block m l) = DOk body' ->
  LiftFull.is_block body' = true /\ LiftFull.ast_init_flat body' = true /\
  forall key : Ir.meta -> nat, LiftTotalFlat.desugared_shape (LiftFull.skel key body').
Proof.
  intros Hw Hs Hok Hd.
  pose proof (desugar_refines_expand lib ts m l body' Hw Hs Hd) as He.
  destruct (expand_spec_shape _ _ _ _ _ Hok He) as [(m' & l' & ->) Hi].
  rewrite ast_init_ok_flat in Hi.
  split; [reflexivity|]. split; [exact Hi|]. intros key. apply skel_desugared_shape; [reflexivity|exact Hi].
Qed.

(* C18's sugar-freeness is the clause of LiftFull.definition_wf *)
(* Spec.ExpandSpec.sugar_free_stmt (what C18_desugar_output_sugar_free and
   C18_function_kept_iff prove of a body handed on) says: no tuple and no anonymous
   component among ALL expression nodes, no multi-substitution among all statements.
   LiftFull.stmt_sugar_free is the boolean over the expressions lifting lifts. *)
Definition no_sugar (x : expression) : Prop := is_tuple x = false /\ is_anonymous_component x = false.

Lemma forallb_of_Forall {A} (Q : A -> Prop) (f : A -> bool) l :
  Forall (fun a => Q a -> f a = true) l -> Forall Q l -> forallb f l = true.
Proof.
  intros H1 H2. apply forallb_forall. intros x Hx.
  exact (proj1 (Forall_forall _ _) H1 x Hx (proj1 (Forall_forall _ _) H2 x Hx)).
Qed.

Lemma expr_sugar_free_of_spec e : Forall no_sugar (sub_exprs e) -> LiftFull.expr_sugar_free e = true.
Proof.
  induction e as [m l o r IHl IHr|m o r IHr|m c t f IHc IHt IHf|m r IHr|m n acc IH|m v|m id args IH
                 |m id par ps ss names _ _|m vs IH|m vs _] using expression_ind';
    cbn [sub_exprs LiftFull.expr_sugar_free]; intros [Hn H]%Forall_cons_iff.
  - apply Forall_app in H as [Hl Hr]. rewrite IHl, IHr; auto.
  - auto.
  - apply Forall_app in H as [Hc [Ht Hf]%Forall_app]. rewrite IHc, IHt, IHf; auto.
  - auto.
  - apply Forall_flat_map in H. refine (forallb_of_Forall _ _ _ (Forall_impl _ _ IH) H). intros [nm|i]; simpl; auto.
  - reflexivity.
  - apply Forall_flat_map in H. exact (forallb_of_Forall _ _ _ IH H).
  - destruct Hn as [_ Hn]. discriminate Hn.
  - apply Forall_flat_map in H. exact (forallb_of_Forall _ _ _ IH H).
  - destruct Hn as [Hn _]. discriminate Hn.
Qed.

Lemma exprs_sugar_free_of_spec l : Forall no_sugar (flat_map sub_exprs l) -> forallb LiftFull.expr_sugar_free l = true.
Proof.
  intros H%Forall_flat_map. refine (forallb_of_Forall _ _ _ _ H). apply Forall_forall. intros e _. apply expr_sugar_free_of_spec.
Qed.

Theorem stmt_sugar_free_of_spec : forall s, sugar_free_stmt s -> LiftFull.stmt_sugar_free s = true.
Proof.
  intros s [He Hs]. apply Forall_forall in He, Hs. revert He Hs.
  change (Forall no_sugar (stmt_exprs s) -> Forall (fun t => is_multi_substitution t = false) (sub_stmts s) ->
          LiftFull.stmt_sugar_free s = true).
  induction s as [m c i e IHi IHe|m c b IHb|m v|m t l IH|m t n dims c|m v acc o r|m l o r|m l r|m args|m l IH|m a]
    using statement_ind'; cbn [stmt_exprs sub_stmts LiftFull.stmt_sugar_free]; intros He [Hm Hs]%Forall_cons_iff.
  - apply Forall_app in He as [Hc [Hi He]%Forall_app]. apply Forall_app in Hs as [Hsi Hse].
    rewrite (expr_sugar_free_of_spec _ Hc), (IHi Hi Hsi).
    destruct e as [e'|]; [exact (IHe e' eq_refl He Hse)|reflexivity].
  - apply Forall_app in He as [Hc Hb]. rewrite (expr_sugar_free_of_spec _ Hc). exact (IHb Hb Hs).
  - exact (expr_sugar_free_of_spec _ He).
  - apply Forall_flat_map in He, Hs. apply forallb_forall. intros x Hx.
    exact (proj1 (Forall_forall _ _) IH x Hx (proj1 (Forall_forall _ _) He x Hx) (proj1 (Forall_forall _ _) Hs x Hx)).
  - exact (exprs_sugar_free_of_spec _ He).
  - apply Forall_app in He as [Ha Hr]. rewrite (expr_sugar_free_of_spec _ Hr), andb_true_r.
    apply Forall_flat_map in Ha. refine (forallb_of_Forall _ _ _ _ Ha).
    apply Forall_forall. intros [nm|i] _; simpl; auto using expr_sugar_free_of_spec.
  - discriminate Hm.
  - apply Forall_app in He as [Hl Hr]. rewrite (expr_sugar_free_of_spec _ Hl). exact (expr_sugar_free_of_spec _ Hr).
  - apply Forall_flat_map in He. refine (forallb_of_Forall _ _ _ _ He).
    apply Forall_forall. intros [str|e] _; simpl; auto using expr_sugar_free_of_spec.
  - apply Forall_flat_map in He, Hs. apply forallb_forall. intros x Hx.
    exact (proj1 (Forall_forall _ _) IH x Hx (proj1 (Forall_forall _ _) He x Hx) (proj1 (Forall_forall _ _) Hs x Hx)).
  - exact (expr_sugar_free_of_spec _ He).
Qed.
