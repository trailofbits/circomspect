(* C01 (bridge SSA -> propagation, second hypothesis of C20_propagate_completes):
   the graph the SSA construction mirror returns has ONE defining assignment per
   local -- Justify.ldefs_unique -- derived from C14's construction theorems.

     C14_construction_unique_defs   NoDup (all_defs c'): a versioned name is assigned once
     into_ssa_targets               a target of the output is versioned exactly when it is a
                                    declared local, provided the tree walk reaches every block
     here                           an assignment TAGGED Local assigns a declared local -- an
                                    invariant of phi insertion, renaming and the re-issue of
                                    declarations ([tags_ok]); the type tag is what
                                    ldefs_unique goes by, the declaration key is what the
                                    construction versions by

   [tags_ok (c_decls c) (c_blocks c)] of the graph before conversion is a hypothesis here;
   Proofs.LiftFullIr proves it of every graph the lifting mirror returns. *)
From Coq Require Import ZArith NArith List Bool Lia Arith.
Require Import Model.Base Model.Ir Model.SsaCheck Model.SsaErase Model.Ssa Model.Justify Model.Propagate.
Require Import Proofs.IrInd Proofs.IrFacts Proofs.SsaNoPanic Proofs.SsaFuel Proofs.SsaConstruction.
Import ListNotations.

Section Tag.
Variable decls : list (vname * vtype).

Definition tag_ok (s : stmt) : Prop :=
  match s with
  | SSubst _ v _ _ _ (Some TLocal) => is_local_in decls v = true
  | _ => True
  end.
Definition bok (b : block) : Prop := Forall tag_ok (b_stmts b).
Definition tags_ok (bs : list block) : Prop := Forall bok bs.

(* the variable of an inserted phi statement is written by a block, with the tag Local *)
Lemma vars_written_local b v : bok b -> In v (vars_written b) -> is_local_in decls v = true.
Proof.
  intros Hb Hv. apply dedup_v_in, in_flat_map in Hv as (s & Hs & Hv).
  unfold bok in Hb. rewrite Forall_forall in Hb. specialize (Hb s Hs).
  destruct s as [| | |m x op rhe sv [[]|]| | |]; try contradiction. destruct Hv as [<-|[]]. exact Hb.
Qed.

Lemma ssa_stmt_tag : forall s env s' env', ssa_stmt decls env s = SOk (s', env') -> tag_ok s -> tag_ok s'.
Proof.
  apply (ssa_stmt_cases decls (fun _ s s' _ => tag_ok s -> tag_ok s')); auto.
  intros env m v op rhe sv [[]|] rhe' env1 v' env2 _ _ Hv; cbn [tag_ok]; auto.
  rewrite (is_local_in_key decls v' v (def_as_key _ _ _ _ _ Hv)). auto.
Qed.

Lemma ensure_phi_arg_tag env s : tag_ok s -> tag_ok (ensure_phi_arg env s).
Proof. rewrite (ensure_phi_arg_same tag_ok); auto. Qed.

Lemma update_decl_stmt_tag env s : tag_ok s -> tag_ok (update_decl_stmt env s).
Proof. rewrite (update_decl_stmt_same tag_ok); auto. Qed.
End Tag.

(* an invariant of phi insertion, renaming and the re-issue of declarations *)
Lemma into_ssa_tags frontier children c c' :
  into_ssa frontier children c = SOk c' -> tags_ok (c_decls c) (c_blocks c) -> tags_ok (c_decls c) (c_blocks c').
Proof.
  intros H Ht. apply forall2_of_Forall in Ht. eapply Forall_of_forall2.
  apply (into_ssa_keeps (fun v => is_local_in (c_decls c) v = true) (fun _ => bok (c_decls c)) frontier children c c');
    [| | | | |exact H|exact Ht].
  - intros _. apply vars_written_local.
  - intros _ b v Hv Hb. constructor; [|exact Hb].
    cbn [phi_stmt_for tag_ok]. rewrite (is_local_in_key _ (without_version v) v eq_refl). exact Hv.
  - intros _ b env ss env' Hb E. exact (ssa_stmts_Forall _ _ (ssa_stmt_tag _) _ _ _ _ E Hb).
  - intros _ b env Hb. exact (update_phis_Forall _ env (ensure_phi_arg_tag _ env) _ Hb).
  - intros _ b env Hb. apply Forall_map. eapply Forall_impl; [|exact Hb]. apply update_decl_stmt_tag.
Qed.

Lemma stmt_defs_app a b : stmt_defs (a ++ b) = stmt_defs a ++ stmt_defs b.
Proof. unfold stmt_defs. apply flat_map_app. Qed.

Lemma stmt_defs_all bs : stmt_defs (all_stmts bs) = blocks_defs bs.
Proof.
  unfold all_stmts, blocks_defs. induction bs as [|b tl IH]; [reflexivity|]. simpl. rewrite stmt_defs_app, IH. reflexivity.
Qed.

Lemma vname_eqb_false a b : a <> b -> vname_eqb a b = false.
Proof. intros H. destruct (vname_eqb a b) eqn:E; [|reflexivity]. apply vname_eqb_eq in E. contradiction. Qed.

(* for a versioned name, the statements assigning it are counted by its occurrences among the definitions *)
Lemma defines_count v : versioned v = true -> forall ss,
  length (filter (defines v) ss) = length (filter (fun y => vname_eqb y v) (stmt_defs ss)).
Proof.
  intros Hv. induction ss as [|s tl IH]; [reflexivity|].
  unfold stmt_defs. cbn [flat_map filter]. fold (stmt_defs tl).
  destruct s as [| | |m x op rhe sv st| | |]; cbn [defines stmt_def]; try exact IH.
  destruct (vname_eqb x v) eqn:E.
  - apply vname_eqb_eq in E. subst x. unfold versioned in Hv. destruct (vn_version v) eqn:Ev; [|discriminate].
    cbn [app filter]. rewrite vname_eqb_refl. cbn [length]. rewrite IH. reflexivity.
  - destruct (vn_version x); [|exact IH]. cbn [app filter]. rewrite E. exact IH.
Qed.

Lemma nodup_count (v : vname) : forall l, NoDup l -> In v l -> length (filter (fun y => vname_eqb y v) l) = 1.
Proof.
  induction l as [|x l IH]; intros Hn Hi; [contradiction|]. inversion Hn as [|? ? Hx Hl]; subst. cbn [filter].
  destruct Hi as [->|Hi].
  - rewrite vname_eqb_refl. cbn [length]. f_equal.
    assert (F : filter (fun y => vname_eqb y v) l = []).
    { clear IH Hl Hn. induction l as [|y l IHl]; [reflexivity|]. cbn [filter].
      rewrite vname_eqb_false; [apply IHl; intros H; apply Hx; right; exact H|]. intros ->. apply Hx. left. reflexivity. }
    rewrite F. reflexivity.
  - rewrite vname_eqb_false; [exact (IH Hl Hi)|]. intros ->. contradiction.
Qed.

Theorem into_ssa_ldefs_unique : forall frontier children c c',
  unversioned c -> tags_ok (c_decls c) (c_blocks c) ->
  children_cover children (length (c_blocks c)) ->
  into_ssa frontier children c = SOk c' ->
  ldefs_unique (all_stmts (c_blocks c')) = true.
Proof.
  intros frontier children c c' Hu Htag Hcov H.
  pose proof (into_ssa_unique_defs_unversioned _ _ _ _ Hu H) as ND.
  pose proof (into_ssa_tags _ _ _ _ H Htag) as T3.
  unfold ldefs_unique. apply forallb_forall. intros s Hs.
  destruct (is_ldef s) eqn:El; [|reflexivity]. cbn [negb orb].
  destruct s as [| | |m v op rhe sv st| | |]; try discriminate El. cbn [tgt].
  unfold all_stmts in Hs. apply in_flat_map in Hs. destruct Hs as (b & Hb & Hs).
  (* the target is tagged Local, so it is a declared local, hence versioned (into_ssa_targets) *)
  assert (Hver : versioned v = true).
  { rewrite (into_ssa_targets _ _ _ _ Hcov H b _ v Hb Hs eq_refl).
    unfold tags_ok in T3. rewrite Forall_forall in T3. specialize (T3 b Hb). unfold bok in T3. rewrite Forall_forall in T3.
    specialize (T3 _ Hs). cbn [is_ldef] in El. unfold stype_is_local in El. destruct st as [[]|]; try discriminate El. exact T3. }
  apply Nat.eqb_eq. rewrite (defines_count v Hver), stmt_defs_all.
  apply nodup_count.
  - rewrite all_defs_blocks in ND. exact ND.
  - unfold blocks_defs. apply in_flat_map. exists b. split; [exact Hb|]. unfold stmt_defs. apply in_flat_map.
    exists (SSubst m v op rhe sv st). split; [exact Hs|]. cbn [stmt_def]. unfold versioned in Hver.
    destruct (vn_version v); [left; reflexivity|discriminate].
Qed.
