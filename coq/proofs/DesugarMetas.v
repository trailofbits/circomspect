(* Meta provenance of the desugarer (C18 / C04): every predicate on metas that
   holds for all metas of the input holds for all metas of the output; hence
   every meta of the output occurs in the input. *)
From Coq Require Import ZArith NArith List Bool String Lia.
Require Import Model.Ast Model.Desugar Spec.ExpandSpec Proofs.DesugarProofs.
Import ListNotations.
Local Open Scope list_scope.


Definition allP {A} (R : A -> Prop) :=
  fix go (l : list A) : Prop := match l with [] => True | x :: r => R x /\ go r end.

Lemma allP_Forall : forall {A} (R : A -> Prop) l, allP R l <-> Forall R l.
Proof.
  induction l as [|x l IH]; simpl.
  - split; auto.
  - rewrite IH, Forall_cons_iff. reflexivity.
Qed.

Section MetaPred.
  Variable Q : meta -> Prop.

  Fixpoint ME (e : expression) : Prop :=
    Q (expr_meta e) /\
    match e with
    | InfixOp _ l _ r => ME l /\ ME r
    | PrefixOp _ _ r => ME r
    | InlineSwitchOp _ c t f => ME c /\ ME t /\ ME f
    | ParallelOp _ r => ME r
    | Variable_ _ _ acc => allP (fun a => match a with ArrayAccess i => ME i | ComponentAccess _ => True end) acc
    | Number _ _ => True
    | Call _ _ args => allP ME args
    | AnonymousComponent _ _ _ ps ss _ => allP ME ps /\ allP ME ss
    | ArrayInLine _ vs => allP ME vs
    | Tuple _ vs => allP ME vs
    end.

  Definition MA (a : access) : Prop := match a with ArrayAccess i => ME i | ComponentAccess _ => True end.
  Definition ML (a : log_argument) : Prop := match a with LogExp e => ME e | LogStr _ => True end.

  Fixpoint MS (s : statement) : Prop :=
    Q (stmt_meta s) /\
    match s with
    | IfThenElse _ c i e => ME c /\ MS i /\ match e with Some e => MS e | None => True end
    | While _ c b => ME c /\ MS b
    | Return _ v => ME v
    | InitializationBlock _ _ l => allP MS l
    | Declaration _ _ _ d _ => allP ME d
    | Substitution _ _ acc _ r => allP MA acc /\ ME r
    | MultiSubstitution _ l _ r => ME l /\ ME r
    | ConstraintEquality _ l r => ME l /\ ME r
    | LogCall _ args => allP ML args
    | Block _ l => allP MS l
    | Assert _ a => ME a
    end.

  Notation qe := (fun x => Q (expr_meta x)).
  Notation qs := (fun t => Q (stmt_meta t)).

  Lemma ME_all : forall e, ME e <-> AllE qe e.
  Proof.
    unfold AllE. induction e using expression_ind'; simpl;
      rewrite Forall_cons_iff, ?Forall_app, ?allP_Forall, ?Forall_flat_map.
    - tauto.
    - tauto.
    - tauto.
    - tauto.
    - apply and_iff_compat_l. apply Forall_iff_ext. eapply Forall_impl; [|exact H].
      intros [?|i]; simpl; [split; auto; constructor | auto].
    - split; intros [? _]; split; auto.
    - apply and_iff_compat_l. apply Forall_iff_ext. exact H.
    - rewrite (Forall_iff_ext _ _ _ H), (Forall_iff_ext _ _ _ H0). tauto.
    - apply and_iff_compat_l. apply Forall_iff_ext. exact H.
    - apply and_iff_compat_l. apply Forall_iff_ext. exact H.
  Qed.

  Lemma ME_iff : forall e, ME e <-> Forall Q (expr_metas e).
  Proof. intros. unfold expr_metas. rewrite Forall_map. apply ME_all. Qed.

  Lemma MEs_iff : forall l, Forall ME l <-> Forall Q (map expr_meta (flat_map sub_exprs l)).
  Proof.
    intros. rewrite Forall_map, Forall_flat_map. apply Forall_iff_ext. apply Forall_forall. intros e _. apply ME_all.
  Qed.

  Lemma MAcc_iff : forall acc, Forall MA acc <-> Forall Q (map expr_meta (access_exprs acc)).
  Proof.
    intros. unfold access_exprs. rewrite Forall_map, Forall_flat_map. apply Forall_iff_ext. apply Forall_forall.
    intros [?|e] _; simpl; [split; auto; constructor | apply ME_all].
  Qed.

  Lemma ML_iff : forall args,
    Forall ML args <->
    Forall Q (map expr_meta (flat_map (fun a => match a with LogExp e => sub_exprs e | LogStr _ => [] end) args)).
  Proof.
    intros. rewrite Forall_map, Forall_flat_map. apply Forall_iff_ext. apply Forall_forall.
    intros [?|e] _; simpl; [split; auto; constructor | apply ME_all].
  Qed.

  Lemma MS_all : forall s, MS s <-> AllS qe qs s.
  Proof.
    induction s using statement_ind'.
    - rewrite AllS_if, <- ME_all, <- IHs. simpl. destruct e as [e'|]; [rewrite <- (H e' eq_refl)|]; tauto.
    - rewrite AllS_while, <- ME_all, <- IHs. simpl. tauto.
    - rewrite AllS_leaf, <- (ME_all v) by reflexivity. simpl. tauto.
    - rewrite AllS_init, <- (Forall_iff_ext _ _ _ H). simpl. rewrite allP_Forall. tauto.
    - rewrite AllS_decl, <- (Forall_map expr_meta Q), <- MEs_iff. simpl. rewrite allP_Forall. tauto.
    - rewrite AllS_sub, <- (Forall_map expr_meta Q), <- MAcc_iff, <- ME_all. simpl. rewrite allP_Forall. tauto.
    - rewrite AllS_msub, <- !ME_all. simpl. tauto.
    - rewrite AllS_leaf by reflexivity. simpl. rewrite Forall_app, <- !(ME_all _ : _ <-> Forall _ _). tauto.
    - rewrite AllS_log. unfold log_exprs. rewrite <- (Forall_map expr_meta Q), <- ML_iff. simpl. rewrite allP_Forall. tauto.
    - rewrite AllS_block, <- (Forall_iff_ext _ _ _ H). simpl. rewrite allP_Forall. tauto.
    - rewrite AllS_leaf, <- (ME_all a) by reflexivity. simpl. tauto.
  Qed.

  Lemma MS_iff : forall s, MS s <-> Forall Q (stmt_metas s).
  Proof. intros. unfold stmt_metas. rewrite Forall_app, !Forall_map. apply MS_all. Qed.
End MetaPred.


Section Preserve.
  Variable Q : meta -> Prop.
  Notation ME := (ME Q).
  Notation MS := (MS Q).
  Notation MA := (MA Q).
  Notation ML := (ML Q).
  Notation qe := (fun x => Q (expr_meta x)).
  Notation qs := (fun t => Q (stmt_meta t)).

  Definition va_M (va : option expression) : Prop := match va with Some v => ME v | None => True end.

  Definition rae_M (r : dres (list statement * list statement * expression)) : Prop :=
    forall ss ds e', r = DOk (ss, ds, e') -> ME e' /\ Forall MS ss /\ Forall MS ds.

  Definition ras_M (r : dres (statement * list statement)) : Prop :=
    forall s' d, r = DOk (s', d) -> MS s' /\ Forall MS d.

  Lemma va_M_all : forall va, va_M va -> va_all qe va.
  Proof. intros [v|] H; [apply ME_all; exact H | exact I]. Qed.

  Lemma preds_M : pass1_preds Q qe qs (fun _ => True).
  Proof. split; auto. Qed.

  Lemma rae_M_ok : forall env lib va e, va_M va -> ME e ->
    rae_M (remove_anonymous_from_expression env lib va e).
  Proof.
    intros env lib va e Hva Hme ss ds e' H. apply ME_all in Hme.
    destruct (rae_nodes env lib _ _ _ _ preds_M va e (va_M_all _ Hva) Hme _ _ _ H) as (He & Hs & Hd).
    split; [apply ME_all; exact He|].
    split; (eapply Forall_impl; [|eassumption]); intros a Ha; apply MS_all; apply Ha.
  Qed.

  Lemma ras_M_ok : forall env lib s va, va_M va -> MS s ->
    ras_M (remove_anonymous_from_statement env lib va s).
  Proof.
    intros env lib s va Hva Hms s' d H. apply MS_all in Hms.
    destruct (ras_nodes env lib _ _ _ _ preds_M s va (va_M_all _ Hva) Hms _ _ H) as (Hs & Hd).
    split; [apply MS_all; exact Hs|].
    eapply Forall_impl; [|exact Hd]. intros a Ha. apply MS_all. apply Ha.
  Qed.

  Lemma rte_M : forall e e', ME e -> remove_tuple_from_expression e = DOk e' -> ME e'.
  Proof.
    intros e e' Hme H. apply ME_all. apply ME_all in Hme.
    exact (rte_all qe (fun _ _ _ H => H) _ _ Hme H).
  Qed.

  Lemma sep_log_M : forall e, ME e -> Forall ML (sep_log e).
  Proof. intros e H. apply ML_iff, Forall_map. apply sep_log_exprs. apply ME_all. exact H. Qed.

  Lemma rts_M : forall s s', MS s -> remove_tuples_from_statement s = DOk s' -> MS s'.
  Proof.
    intros s s' Hms H. apply MS_all. apply MS_all in Hms.
    refine (rts_nodes qe qe qs qs _ _ _ Hms H). split; auto.
    intros s0 t H0 E _. rewrite E. exact H0.
  Qed.

  Theorem desugar_template_M : forall env lib body body',
    MS body -> desugar_template env lib body = DOk body' -> MS body'.
  Proof.
    intros env lib body body' Hms H.
    apply desugar_template_passes in H. destruct H as (m & stmts & decls & c & v & su & H1 & H2 & H3).
    destruct (ras_M_ok env lib body None I Hms _ _ H1) as [Hs Hd].
    eapply rts_M; [|exact H3]. apply MS_all.
    apply (init_block_all _ _ m stmts decls c v su); auto.
    - intros Hm t <- _. exact Hm.
    - apply MS_all. exact Hs.
    - eapply Forall_impl; [|exact Hd]. intros a. apply MS_all.
  Qed.

  (* what check_function reports on *)
  Lemma ME_meta : forall e, ME e -> Q (expr_meta e).
  Proof. intros e H. destruct e; apply H. Qed.

  Lemma flat_map_M : forall {A} (P : A -> Prop) (g : A -> list meta) l,
    Forall (fun x => P x -> Forall Q (g x)) l -> allP P l -> Forall Q (flat_map g l).
  Proof.
    intros A P g l H Hl. apply allP_Forall in Hl. induction H as [|x l Hx _ IH]; simpl; [constructor|].
    inversion Hl; subst. apply Forall_app. auto.
  Qed.

  Lemma matching_metas_M : forall matcher e, ME e -> Forall Q (matching_metas matcher e).
  Proof.
    intros matcher. induction e using expression_ind'; intros Hme; cbn [matching_metas];
      (destruct (matcher _); [constructor; [apply (ME_meta _ Hme) | constructor]|]); simpl in Hme;
      rewrite ?Forall_app; try tauto; try (apply (flat_map_M ME); tauto).
    - apply (flat_map_M MA); [|tauto]. eapply Forall_impl; [|exact H]. intros [?|i] Hi; [constructor | exact Hi].
    - constructor.
    - split; apply (flat_map_M ME); tauto.
  Qed.

  Lemma matching_metas_stmt_M : forall matcher s, MS s -> Forall Q (matching_metas_stmt matcher s).
  Proof.
    pose proof matching_metas_M as HE.
    assert (HA : forall matcher acc, allP MA acc -> Forall Q (access_metas (matching_metas matcher) acc)).
    { intros matcher acc. apply (flat_map_M MA). apply Forall_forall. intros [?|i] _ Hi; [constructor | auto]. }
    intros matcher. induction s using statement_ind'; intros Hms; cbn [matching_metas_stmt]; simpl in Hms;
      rewrite ?Forall_app; decompose [and] Hms; repeat split; auto; try (apply (flat_map_M MS); assumption).
    - destruct e as [e'|]; [apply (H e' eq_refl); assumption | constructor].
    - apply (flat_map_M ME); [|assumption]. apply Forall_forall. auto.
    - apply (flat_map_M ML); [|assumption]. apply Forall_forall. intros [?|x] _ Hx; [constructor | auto].
  Qed.

  Lemma find_multi_substitution_M : forall s m, MS s -> find_multi_substitution s = Some m -> Q m.
  Proof.
    intros s m Hms H. rewrite find_multi_substitution_find in H.
    destruct (find _ (sub_stmts s)) eqn:E; [|discriminate]. apply find_some in E. inversion H; subst.
    apply MS_all in Hms. destruct Hms as [_ Hs]. rewrite Forall_forall in Hs. apply Hs. tauto.
  Qed.
End Preserve.

(* any property of metas is inherited by the output *)
Theorem desugar_meta_property_inherited : forall (Q : meta -> Prop) env lib body body',
  Forall Q (stmt_metas body) -> desugar_template env lib body = DOk body' -> Forall Q (stmt_metas body').
Proof.
  intros Q env lib body body' H1 H2. apply MS_iff. eapply desugar_template_M; [|exact H2]. apply MS_iff. exact H1.
Qed.

(* every meta of the output occurs in the input *)
Theorem desugar_metas_from_input : forall env lib body body',
  desugar_template env lib body = DOk body' ->
  forall m, In m (stmt_metas body') -> In m (stmt_metas body).
Proof.
  intros env lib body body' H. apply Forall_forall.
  apply (desugar_meta_property_inherited _ env lib body body'); [apply Forall_forall; auto | exact H].
Qed.
