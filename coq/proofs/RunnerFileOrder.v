(* "Input files given in another order", end to end over the models: the files
   get other FileIDs (an injective renumbering [f] of every [d_file], of the
   primary-label files of every report and of the user inputs), the map of
   parsed files is iterated in whatever order, and the name maps are rebuilt by
   Model.RunnerLib.library_of from the RENUMBERED entries.  When no name is
   defined twice the same findings are displayed (renumbered).  When a name is
   defined twice the statement is FALSE - the definition with the smaller new
   FileID is kept - which is the known finding C17-duplicate-name-file-order. *)
From Coq Require Import ZArith List Bool Permutation Lia.
Require Import Model.Base Gen.Category Model.Runner Model.RunnerLib Spec.RunnerSpec
               Proofs.RunnerProofs Proofs.RunnerLibProofs Proofs.RunnerFileIds.
Import ListNotations.
Local Open Scope Z_scope.

Definition rn_entry (f : Z -> Z) (e : entry) : entry := (f (fst e), map (rn_def f) (snd e)).

Lemma lib_fold_nodup_id : forall l m, NoDup (map d_name (m ++ l)) -> fold_left lib_add l m = m ++ l.
Proof.
  induction l as [|d l IH]; simpl; intros m H.
  - rewrite app_nil_r. reflexivity.
  - assert (Hn : first_named (d_name d) m = None).
    { apply first_named_none. rewrite map_app in H. simpl in H. apply NoDup_remove_2 in H.
      intro Hin. apply H. apply in_or_app. left. exact Hin. }
    unfold lib_add at 2. unfold name_used. rewrite Hn.
    rewrite IH; rewrite <- app_assoc; simpl; auto.
Qed.

(* without duplicated names the library is every definition, in file order *)
Lemma library_of_no_duplicates : forall es,
  NoDup (map d_name (flat_map snd es)) -> library_of es = definitions_in_file_order es.
Proof.
  intros es H. unfold library_of. rewrite lib_fold_nodup_id; auto. simpl.
  unfold definitions_in_file_order. rewrite <- sort_entries_perm. exact H.
Qed.

Lemma library_of_all : forall es,
  NoDup (map d_name (flat_map snd es)) -> Permutation (library_of es) (flat_map snd es).
Proof.
  intros es H. rewrite (library_of_no_duplicates es H). unfold definitions_in_file_order.
  rewrite <- sort_entries_perm. reflexivity.
Qed.

Lemma flat_map_rn_entries : forall f es,
  flat_map snd (map (rn_entry f) es) = map (rn_def f) (flat_map snd es).
Proof. intros f es. induction es as [|e es IH]; simpl; auto. rewrite IH, map_app. reflexivity. Qed.

Lemma names_rn : forall f ds, map d_name (map (rn_def f) ds) = map d_name ds.
Proof. intros. rewrite map_map. apply map_ext. reflexivity. Qed.

Lemma library_of_renumbered : forall f es es',
  NoDup (map d_name (flat_map snd es)) -> Permutation es' (map (rn_entry f) es) ->
  Permutation (library_of es') (map (rn_def f) (library_of es)).
Proof.
  intros f es es' H Hes. rewrite (library_of_all es H), library_of_all.
  - rewrite Hes, flat_map_rn_entries. reflexivity.
  - rewrite Hes, flat_map_rn_entries, names_rn. exact H.
Qed.

Theorem library_of_renumbered_files : forall f es,
  NoDup (map d_name (flat_map snd es)) ->
  Permutation (library_of (map (rn_entry f) es)) (map (rn_def f) (library_of es)).
Proof. intros f es H. apply library_of_renumbered; [exact H|reflexivity]. Qed.

Theorem files_in_another_order : forall f parse es es' user o order order',
  injective f ->
  NoDup (map d_name (flat_map snd es)) ->
  Permutation es' (map (rn_entry f) es) ->
  let p := mkProject parse (library_of es) user in
  let p' := mkProject (map (rn_report f) parse) (library_of es') (map f user) in
  analysis_order p order -> analysis_order p' order' ->
  Permutation (res_shown (run_keys p' o order')) (map (rn_report f) (res_shown (run_keys p o order))) /\
  res_exit (run_keys p' o order') = res_exit (run_keys p o order).
Proof.
  intros f parse es es' user o order order' Hinj Hnd Hes p p' Ho Ho'.
  apply (renamed_findings_same_display (rn_report f)); try apply library_wf; auto.
  - rewrite <- (produced_rn f Hinj p). apply produced_perm; [reflexivity|].
    apply library_of_renumbered; assumption.
  - intros r. apply (keep_b_rn f Hinj).
Qed.

(* with a duplicated name the statement is false: the two files swap their ids
   and the OTHER definition of T is kept (known finding
   C17-duplicate-name-file-order) *)
Theorem files_in_another_order_refuted_with_duplicated_name :
  exists f es,
    injective f /\ NoDup (map fst es) /\
    ~ NoDup (map d_name (flat_map snd es)) /\
    ~ Permutation (library_of (map (rn_entry f) es)) (map (rn_def f) (library_of es)).
Proof.
  exists swap01, [(0, [ex_a]); (1, [ex_b])].
  split. exact swap01_injective.
  split. { simpl. repeat constructor; simpl; intuition discriminate. }
  split. { simpl. intro H. inversion H as [|? ? Hn _]; subst. apply Hn. left. reflexivity. }
  vm_compute. intro H. apply Permutation_length_1 in H. discriminate.
Qed.
