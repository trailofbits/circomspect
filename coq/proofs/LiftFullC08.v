(* C08: the `<--` / `-->` substitutions of the lifted graph are exactly the
   images of the `<--` / `-->` statements of the source, in order, with the same
   locations (from the content-carrying lifting mirror Model.LiftFull); hence
   distinct source locations give distinct keys (Spec.SigAssignSpec.subkeys_distinct,
   which implies keys_distinct by C08_subkeys_distinct_suffice). *)
From Coq Require Import ZArith NArith List Bool Lia.
Require Import Model.Base Model.Ir Model.SignalAssign Spec.SigAssignSpec.
Require Model.Ast Model.LiftFull Model.SigAssignSource Proofs.BaseFacts Proofs.LiftFullProofs Proofs.IrFacts Proofs.SignalAssignProofs.
From Coq Require FinFun.
Import ListNotations.

Definition ir_meta (m : Model.Ast.meta) : meta := LiftFull.lift_meta m.

(* the `<--` / `-->` statements of a body, in source order *)
Definition source_signal_assignments (body : Model.Ast.statement) : list Model.Ast.statement :=
  filter LiftFull.is_signal_assignment (LiftFull.lifted_stmts body).

Lemma is_assign_erase x : is_assign (LiftFull.erase_stmt x) = LiftFull.is_xsignal_assignment x.
Proof. destruct x as [| | |m v [] rhe st| | |]; reflexivity. Qed.

Lemma stmt_meta_erase x : stmt_meta (LiftFull.erase_stmt x) = LiftFull.xstmt_meta x.
Proof. destruct x; reflexivity. Qed.

(* the assignments the pass looks at, with their metas *)
Theorem signal_assignments_from_source : forall kind params pfile ploc body c,
  LiftFull.lift_to_ir kind params pfile ploc body = Ok c ->
  map stmt_meta (assign_stmts c) = map (fun s => ir_meta (Model.Ast.stmt_meta s)) (source_signal_assignments body).
Proof.
  intros kind params pfile ploc body c H. apply LiftFullProofs.lift_to_ir_inv in H as (r & E & ->).
  unfold assign_stmts, all_stmts. rewrite LiftFullProofs.erase_stmts.
  rewrite (BaseFacts.filter_map_comm LiftFull.erase_stmt is_assign LiftFull.is_xsignal_assignment) by apply is_assign_erase.
  rewrite map_map. rewrite (map_ext _ LiftFull.xstmt_meta) by apply stmt_meta_erase.
  exact (LiftFullProofs.liftfull_signal_assignments _ _ _ _ _ _ E).
Qed.

Lemma assignment_metas l :
  map a_meta (filter_map assignment_of l) = map stmt_meta (filter is_assign l).
Proof.
  induction l as [|s l IH]; [reflexivity|].
  destruct s as [| | |m v [] rhe sv st| | |]; simpl; rewrite ?IH; reflexivity.
Qed.

Lemma meta_eqb_eq a b : meta_eqb a b = true <-> a = b.
Proof.
  unfold meta_eqb. rewrite !andb_true_iff, !N.eqb_eq, IrFacts.optN_eqb_eq. destruct a, b; simpl.
  split; [intros [[-> ->] ->]; reflexivity|intros [= -> -> ->]; auto].
Qed.

(* for metas, pairwise distinctness by positions is NoDup *)
Lemma distinct_keys_NoDup (l : list meta) : distinct_keys meta_eqb l <-> NoDup l.
Proof.
  rewrite NoDup_nth_error. split.
  - intros H i j Hi E. destruct (Nat.eq_dec i j) as [|Hne]; [assumption|exfalso].
    destruct (nth_error l i) as [a|] eqn:Ea; [|apply nth_error_Some in Hi; congruence].
    symmetry in E. pose proof (H i j a a Hne Ea E) as F. rewrite (proj2 (meta_eqb_eq a a) eq_refl) in F. discriminate F.
  - intros H i j a b Hij Ha Hb. destruct (meta_eqb a b) eqn:E; [|reflexivity]. apply meta_eqb_eq in E. subst b.
    exfalso. apply Hij, H; [apply nth_error_Some|]; congruence.
Qed.

Lemma distinct_metas_distinct_subkeys l :
  NoDup (map a_meta l) -> distinct_keys subkey_eqb l.
Proof.
  intros Hn i j a b Hij Ha Hb. apply distinct_keys_NoDup in Hn. unfold subkey_eqb.
  rewrite (Hn i j (a_meta a) (a_meta b) Hij); [reflexivity| |]; rewrite nth_error_map; [rewrite Ha|rewrite Hb]; reflexivity.
Qed.

Lemma ir_meta_inj a b : ir_meta a = ir_meta b -> a = b.
Proof. destruct a, b. unfold ir_meta, LiftFull.lift_meta. simpl. intros [= -> -> ->]. reflexivity. Qed.

(* distinct source locations of the `<--` statements give distinct keys *)
Theorem distinct_sources_distinct_subkeys : forall kind params pfile ploc body c,
  LiftFull.lift_to_ir kind params pfile ploc body = Ok c ->
  NoDup (map Model.Ast.stmt_meta (source_signal_assignments body)) ->
  subkeys_distinct c.
Proof.
  intros kind params pfile ploc body c H Hn. unfold subkeys_distinct.
  apply distinct_metas_distinct_subkeys. rewrite assignment_metas.
  fold (assign_stmts c). rewrite (signal_assignments_from_source _ _ _ _ _ _ H).
  rewrite <- (map_map Model.Ast.stmt_meta ir_meta). apply FinFun.Injective_map_NoDup; [exact ir_meta_inj|exact Hn].
Qed.

(* as many `<--` statements in the graph as in the source *)
Theorem signal_assignment_count : forall kind params pfile ploc body c,
  LiftFull.lift_to_ir kind params pfile ploc body = Ok c ->
  length (assign_stmts c) = length (source_signal_assignments body).
Proof.
  intros kind params pfile ploc body c H.
  pose proof (signal_assignments_from_source _ _ _ _ _ _ H) as E.
  apply (f_equal (@length _)) in E. rewrite !map_length in E. exact E.
Qed.

(* the boolean the liftfull driver evaluates on every explored definition implies the
   hypothesis of [distinct_sources_distinct_subkeys] *)
Theorem source_metas_distinct_b_sound body :
  SigAssignSource.source_metas_distinct_b body = true ->
  NoDup (map Model.Ast.stmt_meta (source_signal_assignments body)).
Proof.
  unfold SigAssignSource.source_metas_distinct_b, SigAssignSource.source_assignment_metas. intros H.
  apply SignalAssignProofs.pairwise_distinct_spec, distinct_keys_NoDup in H.
  change (NoDup (map (fun s => ir_meta (Model.Ast.stmt_meta s)) (source_signal_assignments body))) in H.
  rewrite <- (map_map Model.Ast.stmt_meta ir_meta) in H. exact (NoDup_map_inv ir_meta _ H).
Qed.

Theorem distinct_sources_b_distinct_subkeys : forall kind params pfile ploc body c,
  LiftFull.lift_to_ir kind params pfile ploc body = Ok c ->
  SigAssignSource.source_metas_distinct_b body = true ->
  subkeys_distinct c.
Proof.
  intros kind params pfile ploc body c H Hb.
  exact (distinct_sources_distinct_subkeys _ _ _ _ _ _ H (source_metas_distinct_b_sound body Hb)).
Qed.
