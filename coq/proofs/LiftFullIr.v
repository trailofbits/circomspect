(* C01: what the content-carrying lifting mirror hands to the rest of the chain.
   For every graph c that Model.LiftFull.lift_to_ir returns:

     lifted_unversioned        no variable occurrence carries a version (names are built by
                               from_string / split('.') only): hypothesis of C01_into_ssa_never_panics
     lifted_written_declared   an assignment tagged Local assigns a declared name (the tag is
                               what propagate_types found in the declarations): hypothesis of
                               C01_into_ssa_fuel_suffices
     lifted_clean              no node carries a value claim; literals are non-negative when
                               those of the body are (PipelineMirrors.stmt_lits_ok; the renaming
                               pass keeps literals): first hypothesis of C20_propagate_completes
     lifted_dom                the predecessor / successor lists DominatorTree::new reads are
                               those of the graph Model.Lift builds from the skeleton of the body
                               (C13_liftfull_skeleton), so the bridges of Proofs.MirrorsDom apply

   Proofs: statement provenance
   (Proofs.LiftFullProofs.liftfull_provenance: every IR statement of the graph is the
   image of a statement of the renamed body) plus one induction over lift_expr. *)
From Coq Require Import ZArith NArith Ascii String.
From stdpp Require Import list.
Require Import Model.Lift Model.LiftFull Proofs.LiftBasics Proofs.LiftProofs Proofs.LiftFullProofs Proofs.LiftFullTotal.
Require Model.Ast Model.Ir Model.Clean Model.Justify Model.Ssa Model.Dom Model.PipelineMirrors.
Require Proofs.DesugarProofs Proofs.SsaNoPanic Proofs.SsaFuel Proofs.SsaClean Proofs.MirrorsDom Proofs.IrFacts Proofs.SsaLocalDefs.
Import Base(outcome, Ok, Err, Panic, OutOfFuel, bind, EOther).
Local Open Scope nat_scope.

Module PM := Model.PipelineMirrors.
Module NP := Proofs.SsaNoPanic.
Module SC := Proofs.SsaClean.

Definition erase_acc (a : Ir.access xexpr) : Ir.access Ir.expr :=
  match a with Ir.AIdx i => Ir.AIdx (erase_expr i) | Ir.AComp n => Ir.AComp n end.

Lemma erase_update_eq m v acc r :
  erase_expr (XUpdate m v acc r) = Ir.EUpdate v (map erase_acc acc) (erase_expr r) Ir.know0.
Proof. reflexivity. Qed.

Lemma lift_name_unv n v : lift_name n = Ok v -> Ir.vn_version v = None.
Proof.
  unfold lift_name. destruct (split_dot n) as [|a [|b [|c r]]]; try done; by intros [= <-].
Qed.

(* the two properties of a lifted term, as booleans [u] (unversioned) and [c] (clean), the second
   under the condition [l] that the literals of the source are non-negative *)
Definition both (u c l : bool) : Prop := u = true /\ (l = true -> c = true).

Lemma both_and u1 c1 l1 u2 c2 l2 : both u1 c1 l1 -> both u2 c2 l2 -> both (u1 && u2) (c1 && c2) (l1 && l2).
Proof. intros [-> C1] [-> C2]. split; [done|]. intros [H1 H2]%andb_prop. by rewrite C1, C2. Qed.

Definition xgood (e : Ast.expression) (x : xexpr) : Prop :=
  both (NP.expr_unv (erase_expr x)) (Clean.clean_expr (erase_expr x)) (PM.expr_lits_ok e).

Definition egood (e : Ast.expression) : Prop := forall x, lift_expr e = Ok x -> xgood e x.

Lemma lift_exprs_good l : Forall egood l -> forall xs, LiftFull.lift_exprs l = Ok xs ->
  both (NP.list_unv (map erase_expr xs)) (SC.clist (map erase_expr xs)) (forallb PM.expr_lits_ok l).
Proof.
  induction 1 as [|e l He _ IH]; intros xs H; simpl in H.
  - by injection H as <-.
  - inv_bind H. inv_bind H. injection H as <-. exact (both_and _ _ _ _ _ _ (He _ E) (IH _ E0)).
Qed.

Lemma lift_accs_good l : Forall (DesugarProofs.access_all egood) l -> forall xs, LiftFull.lift_accs l = Ok xs ->
  both (NP.acc_unv (map erase_acc xs)) (SC.cacc (map erase_acc xs)) (forallb PM.access_lits_ok l).
Proof.
  induction 1 as [|a l Ha _ IH]; intros xs H; simpl in H.
  - by injection H as <-.
  - destruct a as [s|i]; simpl in *.
    + inv_bind H. injection H as <-. exact (IH _ E).
    + inv_bind H. inv_bind H. injection H as <-. exact (both_and _ _ _ _ _ _ (Ha _ E) (IH _ E0)).
Qed.

Lemma lift_name_good n v : lift_name n = Ok v -> both (NP.isnone (Ir.vn_version v)) true true.
Proof. intros H. by rewrite (lift_name_unv _ _ H). Qed.

Lemma lift_expr_good e : egood e.
Proof.
  induction e using DesugarProofs.expression_ind'; intros x Hx.
  - simpl in Hx. inv_bind Hx. inv_bind Hx. injection Hx as <-.
    exact (both_and _ _ _ _ _ _ (IHe1 _ E) (IHe2 _ E0)).
  - simpl in Hx. inv_bind Hx. injection Hx as <-. exact (IHe _ E).
  - simpl in Hx. inv_bind Hx. inv_bind Hx. inv_bind Hx. injection Hx as <-.
    exact (both_and _ _ _ _ _ _ (both_and _ _ _ _ _ _ (IHe1 _ E) (IHe2 _ E0)) (IHe3 _ E1)).
  - exact (IHe _ Hx).
  - rewrite lift_expr_var_eq in Hx. destruct acc as [|a0 acc0].
    + inv_bind Hx. injection Hx as <-. exact (lift_name_good _ _ E).
    + inv_bind Hx. inv_bind Hx. injection Hx as <-.
      exact (both_and _ _ _ _ _ _ (lift_name_good _ _ E) (lift_accs_good _ H _ E0)).
  - simpl in Hx. injection Hx as <-. split; simpl; [done|]. intros Hl. by rewrite Hl.
  - rewrite lift_expr_call_eq in Hx. inv_bind Hx. injection Hx as <-. exact (lift_exprs_good _ H _ E).
  - done.
  - rewrite lift_expr_array_eq in Hx. inv_bind Hx. injection Hx as <-. exact (lift_exprs_good _ H _ E).
  - done.
Qed.

Lemma lift_exprs_good' l xs : LiftFull.lift_exprs l = Ok xs ->
  both (NP.list_unv (map erase_expr xs)) (SC.clist (map erase_expr xs)) (forallb PM.expr_lits_ok l).
Proof. apply lift_exprs_good. apply Forall_forall. intros e _. apply lift_expr_good. Qed.

Lemma lift_accs_good' l xs : LiftFull.lift_accs l = Ok xs ->
  both (NP.acc_unv (map erase_acc xs)) (SC.cacc (map erase_acc xs)) (forallb PM.access_lits_ok l).
Proof.
  apply lift_accs_good. apply Forall_forall. intros [s|i] _; simpl; [done|apply lift_expr_good].
Qed.

Lemma clist_forallb l : SC.clist l = forallb Clean.clean_expr l.
Proof. induction l as [|x l IH]; simpl; [done|]. by rewrite IH. Qed.

Lemma lift_logargs_good l xs : lift_logargs l = Ok xs ->
  both (forallb NP.logarg_unv (map erase_logarg xs))
       (forallb (fun a => match a with Ir.LStr => true | Ir.LExpr e => Clean.clean_expr e end) (map erase_logarg xs))
       (forallb PM.logarg_lits_ok l).
Proof.
  revert xs. induction l as [|a l IH]; intros xs H; simpl in H.
  - by injection H as <-.
  - destruct a as [s|e]; simpl in *.
    + inv_bind H. injection H as <-. exact (IH _ E).
    + inv_bind H. inv_bind H. injection H as <-. exact (both_and _ _ _ _ _ _ (lift_expr_good e _ E) (IH _ E0)).
Qed.

Definition sgood (lits : bool) (x : xstmt) : Prop :=
  both (NP.stmt_unv (erase_stmt x)) (Clean.clean_stmt (erase_stmt x)) lits.

Lemma lift_stmt_good s x : lift_stmt s = Ok x -> sgood (PM.stmt_lits_ok s) x.
Proof.
  destruct s; try done; simpl; intros H.
  - (* Return *)
    inv_bind H. injection H as <-. exact (lift_expr_good _ _ E).
  - (* Declaration *)
    inv_bind H. inv_bind H. injection H as <-. unfold sgood. simpl. rewrite <- clist_forallb.
    exact (lift_exprs_good' _ _ E0).
  - (* Substitution *)
    inv_bind H. inv_bind H. injection H as <-. rename E0 into En.
    assert (G : both (NP.expr_unv (erase_expr a)) (Clean.clean_expr (erase_expr a))
                     (forallb PM.access_lits_ok acc && PM.expr_lits_ok rhe)).
    { destruct acc as [|ac0 accs0]; [exact (lift_expr_good _ _ E)|].
      inv_bind E. inv_bind E. inv_bind E. injection E as <-.
      rewrite erase_update_eq, NP.expr_unv_update, SC.clean_update, (andb_comm (Clean.clean_expr _)).
      exact (both_and _ _ _ _ _ _ (both_and _ _ _ _ _ _ (lift_name_good _ _ E0) (lift_accs_good' _ _ E1)) (lift_expr_good _ _ E2)). }
    unfold sgood. simpl. rewrite andb_true_r. exact (both_and _ _ _ _ _ _ (lift_name_good _ _ En) G).
  - (* ConstraintEquality *)
    inv_bind H. inv_bind H. injection H as <-.
    exact (both_and _ _ _ _ _ _ (lift_expr_good _ _ E) (lift_expr_good _ _ E0)).
  - (* LogCall *)
    inv_bind H. injection H as <-. exact (lift_logargs_good _ _ E).
  - (* Assert *)
    inv_bind H. injection H as <-. exact (lift_expr_good _ _ E).
Qed.

Lemma image0_good s x : image0 s x -> sgood (PM.stmt_lits_ok s) x.
Proof.
  destruct s; try apply lift_stmt_good; simpl.
  - intros (c' & t & E & ->). destruct (lift_expr_good _ _ E) as [U C]. split; simpl; [done|].
    intros Hl. apply andb_prop in Hl as [Hl _]. apply andb_prop in Hl as [Hl _]. by apply C.
  - intros (c' & t & E & ->). destruct (lift_expr_good _ _ E) as [U C]. split; simpl; [done|].
    intros Hl. apply andb_prop in Hl as [Hl _]. by apply C.
Qed.

Lemma sgood_unpatch lits x : sgood lits (unpatch x) -> sgood lits x.
Proof. destruct x; done. Qed.

Lemma sgood_propagate lits ds x : sgood lits x -> sgood lits (propagate_types_stmt ds x).
Proof. destruct x; done. Qed.

Lemma image_good ds s x : image ds s x -> sgood (PM.stmt_lits_ok s) x.
Proof. intros (x0 & H0 & ->). apply sgood_propagate, sgood_unpatch, image0_good, H0. Qed.

Lemma lits_lifted_stmts s : PM.stmt_lits_ok s = true -> Forall (fun t => PM.stmt_lits_ok t = true) (lifted_stmts s).
Proof.
  induction s as [m c t e IHt IHe|m c body IH|m t ss IH|m ss IH|m t n dd cst|s Hplain] using stmt_ind'; intros H.
  - simpl. constructor; [exact H|]. simpl in H. apply andb_prop in H as [H He]. apply andb_prop in H as [_ Ht].
    apply Forall_app. split; [by apply IHt|]. destruct e as [e|]; [by apply IHe|constructor].
  - simpl. constructor; [exact H|]. simpl in H. apply andb_prop in H as [_ Hb]. by apply IH.
  - simpl in *. apply Forall_flat_map. rewrite forallb_forall in H. rewrite Forall_forall in IH |- *.
    intros x Hx. apply IH; [done|]. apply H. by apply elem_of_list_In.
  - simpl in *. apply Forall_flat_map. rewrite forallb_forall in H. rewrite Forall_forall in IH |- *.
    intros x Hx. apply IH; [done|]. apply H. by apply elem_of_list_In.
  - simpl. by constructor.
  - destruct s; try done; simpl; by constructor.
Qed.

Lemma ren_expr_lits env e : PM.expr_lits_ok (ren_expr env e) = PM.expr_lits_ok e.
Proof.
  induction e using DesugarProofs.expression_ind'; simpl; try done.
  - by rewrite IHe1, IHe2.
  - by rewrite IHe1, IHe2, IHe3.
  - apply forallb_map_ext. eapply Forall_impl; [exact H|]. intros [s|i]; simpl; done.
  - apply forallb_map_ext. exact H.
  - apply forallb_map_ext. exact H.
Qed.

Lemma ren_exprs_lits env l : forallb PM.expr_lits_ok (map (ren_expr env) l) = forallb PM.expr_lits_ok l.
Proof. apply forallb_map_ext. apply Forall_forall. intros e _. apply ren_expr_lits. Qed.

Lemma ren_accs_lits env l : forallb PM.access_lits_ok (map (ren_access env) l) = forallb PM.access_lits_ok l.
Proof. apply forallb_map_ext. apply Forall_forall. intros [s|i] _; simpl; [done|apply ren_expr_lits]. Qed.

Lemma ren_logargs_lits env l : forallb PM.logarg_lits_ok (map (ren_logarg env) l) = forallb PM.logarg_lits_ok l.
Proof. apply forallb_map_ext. apply Forall_forall. intros [s|e] _; simpl; [done|apply ren_expr_lits]. Qed.

Lemma ren_lits s st r : ren_stmt s st = Ok r -> PM.stmt_lits_ok (fst r) = PM.stmt_lits_ok s.
Proof.
  revert st r.
  induction s as [m c t e IHt IHe|m c body IH|m t ss IH|m ss IH|m t n dd cst|s Hplain] using stmt_ind';
    intros st r Hr.
  - simpl in Hr. inv_bind Hr. destruct e as [e|].
    + inv_bind Hr. injection Hr as <-. simpl. by rewrite ren_expr_lits, (IHt _ _ E), (IHe _ _ E0).
    + injection Hr as <-. simpl. by rewrite ren_expr_lits, (IHt _ _ E).
  - simpl in Hr. inv_bind Hr. injection Hr as <-. simpl. by rewrite ren_expr_lits, (IH _ _ E).
  - rewrite ren_init_eq in Hr. inv_bind Hr. injection Hr as <-.
    exact (forallb_Forall2 _ _ _ (ren_stmts_Forall2 _ ss IH _ _ E)).
  - rewrite ren_block_eq in Hr. inv_bind Hr. inv_bind Hr. injection Hr as <-.
    exact (forallb_Forall2 _ _ _ (ren_stmts_Forall2 _ ss IH _ _ E)).
  - simpl in Hr. inv_bind Hr. destruct (fst a); injection Hr as <-; simpl; apply ren_exprs_lits.
  - destruct s; try done; simpl in Hr; injection Hr as <-; simpl;
      rewrite ?ren_expr_lits, ?ren_accs_lits, ?ren_logargs_lits; done.
Qed.

Lemma graph_good kind params pfile ploc body r :
  try_lift_impl kind params pfile ploc body = Ok r ->
  Forall (sgood (PM.stmt_lits_ok body)) (graph_stmts (xc_blocks (l_cfg r))).
Proof.
  intros H. destruct (liftfull_provenance _ _ _ _ _ _ H) as (body' & Hu & _ & F).
  apply ensure_unique_inv in Hu as (st & r' & Hr & Hb). cbn [fst] in Hb. subst body'.
  rewrite <- (ren_lits _ _ _ Hr). eapply Forall2_Forall_r; [exact F|].
  destruct (PM.stmt_lits_ok (fst r')) eqn:Eb.
  - eapply Forall_impl; [exact (lits_lifted_stmts _ Eb)|]. intros s Hs x Hi. rewrite <- Hs. by eapply image_good.
  - apply Forall_forall. intros s _ x Hi. split; [apply (image_good _ _ _ Hi)|done].
Qed.

Theorem lifted_unversioned kind params pfile ploc body c :
  lift_to_ir kind params pfile ploc body = Ok c -> NP.unversioned c.
Proof.
  intros (a & E & ->)%lift_to_ir_inv.
  pose proof (graph_good _ _ _ _ _ _ E) as G.
  intros i b Hb. unfold NP.block_unv. apply forallb_forall. intros s Hs.
  assert (Hin : List.In s (List.flat_map Ir.b_stmts (Ir.c_blocks (erase_cfg (l_cfg a))))).
  { apply in_flat_map. exists b. split; [by eapply nth_error_In|done]. }
  rewrite erase_stmts in Hin. apply in_map_iff in Hin as (x & <- & Hx).
  rewrite Forall_forall in G. apply elem_of_list_In in Hx. by destruct (G x Hx).
Qed.

Theorem lifted_clean kind params pfile ploc body c :
  PM.stmt_lits_ok body = true ->
  lift_to_ir kind params pfile ploc body = Ok c -> Clean.clean_cfg c = true.
Proof.
  intros Hl (a & E & ->)%lift_to_ir_inv.
  pose proof (graph_good _ _ _ _ _ _ E) as G. rewrite Hl in G.
  unfold Clean.clean_cfg, Justify.all_stmts. rewrite erase_stmts. apply forallb_forall. intros s Hs.
  apply in_map_iff in Hs as (x & <- & Hx).
  rewrite Forall_forall in G. apply elem_of_list_In in Hx. destruct (G x Hx) as [_ C]. by apply C.
Qed.

Lemma image0_subst_untyped s m v op rhe st : image0 s (XSubst m v op rhe st) -> st = None /\ Ir.vn_version v = None.
Proof.
  destruct s; simpl; try done.
  - intros (c' & t & _ & ?). done.
  - intros (c' & t & _ & ?). done.
  - intros H. inv_bind H. done.
  - intros H. inv_bind H. inv_bind H. done.
  - intros H. inv_bind H. inv_bind H. injection H as <- <- <- <- <-. split; [done|]. by eapply lift_name_unv.
  - intros H. inv_bind H. inv_bind H. done.
  - intros H. inv_bind H. done.
  - intros H. inv_bind H. done.
Qed.

(* the tag of a lifted substitution is what propagate_types found in the declarations for
   the assigned name, so a Local tag means a declaration of type Local with that name *)
Lemma lifted_local_tags kind params pfile ploc body r :
  try_lift_impl kind params pfile ploc body = Ok r ->
  Forall (fun s => match s with
                   | Ir.SSubst _ v _ _ _ (Some Ir.TLocal) => In (v, Ir.TLocal) (Ir.c_decls (erase_cfg (l_cfg r)))
                   | _ => True
                   end) (map erase_stmt (graph_stmts (xc_blocks (l_cfg r)))).
Proof.
  intros H. destruct (liftfull_provenance _ _ _ _ _ _ H) as (body' & _ & _ & F).
  apply Forall_fmap. eapply Forall2_Forall_r; [exact F|]. apply Forall_forall. intros s _ x (x0 & H0 & ->).
  destruct x0 as [| | |m v op rhe st| | |]; try done.
  simpl in H0. destruct (image0_subst_untyped _ _ _ _ _ _ H0) as [-> Hv].
  simpl. unfold decls_get_type. replace (Ir.without_version v) with v by (destruct v; simpl in Hv; by subst).
  destruct (List.find _ (xc_decls (l_cfg r))) as [d|] eqn:Ef; simpl; [|done].
  destruct (List.find_some _ _ Ef) as [Hin Heq]. apply IrFacts.vname_eqb_eq in Heq. subst v.
  destruct (xd_type d) as [[] tags] eqn:Et; simpl; try done.
  apply in_map_iff. exists d. by rewrite Et.
Qed.

Theorem lifted_written_declared kind params pfile ploc body c :
  lift_to_ir kind params pfile ploc body = Ok c -> SsaFuel.written_declared c = true.
Proof.
  intros (a & E & ->)%lift_to_ir_inv.
  unfold SsaFuel.written_declared. rewrite erase_stmts. apply forallb_forall. intros s Hs.
  pose proof (proj1 (List.Forall_forall _ _) (lifted_local_tags _ _ _ _ _ _ E) s Hs) as Hd.
  destruct s as [| | |m v op rhe sv [[]|]| | |]; try done. simpl.
  apply existsb_exists. exists v. split; [|apply IrFacts.vname_eqb_refl].
  apply in_map_iff. by exists (v, Ir.TLocal).
Qed.

(* the hypothesis [tags_ok] of Proofs.SsaLocalDefs.into_ssa_ldefs_unique *)
Theorem lifted_tags_ok kind params pfile ploc body c :
  lift_to_ir kind params pfile ploc body = Ok c -> SsaLocalDefs.tags_ok (Ir.c_decls c) (Ir.c_blocks c).
Proof.
  intros (a & E & ->)%lift_to_ir_inv.
  apply List.Forall_flat_map. rewrite erase_stmts.
  eapply List.Forall_impl; [|exact (lifted_local_tags _ _ _ _ _ _ E)].
  intros s Hd. destruct s as [| | |m v op rhe sv [[]|]| | |]; try done. simpl.
  apply existsb_exists. exists (v, Ir.TLocal). split; [exact Hd|]. simpl. by rewrite IrFacts.key_eqb_refl.
Qed.

(* the graph DominatorTree::new reads *)
Theorem lifted_dom key kind params pfile ploc body r :
  try_lift_impl kind params pfile ploc body = Ok r ->
  Lift.lift (skel key body) = Ok (map (skel_block key) (xc_blocks (l_cfg r))) /\
  PM.dom_of_ir (erase_cfg (l_cfg r)) = MirrorsDom.to_dom (map (skel_block key) (xc_blocks (l_cfg r))) /\
  length (Ir.c_blocks (erase_cfg (l_cfg r))) = length (map (skel_block key) (xc_blocks (l_cfg r))).
Proof.
  intros H. split; [exact (liftfull_skeleton key _ _ _ _ _ _ H)|]. split.
  - unfold PM.dom_of_ir, MirrorsDom.to_dom, erase_cfg. simpl.
    induction (xc_blocks (l_cfg r)) as [|b g IH]; [done|]. simpl. rewrite !map_to_of_nat. f_equal. exact IH.
  - unfold erase_cfg. simpl. by rewrite !map_length.
Qed.

(* the three facts the SSA stage needs of a lifted graph, in one statement *)
Theorem lifted_feeds_ssa kind params pfile ploc body r :
  try_lift_impl kind params pfile ploc body = Ok r ->
  let c := erase_cfg (l_cfg r) in
  NP.unversioned c /\ SsaFuel.written_declared c = true /\
  forall key : Ir.meta -> nat,
    let g := map (skel_block key) (xc_blocks (l_cfg r)) in
    Lift.lift (skel key body) = Ok g /\ PM.dom_of_ir c = MirrorsDom.to_dom g /\
    length (Ir.c_blocks c) = length g.
Proof.
  intros H.
  assert (E : lift_to_ir kind params pfile ploc body = Ok (erase_cfg (l_cfg r))) by (unfold lift_to_ir; by rewrite H).
  split; [exact (lifted_unversioned _ _ _ _ _ _ E)|]. split; [exact (lifted_written_declared _ _ _ _ _ _ E)|].
  intros key. exact (lifted_dom key _ _ _ _ _ _ H).
Qed.
