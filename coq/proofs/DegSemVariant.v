(* C07 - why Spec.DegSem.cond_fixed is NOT "False on an undenotable condition", i.e. why an
   undenotable deciding condition does not leave the phi choice unconstrained.  For the
   ORDER-FREE step relation of Spec.DegSem (any statement of the graph may fire at any time)
   that variant is unsound, and the counterexample below is a graph the validator rightly
   accepts:

       c.1 = 5;  if (c.1 == 1) { x.1 = 1 } else { x.2 = 2 }  x.3 = phi(x.1, x.2);  b <-- x.3

   The condition reads only the constant local c.1, so the merged value is rightly
   claimed constant.  In the variant relation the join phi may fire BEFORE `c.1 = 5`
   has fired: the condition is then undenotable, the choice unconstrained, and x.3 can
   be made to depend on the valuation.  No real execution does this (the condition is
   evaluated before the join is reached); the relation of Spec.DegSem excludes it by
   counting a decider that has not been evaluated as "not varying".  A decider that HAS
   been evaluated is denotable: no rule makes a cell opaque, and from a total initial store
   (DegSem.finit_total) an expression is undenotable only while it reads a local not assigned
   yet (Proofs.DegSemTotal).  The initial store used here is total. *)
From Coq Require Import ZArith NArith List Bool Lia.
Require Import Model.Base Model.Ir Model.Propagate Model.Justify Model.DegJustify.
Require Import Spec.PolyDeg Spec.DegSem Proofs.ValueProofs Proofs.DegGraphProofs Proofs.DegSemTotal.
Import ListNotations.
Local Open Scope Z_scope.

Section Variant.
Variable V : Type.
Variable p : Z.
Variable sem2 : infix_op -> Z -> Z -> Z.
Variable sem1 : prefix_op -> Z -> Z.
Variable call_sem : ident -> list Z -> Z.
Variable name_code : ident -> Z.
Notation den := (den V p sem2 sem1 call_sem name_code).

Definition cond_fixed' (s : fstore V) (cond : expr) : Prop :=
  match den s cond with
  | Some C => forall r r', C [] r = C [] r'
  | None => False
  end.

Definition pick_ok' (c : cfg) (idom : list (option N)) (s : fstore V) (x : vname) (pick : V -> vname) : Prop :=
  forall b, phi_block_of c x b ->
    ((length (b_preds b) < 2)%nat \/ forall cond, decides c idom b cond -> cond_fixed' s cond) ->
    forall r r', pick r = pick r'.

Inductive fstep' (c : cfg) (idom : list (option N)) : fstore V -> fstore V -> Prop :=
| fs_assign' m x op rhe sv st F s :
    In (SSubst m x op rhe sv st) (all_stmts (c_blocks c)) -> decl_of c x = Some TLocal -> is_param c x = false ->
    is_phi_e rhe = false -> den s rhe = Some F -> fstep' c idom s (fupd V s x (Some F))
| fs_phi' m x op args k sv st (pick : V -> vname) s :
    In (SSubst m x op (EPhi args k) sv st) (all_stmts (c_blocks c)) -> decl_of c x = Some TLocal -> is_param c x = false ->
    (forall rho, In (pick rho) args) -> (forall rho, s (pick rho) <> None) ->
    pick_ok' c idom s x pick ->
    fstep' c idom s (fupd V s x (Some (phi_fam V s pick))).

Inductive freachable' (c : cfg) (idom : list (option N)) (s0 : fstore V) : fstore V -> Prop :=
| fr_init' : freachable' c idom s0 s0
| fr_step' s s' : freachable' c idom s0 s -> fstep' c idom s s' -> freachable' c idom s0 s'.
End Variant.

Definition vk (d : option drange) : know := {| kval := None; kdeg := d |}.
Definition vcc : option drange := Some (DConst, DConst).
Definition vm0 : meta := {| m_start := 0%N; m_end := 0%N; m_file := None |}.
Definition vx (n : N) : vname := {| vn_name := [120%N]; vn_suffix := None; vn_version := Some n |}.
Definition vc1 : vname := {| vn_name := [99%N]; vn_suffix := None; vn_version := Some 1%N |}.
Definition va : vname := {| vn_name := [97%N]; vn_suffix := None; vn_version := None |}.
Definition vb : vname := {| vn_name := [98%N]; vn_suffix := None; vn_version := None |}.
Definition vcond : expr := EInfix IEq (EVar vc1 (vk vcc)) (ENum 1 (vk vcc)) (vk vcc).
Definition vphi : stmt := SSubst vm0 (vx 3) OpVar (EPhi [vx 1; vx 2] (vk vcc)) None (Some TLocal).
Definition vgraph : cfg :=
  {| c_kind := KTemplate; c_params := [];
     c_decls := [(vc1, TLocal); (vx 1, TLocal); (vx 2, TLocal); (vx 3, TLocal); (va, TSigIn); (vb, TSigOut)];
     c_blocks :=
       [ {| b_index := 0%N; b_depth := 0%N; b_preds := []; b_succs := [1%N; 2%N];
            b_stmts := [ SSubst vm0 vc1 OpVar (ENum 5 (vk vcc)) None (Some TLocal);
                         SIf vm0 vcond 1%N (Some 2%N) ] |};
         {| b_index := 1%N; b_depth := 0%N; b_preds := [0%N]; b_succs := [3%N];
            b_stmts := [ SSubst vm0 (vx 1) OpVar (ENum 1 (vk vcc)) None (Some TLocal) ] |};
         {| b_index := 2%N; b_depth := 0%N; b_preds := [0%N]; b_succs := [3%N];
            b_stmts := [ SSubst vm0 (vx 2) OpVar (ENum 2 (vk vcc)) None (Some TLocal) ] |};
         {| b_index := 3%N; b_depth := 0%N; b_preds := [1%N; 2%N]; b_succs := [];
            b_stmts := [ vphi;
                         SSubst vm0 vb OpSig (EVar (vx 3) (vk vcc)) None (Some TSigOut) ] |} ] |}.
Definition vidom : list (option N) := [None; Some 0%N; Some 0%N; Some 0%N].

(* total initial store: the signals hold the valuation, every other name the steps cannot
   assign holds zeros, the assigned locals are not assigned yet *)
Definition vS0 : fstore Z :=
  fun x => if assignable vgraph x then None
           else match decl_of vgraph x with
                | Some TLocal | None => Some (fun _ _ => 0)
                | Some _ => Some (fun _ rho => rho)
                end.

Definition vline (r d t : Z) : Z := r + t * d.

Lemma vgraph_validated : djust_cfg vgraph vidom = true.
Proof. vm_compute. reflexivity. Qed.

(* vS0 is DegSemTotal.total_init of the graph (which has no parameters), vline is zline *)
Lemma vS0_total : finit_total Z vgraph vS0.
Proof. exact (total_init_total vgraph). Qed.

Lemma vS0_init : finit_ok Z vline 7 vgraph vS0.
Proof. exact (total_init_ok vgraph 7 eq_refl). Qed.

(* the refutation: in the variant relation a store is reachable in which the validated
   claim "x.3 is constant" is false *)
Theorem undenotable_unconstrained_refuted :
  forall (sem2 : infix_op -> Z -> Z -> Z) sem1 call_sem name_code,
  djust_cfg vgraph vidom = true /\ finit_ok Z vline 7 vgraph vS0 /\ finit_total Z vgraph vS0 /\
  exists S F,
    freachable' Z 7 sem2 sem1 call_sem name_code vgraph vidom vS0 S /\
    djust_expr vgraph (EVar (vx 3) (vk vcc)) = true /\
    den Z 7 sem2 sem1 call_sem name_code S (EVar (vx 3) (vk vcc)) = Some F /\
    expr_deg (EVar (vx 3) (vk vcc)) = Some (DConst, DConst) /\
    ~ SemDeg Z vline 7 DConst (F []).
Proof.
  intros sem2 sem1 call_sem name_code.
  split; [exact vgraph_validated|]. split; [exact vS0_init|]. split; [exact vS0_total|].
  set (S1 := fupd Z vS0 (vx 1) (Some (fun _ _ => 1 mod 7))).
  set (S2 := fupd Z S1 (vx 2) (Some (fun _ _ => 2 mod 7))).
  set (pick := fun rho : Z => if rho =? 0 then vx 1 else vx 2).
  set (S3 := fupd Z S2 (vx 3) (Some (phi_fam Z S2 pick))).
  exists S3, (phi_fam Z S2 pick).
  split; [|split; [vm_compute; reflexivity|split; [reflexivity|split; [reflexivity|]]]].
  - eapply fr_step'; [eapply fr_step'; [eapply fr_step'; [apply fr_init'|]|]|].
    + eapply (fs_assign' Z 7 sem2 sem1 call_sem name_code vgraph vidom vm0 (vx 1) OpVar (ENum 1 (vk vcc)) None (Some TLocal));
        [cbn; auto 10|reflexivity|reflexivity|reflexivity|reflexivity].
    + eapply (fs_assign' Z 7 sem2 sem1 call_sem name_code vgraph vidom vm0 (vx 2) OpVar (ENum 2 (vk vcc)) None (Some TLocal));
        [cbn; auto 10|reflexivity|reflexivity|reflexivity|reflexivity].
    + eapply (fs_phi' Z 7 sem2 sem1 call_sem name_code vgraph vidom vm0 (vx 3) OpVar [vx 1; vx 2] (vk vcc) None (Some TLocal) pick);
        [cbn; auto 10|reflexivity|reflexivity| | |].
      * intros rho. unfold pick. destruct (rho =? 0); cbn; auto.
      * intros rho. unfold pick. destruct (rho =? 0); discriminate.
      * (* the deciding condition c.1 == 1 is undenotable: c.1 = 5 has not fired *)
        intros b Hb Hor. exfalso. destruct Hb as [Hin (m & op & args & k & sv & st & Hst)].
        cbn in Hin. destruct Hin as [<-|[<-|[<-|[<-|[]]]]]; cbn in Hst;
          try (repeat (destruct Hst as [Hst|Hst]; [discriminate|]); contradiction).
        destruct Hor as [Hlt|Hall]; [cbn in Hlt; lia|].
        assert (Hd : decides vgraph vidom
                  {| b_index := 3%N; b_depth := 0%N; b_preds := [1%N; 2%N]; b_succs := [];
                     b_stmts := [ vphi; SSubst vm0 vb OpSig (EVar (vx 3) (vk vcc)) None (Some TSigOut) ] |} vcond).
        { exists 1%N, 0%N. eexists. exists vm0, 1%N, (Some 2%N). split; [left; reflexivity|]. split; [|split; reflexivity].
          cbn. eapply ab_up; [discriminate|reflexivity|apply ab_here]. }
        specialize (Hall vcond Hd). unfold cond_fixed' in Hall. cbn in Hall. exact Hall.
  - intros H. specialize (H 0 1). vm_compute in H. discriminate.
Qed.
