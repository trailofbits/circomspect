(* C01 (on top of C14's construction mirror Model.Ssa): the fuel that
   Model.Ssa.into_ssa hands to its two fuelled loops suffices, so [SFuel] is not
   an outcome (and cannot mask a later [SPanic]: Proofs.SsaNoPanic excludes that
   one under the same hypotheses).

   work list (insert_phi_statements): fuel  n*n*(D+1) + n + 1   (n blocks, D declarations)
     measure  |work| + sum over the blocks of the number of declared names that have
     no phi statement in the block yet.  A pop costs one unit of fuel and takes one
     element off the work list; every push is paid for by a phi statement inserted
     for a declared name into a block that had none (the name is written by the
     popped block, and only unversioned names are written, so the inserted
     statement IS a phi for that name: [is_phi_for v (phi_stmt_for v) = true]).
     Initially the measure is at most  n + n*D.
     This needs every local that is written to be among the declarations
     ([written_declared]).  Without that hypothesis the fuel of the mirror is NOT
     sufficient: [fuel_needs_declared] below is a one-block graph that writes three
     undeclared locals and runs out of fuel.
   tree walk (insert_ssa_variables_impl): fuel n + 1; a child has a larger index
     than its parent and is a block of the graph, so the depth below block [cur]
     is at most n - cur (and a block outside the graph has no children). *)
From Coq Require Import ZArith NArith List Bool Lia Arith.
Require Import Model.Base Model.Ir Model.SsaCheck Model.Ssa Proofs.IrInd Proofs.IrFacts Proofs.SsaNoPanic.
Import ListNotations.

Definition nf {A} (m : ssa_result A) : Prop := m <> SFuel.

Lemma nf_bind {A B} (m : ssa_result A) (f : A -> ssa_result B) :
  nf m -> (forall a, m = SOk a -> nf (f a)) -> nf (sbind m f).
Proof. unfold nf. intros Hm Hf. destruct m; simpl; try discriminate; auto. Qed.

(* the renaming of expressions and statements has no fuel *)
Lemma fine_nf {A} u (m : ssa_result A) : fine u m -> nf m.
Proof. intros H ->. exact H. Qed.

(* the tree walk: fuel n - cur suffices below block cur *)
Section Walk.
Variable decls : list (vname * vtype).
Variable children : list (list N).
Variable n : nat.
Hypothesis kid_range : forall j k, In k (kids children j) -> j < k /\ k < n.

Lemma rename_tree_nf : forall fuel cur bs env,
  n - cur < fuel -> nf (rename_tree fuel decls children cur bs env).
Proof.
  induction fuel as [|fuel IH]; intros cur bs env Hf; [lia|].
  rewrite rename_tree_unfold. destruct (nth_error bs cur) as [b|]; [|discriminate].
  apply nf_bind; [exact (fine_nf _ _ (ssa_stmts_fine decls _ env))|]. intros [ss' env1] _.
  generalize (update_succ_phis env1 (b_succs b) (update_nth bs cur (fun b0 => set_stmts b0 ss'))).
  generalize env1.
  assert (Hk : forall k, In k (nth cur children []) -> cur < N.to_nat k /\ N.to_nat k < n).
  { intros k Hk. apply kid_range. unfold kids. apply in_map. exact Hk. }
  induction (nth cur children []) as [|k tl IHk]; intros e l; simpl; [discriminate|].
  apply nf_bind.
  - destruct (Hk k (or_introl eq_refl)) as [H1 H2]. apply IH. lia.
  - intros [bs' env'] _. apply IHk. intros k' Hk'. apply Hk. right. exact Hk'.
Qed.
End Walk.

Definition has_phi (v : vname) (b : block) : bool := existsb (is_phi_for v) (b_stmts b).
Definition lacks (b : block) (v : vname) : bool := negb (has_phi v b).

Section Measure.
Variable U : list vname.          (* the declared names *)

Definition missing (b : block) : nat := length (filter (lacks b) U).
Definition total_missing (bs : list block) : nat := list_sum (map missing bs).

(* the locals a block writes, before the removal of duplicates *)
Definition wr (b : block) : list vname :=
  flat_map (fun s => match stmt_local_written s with Some v => [v] | None => [] end) (b_stmts b).
(* they are declared and carry no version *)
Definition wvar (v : vname) : Prop := In v U /\ vn_version v = None.
Definition wok (b : block) : Prop := forall v, In v (wr b) -> wvar v.

Lemma vars_written_wr b v : In v (vars_written b) -> In v (wr b).
Proof. apply dedup_v_in. Qed.

Lemma wok_phi b v : wvar v -> wok b -> wok (set_stmts b (phi_stmt_for v :: b_stmts b)).
Proof.
  intros [HU Hn] Hw u [<-|Hu]; [|exact (Hw u Hu)].
  destruct v as [nm sf ve]. simpl in Hn. subst ve. split; [exact HU|reflexivity].
Qed.

Lemma filter_length_le {A} (f : A -> bool) l : length (filter f l) <= length l.
Proof. induction l as [|x tl IH]; simpl; [lia|]. destruct (f x); simpl; lia. Qed.

Lemma filter_length_mono {A} (f0 f1 : A -> bool) : forall l,
  (forall u, f1 u = true -> f0 u = true) -> length (filter f1 l) <= length (filter f0 l).
Proof.
  intros l H. induction l as [|x tl IH]; simpl; [lia|].
  destruct (f1 x) eqn:E1; [rewrite (H x E1); simpl; lia|]. destruct (f0 x); simpl; lia.
Qed.

Lemma filter_length_lt {A} (f0 f1 : A -> bool) v : forall l,
  (forall u, f1 u = true -> f0 u = true) -> In v l -> f0 v = true -> f1 v = false ->
  length (filter f1 l) < length (filter f0 l).
Proof.
  intros l H. induction l as [|x tl IH]; simpl; intros Hin H0 H1; [contradiction|].
  destruct Hin as [->|Hin].
  - rewrite H0, H1. simpl. pose proof (filter_length_mono f0 f1 tl H). lia.
  - specialize (IH Hin H0 H1). destruct (f1 x) eqn:E1; [rewrite (H x E1); simpl; lia|].
    destruct (f0 x); simpl; lia.
Qed.

Lemma is_phi_for_own v : vn_version v = None -> is_phi_for v (phi_stmt_for v) = true.
Proof.
  intros H. simpl. apply vname_eqb_eq. destruct v as [nm sf ve]. simpl in H. subst ve. reflexivity.
Qed.

(* one frontier block: every push is paid for by a name that had no phi yet *)
Lemma add_phis_measure : forall vars b p, Forall wvar vars ->
  snd (add_phis vars b p) + missing (fst (add_phis vars b p)) <= p + missing b.
Proof.
  induction vars as [|v tl IH]; intros b p Hv; cbn [add_phis]; [cbn; lia|].
  apply Forall_cons_iff in Hv as [[HU Hn] Htl].
  destruct (existsb (is_phi_for v) (b_stmts b)) eqn:E; [apply IH; exact Htl|].
  set (b1 := set_stmts b (phi_stmt_for v :: b_stmts b)). specialize (IH b1 (S p) Htl).
  assert (missing b1 < missing b); [|lia].
  unfold missing. apply (filter_length_lt (lacks b) (lacks b1) v); [|exact HU| |].
  - intros u. unfold lacks, has_phi, b1. cbn [b_stmts set_stmts existsb].
    destruct (is_phi_for u (phi_stmt_for v)); cbn [orb negb]; [intros; discriminate|auto].
  - unfold lacks, has_phi. rewrite E. reflexivity.
  - unfold lacks, has_phi, b1. cbn [b_stmts set_stmts existsb]. rewrite (is_phi_for_own v Hn). reflexivity.
Qed.

Lemma total_missing_update : forall bs i b b', nth_error bs i = Some b ->
  total_missing (update_nth bs i (fun _ => b')) + missing b = total_missing bs + missing b'.
Proof.
  unfold total_missing. induction bs as [|x tl IH]; intros [|i] b b' H; simpl in *; try discriminate.
  - inversion H. subst. lia.
  - specialize (IH i b b' H). lia.
Qed.

Lemma process_frontier_measure vars : Forall wvar vars -> forall fr bs work,
  length (snd (process_frontier vars fr bs work)) + total_missing (fst (process_frontier vars fr bs work))
    <= length work + total_missing bs.
Proof.
  intros Hv. induction fr as [|f tl IH]; intros bs work; cbn [process_frontier]; [cbn [fst snd]; lia|].
  destruct (nth_error bs (N.to_nat f)) as [b|] eqn:E; [|apply IH].
  pose proof (add_phis_measure vars b 0 Hv) as A1.
  destruct (add_phis vars b 0) as [b' pushes]. cbn [fst snd] in A1.
  specialize (IH (update_nth bs (N.to_nat f) (fun _ => b')) (repeat (N.to_nat f) pushes ++ work)).
  pose proof (total_missing_update bs (N.to_nat f) b b' E) as T.
  rewrite app_length, repeat_length in IH. lia.
Qed.

Lemma insert_phis_nf frontier : forall fuel bs work,
  Forall wok bs -> length work + total_missing bs <= fuel ->
  nf (insert_phis fuel frontier bs work).
Proof.
  induction fuel as [|fuel IH]; intros bs [|cur rest] Hw Hm; cbn [insert_phis length] in *; try discriminate; [lia|].
  destruct (nth_error bs cur) as [b|] eqn:E; [|discriminate].
  destruct (vars_written b) as [|v vs] eqn:Ev; [apply IH; [exact Hw|lia]|].
  assert (Hv : Forall wvar (v :: vs)).
  { apply Forall_forall. intros u Hu. apply (Forall_nth_error _ _ _ _ Hw E), vars_written_wr. rewrite Ev. exact Hu. }
  pose proof (process_frontier_measure _ Hv (nth cur frontier []) bs rest) as P1.
  pose proof (process_frontier_keeps wvar _ (fun _ => wok_phi) bs _ Hv (nth cur frontier []) bs rest
                (forall2_of_Forall _ _ Hw)) as P2.
  destruct (process_frontier (v :: vs) (nth cur frontier []) bs rest) as [bs1 work1]. cbn [fst snd] in *.
  apply IH; [exact (Forall_of_forall2 _ _ _ P2)|lia].
Qed.

Lemma total_missing_le bs : total_missing bs <= length bs * length U.
Proof.
  unfold total_missing. induction bs as [|b tl IH]; simpl; [lia|].
  pose proof (filter_length_le (lacks b) U). fold (missing b) in *. lia.
Qed.
End Measure.

(* every local that is assigned (the type tag of the assignment says Local) is
   among the declarations of the definition: IR lifting takes the tag from the
   declaration it found for the name *)
Definition written_declared (c : cfg) : bool :=
  forallb (fun s => match stmt_local_written s with
                    | Some v => existsb (vname_eqb v) (map fst (c_decls c))
                    | None => true
                    end) (flat_map b_stmts (c_blocks c)).

Lemma wok_initial c : unversioned c -> written_declared c = true ->
  Forall (wok (map fst (c_decls c))) (c_blocks c).
Proof.
  intros Hu Hd. apply Forall_forall. intros b Hb v Hv.
  apply In_nth_error in Hb. destruct Hb as [i Hi].
  pose proof (Hu i b Hi) as Hbu. unfold block_unv in Hbu. rewrite forallb_forall in Hbu.
  unfold written_declared in Hd. rewrite forallb_forall in Hd.
  unfold wr in Hv. apply in_flat_map in Hv. destruct Hv as (s & Hs & Hv).
  destruct (stmt_local_written s) as [w|] eqn:Ew; [|contradiction]. destruct Hv as [<-|[]].
  split.
  - assert (Hin : In s (flat_map b_stmts (c_blocks c))).
    { apply in_flat_map. exists b. split; [eapply nth_error_In; exact Hi|exact Hs]. }
    specialize (Hd s Hin). rewrite Ew in Hd. apply existsb_exists in Hd. destruct Hd as (x & Hx & Hxe).
    apply vname_eqb_eq in Hxe. subst x. exact Hx.
  - specialize (Hbu s Hs). destruct s; simpl in Ew; try discriminate.
    destruct stype as [[]|]; try discriminate. inversion Ew. subst w.
    simpl in Hbu. apply andb_prop in Hbu. destruct Hbu as [Hbu _]. apply isnone_true. exact Hbu.
Qed.

(* the graph may be empty: then the walk panics at once, for want of block 0 *)
Theorem into_ssa_no_fuel frontier children c :
  unversioned c -> written_declared c = true ->
  (forall j k, In k (kids children j) -> j < k /\ k < length (c_blocks c)) ->
  into_ssa frontier children c <> SFuel.
Proof.
  intros Hu Hd Hk. change (nf (into_ssa frontier children c)). unfold into_ssa.
  apply nf_bind.
  - apply (insert_phis_nf (map fst (c_decls c))); [apply wok_initial; assumption|].
    pose proof (total_missing_le (map fst (c_decls c)) (c_blocks c)) as T.
    rewrite map_length in T. rewrite rev_length, seq_length. destruct (length (c_blocks c)); nia.
  - intros bs1 E1. apply nf_bind.
    + apply (rename_tree_nf (c_decls c) children _ Hk). lia.
    + intros [bs2 env] _. discriminate.
Qed.

Theorem into_ssa_never_out_of_fuel frontier children c :
  unversioned c -> written_declared c = true -> 0 < length (c_blocks c) ->
  (forall j k, In k (kids children j) -> j < k /\ k < length (c_blocks c)) ->
  into_ssa frontier children c <> SFuel.
Proof. intros Hu Hd _. apply into_ssa_no_fuel; assumption. Qed.

(* The hypothesis [written_declared] cannot be dropped: a single block that is its
   own dominance frontier and assigns three locals none of which is declared is
   unversioned, its (empty) children lists satisfy the order facts, and the work
   list of the mirror runs out of its fuel  1*1*(0+1) + 1 + 1 = 3. *)
Definition fx_m : meta := {| m_start := 0%N; m_end := 0%N; m_file := None |}.
Definition fx_v (c : N) : vname := {| vn_name := [c]; vn_suffix := None; vn_version := None |}.
Definition fx_graph : cfg :=
  {| c_kind := KFunction; c_params := []; c_decls := [];
     c_blocks := [ {| b_index := 0%N; b_depth := 0%N; b_preds := [0%N]; b_succs := [0%N];
       b_stmts := [ SSubst fx_m (fx_v 97) OpVar (ENum 1 know0) None (Some TLocal);
                    SSubst fx_m (fx_v 98) OpVar (ENum 1 know0) None (Some TLocal);
                    SSubst fx_m (fx_v 99) OpVar (ENum 1 know0) None (Some TLocal) ] |} ] |}.

Lemma fuel_needs_declared :
  unversioned fx_graph /\ written_declared fx_graph = false /\
  (forall j k, In k (kids [[]] j) -> j < k /\ k < length (c_blocks fx_graph)) /\
  into_ssa [[0%N]] [[]] fx_graph = SFuel.
Proof.
  split; [|split; [reflexivity|split; [|vm_compute; reflexivity]]].
  - intros i b H. destruct i as [|i]; simpl in H.
    { inversion H. reflexivity. }
    destruct i; discriminate.
  - intros j k H. destruct j as [|j]; simpl in H; [contradiction|].
    destruct j; contradiction.
Qed.
