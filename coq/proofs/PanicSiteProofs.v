(* C01 — the regenerated panic-site inventory (Gen.PanicSites, from the current
   source) is covered by the regenerated map (Gen.PanicMap, from the
   hand-maintained coq/PANIC_MAP.json after validation). Both files are
   rewritten by ./check C01, so this file is re-checked against the current
   tree on every run: a new, moved or un-guarded site has no entry and
   [every_panic_site_discharged] stops compiling.
   The citations of the map are resolved by Coq in the generated file
   Gen.PanicCites (one `Check Props.Cnn.<name>.` per cited theorem), compiled by
   the check after props/C01.vo. *)
From Coq Require Import String List Bool.
Require Import Gen.PanicSites Gen.PanicMap.
Import ListNotations.

Definition covered (s : site) : bool :=
  existsb (fun e => String.eqb (fst e) (s_id s)) panic_map.

Lemma every_panic_site_discharged : forallb covered sites = true.
Proof. vm_compute. reflexivity. Qed.

Lemma no_anchored_file_missing : anchored_files_missing = [].
Proof. reflexivity. Qed.
