(* The pre-order of a children table holds every block exactly once as soon as the
   table describes a tree that is ranked: there is a rank that strictly grows from a
   parent to its children (for an immediate-dominator tree: the number of dominators).
   SsaNoPanic.children_tree_of_rank has "no block twice, every block in range"; here:
   every block that has a parent is reached, and the boolean SsaPre.children_treeb, the
   decidable hypothesis of C14_construction_paths_ok. *)
From Coq Require Import ZArith NArith List Bool Lia Arith.
Require Import Model.Base Model.Ir Model.SsaCheck Model.Ssa Model.SsaPre.
Require Import Proofs.SsaNoPanic.
Import ListNotations.

Section RankTree.
Variable children : list (list N).
Variable n : nat.
Variable r : nat -> nat.
Notation kids := (SsaNoPanic.kids children).

Hypothesis kid_rank : forall j k, In k (kids j) -> r j < r k /\ k < n /\ j < n.
Hypothesis has_parent : forall k, 0 < k < n -> exists j, In k (kids j).

Lemma in_sub_child : forall f root x c, In x (preorder f children root) -> In c (kids x) ->
  In c (preorder (S f) children root).
Proof.
  induction f as [|f IH]; intros root x c Hx Hc; [contradiction|].
  rewrite preorder_step in Hx. rewrite preorder_step. destruct Hx as [<-|Hx].
  - right. apply in_flat_map. exists c. split; [exact Hc|]. rewrite preorder_step. left. reflexivity.
  - apply in_flat_map in Hx. destruct Hx as (c0 & Hc0 & Hx0). right. apply in_flat_map. exists c0.
    split; [exact Hc0|]. eapply IH; eassumption.
Qed.

(* the walk reaches a block after as many levels as its rank *)
Lemma cover_rank : forall m k, k < n -> r k <= m -> In k (preorder (S m) children 0).
Proof.
  induction m as [|m IH]; intros k Hk Hr.
  - destruct (Nat.eq_dec k 0) as [->|Hne]; [rewrite preorder_step; left; reflexivity|].
    destruct (has_parent k) as (j & Hj); [lia|]. destruct (kid_rank j k Hj). lia.
  - destruct (Nat.eq_dec k 0) as [->|Hne]; [rewrite preorder_step; left; reflexivity|].
    destruct (has_parent k) as (j & Hj); [lia|]. destruct (kid_rank j k Hj) as (Hlt & _ & Hjn).
    eapply in_sub_child; [|exact Hj]. apply IH; [exact Hjn|lia].
Qed.
End RankTree.

Lemma NoDup_nats_nodup : forall l, NoDup l -> nats_nodup l = true.
Proof.
  induction 1 as [|x tl Hx _ IH]; [reflexivity|]. cbn [nats_nodup]. rewrite IH, andb_true_r. apply negb_true_iff.
  destruct (existsb (Nat.eqb x) tl) eqn:E; [|reflexivity]. exfalso. apply existsb_exists in E.
  destruct E as (y & Hy & Hxy). apply Nat.eqb_eq in Hxy. subst y. exact (Hx Hy).
Qed.

Theorem ranked_children_treeb children n r :
  0 < n ->
  (forall j k, In k (SsaNoPanic.kids children j) -> r j < r k /\ k < n /\ j < n) ->
  (forall j, NoDup (SsaNoPanic.kids children j)) ->
  (forall j j' k, In k (SsaNoPanic.kids children j) -> In k (SsaNoPanic.kids children j') -> j = j') ->
  (forall k, 0 < k < n -> exists j, In k (SsaNoPanic.kids children j)) ->
  (forall k, k < n -> r k <= n) ->
  children_treeb children n = true.
Proof.
  intros Hn H1 H2 H3 H4 H5. unfold children_treeb. rewrite !andb_true_iff.
  destruct (children_tree_of_rank children n r (fun j k H => conj (proj1 (H1 j k H)) (proj1 (proj2 (H1 j k H)))) H2 H3 Hn)
    as [Hnd Hlt].
  split; [split|].
  - apply NoDup_nats_nodup. exact Hnd.
  - apply forallb_forall. intros i Hi. apply Nat.ltb_lt. exact (Hlt i Hi).
  - unfold children_coverb. apply forallb_forall. intros i Hi. apply in_seq in Hi. apply existsb_exists. exists i.
    split; [|apply Nat.eqb_refl]. apply (cover_rank children n r H1 H4 n i); [lia|apply H5; lia].
Qed.
