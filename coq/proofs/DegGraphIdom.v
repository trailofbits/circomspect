(* C07: with the TRUE immediate-dominator table, the table walk of Spec.DegSem
   ([above], [decides]) is the declarative notion over path-based dominance
   ([decides_dom]): the blocks visited walking up from a predecessor p of j until the
   immediate dominator d of j are exactly the blocks q with  d dom q dom p.
   Hence the graph-level theorem also holds for the TABLE-FREE relation of
   Spec.DegSemDom, whose phi rule names the deciding conditions by path-based
   dominance alone (justified_degrees_true_table_free). *)
From Coq Require Import ZArith NArith List Bool Arith Lia.
Require Import Model.Base Model.Ir Model.Propagate Model.Justify Model.DegJustify Model.DegGraph.
Require Import Spec.SsaDomSpec Spec.PolyDeg Spec.DegSem Spec.DegSemDom.
Require Import Proofs.SsaDomTheory Proofs.DegreeProofs Proofs.DegGraphProofs Proofs.DegGraphRooted.
Import ListNotations.

Section Idom.
Variable c : cfg.
Variable idom : list (option N).
Hypothesis Hgc : graph_consistent c = true.
Hypothesis Htab : idom_is_dominator_table c idom = true.
(* every entry names an earlier block (part of DegJustify.djust_cfg): the walk ends *)
Hypothesis Hshape : idom_shape c idom = true.

Notation n := (length (c_blocks c)).

Lemma tab_cidom i d : nth_error idom i = Some (Some d) -> cidom c (N.to_nat d) i.
Proof. intros H. apply (proj2 (table_exact c idom Hgc Htab i _ H) d). reflexivity. Qed.

Lemma tab_entry i : (i < n)%nat -> exists o, nth_error idom i = Some o.
Proof.
  intros Hi. destruct (nth_error idom i) as [o|] eqn:E; [eauto|].
  apply nth_error_None in E. rewrite (table_length c idom Hgc Htab) in E. lia.
Qed.

Lemma tab_of_cidom i d : (i < n)%nat -> cidom c d i -> nth_error idom i = Some (Some (N.of_nat d)).
Proof.
  intros Hi Hc. destruct (tab_entry i Hi) as (o & E). rewrite E. f_equal.
  apply (proj2 (table_exact c idom Hgc Htab i o E) (N.of_nat d)). rewrite Nat2N.id. exact Hc.
Qed.

Lemma tab_some i : (i < n)%nat -> i <> 0%nat -> exists d, nth_error idom i = Some (Some d).
Proof.
  intros Hi Hne. destruct (tab_entry i Hi) as ([d|] & E); [eauto|].
  exfalso. apply Hne. apply (proj1 (table_exact c idom Hgc Htab i None E)). reflexivity.
Qed.

(* walking up from p until d visits only blocks between d and p in the dominator order *)
Lemma above_dom d p q : cdom c d (N.to_nat p) ->
  above idom (Some (N.of_nat d)) p q -> cdom c (N.to_nat q) (N.to_nat p) /\ cdom c d (N.to_nat q).
Proof.
  intros Hd Hab. induction Hab as [p|p d0 q Hns Hid Hab IH].
  - split; [apply cdom_refl|exact Hd].
  - pose proof (tab_cidom _ _ Hid) as Hci.
    assert (Hne : d <> N.to_nat p).
    { intros ->. apply Hns. rewrite N2Nat.id. reflexivity. }
    assert (Hdd0 : cdom c d (N.to_nat d0)) by (apply (proj2 Hci); split; assumption).
    destruct (IH Hdd0) as [H1 H2]. split; [|exact H2].
    eapply cdom_trans; [exact H1|]. apply cidom_dom. exact Hci.
Qed.

(* ... and visits all of them *)
Lemma dom_above d q : forall m p, (N.to_nat p < m)%nat -> (N.to_nat p < n)%nat ->
  cdom c (N.to_nat q) (N.to_nat p) -> cdom c d (N.to_nat q) -> above idom (Some (N.of_nat d)) p q.
Proof.
  induction m as [|m IH]; intros p Hm Hp Hqp Hdq; [lia|].
  destruct (N.eq_dec q p) as [->|Hne]; [constructor|].
  assert (Hne' : N.to_nat q <> N.to_nat p) by (intros E; apply Hne; apply N2Nat.inj; exact E).
  assert (Hp0 : N.to_nat p <> 0%nat).
  { intros E. rewrite E in Hqp. apply Hne'. rewrite E. apply (cdom_entry c); [lia|exact Hqp]. }
  destruct (tab_some _ Hp Hp0) as (d0 & Hid).
  pose proof (tab_cidom _ _ Hid) as Hci. pose proof (idom_shape_dec c idom Hshape _ _ Hid) as Hlt.
  apply (ab_up idom _ p d0 q).
  - intros E. injection E as ->. rewrite Nat2N.id in *.
    (* p = d: then d dom q dom d, so q = d *)
    apply Hne'. apply (cdom_antisym c); [apply (consistent_reach c Hgc); exact Hp|exact Hqp|exact Hdq].
  - exact Hid.
  - apply (IH d0); [lia|lia| |exact Hdq].
    apply (proj2 Hci). split; assumption.
Qed.

Lemma above_iff d p q : (N.to_nat p < n)%nat -> cdom c d (N.to_nat p) ->
  (above idom (Some (N.of_nat d)) p q <-> cdom c (N.to_nat q) (N.to_nat p) /\ cdom c d (N.to_nat q)).
Proof.
  intros Hp Hd. split.
  - apply above_dom. exact Hd.
  - intros [H1 H2]. apply (dom_above d q (S (N.to_nat p)) p); auto.
Qed.

Theorem decides_iff_decides_dom ij j cond : nth_error (c_blocks c) ij = Some j ->
  (decides c idom j cond <-> decides_dom c ij j cond).
Proof.
  intros Hj. pose proof (consistent_index c Hgc ij j Hj) as Hidx.
  assert (Hij : (ij < n)%nat) by (apply nth_error_Some; congruence).
  unfold decides, decides_dom. rewrite Hidx, Nat2N.id.
  destruct (Nat.eq_dec ij 0) as [->|Hne].
  { (* the entry block has no predecessor *)
    rewrite (entry_no_preds c Hgc j Hj).
    split; intros (p & q & bq & m & t & f & [] & _). }
  destruct (tab_some ij Hij Hne) as (d0 & Hid). rewrite Hid.
  pose proof (tab_cidom _ _ Hid) as Hci.
  split; intros (p & q & bq & m & t & f & Hp & H2 & H3).
  - exists p, q, bq, m, t, f. split; [exact Hp|].
    pose proof (pred_is_edge c Hgc ij j p Hj Hp) as He.
    pose proof (cidom_dom_pred c _ _ _ Hci He Hij) as Hdp.
    rewrite <- (N2Nat.id d0) in H2. destruct (above_dom _ _ _ Hdp H2) as [Ha Hb].
    split; [exact Ha|]. split; [|exact H3]. exists (N.to_nat d0). split; assumption.
  - destruct H3 as ((d & Hcd & Hdq) & H3).
    exists p, q, bq, m, t, f. split; [exact Hp|]. split; [|exact H3].
    pose proof (tab_of_cidom ij d Hij Hcd) as Hid'. rewrite Hid in Hid'. injection Hid' as ->.
    pose proof (pred_is_edge c Hgc ij j p Hj Hp) as He.
    apply above_iff.
    + apply (cedge_lt c _ _ He).
    + apply (cidom_dom_pred c _ _ _ Hcd He Hij).
    + split; assumption.
Qed.

(* the table-free relation is contained in the relation over the (true) table *)
Section Contained.
Variable V : Type.
Variable p : Z.
Variable sem2 : infix_op -> Z -> Z -> Z.
Variable sem1 : prefix_op -> Z -> Z.
Variable call_sem : ident -> list Z -> Z.
Variable name_code : ident -> Z.

Lemma pick_ok_dom_pick_ok s x pick :
  pick_ok_dom V p sem2 sem1 call_sem name_code c s x pick -> pick_ok V p sem2 sem1 call_sem name_code c idom s x pick.
Proof.
  intros H b [Hb Hphi] Hor. destruct (In_nth_error _ _ Hb) as (ij & Hij).
  apply (H ij b Hij Hphi). destruct Hor as [Hlt|Hall]; [left; exact Hlt|right].
  intros cond Hd. apply Hall. apply (decides_iff_decides_dom ij b cond Hij). exact Hd.
Qed.

Lemma fstep_dom_fstep s s' :
  fstep_dom V p sem2 sem1 call_sem name_code c s s' -> fstep V p sem2 sem1 call_sem name_code c idom s s'.
Proof.
  intros H. destruct H.
  - eapply fs_assign; eauto.
  - eapply fs_phi; eauto. apply pick_ok_dom_pick_ok. assumption.
Qed.

Lemma freachable_dom_freachable s0 s :
  freachable_dom V p sem2 sem1 call_sem name_code c s0 s -> freachable V p sem2 sem1 call_sem name_code c idom s0 s.
Proof.
  induction 1 as [|s1 s2 _ IH Hst]; [constructor|]. eapply fr_step; [exact IH|]. apply fstep_dom_fstep. exact Hst.
Qed.
End Contained.
End Idom.

(* on a consistent graph validated with its true immediate-dominator table (both
   evaluated by the check on every graph), every degree claim is true in every store
   reachable by the table-free relation *)
Theorem justified_degrees_true_table_free
  (V : Type) (line : V -> V -> Z -> V) (p : Z)
  (sem2 : infix_op -> Z -> Z -> Z) (sem1 : prefix_op -> Z -> Z) (call_sem : ident -> list Z -> Z) (name_code : ident -> Z) :
  (forall op, op_den p op (sem2 op)) -> (forall op, prefix_den p op (sem1 op)) ->
  forall c idom,
  graph_consistent c = true -> idom_is_dominator_table c idom = true -> djust_cfg c idom = true ->
  forall s0 s e F r,
  finit_ok V line p c s0 -> freachable_dom V p sem2 sem1 call_sem name_code c s0 s ->
  djust_expr c e = true -> den V p sem2 sem1 call_sem name_code s e = Some F -> expr_deg e = Some r ->
  forall i, SemDeg V line p (snd r) (F i).
Proof.
  intros H2 H1 c idom Hgc Htab Hv s0 s e F r Hi Hr.
  apply (justified_degrees_true V line p sem2 sem1 call_sem name_code H2 H1 c idom Hv s0 s e F r Hi).
  apply andb_true_iff in Hv as [Hshape _]. exact (freachable_dom_freachable c idom Hgc Htab Hshape _ _ _ _ _ _ _ _ Hr).
Qed.
