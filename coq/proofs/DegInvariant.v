(* C20, the universal statement for DEGREE claims: whatever the number of passes,
   the degree ranges Model.Propagate has attached so far are accepted by the
   validator DegJustify.djust_cfg (hence true, by Proofs.DegGraphProofs).
   Same plan as Proofs.CutInvariant.

   Control dependence (/repo D18): a phi is judged with the control of its block
   (Propagate.block_ctl: what is known about the branch conditions that decide along
   which edge the block is entered - those ending a block on the dominator-tree chains
   from its predecessors up to its immediate dominator, /repo 64f724b).  The control is
   read off the degree claims of those conditions in the CURRENT graph; like every claim
   it only goes from unknown to known (order [mctl_le]: every collected condition keeps
   its claim once it has one, and one known non-constant condition already fixes
   MNonConst) while the statement skeleton stays ([bext]/[gext]), so the invariant is
   kept per block: every statement of a block is justified under the block's control
   in the current graph ([GJ]); a claim made under the control recorded at the start
   of the block visit stays justified under every later control.  A phi below the top
   of a statement carries no claim in a validated graph: Model.DegWf.deg_wf excludes
   such phis ([phi_top_stmt]), and [dejust] has no rule for them. *)
From Coq Require Import ZArith List Bool.
Require Import Model.Base Model.Ir Model.Propagate Model.Justify Model.DegJustify Model.DegWf Gen.DegreeTable.
Require Import Proofs.IrInd Proofs.ValueProofs Proofs.PropagateVisit Proofs.PropagateShape Proofs.CutInvariant Proofs.DegGraphProofs Proofs.DegErase.
Import ListNotations.

Lemma assoc_get_set {A} (l : list (vname * A)) v x w :
  assoc_get (assoc_set l v x) w = if vname_eqb v w then Some x else assoc_get l w.
Proof.
  induction l as [|[u y] tl IH]; cbn [assoc_set assoc_get]; [reflexivity|].
  destruct (vname_eqb u v) eqn:E.
  - apply vname_eqb_eq in E. subst u. cbn [assoc_get]. destruct (vname_eqb v w); reflexivity.
  - cbn [assoc_get]. rewrite IH. destruct (vname_eqb u w) eqn:Eu; [|reflexivity].
    destruct (vname_eqb v w) eqn:Ev; [|reflexivity].
    apply vname_eqb_eq in Eu. apply vname_eqb_eq in Ev. subst. rewrite vname_eqb_refl in E. discriminate.
Qed.

Lemma degree_set_degree env v r w :
  denv_degree (fst (denv_set_degree env v r)) w = if vname_eqb v w then Some r else denv_degree env w.
Proof. unfold denv_set_degree, denv_degree. cbn [fst de_deg]. apply assoc_get_set. Qed.

Definition denv_le (e1 e2 : denv) : Prop :=
  (forall v r, denv_degree e1 v = Some r -> denv_degree e2 v = Some r) /\
  (forall v, denv_is_assigned e1 v = true -> denv_is_assigned e2 v = true).

Lemma denv_le_refl e : denv_le e e. Proof. split; auto. Qed.

Definition dclaim : know -> option drange -> Prop := claims kdeg.

(* the range of the array an element-wise update starts from *)
Definition ubase (un : vname -> bool) (env : denv) (v : vname) (rd : option drange) : option drange :=
  match denv_degree env v with
  | Some rv => iter_opt [Some rv; rd]
  | None => if un v then rd else None
  end.

Definition switch_deg (cd t f : option drange) : option drange :=
  match cd with
  | Some rc => if range_is_constant rc then iter_opt [t; f] else None
  | None => None
  end.

Definition call_deg (args : list expr) : option drange :=
  if all_constant args then Some (DConst, DConst) else None.

(* justification of the degree claims of an expression relative to the environment;
   [un]: the static predicate "never assigned, not a parameter, local or undeclared" *)
Inductive dejust (un : vname -> bool) (env : denv) : expr -> Prop :=
| dj_num z k : dclaim k (Some (DConst, DConst)) -> dejust un env (ENum z k)
| dj_var v k : dclaim k (denv_degree env v) -> dejust un env (EVar v k)
| dj_infix op l r k : dejust un env l -> dejust un env r ->
    dclaim k (opt_range_infix op (expr_deg l) (expr_deg r)) -> dejust un env (EInfix op l r k)
| dj_prefix op e k : dejust un env e -> dclaim k (opt_range_prefix op (expr_deg e)) -> dejust un env (EPrefix op e k)
| dj_switch c t f k : dejust un env c -> dejust un env t -> dejust un env f ->
    dclaim k (switch_deg (expr_deg c) (expr_deg t) (expr_deg f)) -> dejust un env (ESwitch c t f k)
| dj_call n args k : Forall (dejust un env) args -> dclaim k (call_deg args) -> dejust un env (ECall n args k)
| dj_array vs k : Forall (dejust un env) vs -> dclaim k (iter_opt (map expr_deg vs)) -> dejust un env (EArray vs k)
| dj_access v acc k : Forall (dejust un env) (acc_exprs acc) ->
    dclaim k (opt_index_adjust acc (denv_degree env v)) -> dejust un env (EAccess v acc k)
| dj_update v acc rhe k : Forall (dejust un env) (acc_exprs acc) -> dejust un env rhe ->
    dclaim k (opt_index_adjust acc (ubase un env v (expr_deg rhe))) -> dejust un env (EUpdate v acc rhe k).
(* no rule for EPhi: a justified expression is phi-free; the phi at the top of an
   assignment is judged at the statement level ([etop]) *)

Lemma dejust_inv un env e : dejust un env e ->
  match e with
  | ENum _ k => dclaim k (Some (DConst, DConst))
  | EVar v k => dclaim k (denv_degree env v)
  | EInfix op l r k => dejust un env l /\ dejust un env r /\ dclaim k (opt_range_infix op (expr_deg l) (expr_deg r))
  | EPrefix op e k => dejust un env e /\ dclaim k (opt_range_prefix op (expr_deg e))
  | ESwitch c t f k => dejust un env c /\ dejust un env t /\ dejust un env f /\
      dclaim k (switch_deg (expr_deg c) (expr_deg t) (expr_deg f))
  | ECall _ args k => Forall (dejust un env) args /\ dclaim k (call_deg args)
  | EArray vs k => Forall (dejust un env) vs /\ dclaim k (iter_opt (map expr_deg vs))
  | EAccess v acc k => Forall (dejust un env) (acc_exprs acc) /\ dclaim k (opt_index_adjust acc (denv_degree env v))
  | EUpdate v acc rhe k => Forall (dejust un env) (acc_exprs acc) /\ dejust un env rhe /\
      dclaim k (opt_index_adjust acc (ubase un env v (expr_deg rhe)))
  | EPhi _ _ => False
  end.
Proof. intros H. destruct H; auto. Qed.

(* the operators are monotone: a known result only needs known operands *)
Lemma opt_range_infix_ext op a a' b b' :
  oext a a' -> oext b b' -> oext (opt_range_infix op a b) (opt_range_infix op a' b').
Proof.
  intros Ha Hb r. destruct a as [x|], b as [y|]; cbn [opt_range_infix]; try discriminate.
  rewrite (Ha _ eq_refl), (Hb _ eq_refl). auto.
Qed.

Lemma opt_range_prefix_ext op a a' : oext a a' -> oext (opt_range_prefix op a) (opt_range_prefix op a').
Proof. intros Ha r. destruct a as [x|]; cbn [opt_range_prefix]; try discriminate. rewrite (Ha _ eq_refl). auto. Qed.

Lemma all_some_ext {A} (l l' : list (option A)) xs : Forall2 oext l l' -> all_some l = Some xs -> l' = l.
Proof.
  intros H. revert xs. induction H as [|o o' tl tl' Ho Ht IH]; intros xs; [reflexivity|].
  cbn [all_some]. destruct o as [x|]; [|discriminate]. destruct (all_some tl) as [ys|] eqn:E; [|discriminate].
  intros _. rewrite (Ho _ eq_refl). f_equal. eapply IH. reflexivity.
Qed.

Lemma iter_opt_ext l l' : Forall2 oext l l' -> oext (iter_opt l) (iter_opt l').
Proof.
  intros H r Hr. assert (E : l' = l).
  { unfold iter_opt in Hr. destruct (all_some l) as [xs|] eqn:E; [|discriminate]. eapply all_some_ext; eauto. }
  rewrite E. exact Hr.
Qed.

Lemma switch_deg_ext a a' b b' c c' :
  oext a a' -> oext b b' -> oext c c' -> oext (switch_deg a b c) (switch_deg a' b' c').
Proof.
  intros Ha Hb Hc r. unfold switch_deg. destruct a as [rc|]; [|discriminate]. rewrite (Ha _ eq_refl).
  destruct (range_is_constant rc); [|discriminate]. apply iter_opt_ext. repeat constructor; assumption.
Qed.

Definition dstable (e e' : expr) : Prop := oext (expr_deg e) (expr_deg e').

Lemma dstable_refl e : dstable e e. Proof. apply oext_refl. Qed.

Definition acc_st : list (access expr) -> list (access expr) -> Prop := Forall2 (acc_rel dstable).

Lemma acc_st_refl acc : acc_st acc acc.
Proof. apply forall2_refl. intros [x|n]; cbn; [apply oext_refl|reflexivity]. Qed.

Lemma constant_indices_ext acc acc' b : acc_st acc acc' -> constant_indices acc = Some b -> constant_indices acc' = Some b.
Proof.
  intros H. induction H as [|a a' tl tl' Ha Ht IH]; [auto|].
  destruct a as [x|n], a' as [x'|n']; cbn [acc_rel] in Ha; try contradiction; cbn [constant_indices].
  - destruct (expr_deg x) as [r|] eqn:Ex; [|discriminate]. rewrite (Ha _ Ex).
    destruct (range_is_constant r); auto.
  - exact IH.
Qed.

Lemma index_adjust_ext acc acc' rg : acc_st acc acc' -> oext (index_adjust acc rg) (index_adjust acc' rg).
Proof.
  intros H r. unfold index_adjust. destruct (constant_indices acc) as [b|] eqn:E; [|discriminate].
  rewrite (constant_indices_ext _ _ _ H E). auto.
Qed.

Lemma opt_index_adjust_ext acc acc' o o' :
  acc_st acc acc' -> oext o o' -> oext (opt_index_adjust acc o) (opt_index_adjust acc' o').
Proof.
  intros Ha Ho r. unfold opt_index_adjust. destruct o as [rg|]; [|discriminate]. rewrite (Ho _ eq_refl).
  apply index_adjust_ext. exact Ha.
Qed.

Lemma all_constant_ext es es' : Forall2 dstable es es' -> all_constant es = true -> all_constant es' = true.
Proof.
  intros H. unfold all_constant. induction H as [|x x' tl tl' Hx Ht IH]; [auto|]. cbn [forallb].
  intros Hc. apply andb_true_iff in Hc as [H1 H2]. rewrite (IH H2), andb_true_r.
  destruct (expr_deg x) as [r|] eqn:Ex; [|discriminate]. rewrite (Hx _ Ex). exact H1.
Qed.

Lemma call_deg_ext es es' : Forall2 dstable es es' -> oext (call_deg es) (call_deg es').
Proof.
  intros H r. unfold call_deg. destruct (all_constant es) eqn:E; [|discriminate].
  rewrite (all_constant_ext _ _ H E). auto.
Qed.

Lemma map_deg_ext es es' : Forall2 dstable es es' -> Forall2 oext (map expr_deg es) (map expr_deg es').
Proof. intros H. induction H; cbn [map]; constructor; auto. Qed.

Lemma ubase_ext un env v rd rd' : oext rd rd' -> oext (ubase un env v rd) (ubase un env v rd').
Proof.
  intros H. unfold ubase. destruct (denv_degree env v) as [rv|].
  - apply iter_opt_ext. repeat constructor; [apply oext_refl|exact H].
  - destruct (un v); [exact H|apply oext_refl].
Qed.

Lemma dejust_mono un env env' e :
  denv_le env env' -> (forall v, un v = true -> denv_degree env' v = None) ->
  dejust un env e -> dejust un env' e.
Proof.
  intros [Hle _] Hun.
  assert (Hd : forall v, oext (denv_degree env v) (denv_degree env' v)) by (intros v r; apply Hle).
  induction e as [z k|v k|op l r k IHl IHr|op e k IHe|c t f k IHc IHt IHf|n args k IHargs|vs k IHvs
                  |v acc k IHacc|v acc rhe k IHacc IHrhe|args k] using expr_ind'; intros H; apply dejust_inv in H.
  - constructor. exact H.
  - constructor. exact ((claims_mono kdeg) _ _ _ (Hd v) H).
  - destruct H as (Hl & Hr & Hk). constructor; auto.
  - destruct H. constructor; auto.
  - destruct H as (Hc & Ht & Hf & Hk). constructor; auto.
  - destruct H as [Ha Hk]. constructor; [exact (Forall_mp _ _ _ IHargs Ha)|exact Hk].
  - destruct H as [Ha Hk]. constructor; [exact (Forall_mp _ _ _ IHvs Ha)|exact Hk].
  - destruct H as [Ha Hk]. constructor; [exact (Forall_mp _ _ _ IHacc Ha)|].
    apply ((claims_mono kdeg) _ _ _) with (2 := Hk). apply opt_index_adjust_ext; [apply acc_st_refl|apply Hd].
  - destruct H as (Ha & Hr & Hk). constructor; [exact (Forall_mp _ _ _ IHacc Ha)|auto|].
    apply ((claims_mono kdeg) _ _ _) with (2 := Hk). apply opt_index_adjust_ext; [apply acc_st_refl|].
    unfold ubase. destruct (denv_degree env v) as [rv|] eqn:Ev.
    + rewrite (Hle _ _ Ev). apply oext_refl.
    + destruct (un v) eqn:Eu; [|intros r0; discriminate]. rewrite (Hun _ Eu). apply oext_refl.
  - contradiction.
Qed.

Lemma map_degree_ext env env' (args : list vname) :
  (forall v r, denv_degree env v = Some r -> denv_degree env' v = Some r) ->
  Forall2 oext (map (denv_degree env) args) (map (denv_degree env') args).
Proof. intros Hle. induction args as [|a tl IH]; cbn [map]; constructor; auto. intros r; apply Hle. Qed.

Definition mctl_le (m m' : mctl) : Prop := m = MUnknown \/ m = m'.

Lemma mctl_le_refl m : mctl_le m m. Proof. right. reflexivity. Qed.
Lemma mctl_le_trans a b c : mctl_le a b -> mctl_le b c -> mctl_le a c.
Proof. intros [->| ->]; [left; reflexivity|]. auto. Qed.

Lemma phi_adjust_ext m o o' : oext o o' -> oext (phi_adjust m o) (phi_adjust m o').
Proof.
  intros H r. destruct m; cbn [phi_adjust]; try discriminate; destruct o as [rg|]; try discriminate;
    rewrite (H _ eq_refl); auto.
Qed.

Lemma phi_adjust_mctl m m' o : mctl_le m m' -> oext (phi_adjust m o) (phi_adjust m' o).
Proof. intros [->| ->]; [intros r; discriminate|apply oext_refl]. Qed.

Definition dsc_opt := sc_opt kdeg put_deg.
Definition dsc_finish := sc_finish kdeg put_deg (fun _ _ => eq_refl).

Lemma acc_ub_exprs (P : vname -> Prop) acc :
  Forall P (flat_map (fun a => match a with AIdx x => update_bases x | AComp _ => [] end) acc) ->
  Forall (fun e => Forall P (update_bases e)) (acc_exprs acc).
Proof.
  induction acc as [|[x|n] tl IH]; cbn [flat_map acc_exprs app]; intros H; [constructor| |auto].
  apply Forall_app in H as [H1 H2]. constructor; auto.
Qed.

Section Expr.
Variable un : vname -> bool.
Variable env : denv.

(* the dynamic flag the implementation reads agrees with the static predicate *)
Definition agree (v : vname) : Prop := denv_degree env v = None -> denv_is_assigned env v = negb (un v).

Definition dkeeps (e e' : expr) : Prop := dejust un env e -> dejust un env e' /\ dstable e e'.

Lemma dkeeps_refl e : dkeeps e e.
Proof. intros H. split; [exact H|apply oext_refl]. Qed.

Definition dgood (e : expr) : Prop := Forall agree (update_bases e) -> pd_lifts env dkeeps e.

Lemma dkeeps_list es es' : Forall2 dkeeps es es' -> Forall (dejust un env) es ->
  Forall (dejust un env) es' /\ Forall2 dstable es es'.
Proof.
  induction 1 as [|x y l l' Hxy _ IH]; intros Hj; [split; constructor|].
  apply Forall_cons_iff in Hj as [Hj1 Hj2]. destruct (Hxy Hj1). destruct (IH Hj2). split; constructor; assumption.
Qed.

Lemma dkeeps_acc acc acc' : Forall2 (acc_rel dkeeps) acc acc' -> Forall (dejust un env) (acc_exprs acc) ->
  Forall (dejust un env) (acc_exprs acc') /\ acc_st acc acc'.
Proof.
  induction 1 as [|a a' l l' Ha _ IH]; intros Hj; [split; constructor|].
  destruct a as [x|n], a' as [x'|n']; try contradiction; cbn [acc_exprs flat_map app] in *.
  - apply Forall_cons_iff in Hj as [Hj1 Hj2]. destruct (Ha Hj1). destruct (IH Hj2). split; constructor; assumption.
  - destruct (IH Hj). split; [assumption|constructor; assumption].
Qed.

Lemma pd_exprs_good es res : Forall dgood es -> Forall agree (flat_map update_bases es) -> Forall (dejust un env) es ->
  Forall (dejust un env) (snd (pd_exprs env res es)) /\ Forall2 dstable es (snd (pd_exprs env res es)).
Proof.
  intros Hg Ha. apply Forall_flat_map in Ha. apply dkeeps_list.
  exact (pd_exprs_lift env dkeeps dkeeps_refl es (Forall_mp _ _ _ Hg Ha) res).
Qed.

Lemma pd_accs_good acc res : Forall dgood (acc_exprs acc) ->
  Forall agree (flat_map (fun a => match a with AIdx x => update_bases x | AComp _ => [] end) acc) ->
  Forall (dejust un env) (acc_exprs acc) ->
  Forall (dejust un env) (acc_exprs (snd (pd_accs env res acc))) /\ acc_st acc (snd (pd_accs env res acc)).
Proof.
  intros Hg Ha. apply acc_ub_exprs in Ha. apply dkeeps_acc.
  exact (pd_accs_lift env dkeeps dkeeps_refl acc (Forall_mp _ _ _ Hg Ha) res).
Qed.

Lemma pd_skip_keeps (b1 : bool) r :
  pd_lifts env dkeeps r -> dkeeps r (snd (if b1 then (true, r) else pd_expr env r)).
Proof. intros H. destruct b1; [apply dkeeps_refl|exact H]. Qed.

Lemma pd_expr_good : forall e, dgood e.
Proof.
  induction e as [z k|v k|op l r k IHl IHr|op e k IHe|c t f k IHc IHt IHf|n args k IHargs|vs k IHvs
                  |v acc k IHacc|v acc rhe k IHacc IHrhe|args k] using expr_ind';
    intros Hag; apply pd_lifts_intro; intros b e' Hfin Hj; apply dejust_inv in Hj;
    revert Hfin; cbn [pd_expr]; cbn [update_bases] in Hag.
  - intros Hfin. destruct (dsc_finish (ENum z k) _ (Some (DConst, DConst)) false b e' Hj (oext_refl _) Hfin) as (k' & -> & Hk' & Hst).
    split; [constructor; exact Hk'|exact Hst].
  - intros Hfin.
    assert (Hfin' : dsc_opt (denv_degree env v) false (EVar v k) = (b, e')) by (unfold dsc_opt; destruct (denv_degree env v); exact Hfin).
    destruct (dsc_finish (EVar v k) _ _ false b e' Hj (oext_refl _) Hfin') as (k' & -> & Hk' & Hst).
    split; [constructor; exact Hk'|exact Hst].
  - destruct Hj as (Hl & Hr & Hk). apply Forall_app in Hag as [Hag1 Hag2].
    destruct (IHl Hag1 Hl) as [Hjl Hsl]. destruct (pd_expr env l) as [b1 l'].
    destruct (pd_skip_keeps b1 r (IHr Hag2) Hr) as [Hjr Hsr]. destruct (if b1 then (true, r) else pd_expr env r) as [b2 r'].
    intros Hfin.
    destruct (dsc_finish (EInfix op l' r' k) _ _ b2 b e' Hk (opt_range_infix_ext op _ _ _ _ Hsl Hsr) Hfin) as (k' & -> & Hk' & Hst).
    split; [constructor; assumption|exact Hst].
  - destruct Hj as (He & Hk). destruct (IHe Hag He) as [Hjx Hsx]. destruct (pd_expr env e) as [b1 x']. intros Hfin.
    destruct (dsc_finish (EPrefix op x' k) _ _ b1 b e' Hk (opt_range_prefix_ext op _ _ Hsx) Hfin) as (k' & -> & Hk' & Hst).
    split; [constructor; assumption|exact Hst].
  - destruct Hj as (Hc & Ht & Hf & Hk).
    apply Forall_app in Hag as [Hag1 Hag2]. apply Forall_app in Hag2 as [Hag2 Hag3].
    destruct (IHc Hag1 Hc) as [Hjc Hsc]. destruct (pd_expr env c) as [b1 c'].
    destruct (pd_skip_keeps b1 t (IHt Hag2) Ht) as [Hjt Hst]. destruct (if b1 then (true, t) else pd_expr env t) as [b2 t'].
    destruct (pd_skip_keeps b2 f (IHf Hag3) Hf) as [Hjf Hsf]. destruct (if b2 then (true, f) else pd_expr env f) as [b3 f'].
    intros Hfin.
    assert (Hfin' : dsc_opt (switch_deg (expr_deg c') (expr_deg t') (expr_deg f')) b3 (ESwitch c' t' f' k) = (b, e')).
    { unfold switch_deg. destruct (expr_deg c') as [rc|]; [|exact Hfin]. destruct (range_is_constant rc); exact Hfin. }
    destruct (dsc_finish (ESwitch c' t' f' k) _ _ b3 b e' Hk (switch_deg_ext _ _ _ _ _ _ Hsc Hst Hsf) Hfin') as (k' & -> & Hk' & Hst').
    split; [constructor; assumption|exact Hst'].
  - destruct Hj as (Ha & Hk). rewrite pd_list_eq.
    destruct (pd_exprs_good args false IHargs Hag Ha) as [Hja Hsa]. destruct (pd_exprs env false args) as [b0 args']. intros Hfin.
    assert (Hfin' : dsc_opt (call_deg args') b0 (ECall n args' k) = (b, e')) by (unfold call_deg; destruct (all_constant args'); exact Hfin).
    destruct (dsc_finish (ECall n args' k) _ _ b0 b e' Hk (call_deg_ext _ _ Hsa) Hfin') as (k' & -> & Hk' & Hst).
    split; [constructor; assumption|exact Hst].
  - destruct Hj as (Ha & Hk). rewrite pd_list_eq.
    destruct (pd_exprs_good vs false IHvs Hag Ha) as [Hja Hsa]. destruct (pd_exprs env false vs) as [b0 vs']. intros Hfin.
    destruct (dsc_finish (EArray vs' k) _ _ b0 b e' Hk (iter_opt_ext _ _ (map_deg_ext _ _ Hsa)) Hfin) as (k' & -> & Hk' & Hst).
    split; [constructor; assumption|exact Hst].
  - destruct Hj as (Ha & Hk). rewrite pd_acc_eq.
    destruct (pd_accs_good acc false IHacc Hag Ha) as [Hja Hsa]. destruct (pd_accs env false acc) as [b0 acc']. intros Hfin.
    assert (Hfin' : dsc_opt (opt_index_adjust acc' (denv_degree env v)) b0 (EAccess v acc' k) = (b, e'))
      by (unfold opt_index_adjust; destruct (denv_degree env v); exact Hfin).
    destruct (dsc_finish (EAccess v acc' k) _ _ b0 b e' Hk (opt_index_adjust_ext _ _ _ _ Hsa (oext_refl _)) Hfin') as (k' & -> & Hk' & Hst).
    split; [constructor; assumption|exact Hst].
  - destruct Hj as (Ha & Hr & Hk).
    apply Forall_cons_iff in Hag as [Hagv Hag]. apply Forall_app in Hag as [Hag1 Hag2].
    destruct (IHrhe Hag1 Hr) as [Hjr Hsr]. destruct (pd_expr env rhe) as [b1 rhe']. rewrite pd_acc_eq.
    destruct (pd_accs_good acc b1 IHacc Hag2 Ha) as [Hja Hsa]. destruct (pd_accs env b1 acc) as [b0 acc']. intros Hfin.
    assert (Hfin' : dsc_opt (opt_index_adjust acc' (ubase un env v (expr_deg rhe'))) b0 (EUpdate v acc' rhe' k) = (b, e')).
    { unfold opt_index_adjust, ubase. unfold agree in Hagv.
      destruct (denv_degree env v) as [rv|]; [destruct (iter_opt [Some rv; expr_deg rhe']); exact Hfin|].
      rewrite (Hagv eq_refl) in Hfin. destruct (un v); cbn [negb] in Hfin; [|exact Hfin].
      destruct (expr_deg rhe'); exact Hfin. }
    destruct (dsc_finish (EUpdate v acc' rhe' k) _ _ b0 b e' Hk
                (opt_index_adjust_ext _ _ _ _ Hsa (ubase_ext un env v _ _ Hsr)) Hfin') as (k' & -> & Hk' & Hst).
    split; [constructor; assumption|exact Hst].
  - (* phi: not below the top of a statement *)
    contradiction.
Qed.

(* the expression at the top of an assignment: a phi is judged under the control m *)
Definition etop (m : mctl) (e : expr) : Prop :=
  match e with
  | EPhi args k => dclaim k (phi_adjust m (iter_opt (map (denv_degree env) args)))
  | _ => dejust un env e
  end.

Lemma dejust_etop m e : dejust un env e -> etop m e.
Proof. intros H. destruct e; try exact H. destruct (dejust_inv _ _ _ H). Qed.

Lemma pd_top_good m e b e' :
  Forall agree (update_bases e) -> mctl_le (de_ctl env) m -> etop m e -> pd_expr env e = (b, e') ->
  etop m e' /\ dstable e e'.
Proof.
  intros Hag Hm Hj Hpd.
  destruct e as [z k|v k|op l r k|op x k|c t f k|n args k|vs k|v acc k|v acc rhe k|args k];
    try (cbn [etop] in Hj; destruct (pd_lifts_elim _ _ _ _ _ (pd_expr_good _ Hag) Hpd Hj) as [H1 H2]; split; [apply dejust_etop; exact H1|exact H2]).
  cbn [etop] in Hj. cbn [pd_expr] in Hpd. destruct Hm as [Hm|Hm].
  - rewrite Hm in Hpd. cbn [phi_adjust] in Hpd. injection Hpd as <- <-. split; [exact Hj|apply dstable_refl].
  - rewrite Hm in Hpd.
    destruct (dsc_finish (EPhi args k) _ _ false b e' Hj (oext_refl _) Hpd) as (k' & -> & Hk' & Hst).
    split; [exact Hk'|exact Hst].
Qed.
End Expr.

Lemma pd_expr_keeps un env e b e' :
  Forall (agree un env) (update_bases e) -> dejust un env e -> pd_expr env e = (b, e') -> dejust un env e' /\ dstable e e'.
Proof. intros Ha Hj E. exact (pd_lifts_elim _ _ _ _ _ (pd_expr_good un env e Ha) E Hj). Qed.

Definition LL : drange := (DLin, DLin).

(* a statement of a block whose control is m *)
Definition dsjust (un : vname -> bool) (env : denv) (m : mctl) (s : stmt) : Prop :=
  match s with
  | SSubst _ _ _ rhe _ _ => etop un env m rhe
  | _ => Forall (dejust un env) (stmt_exprs s)
  end.

Definition def_deg (s : stmt) : option drange :=
  match s with SSubst _ _ _ rhe _ _ => expr_deg rhe | _ => None end.

Lemma etop_mono un env env' m m' e :
  denv_le env env' -> (forall v, un v = true -> denv_degree env' v = None) -> mctl_le m m' ->
  etop un env m e -> etop un env' m' e.
Proof.
  intros Hle Hun Hm H. destruct e; try (cbn [etop] in *; eapply dejust_mono; eauto).
  cbn [etop] in *. eapply (claims_mono kdeg); [|exact H]. intros r Hr.
  apply (phi_adjust_mctl m m' _ Hm). revert r Hr. apply phi_adjust_ext. apply iter_opt_ext.
  apply map_degree_ext. exact (proj1 Hle).
Qed.

Lemma dsjust_mono un env env' m m' s :
  denv_le env env' -> (forall v, un v = true -> denv_degree env' v = None) -> mctl_le m m' ->
  dsjust un env m s -> dsjust un env' m' s.
Proof.
  intros Hle Hun Hm H.
  destruct s; cbn [dsjust] in *;
    try (rewrite Forall_forall in *; intros e0 He; eapply dejust_mono; [exact Hle|exact Hun|]; apply H; exact He).
  eapply etop_mono; eauto.
Qed.

(* the skeleton the control is read from: a statement stays a branch or stays none,
   and the claim on a branch condition is stable *)
Definition cond_of (s : stmt) : option expr := match s with SIf _ c _ _ => Some c | _ => None end.
Definition cext (a a' : option expr) : Prop :=
  match a, a' with
  | Some c, Some c' => dstable c c'
  | None, None => True
  | _, _ => False
  end.
Definition sext (s s' : stmt) : Prop := cext (cond_of s) (cond_of s').

Lemma cext_refl a : cext a a. Proof. destruct a; cbn; [apply dstable_refl|exact I]. Qed.

Lemma pd_logargs_good un env es res :
  Forall (agree un env) (flat_map update_bases (la_exprs es)) -> Forall (dejust un env) (la_exprs es) ->
  Forall (dejust un env) (la_exprs (snd (pd_logargs env res es))).
Proof.
  intros Ha Hj. apply Forall_flat_map in Ha.
  refine (Forall2_transfer _ _ _ _ _ (la_rel_exprs _ _ _ (pd_logargs_lift env _ (dkeeps_refl un env) es _ res)) _ Hj).
  - exact (Forall_impl _ (pd_expr_good un env) Ha).
  - intros x y H Hx. exact (proj1 (H Hx)).
Qed.

(* a declaration only adds bindings to the range of signals and components, for names it declares *)
Lemma pd_decl_names_spec t : forall names env res b env',
  pd_decl_names env res t names = (b, env') ->
  de_ctl env' = de_ctl env /\
  (forall w, denv_is_assigned env' w = denv_is_assigned env w) /\
  (forall w, denv_degree env' w = denv_degree env w \/
             (is_sig_or_comp t = true /\ In w names /\ denv_degree env' w = Some LL)) /\
  (b = false -> res = false /\ (is_sig_or_comp t = true -> forall n, In n names -> denv_degree env' n <> None)).
Proof.
  induction names as [|n tl IH]; intros env res b env'; cbn [pd_decl_names].
  - intros [= <- <-]. split; [reflexivity|]. split; [reflexivity|]. split; [auto|].
    intros ->. split; [reflexivity|]. intros _ n [].
  - (* the environment and the flag after the name n *)
    assert (Hstep : forall env1 res1,
      (if is_sig_or_comp t
       then (if res then (env, true) else let '(e1, b) := denv_set_degree env n (DLin, DLin) in (e1, b))
       else (env, res)) = (env1, res1) ->
      de_ctl env1 = de_ctl env /\ (forall w, denv_is_assigned env1 w = denv_is_assigned env w) /\
      (forall w, denv_degree env1 w = denv_degree env w \/ (is_sig_or_comp t = true /\ n = w /\ denv_degree env1 w = Some LL)) /\
      (res1 = false -> res = false /\ (is_sig_or_comp t = true -> denv_degree env1 n <> None))).
    { intros env1 res1. destruct (is_sig_or_comp t); [destruct res|].
      - intros [= <- <-]. split; [reflexivity|]. split; [reflexivity|]. split; [auto|discriminate].
      - unfold denv_set_degree. intros [= <- <-]. split; [reflexivity|]. split; [reflexivity|]. split.
        + intros w. unfold denv_degree. cbn [de_deg]. rewrite assoc_get_set.
          destruct (vname_eqb n w) eqn:E; [|auto]. apply vname_eqb_eq in E. auto.
        + intros _. split; [reflexivity|]. intros _. unfold denv_degree. cbn [de_deg]. rewrite assoc_get_set, vname_eqb_refl. discriminate.
      - intros [= <- <-]. split; [reflexivity|]. split; [reflexivity|]. split; [auto|]. intros ->. split; [reflexivity|discriminate]. }
    destruct (if is_sig_or_comp t then _ else _) as [env1 res1]. destruct (Hstep _ _ eq_refl) as (Hc1 & Ha1 & Hd1 & Hb1).
    intros Ht. destruct (IH (denv_set_type env1 n t) res1 b env' Ht) as (Hc & Ha & Hd & Hb).
    split; [rewrite Hc; exact Hc1|]. split; [intros w; rewrite Ha; apply Ha1|]. split.
    + intros w. destruct (Hd w) as [E|(Hs & Hin & E)]; [|right; split; [exact Hs|split; [right; exact Hin|exact E]]].
      change (denv_degree env' w = denv_degree env1 w) in E. rewrite E.
      destruct (Hd1 w) as [E1|(Hs & Hn & E1)]; [left; exact E1|right; split; [exact Hs|split; [left; exact Hn|exact E1]]].
    + intros Hbf. destruct (Hb Hbf) as [Hr1 Hall]. destruct (Hb1 Hr1) as [Hr Hn]. split; [exact Hr|].
      intros Hs n' [<-|Hin]; [|apply Hall; assumption].
      destruct (Hd n) as [E|(_ & _ & E)]; [|rewrite E; discriminate].
      change (denv_degree env' n = denv_degree env1 n) in E. rewrite E. exact (Hn Hs).
Qed.

Definition stmt_post (un : vname -> bool) (env : denv) (m : mctl) (s : stmt) (b : bool) (s' : stmt) (env' : denv) : Prop :=
  sext s s' /\ de_ctl env' = de_ctl env /\
  denv_le env env' /\ dsjust un env m s' /\ oext (def_deg s) (def_deg s') /\
  (forall w r, denv_degree env' w = Some r ->
     denv_degree env w = Some r \/
     (tgt s' = Some w /\ is_ldef s' = true /\ def_deg s' = Some r) \/
     (exists names t, sdecl s = Some (names, t) /\ In w names /\ is_sig_or_comp t = true /\ r = LL)) /\
  (forall w, denv_is_assigned env' w = true ->
     denv_is_assigned env w = true \/ (tgt s' = Some w /\ is_ldef s' = true)) /\
  (b = false ->
     (forall v, tgt s = Some v -> is_ldef s = true -> denv_is_assigned env' v = true) /\
     (forall names t n, sdecl s = Some (names, t) -> is_sig_or_comp t = true -> In n names ->
        denv_degree env' n <> None)).

Lemma post_same_env un env m s b s' :
  sext s s' -> dsjust un env m s' -> def_deg s = None -> tgt s = None -> sdecl s = None -> stmt_post un env m s b s' env.
Proof.
  intros Hx Hj Hd Ht Hs. split; [exact Hx|]. split; [reflexivity|]. split; [apply denv_le_refl|]. split; [exact Hj|]. split; [rewrite Hd; intros r; discriminate|].
  split; [auto|]. split; [auto|]. intros _. split.
  - intros v Hv. congruence.
  - intros names t n Hn. congruence.
Qed.

(* an assignment to v whose visit leaves the environment env': v is flagged if the assignment
   is local, and [set] tells whether the range of the right-hand side is recorded *)
Lemma subst_post un env m m0 v op rhe rhe' sval stype b env' (set : bool) :
  etop un env m rhe' -> dstable rhe rhe' ->
  (stype_is_local stype = true -> forall r0, denv_degree env v = Some r0 -> expr_deg rhe = Some r0) ->
  (set = true -> stype_is_local stype = true) ->
  de_ctl env' = de_ctl env ->
  (forall w, denv_is_assigned env' w = (stype_is_local stype && vname_eqb w v) || denv_is_assigned env w) ->
  (forall w, denv_degree env' w = if set && vname_eqb v w then expr_deg rhe' else denv_degree env w) ->
  stmt_post un env m (SSubst m0 v op rhe sval stype) b (SSubst m0 v op rhe' sval stype) env'.
Proof.
  intros Hj Hst Hov Hset Hc Ha Hd. split; [exact I|]. split; [exact Hc|]. split; [split|].
  - intros w r Hw. rewrite Hd. destruct (set && vname_eqb v w) eqn:E; [|exact Hw].
    apply andb_true_iff in E as [Es Ev]. apply vname_eqb_eq in Ev. subst w. apply Hst. exact (Hov (Hset Es) _ Hw).
  - intros w Hw. rewrite Ha, Hw. apply orb_true_r.
  - split; [exact Hj|]. split; [exact Hst|]. split; [|split].
    + intros w r Hw. rewrite Hd in Hw. destruct (set && vname_eqb v w) eqn:E; [|left; exact Hw].
      apply andb_true_iff in E as [Es Ev]. apply vname_eqb_eq in Ev. subst w. right. left. cbn [tgt is_ldef def_deg]. auto.
    + intros w Hw. rewrite Ha in Hw. apply orb_true_iff in Hw as [Hw|Hw]; [|left; exact Hw].
      apply andb_true_iff in Hw as [Hl Hv]. apply vname_eqb_eq in Hv. subst w. right. auto.
    + intros _. split; [|intros names t n Hn; discriminate].
      intros v0 [= <-] Hl. cbn [is_ldef] in Hl. rewrite Ha, Hl, vname_eqb_refl. reflexivity.
Qed.

Lemma pd_stmt_good un env m s b s' env' :
  mctl_le (de_ctl env) m ->
  dsjust un env m s -> Forall (agree un env) (stmt_update_bases s) ->
  (forall v r0, tgt s = Some v -> is_ldef s = true -> denv_degree env v = Some r0 -> def_deg s = Some r0) ->
  (forall names t n r0, sdecl s = Some (names, t) -> is_sig_or_comp t = true -> In n names ->
     denv_degree env n = Some r0 -> r0 = LL) ->
  pd_stmt env s = (b, s', env') -> stmt_post un env m s b s' env'.
Proof.
  intros Hm Hj Hag Hov1 Hov2. unfold stmt_update_bases in Hag.
  destruct s; cbn [dsjust stmt_exprs flat_map] in Hj, Hag; cbn [pd_stmt]; rewrite ?app_nil_r in Hag.
  - destruct (pd_decl_names env false t names) as [b1 env1] eqn:Ed. intros [= <- <- <-].
    destruct (pd_decl_names_spec t names env false b1 env1 Ed) as (Hctl & Has & Hd & Hb).
    split; [exact I|]. split; [exact Hctl|]. split; [split|].
    + intros w r Hw. destruct (Hd w) as [E|(Hs & Hin & E)]; [rewrite E; exact Hw|].
      rewrite E. f_equal. symmetry. exact (Hov2 names t w r eq_refl Hs Hin Hw).
    + intros w Hw. rewrite Has. exact Hw.
    + split; [exact Hj|]. split; [apply oext_refl|]. split; [|split].
      * intros w r Hw. destruct (Hd w) as [E|(Hs & Hin & E)]; [left; rewrite <- E; exact Hw|].
        right. right. exists names, t. rewrite E in Hw. injection Hw as <-. auto.
      * intros w Hw. left. rewrite Has in Hw. exact Hw.
      * intros Hb1. destruct (Hb Hb1) as [_ Hall]. split; [intros v Hv; discriminate|].
        intros names0 t0 n [= <- <-] Hs Hin. apply Hall; assumption.
  - apply Forall_cons_iff in Hj as [Hj _].
    destruct (pd_expr env c) as [b1 c'] eqn:E. intros [= <- <- <-].
    destruct (pd_expr_keeps un env c _ _ Hag Hj E) as [Hj' Hst].
    apply post_same_env; try reflexivity; [exact Hst|]. constructor; [exact Hj'|constructor].
  - apply Forall_cons_iff in Hj as [Hj _].
    destruct (pd_expr env e) as [b1 e1] eqn:E. intros [= <- <- <-].
    apply post_same_env; try reflexivity; try exact I. constructor; [exact (proj1 (pd_expr_keeps un env e _ _ Hag Hj E))|constructor].
  - destruct (pd_expr env rhe) as [b1 rhe'] eqn:E.
    destruct (pd_top_good un env m rhe _ _ Hag Hm Hj E) as [Hj' Hst].
    destruct (stype_is_local stype) eqn:El; pose proof (fun Hl r0 => Hov1 v r0 eq_refl Hl) as Hov; cbn [is_ldef def_deg] in Hov.
    2: { intros [= <- <- <-]. apply (subst_post _ _ _ _ _ _ _ _ _ _ _ _ false Hj' Hst Hov); [discriminate|reflexivity| |]; intros w; rewrite ?El; reflexivity. }
    assert (Hflag : forall b0, stmt_post un env m (SSubst m0 v op rhe sval stype) b0 (SSubst m0 v op rhe' sval stype)
                                 (denv_set_assigned env v))
      by (intros b0; apply (subst_post _ _ _ _ _ _ _ _ _ _ _ _ false Hj' Hst Hov); [discriminate|reflexivity| |]; intros w; rewrite ?El; reflexivity).
    destruct (expr_deg rhe') as [rg|] eqn:Ed; [|intros [= <- <- <-]; apply Hflag].
    destruct b1; [intros [= <- <- <-]; apply Hflag|].
    pose proof (degree_set_degree (denv_set_assigned env v) v rg) as Hd.
    destruct (denv_set_degree (denv_set_assigned env v) v rg) as [env2 b2] eqn:Es. cbn [fst] in Hd.
    unfold denv_set_degree in Es. injection Es as <- _. intros [= <- <- <-].
    apply (subst_post _ _ _ _ _ _ _ _ _ _ _ _ true Hj' Hst Hov); [intros _; exact El|reflexivity| |]; intros w.
    + rewrite El. reflexivity.
    + rewrite Ed. exact (Hd w).
  - apply Forall_cons_iff in Hj as [Hjl Hjr]. apply Forall_cons_iff in Hjr as [Hjr _].
    apply Forall_app in Hag as [Hag1 Hag2].
    destruct (pd_expr env l) as [b1 l'] eqn:El.
    pose proof (proj1 (pd_expr_keeps un env l _ _ Hag1 Hjl El)) as Hjl'.
    destruct b1.
    + intros [= <- <- <-]. apply post_same_env; try reflexivity; try exact I. constructor; [exact Hjl'|constructor; [exact Hjr|constructor]].
    + destruct (pd_expr env r) as [b2 r'] eqn:Er. intros [= <- <- <-].
      apply post_same_env; try reflexivity; try exact I. constructor; [exact Hjl'|constructor; [exact (proj1 (pd_expr_keeps un env r _ _ Hag2 Hjr Er))|constructor]].
  - pose proof (pd_logargs_good un env args false Hag Hj) as Hl.
    destruct (pd_logargs env false args) as [b1 args']. intros [= <- <- <-].
    apply post_same_env; try reflexivity; try exact I. exact Hl.
  - apply Forall_cons_iff in Hj as [Hj _].
    destruct (pd_expr env e) as [b1 e1] eqn:E. intros [= <- <- <-].
    apply post_same_env; try reflexivity; try exact I. constructor; [exact (proj1 (pd_expr_keeps un env e _ _ Hag Hj E))|constructor].
Qed.

Lemma not_sig_local t : is_sig_or_comp t = false -> t = TLocal.
Proof. destruct t; cbn; congruence. Qed.

Lemma defines_ssig v s : defines v s = sg_defines v (ssig s).
Proof. destruct s; reflexivity. Qed.

Lemma existsb_defines_ssig v ss : existsb (defines v) ss = existsb (sg_defines v) (map ssig ss).
Proof. induction ss as [|s tl IH]; [reflexivity|]. cbn [map existsb]. rewrite defines_ssig, IH. reflexivity. Qed.

Definition sq (x : ssg) : option vname * bool := (sg_tgt x, sg_ldef x).

Lemma sigq_ssig ss : map sigq ss = map sq (map ssig ss).
Proof. rewrite map_map. apply map_ext. intros s. reflexivity. Qed.

Lemma ssig_tgt s s' : ssig s' = ssig s -> tgt s' = tgt s.
Proof. intros H. change (sg_tgt (ssig s') = sg_tgt (ssig s)). rewrite H. reflexivity. Qed.
Lemma ssig_ldef s s' : ssig s' = ssig s -> is_ldef s' = is_ldef s.
Proof. intros H. change (sg_ldef (ssig s') = sg_ldef (ssig s)). rewrite H. reflexivity. Qed.
Lemma ssig_sdecl s s' : ssig s' = ssig s -> sdecl s' = sdecl s.
Proof. intros H. change (sg_decl (ssig s') = sg_decl (ssig s)). rewrite H. reflexivity. Qed.

Definition kind_range (kind : defkind) : drange :=
  match kind with KFunction => (DConst, DLin) | _ => (DConst, DConst) end.

(* the validator's functions with the statement list made explicit *)
Definition vrange (c : cfg) (ss : list stmt) (v : vname) : option drange :=
  if is_param c v then
    if existsb (defines v) ss then None
    else Some (kind_range (c_kind c))
  else
    match decl_of c v with
    | Some TLocal => local_def_range ss v
    | Some _ => Some (DLin, DLin)
    | None => None
    end.

Lemma var_range_vrange c bs v : var_range (set_blocks c bs) v = vrange c (all_stmts bs) v.
Proof. reflexivity. Qed.

Definition unas (c : cfg) (L : list ssg) (v : vname) : bool :=
  negb (existsb (sg_defines v) L) && negb (is_param c v) &&
  match decl_of c v with Some TLocal | None => true | Some _ => false end.

Lemma unassigned_unas c bs v : unassigned (set_blocks c bs) v = unas c (map ssig (all_stmts bs)) v.
Proof. unfold unassigned, unas. cbn [set_blocks c_blocks]. rewrite existsb_defines_ssig. reflexivity. Qed.

Lemma ddef_ok_spec v r s :
  ddef_ok v r s = true <-> (tgt s = Some v -> is_ldef s = true /\ def_deg s = Some r).
Proof.
  destruct s; cbn [ddef_ok tgt is_ldef def_deg]; try (split; [discriminate|reflexivity]).
  destruct (vname_eqb v0 v) eqn:E.
  - apply vname_eqb_eq in E. subst v0. rewrite andb_true_iff, opt_drange_eqb_eq. split; [intros H _; exact H|auto].
  - split; [|reflexivity]. intros _ [= ->]. rewrite vname_eqb_refl in E. discriminate.
Qed.

Lemma local_def_range_spec ss v r :
  local_def_range ss v = Some r <-> existsb (defines v) ss = true /\ forallb (ddef_ok v r) ss = true.
Proof.
  unfold local_def_range. split.
  - destruct (filter (defines v) ss) as [|x tl] eqn:Ef; [discriminate|].
    assert (Hx : In x ss /\ defines v x = true) by (apply filter_In; rewrite Ef; left; reflexivity).
    destruct x; try discriminate. destruct (expr_deg rhe) as [r'|]; [|discriminate].
    destruct (forallb (ddef_ok v r') ss) eqn:Efa; [|discriminate]. intros [= <-]. split; [|exact Efa].
    apply existsb_exists. eexists. exact Hx.
  - intros [He Hf]. apply existsb_exists in He as (x & Hin & Hd).
    assert (Hxf : In x (filter (defines v) ss)) by (apply filter_In; auto).
    destruct (filter (defines v) ss) as [|y tl] eqn:Ef; [contradiction|].
    assert (Hy : In y ss /\ defines v y = true) by (apply filter_In; rewrite Ef; left; reflexivity).
    destruct Hy as [Hyin Hyd]. rewrite forallb_forall in Hf. pose proof (Hf y Hyin) as Hok.
    apply defines_tgt in Hyd. destruct (proj1 (ddef_ok_spec v r y) Hok Hyd) as [_ Hdg].
    destruct y; try discriminate. cbn [def_deg] in Hdg. rewrite Hdg.
    replace (forallb (ddef_ok v r) ss) with true; [reflexivity|].
    symmetry. apply forallb_forall. exact Hf.
Qed.

Lemma local_def_range_iff ss v r : local_def_range ss v = Some r <->
  (exists t, In t ss /\ tgt t = Some v) /\
  forall t, In t ss -> tgt t = Some v -> is_ldef t = true /\ def_deg t = Some r.
Proof.
  rewrite local_def_range_spec, existsb_exists, forallb_forall.
  split; intros [(t & Ht & Hd) H]; (split; [exists t; split; [exact Ht|apply defines_tgt; exact Hd]|]);
    intros t0 Ht0; apply ddef_ok_spec; auto.
Qed.

Lemma existsb_defines_replace A s s' B w :
  ssig s' = ssig s -> existsb (defines w) (A ++ s' :: B) = existsb (defines w) (A ++ s :: B).
Proof. intros H. rewrite !existsb_app. cbn [existsb]. rewrite !defines_ssig, H. reflexivity. Qed.

Lemma sgs_wf_at c : forall LA before x LB, sgs_wf c before (LA ++ x :: LB) = true ->
  sg_wf_head c x = true /\ forallb (ub_ok c (rev LA ++ before) (x :: LB)) (sg_ub x) = true.
Proof.
  induction LA as [|y tl IH]; intros before x LB; cbn [app sgs_wf]; rewrite !andb_true_iff.
  - intros [[H1 H2] _]. cbn [rev app]. auto.
  - intros [_ H]. specialize (IH _ _ _ H). cbn [rev]. rewrite <- app_assoc. cbn [app]. exact IH.
Qed.

Lemma wf_head_tgt c x v : sg_wf_head c x = true -> sg_tgt x = Some v ->
  is_param c v = false /\ exists t, decl_of c v = Some t /\ sg_ldef x = negb (is_sig_or_comp t).
Proof.
  unfold sg_wf_head. intros H Ht. rewrite Ht in H. apply andb_true_iff in H as [H _].
  apply andb_true_iff in H as [H1 H2]. apply negb_true_iff in H1. split; [exact H1|].
  destruct (decl_of c v) as [t|]; [|discriminate]. exists t. split; [reflexivity|]. apply eqb_prop. exact H2.
Qed.

Lemma wf_head_decl c x names t n : sg_wf_head c x = true -> sg_decl x = Some (names, t) -> In n names ->
  is_param c n = false /\ decl_of c n = Some t.
Proof.
  unfold sg_wf_head. intros H Hd Hin. rewrite Hd in H. apply andb_true_iff in H as [_ H].
  rewrite forallb_forall in H. specialize (H n Hin). apply andb_true_iff in H as [H1 H2].
  apply negb_true_iff in H1. split; [exact H1|]. destruct (decl_of c n) as [t'|]; [|discriminate].
  apply vtype_eqb_eq in H2. congruence.
Qed.

Lemma vrange_sig c ss v t : is_param c v = false -> decl_of c v = Some t -> is_sig_or_comp t = true ->
  vrange c ss v = Some LL.
Proof. intros Hp Hd Hs. unfold vrange. rewrite Hp, Hd. destruct t; try reflexivity. discriminate. Qed.

Lemma vrange_local c ss v : is_param c v = false -> decl_of c v = Some TLocal -> vrange c ss v = local_def_range ss v.
Proof. intros Hp Hd. unfold vrange. rewrite Hp, Hd. reflexivity. Qed.

Definition dflt_stmt : stmt := SLog {| m_start := 0%N; m_end := 0%N; m_file := None |} [].
Definition last_c (b : block) : option expr := cond_of (last (b_stmts b) dflt_stmt).

Lemma last_cond_c b : last_cond b = last_c b.
Proof. unfold last_cond, last_c, dflt_stmt. destruct (last (b_stmts b) _); reflexivity. Qed.

(* a condition that has a claim keeps it: what is known non-constant stays so, and a
   condition with a claim is never unknown again *)
Lemma cond_nonconst_stable c0 c1 : dstable c0 c1 -> cond_nonconst c0 = true -> cond_nonconst c1 = true.
Proof.
  unfold cond_nonconst. intros H. destruct (expr_deg c0) as [rg|] eqn:E; [|discriminate].
  rewrite (H _ E). auto.
Qed.

Lemma cond_known_stable c0 c1 : dstable c0 c1 -> cond_unknown c0 = false ->
  cond_unknown c1 = false /\ cond_nonconst c1 = cond_nonconst c0.
Proof.
  unfold cond_unknown, cond_nonconst. intros H. destruct (expr_deg c0) as [rg|] eqn:E; [|discriminate].
  rewrite (H _ E). auto.
Qed.

Lemma existsb_nonconst_stable cs cs' : Forall2 dstable cs cs' ->
  existsb cond_nonconst cs = true -> existsb cond_nonconst cs' = true.
Proof.
  induction 1 as [|x y l l' Hxy _ IH]; cbn [existsb]; [auto|].
  intros H0. apply orb_true_iff in H0 as [H0|H0]; apply orb_true_iff.
  - left. eapply cond_nonconst_stable; eauto.
  - right. auto.
Qed.

Lemma existsb_known_stable cs cs' : Forall2 dstable cs cs' ->
  existsb cond_unknown cs = false ->
  existsb cond_unknown cs' = false /\ existsb cond_nonconst cs' = existsb cond_nonconst cs.
Proof.
  induction 1 as [|x y l l' Hxy _ IH]; cbn [existsb]; [auto|].
  intros H0. apply orb_false_iff in H0 as [H0 H1].
  destruct (cond_known_stable _ _ Hxy H0) as [-> ->]. destruct (IH H1) as [-> ->]. auto.
Qed.

(* MNonConst is returned as soon as ONE condition is known non-constant, even while
   others are unknown: that value is already final *)
Lemma ctl_of_conds_mono cs cs' : Forall2 dstable cs cs' -> mctl_le (ctl_of_conds cs) (ctl_of_conds cs').
Proof.
  intros H. unfold ctl_of_conds.
  destruct (existsb cond_nonconst cs) eqn:En.
  - rewrite (existsb_nonconst_stable _ _ H En). apply mctl_le_refl.
  - destruct (existsb cond_unknown cs) eqn:Eu; [left; reflexivity|].
    destruct (existsb_known_stable _ _ H Eu) as [-> ->]. rewrite En. apply mctl_le_refl.
Qed.

Definition bext (b b' : block) : Prop :=
  b_index b = b_index b' /\ b_preds b = b_preds b' /\ cext (last_c b) (last_c b').
Definition gext : list block -> list block -> Prop := Forall2 bext.

Lemma bext_refl b : bext b b.
Proof. split; [reflexivity|]. split; [reflexivity|apply cext_refl]. Qed.
Lemma gext_refl bs : gext bs bs.
Proof. induction bs; constructor; [apply bext_refl|assumption]. Qed.

Lemma cond_at_ext bs bs' i : gext bs bs' -> Forall2 dstable (cond_at bs i) (cond_at bs' i).
Proof.
  intros Hg. unfold cond_at. pose proof (Forall2_nth_error _ _ _ (N.to_nat i) Hg) as Hn.
  destruct (nth_error bs (N.to_nat i)) as [bd|], (nth_error bs' (N.to_nat i)) as [bd'|]; try contradiction; [|constructor].
  destruct Hn as (_ & _ & Hl). rewrite (last_cond_c bd), (last_cond_c bd').
  destruct (last_c bd) as [c0|], (last_c bd') as [c1|]; cbn [cext] in Hl; try contradiction; constructor; [exact Hl|constructor].
Qed.

Lemma chain_conds_ext bs bs' idom stop : gext bs bs' -> forall fuel cur,
  Forall2 dstable (chain_conds fuel bs idom stop cur) (chain_conds fuel bs' idom stop cur).
Proof.
  intros Hg. induction fuel as [|f IH]; intros cur; cbn [chain_conds]; [constructor|].
  apply Forall2_app; [apply cond_at_ext; exact Hg|].
  destruct (opt_eqb N.eqb (Some cur) stop); [constructor|].
  destruct (nth_error idom (N.to_nat cur)) as [[d|]|]; [apply IH|constructor|constructor].
Qed.

Lemma block_ctl_mono idom bs bs' b b' :
  gext bs bs' -> bext b b' -> mctl_le (block_ctl bs idom b) (block_ctl bs' idom b').
Proof.
  intros Hg (Hi & Hp & _). unfold block_ctl, deciding. rewrite <- Hi, <- Hp.
  destruct (Nat.ltb (length (b_preds b)) 2); [apply mctl_le_refl|].
  apply ctl_of_conds_mono. rewrite <- (Forall2_len _ _ _ Hg).
  apply flat_map_Forall2. intros q. apply chain_conds_ext. exact Hg.
Qed.

Lemma bext_step blk SA s s' SC : sext s s' -> bext (set_stmts blk (SA ++ s :: SC)) (set_stmts blk (SA ++ s' :: SC)).
Proof.
  intros H. split; [reflexivity|]. split; [reflexivity|]. unfold last_c. cbn [set_stmts b_stmts].
  rewrite !last_app_cons. destruct SC as [|x tl]; [exact H|]. rewrite !last_cons_cons. apply cext_refl.
Qed.

Lemma gext_mid B1 x x' B2 : bext x x' -> gext (B1 ++ x :: B2) (B1 ++ x' :: B2).
Proof. intros H. apply Forall2_app; [apply gext_refl|]. constructor; [exact H|apply gext_refl]. Qed.

Lemma set_stmts_id b : set_stmts b (b_stmts b) = b.
Proof. destruct b; reflexivity. Qed.

Lemma etop_mctl un env m m' e : mctl_le m m' -> etop un env m e -> etop un env m' e.
Proof.
  intros Hm H. destruct e; try exact H. cbn [etop] in *. eapply (claims_mono kdeg); [|exact H]. apply phi_adjust_mctl. exact Hm.
Qed.

Lemma dsjust_mctl un env m m' s : mctl_le m m' -> dsjust un env m s -> dsjust un env m' s.
Proof. intros Hm H. destruct s; try exact H. cbn [dsjust] in *. eapply etop_mctl; eauto. Qed.

Section Lists.
Variable c : cfg.
Variable L : list ssg.
Variable idom : list (option N).
Hypothesis HWF : sgs_wf c [] L = true.
Hypothesis HU : uniq (map sq L).

Notation un := (unas c L).

Lemma head_of ss s : map ssig ss = L -> In s ss -> sg_wf_head c (ssig s) = true.
Proof.
  intros HL Hin. apply in_split in Hin as (A & B & ->). rewrite map_app in HL. cbn [map] in HL.
  rewrite <- HL in HWF. exact (proj1 (sgs_wf_at c _ _ _ _ HWF)).
Qed.

Lemma tgt_facts ss s v : map ssig ss = L -> In s ss -> tgt s = Some v ->
  is_param c v = false /\ exists t, decl_of c v = Some t /\ is_ldef s = negb (is_sig_or_comp t).
Proof. intros HL Hin Ht. exact (wf_head_tgt c (ssig s) v (head_of ss s HL Hin) Ht). Qed.

Lemma ldef_facts ss s v : map ssig ss = L -> In s ss -> tgt s = Some v -> is_ldef s = true ->
  is_param c v = false /\ decl_of c v = Some TLocal.
Proof.
  intros HL Hin Ht Hl. destruct (tgt_facts ss s v HL Hin Ht) as (Hp & t & Hd & Hld). split; [exact Hp|].
  rewrite Hl in Hld. symmetry in Hld. apply negb_true_iff in Hld. apply not_sig_local in Hld. congruence.
Qed.

Lemma decl_facts ss s names t n : map ssig ss = L -> In s ss -> sdecl s = Some (names, t) -> In n names ->
  is_param c n = false /\ decl_of c n = Some t.
Proof. intros HL Hin Hd Hn. exact (wf_head_decl c (ssig s) names t n (head_of ss s HL Hin) Hd Hn). Qed.

Lemma un_vrange_none ss v : map ssig ss = L -> un v = true -> vrange c ss v = None.
Proof.
  intros HL Hun. unfold unas in Hun. apply andb_true_iff in Hun as [Hun Hd]. apply andb_true_iff in Hun as [He Hp].
  apply negb_true_iff in He. apply negb_true_iff in Hp. unfold vrange. rewrite Hp.
  destruct (decl_of c v) as [[]|]; try discriminate; [|reflexivity].
  destruct (local_def_range ss v) as [r|] eqn:E; [|reflexivity].
  apply local_def_range_spec in E as [E _]. rewrite existsb_defines_ssig, HL in E. congruence.
Qed.

(* every binding of the environment is the range the validator gives the variable;
   an assigned flag has a defining assignment; parameters are known *)
Definition Backed (ss : list stmt) (env : denv) : Prop :=
  (forall v r, denv_degree env v = Some r -> vrange c ss v = Some r) /\
  (forall v, denv_is_assigned env v = true -> existsb (defines v) ss = true) /\
  (forall v, is_param c v = true -> denv_degree env v <> None).

(* the statements already visited in this pass without a first write *)
Definition Pre (A : list stmt) (env : denv) : Prop :=
  (forall s v, In s A -> tgt s = Some v -> is_ldef s = true -> denv_is_assigned env v = true) /\
  (forall s names t n, In s A -> sdecl s = Some (names, t) -> is_sig_or_comp t = true -> In n names ->
     denv_degree env n <> None).

Definition DInv0 (ss : list stmt) (env : denv) : Prop := Backed ss env /\ map ssig ss = L.

Lemma Backed_un ss env : Backed ss env -> map ssig ss = L -> forall v, un v = true -> denv_degree env v = None.
Proof.
  intros (E1 & _) HL v Hv. destruct (denv_degree env v) as [r|] eqn:E; [|reflexivity].
  apply E1 in E. rewrite (un_vrange_none _ v HL Hv) in E. discriminate.
Qed.

(* every statement of a block is justified under the block's control in the current graph *)
Definition GJ (bs : list block) (env : denv) : Prop :=
  Forall (fun b => Forall (dsjust un env (block_ctl bs idom b)) (b_stmts b)) bs.

Definition brel (bs : list block) (env env' : denv) (b b' : block) : Prop :=
  bext b b' /\
  forall m, mctl_le (block_ctl bs idom b) m -> Forall (dsjust un env m) (b_stmts b) -> Forall (dsjust un env' m) (b_stmts b').

Lemma GJ_transfer bs bs' env env' : Forall2 (brel bs env env') bs bs' -> GJ bs env -> GJ bs' env'.
Proof.
  intros H2.
  assert (Hg : gext bs bs') by (eapply forall2_impl; [|exact H2]; intros x y H; exact (proj1 H)).
  unfold GJ. apply (Forall2_transfer _ _ _ _ _ H2). intros b b' (Hbe & Hall) HP.
  apply Hall; [apply block_ctl_mono; assumption|].
  eapply Forall_impl; [|exact HP]. intros t. apply dsjust_mctl. apply block_ctl_mono; assumption.
Qed.

Lemma Pre_mono A env env' : denv_le env env' -> Pre A env -> Pre A env'.
Proof.
  intros [Hd Ha] [P1 P2]. split.
  - intros s v Hin Ht Hl. apply Ha. eapply P1; eauto.
  - intros s names t n Hin Hs Ht Hn. specialize (P2 s names t n Hin Hs Ht Hn).
    destruct (denv_degree env n) as [r|] eqn:E; [|congruence]. rewrite (Hd _ _ E). discriminate.
Qed.

Lemma Pre_nil env : Pre [] env.
Proof. split; [intros s v []|intros s names t n []]. Qed.

Lemma agree_at A s B env :
  DInv0 (A ++ s :: B) env -> Pre A env -> Forall (agree un env) (stmt_update_bases s).
Proof.
  intros ((E1 & E2 & E3) & HL) [P1 P2]. apply Forall_forall. intros v Hv Hnone.
  pose proof HWF as Hwf. rewrite <- HL, map_app in Hwf. cbn [map] in Hwf.
  apply sgs_wf_at in Hwf as [_ Hub]. rewrite app_nil_r in Hub. rewrite forallb_forall in Hub.
  specialize (Hub v Hv). destruct (un v) eqn:Eun; cbn [negb].
  - destruct (denv_is_assigned env v) eqn:Ea; [|reflexivity]. apply E2 in Ea.
    rewrite existsb_defines_ssig, HL in Ea. unfold unas in Eun. rewrite Ea in Eun. discriminate.
  - unfold ub_ok in Hub. apply orb_true_iff in Hub as [Hp|Hub]; [exfalso; exact (E3 v Hp Hnone)|].
    assert (Hloc : forall (Hno : negb (existsb (sg_defines v) (ssig s :: map ssig B)) = true)
                     (Hdl : match decl_of c v with Some TLocal | None => true | Some _ => false end = true),
               denv_is_assigned env v = true).
    { intros Hno Hdl. unfold unas in Eun. rewrite Hdl, andb_true_r in Eun.
      destruct (is_param c v) eqn:Ep; [exfalso; exact (E3 v Ep Hnone)|]. cbn [negb] in Eun. rewrite andb_true_r in Eun.
      apply negb_false_iff in Eun. rewrite <- HL, map_app, existsb_app in Eun. cbn [map] in Eun.
      apply negb_true_iff in Hno. rewrite Hno, orb_false_r in Eun.
      rewrite <- existsb_defines_ssig in Eun. apply existsb_exists in Eun as (s0 & Hin & Hd).
      apply defines_tgt in Hd.
      assert (Hin' : In s0 (A ++ s :: B)) by (apply in_or_app; left; exact Hin).
      destruct (tgt_facts _ s0 v HL Hin' Hd) as (_ & t & Ht & Hld). rewrite Ht in Hdl.
      apply (P1 s0 v Hin Hd). rewrite Hld. destruct t; try discriminate. reflexivity. }
    destruct (decl_of c v) as [t|] eqn:Ed; [|apply Hloc; [exact Hub|reflexivity]].
    destruct (is_sig_or_comp t) eqn:Et.
    + exfalso. apply existsb_exists in Hub as (x & Hx & Hdx). apply in_rev in Hx. apply in_map_iff in Hx as (s0 & <- & Hin).
      unfold sg_declares in Hdx. cbn [ssig sg_decl] in Hdx. destruct (sdecl s0) as [[names t0]|] eqn:Es; [|discriminate].
      apply andb_true_iff in Hdx as [Ht0 Hex]. apply existsb_exists in Hex as (n & Hn & Hvn).
      apply vname_eqb_eq in Hvn. subst n. exact (P2 s0 names t0 v Hin Es Ht0 Hn Hnone).
    + apply Hloc; [exact Hub|]. apply not_sig_local in Et. subst t. reflexivity.
Qed.

Lemma vrange_replace A s s' B w r :
  ssig s' = ssig s -> oext (def_deg s) (def_deg s') ->
  vrange c (A ++ s :: B) w = Some r -> vrange c (A ++ s' :: B) w = Some r.
Proof.
  intros Hsig Hd. unfold vrange. rewrite (existsb_defines_replace A s s' B w Hsig).
  destruct (is_param c w); [auto|]. destruct (decl_of c w) as [[]|]; auto.
  rewrite !local_def_range_iff. intros [(t & Hin & Ht) Hall]. split.
  - apply in_elt_inv in Hin as [<-|Hin]; [exists s'; split; [apply in_elt|rewrite (ssig_tgt _ _ Hsig); exact Ht]|].
    exists t. split; [apply in_app_mid; exact Hin|exact Ht].
  - intros t0 Hin0 Ht0. apply in_elt_inv in Hin0 as [<-|Hin0]; [|apply Hall; [apply in_app_mid; exact Hin0|exact Ht0]].
    rewrite (ssig_tgt _ _ Hsig) in Ht0. destruct (Hall s (in_elt _ _ _) Ht0) as [Hl Hdg]. rewrite (ssig_ldef _ _ Hsig). auto.
Qed.

(* replacing one statement by its propagated version keeps the invariant; m: any control
   of the statement's block not below the one recorded in the environment *)
Lemma dstep_inv A s B env m b s' env' :
  DInv0 (A ++ s :: B) env -> Pre A env -> mctl_le (de_ctl env) m -> dsjust un env m s ->
  pd_stmt env s = (b, s', env') ->
  DInv0 (A ++ s' :: B) env' /\ (b = false -> Pre (A ++ [s']) env') /\
  dsjust un env' m s' /\ (forall m0 t, dsjust un env m0 t -> dsjust un env' m0 t) /\
  sext s s' /\ de_ctl env' = de_ctl env.
Proof.
  intros Hi Hpre Hm Hjs Hpd. pose proof (agree_at A s B env Hi Hpre) as Hag.
  destruct Hi as ((E1 & E2 & E3) & HL).
  pose proof (in_elt s A B) as Hins.
  assert (Hsig : ssig s' = ssig s) by (pose proof (pd_stmt_ssig env s) as H; rewrite Hpd in H; exact H).
  assert (HL' : map ssig (A ++ s' :: B) = L) by (rewrite <- HL, !map_app; cbn [map]; rewrite Hsig; reflexivity).
  assert (Hov1 : forall v r0, tgt s = Some v -> is_ldef s = true -> denv_degree env v = Some r0 -> def_deg s = Some r0).
  { intros v r0 Ht Hl Hd. apply E1 in Hd. destruct (ldef_facts _ s v HL Hins Ht Hl) as [Hp Hdl].
    rewrite (vrange_local c _ v Hp Hdl) in Hd. apply local_def_range_iff in Hd as [_ Hd]. exact (proj2 (Hd s Hins Ht)). }
  assert (Hov2 : forall names t n r0, sdecl s = Some (names, t) -> is_sig_or_comp t = true -> In n names ->
                 denv_degree env n = Some r0 -> r0 = LL).
  { intros names t n r0 Hs Ht Hn Hd. apply E1 in Hd. destruct (decl_facts _ s names t n HL Hins Hs Hn) as [Hp Hdl].
    rewrite (vrange_sig c _ n t Hp Hdl Ht) in Hd. congruence. }
  destruct (pd_stmt_good un env m s b s' env' Hm Hjs Hag Hov1 Hov2 Hpd) as (Hse & Hctl & Hle & Hjs' & Hdd & Hnew & Hnewa & Hpre').
  pose proof (fun w => existsb_defines_replace A s s' B w Hsig) as Hex.
  assert (E1' : forall v r, denv_degree env' v = Some r -> vrange c (A ++ s' :: B) v = Some r).
  { intros w r Hw. destruct (Hnew w r Hw) as [Hold|[(Ht & Hl & Hdg)|(names & t & Hsd & Hin & Hsc & ->)]].
    - apply (vrange_replace A s s' B w r Hsig Hdd). apply E1. exact Hold.
    - (* a new binding, produced by this very assignment *)
      assert (Ht0 : tgt s = Some w) by (rewrite <- (ssig_tgt _ _ Hsig); exact Ht).
      assert (Hl0 : is_ldef s = true) by (rewrite <- (ssig_ldef _ _ Hsig); exact Hl).
      destruct (ldef_facts _ s w HL Hins Ht0 Hl0) as [Hp Hdl].
      rewrite (vrange_local c _ w Hp Hdl). apply local_def_range_iff. split; [exists s'; split; [apply in_elt|exact Ht]|].
      intros t0 Hin0 Ht0'. apply in_elt_inv in Hin0 as [<-|Hin0]; [auto|]. exfalso.
      apply (uniq_others A s B w t0); [rewrite sigq_ssig, HL; exact HU|exact Ht0|exact Hl0|exact Hin0|exact Ht0'].
    - destruct (decl_facts _ s names t w HL Hins Hsd Hin) as [Hp Hdl]. exact (vrange_sig c _ w t Hp Hdl Hsc). }
  assert (Hun' : forall v, un v = true -> denv_degree env' v = None).
  { intros v Hv. destruct (denv_degree env' v) as [r|] eqn:E; [|reflexivity].
    apply E1' in E. rewrite (un_vrange_none _ v HL' Hv) in E. discriminate. }
  assert (Htr : forall m0 t, dsjust un env m0 t -> dsjust un env' m0 t).
  { intros m0 t Ht. eapply dsjust_mono; [exact Hle|exact Hun'|apply mctl_le_refl|exact Ht]. }
  split; [|split; [|split; [exact (Htr _ _ Hjs')|split; [exact Htr|split; [exact Hse|exact Hctl]]]]].
  - split; [split; [exact E1'|split]|exact HL'].
    + intros w Hw. destruct (Hnewa w Hw) as [Hold|[Ht Hl]]; [rewrite Hex; apply E2; exact Hold|].
      apply existsb_exists. exists s'. split; [apply in_elt|apply defines_tgt; exact Ht].
    + intros v Hp. specialize (E3 v Hp). destruct (denv_degree env v) as [r|] eqn:E; [|congruence].
      rewrite (proj1 Hle _ _ E). discriminate.
  - intros Hb. destruct (Hpre' Hb) as [Q1 Q2]. destruct (Pre_mono A env env' Hle Hpre) as [P1 P2]. split.
    + intros s0 v Hin Ht Hl. apply in_app_or in Hin as [Hin|[<-|[]]]; [eapply P1; eauto|].
      apply Q1; [rewrite <- (ssig_tgt _ _ Hsig); exact Ht|rewrite <- (ssig_ldef _ _ Hsig); exact Hl].
    + intros s0 names t n Hin Hs Ht Hn. apply in_app_or in Hin as [Hin|[<-|[]]]; [eapply P2; eauto|].
      eapply Q2; eauto. rewrite <- (ssig_sdecl _ _ Hsig). exact Hs.
Qed.

Definition GInv (bs : list block) (env : denv) : Prop := DInv0 (all_stmts bs) env /\ GJ bs env.

(* the same at the level of the graph: statement s of block blk, between the statements SA
   already visited in this block visit and SC *)
Lemma gstep B1 blk B2 SA s SC env b s' env' :
  GInv (B1 ++ set_stmts blk (SA ++ s :: SC) :: B2) env ->
  Pre (all_stmts B1 ++ SA) env ->
  mctl_le (de_ctl env) (block_ctl (B1 ++ set_stmts blk (SA ++ s :: SC) :: B2) idom (set_stmts blk (SA ++ s :: SC))) ->
  pd_stmt env s = (b, s', env') ->
  GInv (B1 ++ set_stmts blk (SA ++ s' :: SC) :: B2) env' /\
  (b = false -> Pre ((all_stmts B1 ++ SA) ++ [s']) env') /\
  mctl_le (de_ctl env') (block_ctl (B1 ++ set_stmts blk (SA ++ s' :: SC) :: B2) idom (set_stmts blk (SA ++ s' :: SC))).
Proof.
  intros [Hi HJ] Hpre Hm Hpd.
  assert (Hflat : forall x, all_stmts (B1 ++ set_stmts blk (SA ++ x :: SC) :: B2) = (all_stmts B1 ++ SA) ++ x :: (SC ++ all_stmts B2)).
  { intros x. rewrite all_stmts_mid, <- !app_assoc. reflexivity. }
  rewrite Hflat in Hi.
  pose proof (Forall_elt _ _ _ (Forall_elt _ _ _ HJ)) as Hjs.
  destruct (dstep_inv _ s _ env _ b s' env' Hi Hpre Hm Hjs Hpd) as (HD & Hp' & Hjs' & Htr & Hse & Hctl).
  pose proof (bext_step blk SA s s' SC Hse) as Hbe. pose proof (gext_mid B1 _ _ B2 Hbe) as Hge.
  split; [split; [rewrite Hflat; exact HD|]|split; [exact Hp'|]].
  - apply (GJ_transfer (B1 ++ set_stmts blk (SA ++ s :: SC) :: B2) _ env env'); [|exact HJ].
    assert (Hsame : forall l, Forall2 (brel (B1 ++ set_stmts blk (SA ++ s :: SC) :: B2) env env') l l).
    { intros l. apply forall2_refl. intros x. split; [apply bext_refl|].
      intros m0 _ HF. eapply Forall_impl; [|exact HF]. intros t. apply Htr. }
    apply Forall2_app; [apply Hsame|]. constructor; [|apply Hsame].
    split; [exact Hbe|]. intros m0 Hm0 HF. cbn [set_stmts b_stmts] in *.
    apply Forall_app in HF as [HA HC]. apply Forall_cons_iff in HC as [Hs HC].
    apply Forall_app. split; [eapply Forall_impl; [|exact HA]; intros t; apply Htr|].
    constructor; [|eapply Forall_impl; [|exact HC]; intros t; apply Htr].
    destruct (dstep_inv _ s _ env m0 b s' env' Hi Hpre (mctl_le_trans _ _ _ Hm Hm0) Hs Hpd) as (_ & _ & H & _). exact H.
  - rewrite Hctl. eapply mctl_le_trans; [exact Hm|]. apply block_ctl_mono; assumption.
Qed.

(* the rest ss2 of a block visit: SA already visited in this visit *)
Lemma gstmts : forall ss2 B1 blk B2 SA env res b ss2' env',
  GInv (B1 ++ set_stmts blk (SA ++ ss2) :: B2) env ->
  (res = false -> Pre (all_stmts B1 ++ SA) env) ->
  mctl_le (de_ctl env) (block_ctl (B1 ++ set_stmts blk (SA ++ ss2) :: B2) idom (set_stmts blk (SA ++ ss2))) ->
  pd_stmts env res ss2 = (b, ss2', env') ->
  GInv (B1 ++ set_stmts blk (SA ++ ss2') :: B2) env' /\ (b = false -> Pre (all_stmts B1 ++ SA ++ ss2') env').
Proof.
  induction ss2 as [|s tl IH]; intros B1 blk B2 SA env res b ss2' env' Hi Hp Hm; cbn [pd_stmts].
  - intros [= <- <- <-]. split; [exact Hi|]. rewrite app_nil_r. exact Hp.
  - destruct res; [intros [= <- <- <-]; split; [exact Hi|discriminate]|].
    destruct (pd_stmt env s) as [[b1 s'] env1] eqn:Es.
    destruct (pd_stmts env1 b1 tl) as [[b2 tl'] env2] eqn:Et. intros [= <- <- <-].
    destruct (gstep B1 blk B2 SA s tl env b1 s' env1 Hi (Hp eq_refl) Hm Es) as (Hi1 & Hp1 & Hm1).
    rewrite <- (app_mid SA s' tl) in Hi1, Hm1. rewrite <- app_assoc in Hp1.
    destruct (IH B1 blk B2 (SA ++ [s']) env1 b1 b2 tl' env2 Hi1 Hp1 Hm1 Et) as (Hi2 & Hp2).
    rewrite app_mid in Hi2, Hp2. split; [exact Hi2|exact Hp2].
Qed.

(* one pass over the blocks: bs1 already visited in this pass *)
Lemma gblocks : forall bs2 bs1 env res b bs2' env',
  GInv (bs1 ++ bs2) env -> (res = false -> Pre (all_stmts bs1) env) ->
  pd_blocks idom env res bs1 bs2 = (b, bs2', env') ->
  GInv (bs1 ++ bs2') env' /\ (b = false -> Pre (all_stmts (bs1 ++ bs2')) env').
Proof.
  induction bs2 as [|blk tl IH]; intros bs1 env res b bs2' env' Hi Hp; cbn [pd_blocks].
  - intros [= <- <- <-]. split; [exact Hi|]. rewrite app_nil_r. exact Hp.
  - destruct res; [intros [= <- <- <-]; split; [exact Hi|discriminate]|].
    set (env0 := denv_set_ctl env (block_ctl (bs1 ++ blk :: tl) idom blk)).
    destruct (pd_stmts env0 false (b_stmts blk)) as [[r1 ss'] env1] eqn:Es.
    destruct (pd_blocks idom env1 r1 (bs1 ++ [set_stmts blk ss']) tl) as [[r2 tl'] env2] eqn:Et. intros [= <- <- <-].
    assert (Hi0 : GInv (bs1 ++ set_stmts blk ([] ++ b_stmts blk) :: tl) env0).
    { cbn [app]. rewrite set_stmts_id. destruct Hi as [Hi HJ]. split; [exact Hi|].
      eapply Forall_impl; [|exact HJ]. intros x Hx. eapply Forall_impl; [|exact Hx]. intros t.
      apply dsjust_mono; [split; intros; assumption|exact (Backed_un _ env (proj1 Hi) (proj2 Hi))|apply mctl_le_refl]. }
    assert (Hp0 : false = false -> Pre (all_stmts bs1 ++ []) env0) by (intros _; rewrite app_nil_r; exact (Hp eq_refl)).
    assert (Hm0 : mctl_le (de_ctl env0) (block_ctl (bs1 ++ set_stmts blk ([] ++ b_stmts blk) :: tl) idom (set_stmts blk ([] ++ b_stmts blk))))
      by (cbn [app]; rewrite set_stmts_id; apply mctl_le_refl).
    destruct (gstmts (b_stmts blk) bs1 blk tl [] env0 false r1 ss' env1 Hi0 Hp0 Hm0 Es) as (Hi1 & Hp1).
    cbn [app] in Hi1, Hp1. rewrite <- app_mid in Hi1.
    assert (Hp1' : r1 = false -> Pre (all_stmts (bs1 ++ [set_stmts blk ss'])) env1).
    { intros Hr. rewrite all_stmts_mid. cbn [all_stmts flat_map]. rewrite app_nil_r. exact (Hp1 Hr). }
    destruct (IH (bs1 ++ [set_stmts blk ss']) env1 r1 r2 tl' env2 Hi1 Hp1' Et) as (Hi2 & Hp2).
    rewrite app_mid in Hi2, Hp2. split; [exact Hi2|exact Hp2].
Qed.

Lemma dpasses_inv : forall k env bs bs' env',
  GInv bs env -> degrees_passes k idom env bs = (bs', env') -> GInv bs' env'.
Proof.
  induction k as [|k IH]; intros env bs bs' env' Hi; cbn [degrees_passes].
  - intros [= <- <-]. exact Hi.
  - destruct (pd_blocks idom env false [] bs) as [[rerun bs1] env1] eqn:Ep.
    destruct (gblocks bs [] env false rerun bs1 env1 Hi (fun _ => Pre_nil env) Ep) as (Hi1 & _).
    cbn [app] in Hi1. destruct rerun; [exact (IH env1 bs1 bs' env' Hi1)|intros [= <- <-]; exact Hi1].
Qed.
End Lists.

Lemma dclaim_check k o' o : dclaim k o' -> oext o' o -> deg_claim_is k o = true.
Proof.
  unfold dclaim, claims, deg_claim_is. destruct (kdeg k) as [r|]; [|reflexivity].
  intros H Hx. apply opt_drange_eqb_eq. apply Hx. exact H.
Qed.

Lemma dclaim_ok k o : dclaim k o -> deg_claim_is k o = true.
Proof. intros H. exact (dclaim_check k o o H (oext_refl o)). Qed.

Section Validate.
Variable c' : cfg.
Variable un : vname -> bool.
Variable env : denv.
Hypothesis Hun : forall v, un v = unassigned c' v.
Hypothesis HE1 : forall v r, denv_degree env v = Some r -> var_range c' v = Some r.
Hypothesis Hnone : forall v, un v = true -> var_range c' v = None.

Lemma dejust_djust e : dejust un env e -> djust_expr c' e = true.
Proof.
  induction e as [z k|v k|op l r k IHl IHr|op e k IHe|c t f k IHc IHt IHf|n args k IHargs|vs k IHvs
                  |v acc k IHacc|v acc rhe k IHacc IHrhe|args k] using expr_ind';
    intros Hj; apply dejust_inv in Hj; cbn [djust_expr]; rewrite ?list_forallb, ?acc_forallb.
  - exact (dclaim_ok _ _ Hj).
  - apply (dclaim_check _ _ _ Hj). intros r. apply HE1.
  - destruct Hj as (Hl & Hr & Hk). rewrite IHl, IHr by assumption. exact (dclaim_ok _ _ Hk).
  - destruct Hj as (He & Hk). rewrite IHe by assumption. exact (dclaim_ok _ _ Hk).
  - destruct Hj as (Hc & Ht & Hf & Hk). rewrite IHc, IHt, IHf by assumption. exact (dclaim_ok _ _ Hk).
  - destruct Hj as (Ha & Hk). rewrite (proj2 (forallb_Forall _ _) (Forall_mp _ _ _ IHargs Ha)). exact (dclaim_ok _ _ Hk).
  - destruct Hj as (Ha & Hk). rewrite (proj2 (forallb_Forall _ _) (Forall_mp _ _ _ IHvs Ha)). exact (dclaim_ok _ _ Hk).
  - destruct Hj as (Ha & Hk). rewrite (proj2 (forallb_Forall _ _) (Forall_mp _ _ _ IHacc Ha)).
    apply (dclaim_check _ _ _ Hk). apply opt_index_adjust_ext; [apply acc_st_refl|]. intros r. apply HE1.
  - destruct Hj as (Ha & Hr & Hk). rewrite (proj2 (forallb_Forall _ _) (Forall_mp _ _ _ IHacc Ha)), IHrhe by assumption.
    apply (dclaim_check _ _ _ Hk). apply opt_index_adjust_ext; [apply acc_st_refl|].
    unfold ubase, update_base_range. destruct (denv_degree env v) as [rv|] eqn:Ev.
    + rewrite (HE1 _ _ Ev). apply oext_refl.
    + destruct (un v) eqn:Eu; [|intros r; discriminate]. rewrite (Hnone v Eu), <- Hun, Eu. apply oext_refl.
  - contradiction.
Qed.

Lemma etop_djust m mm v op rhe sv st : etop un env m rhe -> djust_stmt c' m (SSubst mm v op rhe sv st) = true.
Proof.
  intros H. destruct rhe; try (cbn [djust_stmt]; apply dejust_djust; exact H).
  cbn [etop] in H. cbn [djust_stmt]. eapply dclaim_check; [exact H|]. apply phi_adjust_ext. apply iter_opt_ext.
  clear H. induction args as [|a tl IH]; cbn [map]; constructor; auto. intros r. apply HE1.
Qed.

Lemma dsjust_djust m s : dsjust un env m s -> djust_stmt c' m s = true.
Proof.
  intros H. destruct s; cbn [dsjust stmt_exprs] in H; try (apply etop_djust; exact H); cbn [djust_stmt].
  - apply forallb_forall. intros e He. apply dejust_djust. rewrite Forall_forall in H. auto.
  - apply Forall_cons_iff in H as [H _]. apply dejust_djust. exact H.
  - apply Forall_cons_iff in H as [H _]. apply dejust_djust. exact H.
  - apply Forall_cons_iff in H as [H1 H2]. apply Forall_cons_iff in H2 as [H2 _].
    rewrite (dejust_djust _ H1), (dejust_djust _ H2). reflexivity.
  - induction args as [|a tl IH]; [reflexivity|]. cbn [forallb]. destruct a as [|x]; cbn [flat_map app] in H.
    + apply IH. exact H.
    + apply Forall_cons_iff in H as [H1 H2]. rewrite (dejust_djust _ H1). apply IH. exact H2.
  - apply Forall_cons_iff in H as [H _]. apply dejust_djust. exact H.
Qed.
End Validate.

Lemma denv_init_spec kind params v :
  denv_degree (denv_init kind params) v = (if existsb (vname_eqb v) params then Some (kind_range kind) else None) /\
  denv_is_assigned (denv_init kind params) v = false.
Proof.
  unfold denv_init.
  assert (H : forall env0,
    let env := fold_left (fun env x => fst (denv_set_degree (denv_set_type env x TLocal) x (kind_range kind))) params env0 in
    denv_degree env v = (if existsb (vname_eqb v) params then Some (kind_range kind) else denv_degree env0 v) /\
    denv_is_assigned env v = denv_is_assigned env0 v).
  { induction params as [|x tl IH]; intros env0; [split; reflexivity|]. cbn [fold_left existsb].
    destruct (IH (fst (denv_set_degree (denv_set_type env0 x TLocal) x (kind_range kind)))) as [-> ->]. split; [|reflexivity].
    destruct (existsb (vname_eqb v) tl); [rewrite orb_true_r; reflexivity|]. rewrite orb_false_r.
    rewrite degree_set_degree, (vname_eqb_sym v x). reflexivity. }
  exact (H denv0).
Qed.

Lemma clean_dejust un env e : clean_deg_expr e = true -> phi_free e = true -> dejust un env e.
Proof.
  induction e as [z k|v k|op l r k IHl IHr|op e k IHe|c t f k IHc IHt IHf|n args k IHargs|vs k IHvs
                  |v acc k IHacc|v acc rhe k IHacc IHrhe|args k] using expr_ind';
    cbn [clean_deg_expr expr_know phi_free]; rewrite ?list_forallb, ?acc_forallb, ?andb_true_iff, ?forallb_Forall;
    unfold deg_none; intros [Hk H] Hp; destruct (kdeg k) eqn:Ek; try discriminate;
    pose proof ((claims_none kdeg) k) as Hn; specialize (fun o => Hn o Ek).
  - constructor. apply Hn.
  - constructor. apply Hn.
  - destruct H. destruct Hp. constructor; [auto|auto|apply Hn].
  - constructor; [auto|apply Hn].
  - destruct H as [[H1 H2] H3]. destruct Hp as [[P1 P2] P3]. constructor; [auto|auto|auto|apply Hn].
  - constructor; [|apply Hn]. exact (Forall_mp _ _ _ (Forall_mp _ _ _ IHargs H) Hp).
  - constructor; [|apply Hn]. exact (Forall_mp _ _ _ (Forall_mp _ _ _ IHvs H) Hp).
  - constructor; [|apply Hn]. exact (Forall_mp _ _ _ (Forall_mp _ _ _ IHacc H) Hp).
  - destruct H as [Hr Ha]. destruct Hp as [Pr Pa]. constructor; [|auto|apply Hn]. exact (Forall_mp _ _ _ (Forall_mp _ _ _ IHacc Ha) Pa).
Qed.

Lemma clean_dsjust un env m s : clean_deg_stmt s = true -> phi_top_stmt s = true -> dsjust un env m s.
Proof.
  unfold clean_deg_stmt. intros Hc Hp.
  assert (Hall : forallb phi_free (stmt_exprs s) = true -> Forall (dejust un env) (stmt_exprs s)).
  { intros Hf. rewrite forallb_forall in Hc, Hf. apply Forall_forall. intros e He. apply clean_dejust; auto. }
  destruct s; cbn [dsjust]; try (apply Hall; exact Hp).
  destruct rhe; try (cbn [etop]; cbn [phi_top_stmt stmt_exprs] in Hp; specialize (Hall Hp);
                     apply Forall_cons_iff in Hall as [Hall _]; exact Hall).
  cbn [etop]. apply (claims_none kdeg). cbn [stmt_exprs forallb clean_deg_expr expr_know] in Hc.
  unfold deg_none in Hc. destruct (kdeg k); [discriminate|reflexivity].
Qed.

Lemma idom_shape_preds c c' idom : map b_preds (c_blocks c') = map b_preds (c_blocks c) ->
  idom_shape c' idom = idom_shape c idom.
Proof.
  intros H. unfold idom_shape. f_equal.
  assert (Hlen : length (c_blocks c') = length (c_blocks c)) by (rewrite <- (map_length b_preds), H; apply map_length).
  rewrite Hlen. set (f := forallb (fun q => (N.to_nat q <? length (c_blocks c))%nat)).
  assert (Hm : forall l, forallb (fun b => f (b_preds b)) l = forallb f (map b_preds l)).
  { induction l as [|x tl IH]; [reflexivity|]. cbn [map forallb]. rewrite IH. reflexivity. }
  rewrite !Hm, H. reflexivity.
Qed.

Theorem degrees_validated_at_every_budget : forall k idom c bs env,
  deg_wf c = true -> idom_shape c idom = true ->
  degrees_passes k idom (denv_init (c_kind c) (c_params c)) (c_blocks c) = (bs, env) ->
  djust_cfg (set_blocks c bs) idom = true.
Proof.
  intros k idom c bs env Hwf Hshape Hk. unfold deg_wf in Hwf.
  apply andb_true_iff in Hwf as [Hwf Hphi].
  apply andb_true_iff in Hwf as [Hwf Hu]. apply andb_true_iff in Hwf as [Hclean Hsg].
  set (L := map ssig (all_stmts (c_blocks c))) in *.
  assert (HU : uniq (map sq L)) by (unfold L; rewrite <- sigq_ssig; apply ldefs_unique_uniq; exact Hu).
  assert (Hinit : DInv0 c L (all_stmts (c_blocks c)) (denv_init (c_kind c) (c_params c))).
  { split; [split; [|split]|reflexivity].
    - intros v r Hv. rewrite (proj1 (denv_init_spec _ _ v)) in Hv.
      destruct (existsb (vname_eqb v) (c_params c)) eqn:Ep; [|discriminate]. injection Hv as <-.
      unfold vrange. unfold is_param. rewrite Ep.
      destruct (existsb (defines v) (all_stmts (c_blocks c))) eqn:Ed; [|reflexivity].
      apply existsb_exists in Ed as (s & Hin & Hd). apply defines_tgt in Hd.
      destruct (tgt_facts c L Hsg _ s v eq_refl Hin Hd) as [Hp _]. unfold is_param in Hp. congruence.
    - intros v Hv. rewrite (proj2 (denv_init_spec _ _ v)) in Hv. discriminate.
    - intros v Hp. rewrite (proj1 (denv_init_spec _ _ v)). unfold is_param in Hp. rewrite Hp. discriminate. }
  assert (HJinit : GJ c L idom (c_blocks c) (denv_init (c_kind c) (c_params c))).
  { unfold GJ. apply Forall_forall. intros b Hb. apply Forall_forall. intros s Hs.
    assert (Hin : In s (all_stmts (c_blocks c))) by (unfold all_stmts; apply in_flat_map; eauto).
    rewrite forallb_forall in Hclean, Hphi. apply clean_dsjust; auto. }
  destruct (dpasses_inv c L idom Hsg HU k _ _ _ _ (conj Hinit HJinit) Hk) as (((E1 & E2 & E3) & HL) & HJ).
  unfold djust_cfg. apply andb_true_iff. split.
  { rewrite (idom_shape_preds c (set_blocks c bs) idom); [exact Hshape|].
    cbn [set_blocks c_blocks]. exact (degrees_passes_shape _ b_preds (fun _ _ => eq_refl) idom _ _ _ _ _ Hk). }
  cbn [set_blocks c_blocks]. apply forallb_forall. intros b Hb.
  unfold djust_block. cbn [set_blocks c_blocks]. apply forallb_forall. intros s Hs.
  apply (dsjust_djust (set_blocks c bs) (unas c L) env).
  - intros v. rewrite unassigned_unas, HL. reflexivity.
  - intros v r Hv. rewrite var_range_vrange. apply E1. exact Hv.
  - intros v Hv. rewrite var_range_vrange. exact (un_vrange_none c L (all_stmts bs) v HL Hv).
  - unfold GJ in HJ. rewrite Forall_forall in HJ. specialize (HJ b Hb). rewrite Forall_forall in HJ. apply HJ. exact Hs.
Qed.

(* Value propagation, which runs first, never touches a degree claim, a target, a type, a declared
   name or the shape of an expression: erasing all VALUE knowledge commutes with
   it, and deg_wf only reads the erased graph. *)
Definition vk (k : know) : know := {| kval := None; kdeg := kdeg k |}.

Fixpoint verase (e : expr) {struct e} : expr :=
  match e with
  | ENum z k => ENum z (vk k)
  | EVar v k => EVar v (vk k)
  | EInfix op l r k => EInfix op (verase l) (verase r) (vk k)
  | EPrefix op x k => EPrefix op (verase x) (vk k)
  | ESwitch c t f k => ESwitch (verase c) (verase t) (verase f) (vk k)
  | ECall n args k => ECall n (map verase args) (vk k)
  | EArray vs k => EArray (map verase vs) (vk k)
  | EAccess v acc k => EAccess v (map (amap verase) acc) (vk k)
  | EUpdate v acc rhe k => EUpdate v (map (amap verase) acc) (verase rhe) (vk k)
  | EPhi args k => EPhi args (vk k)
  end.

Definition vserase (s : stmt) : stmt :=
  match s with
  | SDecl m names t dims => SDecl m names t (map verase dims)
  | SIf m c t f => SIf m (verase c) t f
  | SRet m e => SRet m (verase e)
  | SSubst m v op rhe sval st => SSubst m v op (verase rhe) None st
  | SCeq m l r => SCeq m (verase l) (verase r)
  | SLog m args => SLog m (map (lmap verase) args)
  | SAssert m e => SAssert m (verase e)
  end.

Lemma verase_set_know e k' : kdeg k' = kdeg (expr_know e) -> verase (set_know e k') = verase e.
Proof. intros H. destruct e; cbn [set_know verase expr_know] in *; unfold vk; rewrite H; reflexivity. Qed.

Lemma verase_match_sc (o : option vred) res e :
  verase (snd (match o with Some v => sc_set_val res e v | None => (res, e) end)) = verase e.
Proof.
  destruct o as [v|]; [|reflexivity]. unfold sc_set_val. destruct res; [reflexivity|].
  apply verase_set_know. reflexivity.
Qed.

Definition vsame (e e' : expr) : Prop := verase e' = verase e.

Lemma pv_expr_vpres p env : forall e, pv_lifts True p env vsame e.
Proof.
  assert (Hsc : forall (o : option vred) res e0 e, verase e0 = verase e ->
            wp True (match o with Some v => Ok (sc_set_val res e0 v) | None => Ok (res, e0) end) (fun r => vsame e (snd r))).
  { intros o res e0 e H. unfold vsame. rewrite <- H, <- (verase_match_sc o res e0). destruct o; reflexivity. }
  induction e as [z k|v k|op l r k IHl IHr|op e k IHe|c t f k IHc IHt IHf|n args k IHargs|vs k IHvs
                  |v acc k IHacc|v acc rhe k IHacc IHrhe|args k] using expr_ind'; unfold pv_lifts; cbn [pv_expr].
  - reflexivity.
  - destruct (venv_get env v); reflexivity.
  - apply wp_bind. eapply wp_mono; [|exact IHl]. intros [b1 l'] Hl. apply wp_bind.
    assert (Hr : wp True (if b1 then Ok (true, r) else pv_expr p env r) (fun x => vsame r (snd x))) by (destruct b1; [reflexivity|exact IHr]).
    eapply wp_mono; [|exact Hr]. intros [b2 r'] Hr'. apply wp_bind. apply wp_partial. intros ov _.
    apply Hsc. unfold vsame in *. cbn [snd verase] in *. rewrite Hl, Hr'. reflexivity.
  - apply wp_bind. eapply wp_mono; [|exact IHe]. intros [b1 x'] Hx. apply Hsc. unfold vsame in *. cbn [snd verase] in *. rewrite Hx. reflexivity.
  - apply wp_bind. eapply wp_mono; [|exact IHc]. intros [bc c'] Hc.
    apply wp_bind. eapply wp_mono; [|exact IHt]. intros [bt t'] Ht.
    apply wp_bind. eapply wp_mono; [|exact IHf]. intros [bf f'] Hf.
    apply Hsc. unfold vsame in *. cbn [snd verase] in *. rewrite Hc, Ht, Hf. reflexivity.
  - rewrite pv_list_eq. apply wp_bind. eapply wp_mono; [|exact (pv_exprs_lift _ _ _ _ (fun _ => eq_refl) args IHargs false)].
    intros [b args'] H. unfold vsame. cbn [wp snd verase] in *. rewrite (Forall2_map_eq _ _ _ H). reflexivity.
  - rewrite pv_list_eq. apply wp_bind. eapply wp_mono; [|exact (pv_exprs_lift _ _ _ _ (fun _ => eq_refl) vs IHvs false)].
    intros [b vs'] H. unfold vsame. cbn [wp snd verase] in *. rewrite (Forall2_map_eq _ _ _ H). reflexivity.
  - rewrite pv_acc_eq. apply wp_bind. eapply wp_mono; [|exact (pv_accs_lift _ _ _ _ (fun _ => eq_refl) acc IHacc false)].
    intros [b acc'] H. unfold vsame. cbn [wp snd verase] in *. rewrite (acc_rel_map _ _ _ H). reflexivity.
  - apply wp_bind. eapply wp_mono; [|exact IHrhe]. intros [b1 rhe'] Hr. rewrite pv_acc_eq.
    apply wp_bind. eapply wp_mono; [|exact (pv_accs_lift _ _ _ _ (fun _ => eq_refl) acc IHacc b1)].
    intros [b acc'] H. unfold vsame. cbn [wp snd verase] in *. rewrite (acc_rel_map _ _ _ H), Hr. reflexivity.
  - destruct (phi_value env args); reflexivity.
Qed.

Lemma all_vpres p env es : Forall (pv_lifts True p env vsame) es.
Proof. apply Forall_forall. intros e _. apply pv_expr_vpres. Qed.

Lemma pv_stmt_vpres p env s : wp True (pv_stmt p env s) (fun r => vserase (snd (fst r)) = vserase s).
Proof.
  pose proof (pv_expr_vpres p env) as He.
  destruct s; cbn [pv_stmt].
  - apply wp_bind. eapply wp_mono; [|exact (pv_exprs_lift _ _ _ _ (fun _ => eq_refl) dims (all_vpres p env _) false)].
    intros [b dims'] H. cbn [wp fst snd vserase] in *. rewrite (Forall2_map_eq _ _ _ H). reflexivity.
  - apply wp_bind. eapply wp_mono; [|exact (He c)]. intros [b c'] H. cbn [wp fst snd vserase] in *. rewrite H. reflexivity.
  - apply wp_bind. eapply wp_mono; [|exact (He e)]. intros [b e'] H. cbn [wp fst snd vserase] in *. rewrite H. reflexivity.
  - apply wp_bind. eapply wp_mono; [|exact (He rhe)]. intros [b rhe'] H. cbn [snd] in H.
    assert (Hs : forall sv, vserase (SSubst m v op rhe' sv stype) = vserase (SSubst m v op rhe sval stype))
      by (intros sv; cbn [vserase]; rewrite H; reflexivity).
    destruct (is_update rhe'); [apply Hs|]. destruct (expr_val rhe') as [x|]; [|apply Hs].
    apply wp_bind. apply wp_partial. intros env' _. destruct b; apply Hs.
  - apply wp_bind. eapply wp_mono; [|exact (He l)]. intros [[|] l'] Hl; cbn [wp fst snd vserase] in *; [rewrite Hl; reflexivity|].
    apply wp_bind. eapply wp_mono; [|exact (He r)]. intros [b r'] Hr. cbn [wp fst snd vserase] in *. rewrite Hl, Hr. reflexivity.
  - apply wp_bind. eapply wp_mono; [|exact (pv_logargs_lift _ _ _ _ (fun _ => eq_refl) args (all_vpres p env _) false)].
    intros [b args'] H. cbn [wp fst snd vserase] in *. rewrite (la_rel_map _ _ _ H). reflexivity.
  - apply wp_bind. eapply wp_mono; [|exact (He e)]. intros [b e'] H. cbn [wp fst snd vserase] in *. rewrite H. reflexivity.
Qed.

Lemma values_passes_vpres p k env bs bs' env' :
  values_passes k p env bs = Ok (bs', env') -> map vserase (all_stmts bs') = map vserase (all_stmts bs).
Proof.
  intros Hk.
  refine (wp_ok _ _ _ _ (values_passes_wp True p (fun ss _ => map vserase ss = map vserase (all_stmts bs)) _ k env bs eq_refl) Hk).
  intros A s B env0 H. eapply wp_mono; [|apply pv_stmt_vpres]. intros [[b s'] env1] Hs. cbn [fst snd] in *.
  rewrite map_app in *. cbn [map] in *. rewrite Hs. exact H.
Qed.

Lemma ub_verase e : update_bases (verase e) = update_bases e.
Proof.
  induction e as [z k|v k|op l r k IHl IHr|op e k IHe|c t f k IHc IHt IHf|n args k IHargs|vs k IHvs
                  |v acc k IHacc|v acc rhe k IHacc IHrhe|args k] using expr_ind';
    cbn [verase update_bases]; rewrite ?acc_ub_flat, ?acc_exprs_amap.
  - reflexivity.
  - reflexivity.
  - rewrite IHl, IHr. reflexivity.
  - exact IHe.
  - rewrite IHc, IHt, IHf. reflexivity.
  - exact (flat_map_map_ext _ _ _ _ IHargs).
  - exact (flat_map_map_ext _ _ _ _ IHvs).
  - exact (flat_map_map_ext _ _ _ _ IHacc).
  - rewrite IHrhe, (flat_map_map_ext _ _ _ _ IHacc). reflexivity.
  - reflexivity.
Qed.

Lemma clean_deg_verase e : clean_deg_expr (verase e) = clean_deg_expr e.
Proof.
  induction e as [z k|v k|op l r k IHl IHr|op e k IHe|c t f k IHc IHt IHf|n args k IHargs|vs k IHvs
                  |v acc k IHacc|v acc rhe k IHacc IHrhe|args k] using expr_ind';
    cbn [verase clean_deg_expr expr_know]; rewrite ?list_forallb, ?acc_forallb, ?acc_exprs_amap; unfold deg_none; cbn [vk kdeg]; f_equal.
  - rewrite IHl, IHr. reflexivity.
  - exact IHe.
  - rewrite IHc, IHt, IHf. reflexivity.
  - exact (forallb_map_ext _ _ _ _ IHargs).
  - exact (forallb_map_ext _ _ _ _ IHvs).
  - exact (forallb_map_ext _ _ _ _ IHacc).
  - rewrite IHrhe, (forallb_map_ext _ _ _ _ IHacc). reflexivity.
Qed.

Lemma phi_free_verase e : phi_free (verase e) = phi_free e.
Proof.
  induction e as [z k|v k|op l r k IHl IHr|op e k IHe|c t f k IHc IHt IHf|n args k IHargs|vs k IHvs
                  |v acc k IHacc|v acc rhe k IHacc IHrhe|args k] using expr_ind';
    cbn [verase phi_free]; rewrite ?list_forallb, ?acc_forallb, ?acc_exprs_amap; try reflexivity.
  - rewrite IHl, IHr. reflexivity.
  - exact IHe.
  - rewrite IHc, IHt, IHf. reflexivity.
  - exact (forallb_map_ext _ _ _ _ IHargs).
  - exact (forallb_map_ext _ _ _ _ IHvs).
  - exact (forallb_map_ext _ _ _ _ IHacc).
  - rewrite IHrhe, (forallb_map_ext _ _ _ _ IHacc). reflexivity.
Qed.

Lemma stmt_exprs_vserase s : stmt_exprs (vserase s) = map verase (stmt_exprs s).
Proof. destruct s; cbn [vserase stmt_exprs map]; try reflexivity. apply la_exprs_lmap. Qed.

Lemma phi_top_vserase s : phi_top_stmt (vserase s) = phi_top_stmt s.
Proof.
  assert (H : forallb phi_free (stmt_exprs (vserase s)) = forallb phi_free (stmt_exprs s)).
  { rewrite stmt_exprs_vserase. apply forallb_map_ext. apply all_ext. apply phi_free_verase. }
  destruct s; try exact H. destruct rhe; try exact H. reflexivity.
Qed.

Lemma ssig_vserase s : ssig (vserase s) = ssig s.
Proof.
  unfold ssig. replace (stmt_update_bases (vserase s)) with (stmt_update_bases s); [destruct s; reflexivity|].
  unfold stmt_update_bases. rewrite stmt_exprs_vserase. symmetry. apply flat_map_map_ext. apply all_ext. apply ub_verase.
Qed.

Lemma clean_deg_vserase s : clean_deg_stmt (vserase s) = clean_deg_stmt s.
Proof. unfold clean_deg_stmt. rewrite stmt_exprs_vserase. apply forallb_map_ext. apply all_ext. apply clean_deg_verase. Qed.

Lemma ldefs_unique_vserase ss : ldefs_unique (map vserase ss) = ldefs_unique ss.
Proof.
  assert (Hlen : forall v, length (filter (defines v) (map vserase ss)) = length (filter (defines v) ss)).
  { intros v. induction ss as [|s tl IH]; [reflexivity|]. cbn [map filter].
    replace (defines v (vserase s)) with (defines v s) by (destruct s; reflexivity).
    destruct (defines v s); cbn [length]; rewrite IH; reflexivity. }
  unfold ldefs_unique. apply forallb_map_ext. apply all_ext. intros s.
  replace (is_ldef (vserase s)) with (is_ldef s) by (destruct s; reflexivity).
  replace (tgt (vserase s)) with (tgt s) by (destruct s; reflexivity).
  destruct (tgt s); [rewrite Hlen|]; reflexivity.
Qed.

Lemma sgs_wf_set_blocks c bs : forall l before, sgs_wf (set_blocks c bs) before l = sgs_wf c before l.
Proof. induction l as [|x tl IH]; intros before; [reflexivity|]. cbn [sgs_wf]. rewrite IH. reflexivity. Qed.

Lemma deg_wf_vserase c bs bs' :
  map vserase (all_stmts bs') = map vserase (all_stmts bs) -> deg_wf (set_blocks c bs') = deg_wf (set_blocks c bs).
Proof.
  intros H. unfold deg_wf. cbn [set_blocks c_blocks]. rewrite !sgs_wf_set_blocks.
  assert (Hr : forall ss, forallb clean_deg_stmt ss = forallb clean_deg_stmt (map vserase ss) /\
                          map ssig ss = map ssig (map vserase ss) /\ forallb phi_top_stmt ss = forallb phi_top_stmt (map vserase ss)).
  { intros ss. rewrite map_map. split; [|split]; symmetry.
    - apply forallb_map_ext. apply all_ext. apply clean_deg_vserase.
    - apply map_ext. apply ssig_vserase.
    - apply forallb_map_ext. apply all_ext. apply phi_top_vserase. }
  destruct (Hr (all_stmts bs')) as (-> & -> & ->). destruct (Hr (all_stmts bs)) as (-> & -> & ->).
  rewrite <- (ldefs_unique_vserase (all_stmts bs')), <- (ldefs_unique_vserase (all_stmts bs)), H. reflexivity.
Qed.

Theorem propagate_degrees_validated_at_every_budget : forall kv kd p idom c c',
  deg_wf c = true -> idom_shape c idom = true -> propagate kv kd p idom c = Ok c' -> djust_cfg c' idom = true.
Proof.
  intros kv kd p idom c c' Hwf Hshape. unfold propagate.
  destruct (values_passes kv p [] (c_blocks c)) as [[bs1 env1]| | |] eqn:Ev; try discriminate. cbn [bind].
  destruct (degrees_passes kd idom (denv_init (c_kind c) (c_params c)) bs1) as [bs2 env2] eqn:Ed.
  intros [= <-].
  assert (Hwf1 : deg_wf (set_blocks c bs1) = true).
  { rewrite (deg_wf_vserase c (c_blocks c) bs1 (values_passes_vpres p _ _ _ _ _ Ev)).
    destruct c; exact Hwf. }
  assert (Hshape1 : idom_shape (set_blocks c bs1) idom = true).
  { rewrite (idom_shape_preds c (set_blocks c bs1) idom); [exact Hshape|].
    cbn [set_blocks c_blocks]. exact (values_passes_shape _ b_preds (fun _ _ => eq_refl) p _ _ _ _ _ Ev). }
  exact (degrees_validated_at_every_budget kd idom (set_blocks c bs1) bs2 env2 Hwf1 Hshape1 Ed).
Qed.
