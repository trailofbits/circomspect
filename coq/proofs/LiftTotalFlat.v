(* C01 (on top of C12's development): lifting never panics on the shape the
   DESUGARER hands on, which is wider than C12's [parser_shaped].

   The parser puts only declarations and (multi-)substitutions into an
   initialisation block, but remove_tuples_from_statement rewrites a
   multi-substitution `var (a, b) = (1, 2);` into a *block* of substitutions, and
   the anonymous-component pass does the same for `var x = A()(1);`. The
   `assert!(visit_statement(..)?.is_empty())` of lifting.rs still holds for such
   an entry, because a block of straight-line statements completes no basic block
   and returns no predecessors. [flat] is that class; [desugared_shape] asks
   initialisation blocks to hold flat entries only. *)
From stdpp Require Import list sets.
Require Import Model.Lift Spec.CfgSpec Proofs.LiftBasics Proofs.LiftInv Proofs.LiftSteps Proofs.LiftProofs
  Proofs.LiftTheorems.
Import Base(outcome, Ok, Err, Panic, OutOfFuel, bind).

Fixpoint flat (s : sk) : bool :=
  match s with
  | SLeaf _ _ => true
  | SInit ss => forallb flat ss
  | SBlock ss => forallb flat ss
  | SWhile _ _ => false
  | SIf _ _ _ => false
  end.

Fixpoint init_flat (s : sk) : bool :=
  match s with
  | SLeaf _ _ => true
  | SInit ss => forallb flat ss
  | SBlock ss => forallb init_flat ss
  | SWhile _ b => init_flat b
  | SIf _ t e => init_flat t && match e with Some e => init_flat e | None => true end
  end.

Definition desugared_shape (body : sk) : Prop :=
  (exists ss, body = SBlock ss) /\ init_flat body = true.

(* a flat statement is visited without completing a block: no predecessors are
   returned and the graph stays in the [pre] state *)
Definition flat_total (s : sk) : Prop :=
  forall d g P0, pre g d P0 -> exists g', visit s d g = Ok (g', []) /\ pre g' d P0.

Lemma flat_init_total ss : Forall flat_total ss ->
  forall d g P0, pre g d P0 -> exists g', visit_init d ss g = Ok (g', []) /\ pre g' d P0.
Proof.
  induction 1 as [|s r Hs _ IH]; intros d g P0 Hpre; simpl; [eauto|].
  destruct (Hs d g P0 Hpre) as (g1 & -> & Hp1). simpl. by apply IH.
Qed.

Lemma Forall_forallb_mp {A} (Q : A -> Prop) (f : A -> bool) l :
  Forall (fun x => f x = true -> Q x) l -> forallb f l = true -> Forall Q l.
Proof.
  intros IH Hok. rewrite forallb_forall in Hok. rewrite Forall_forall in IH |- *.
  intros x Hx. apply IH; [done|]. apply Hok. by apply elem_of_list_In.
Qed.

Lemma flat_visit s : flat s = true -> flat_total s.
Proof.
  induction s as [id r|ss IH|ss IH|c body IH|c t e IHt IHe] using sk_ind'; intros Hok d g P0 Hpre;
    try discriminate.
  - rewrite (visit_leaf _ _ _ _ _ Hpre). destruct (step_leaf g d P0 id Hpre). eauto.
  - rewrite visit_init_eq, (pre_last_index _ _ _ Hpre). simpl.
    apply flat_init_total; [|done]. by eapply Forall_forallb_mp.
  - rewrite visit_block_eq, (pre_last_index _ _ _ Hpre). simpl.
    destruct (flat_init_total ss (Forall_forallb_mp _ _ _ IH Hok) d g P0 Hpre) as (g' & Hv & Hp).
    exists g'. split; [by apply visit_init_seq|done].
Qed.

Lemma is_leaf_flat s : is_leaf s = true -> flat s = true.
Proof. by destruct s. Qed.

(* C12's class is contained in this one *)
Lemma init_ok_init_flat s : init_ok s = true -> init_flat s = true.
Proof.
  induction s as [id r|ss IH|ss IH|c body IH|c t e IHt IHe] using sk_ind'; simpl; intros H; try done.
  - rewrite forallb_forall in H |- *. intros s Hs. apply is_leaf_flat. by apply H.
  - rewrite forallb_forall in H |- *. rewrite Forall_forall in IH.
    intros s Hs. apply IH; [by apply elem_of_list_In|]. by apply H.
  - by apply IH.
  - apply andb_true_iff in H as [Ht He]. apply andb_true_iff. split; [by apply IHt|].
    destruct e as [e|]; [|done]. by apply (IHe e eq_refl).
Qed.

Lemma parser_shaped_desugared_shape body : parser_shaped body -> desugared_shape body.
Proof. intros [H1 H2]. split; [done|]. by apply init_ok_init_flat. Qed.

Definition visit_total (s : sk) : Prop :=
  forall d g P0, pre g d P0 -> exists g' ps, visit s d g = Ok (g', ps).

Lemma visit_seq_total ss : Forall visit_total ss ->
  forall ss0 d g0 (P0 : nat -> Prop) g1 ps1,
  (forall i, P0 i -> i < length g0 - 1) -> post (SBlock ss0) g0 d P0 g1 ps1 ->
  exists r, visit_seq d ss ps1 g1 = Ok r.
Proof.
  induction 1 as [|s r Hs _ IH]; intros ss0 d g0 P0 g1 ps1 HP0 Hq; simpl; [eauto|].
  destruct (step_join _ _ _ _ _ _ HP0 Hq) as (g2 & -> & Hq2 & _). simpl.
  pose proof (post_state _ _ _ _ _ _ Hq2) as Hp2.
  destruct (Hs d g2 P0 Hp2) as (g3 & ps3 & Hv). rewrite Hv. simpl.
  apply (IH (ss0 ++ [s]) d g0 P0); [done|]. eapply post_snoc; [done|]. by apply visit_post.
Qed.

(* every step is total on a well-formed graph; only the assertion on the
   entries of an initialisation block needs the shape of the statement *)
Theorem visit_never_panics_flat s : init_flat s = true -> visit_total s.
Proof.
  induction s as [id r|ss IH|ss IH|c body IH|c t e IHt IHe] using sk_ind';
    intros Hok d g P0 Hpre.
  - rewrite (visit_leaf _ _ _ _ _ Hpre). eauto.
  - destruct (flat_visit (SInit ss) Hok d g P0 Hpre) as (g' & Hv & _). eauto.
  - rewrite visit_block_eq, (pre_last_index _ _ _ Hpre). simpl.
    destruct (visit_seq_total ss (Forall_forallb_mp _ _ _ IH Hok) [] d g P0 g []) as ([g' ps] & Hv).
    + apply (pre_P0 _ _ _ Hpre).
    + apply post_nil; [apply grow_refl|done].
    + eauto.
  - destruct (step_while_head g d P0 c Hpre) as (g3 & -> & Hp3 & Hl3 & _).
    destruct (IH Hok _ _ _ Hp3) as (g4 & ps4 & E4). rewrite E4. simpl.
    destruct (step_while_tail _ _ _ _ _ _ _ _ Hpre Hl3 (visit_post _ _ _ _ _ _ Hp3 E4))
      as (ps' & g5 & -> & _ & Eb & _).
    simpl. rewrite Eb. simpl. eauto.
  - simpl in Hok. apply andb_true_iff in Hok as [Hokt Hoke].
    destruct (step_branch g d d P0 c Hpre) as (g1 & g2 & E1 & E2 & _ & Hp2 & Hl2 & _).
    rewrite (visit_if c t e d g P0 g1 g2 Hpre E1 E2).
    destruct (IHt Hokt _ _ _ Hp2) as (g3 & ps3 & E3). rewrite E3. simpl.
    pose proof (pre_length _ _ _ Hpre).
    destruct (or_last_post t g2 d _ g3 ps3 (pre_length _ _ _ Hp2) (visit_post _ _ _ _ _ _ Hp2 E3))
      as (psi & -> & _ & _ & _ & Hwf & Hr).
    simpl. destruct e as [e|]; [|eauto].
    destruct (step_else g d P0 g3 psi Hpre Hwf) as (g4 & -> & Hp4 & _).
    { intros i Hi. apply Hr in Hi. lia. }
    simpl. destruct (IHe e eq_refl Hoke _ _ _ Hp4) as (g5 & ps5 & E5). rewrite E5. simpl.
    destruct (or_last_post e g4 d _ g5 ps5 (pre_length _ _ _ Hp4) (visit_post _ _ _ _ _ _ Hp4 E5)) as (pse & -> & _).
    simpl. eauto.
Qed.

Theorem lift_never_panics_desugared body : desugared_shape body -> exists g, lift body = Ok g.
Proof.
  intros [(ss & ->) Hok]. unfold lift.
  destruct (visit_never_panics_flat (SBlock ss) Hok 0 g_init _ pre_init) as (g' & ps & Hv).
  fold g_init. rewrite Hv. simpl. eauto.
Qed.

Theorem stage_lift_total body : desugared_shape body ->
  (forall s, lift body <> Panic s) /\ lift body <> OutOfFuel.
Proof.
  intros H. destruct (lift_never_panics_desugared body H) as (g & ->). split; [intros s|]; discriminate.
Qed.
