(* C14, SSA construction: phi placement by the work list [insert_phis].
   For ALL frontier tables and ALL unversioned graphs, when the work list ends:
     - every block is its original block with statements  x = phi()  prepended, for
       variables x that some block of the original graph assigns (tag Local);
     - placement is CLOSED: if block a assigns x (or has received a phi for x) then every
       block listed in the frontier row of a has a phi for x                     (H1). *)
From Coq Require Import ZArith NArith List Bool Lia Arith.
Require Import Model.Base Model.Ir Model.SsaCheck Model.SsaErase Model.Ssa Model.SsaPre.
Require Import Proofs.IrInd Proofs.IrFacts Proofs.SsaNoPanic Proofs.SsaFuel Proofs.SsaConstruction.
Import ListNotations.

Lemma dedup_v_in_conv : forall l v, In v l -> In v (dedup_v l).
Proof.
  induction l as [|x tl IH]; simpl; intros v H; [exact H|].
  destruct (existsb (vname_eqb x) tl) eqn:E.
  - destruct H as [->|H]; [|apply IH; exact H].
    apply existsb_exists in E. destruct E as (y & Hy & Hxy). apply vname_eqb_eq in Hxy. subst y. apply IH. exact Hy.
  - destruct H as [->|H]; [left; reflexivity|right; apply IH; exact H].
Qed.

Lemma vars_written_iff b v : In v (vars_written b) <-> In v (wr b).
Proof. split; [apply vars_written_wr|apply dedup_v_in_conv]. Qed.

Lemma has_phi_exists v b : has_phi v b = true <-> exists s, In s (b_stmts b) /\ is_phi_for v s = true.
Proof. unfold has_phi. apply existsb_exists. Qed.

(* block b' is block b with phis for some of [vars] prepended *)
Definition grows (vars : list vname) (b b' : block) : Prop :=
  (forall v, has_phi v b = true -> has_phi v b' = true) /\
  exists vs', b_stmts b' = map phi_stmt_for vs' ++ b_stmts b /\ (forall v, In v vs' -> In v vars) /\
              b_succs b' = b_succs b.

Lemma grows_refl vars b : grows vars b b.
Proof. split; [auto|]. exists []. repeat split; auto. intros v []. Qed.

Lemma grows_trans vars a b c : grows vars a b -> grows vars b c -> grows vars a c.
Proof.
  intros (M1 & v1 & S1 & I1 & U1) (M2 & v2 & S2 & I2 & U2). split; [auto|].
  exists (v2 ++ v1). rewrite S2, S1, map_app, <- app_assoc. repeat split; [|congruence].
  intros v Hv. apply in_app_or in Hv. destruct Hv; auto.
Qed.

Lemma grows_incl vars vars' b b' : incl vars vars' -> grows vars b b' -> grows vars' b b'.
Proof. intros Hi (M & vs & S & I & U). split; [exact M|]. exists vs. auto. Qed.

(* the phis for [vars] stand in b' afterwards, and b' = b unless a phi was pushed *)
Lemma add_phis_spec : forall vars b p b' p', add_phis vars b p = (b', p') ->
  (forall v, In v vars -> vn_version v = None -> has_phi v b' = true) /\
  grows vars b b' /\ (p' = p -> b' = b) /\ p <= p'.
Proof.
  induction vars as [|v tl IH]; intros b p b' p' H; simpl in H.
  - inversion H; subst. split; [intros v []|]. split; [apply grows_refl|]. split; [auto|lia].
  - destruct (existsb (is_phi_for v) (b_stmts b)) eqn:E; destruct (IH _ _ _ _ H) as (A & G & Q & L).
    + split; [|split; [exact (grows_incl _ _ _ _ (incl_tl v (incl_refl tl)) G)|auto]].
      intros w [<-|Hw] Hv; [apply (proj1 G); exact E|apply A; assumption].
    + assert (G1 : grows (v :: tl) b (set_stmts b (phi_stmt_for v :: b_stmts b))).
      { split; [|exists [v]; repeat split; auto; intros w [<-|[]]; left; reflexivity].
        intros w Hw. unfold has_phi in *. cbn [set_stmts b_stmts existsb]. rewrite Hw. apply orb_true_r. }
      split; [|split; [|split; [intros Hp|]; lia]].
      * intros w [<-|Hw] Hv; [|apply A; assumption]. apply (proj1 G). unfold has_phi. cbn [set_stmts b_stmts existsb].
        rewrite (is_phi_for_own _ Hv). reflexivity.
      * exact (grows_trans _ _ _ _ G1 (grows_incl _ _ _ _ (incl_tl v (incl_refl tl)) G)).
Qed.

Lemma update_nth_id {A} (l : list A) i x : nth_error l i = Some x -> update_nth l i (fun _ => x) = l.
Proof.
  revert i. induction l as [|y tl IH]; intros [|i] H; simpl in *; try discriminate.
  - inversion H. reflexivity.
  - rewrite (IH i H). reflexivity.
Qed.

Lemma process_frontier_spec vars : forall fr bs work bs' work',
  process_frontier vars fr bs work = (bs', work') ->
  (forall f bf v, In f fr -> nth_error bs' (N.to_nat f) = Some bf -> In v vars -> vn_version v = None -> has_phi v bf = true) /\
  Forall2 (grows vars) bs bs' /\
  (forall i, nth_error bs' i = nth_error bs i \/ In i work') /\
  (forall i, In i work -> In i work').
Proof.
  induction fr as [|f tl IH]; intros bs work bs' work' H; simpl in H.
  - inversion H; subst. repeat split; auto. apply forall2_refl. apply grows_refl.
  - destruct (nth_error bs (N.to_nat f)) as [b|] eqn:Eb.
    + destruct (add_phis vars b 0) as [b1 pushes] eqn:Ea.
      destruct (add_phis_spec _ _ _ _ _ Ea) as (A & G1 & Q & _).
      destruct (IH _ _ _ _ H) as (A2 & G2 & C2 & W2).
      set (bs1 := update_nth bs (N.to_nat f) (fun _ => b1)) in *.
      assert (Hf1 : nth_error bs1 (N.to_nat f) = Some b1) by exact (update_nth_same _ bs _ b Eb).
      repeat split.
      * intros f' bf v [<-|Hf'] Hbf Hv Hn; [|eapply A2; eassumption].
        destruct (forall2_nth _ _ _ _ _ G2 Hbf) as (bm & Hbm & Mm & _). rewrite Hf1 in Hbm. inversion Hbm; subst bm.
        apply Mm. apply A; assumption.
      * eapply forall2_comp; [apply (grows_trans vars)| |exact G2].
        apply forall2_update_nth; [apply forall2_refl, grows_refl|].
        intros x0 x Hx _ _. rewrite Eb in Hx. inversion Hx; subst x0. exact G1.
      * intros i. destruct (C2 i) as [Hs|Hw]; [|right; exact Hw].
        destruct (Nat.eq_dec (N.to_nat f) i) as [<-|Hne].
        -- destruct pushes as [|k].
           ++ left. rewrite Hs. unfold bs1. rewrite (Q eq_refl), (update_nth_id bs _ b Eb). reflexivity.
           ++ right. apply W2. apply in_or_app. left. simpl. left. reflexivity.
        -- left. rewrite Hs. unfold bs1. apply update_nth_other. exact Hne.
      * intros i Hi. apply W2. apply in_or_app. right. exact Hi.
    + destruct (IH _ _ _ _ H) as (A2 & G2 & C2 & W2). repeat split; auto.
      intros f' bf v [<-|Hf'] Hbf Hv Hn; [|eapply A2; eassumption].
      destruct (forall2_nth _ _ _ _ _ G2 Hbf) as (bm & Hbm & _). congruence.
Qed.

Section WorkList.
Variable frontier : list (list N).
Variable bs0 : list block.

Definition written_any (v : vname) : Prop := exists b0, In b0 bs0 /\ In v (wr b0).

(* block b is the original block b0 with phi statements prepended *)
Definition placed (b0 b : block) : Prop :=
  b_succs b = b_succs b0 /\
  exists vs, b_stmts b = map phi_stmt_for vs ++ b_stmts b0 /\
             forall v, In v vs -> vn_version v = None /\ written_any v.

Definition closed_at (bs : list block) (a : nat) : Prop :=
  forall ba v f bf, nth_error bs a = Some ba -> In v (vars_written ba) -> In f (nth a frontier []) ->
    nth_error bs (N.to_nat f) = Some bf -> has_phi v bf = true.

Hypothesis Hunv : forall b0 v, In b0 bs0 -> In v (wr b0) -> vn_version v = None.

Lemma wr_app_phis vs ss b :
  b_stmts b = map phi_stmt_for vs ++ ss ->
  wr b = map without_version vs ++ flat_map (fun s => match stmt_local_written s with Some v => [v] | None => [] end) ss.
Proof.
  intros H. unfold wr. rewrite H, flat_map_app. f_equal. clear H.
  induction vs as [|v tl IH]; [reflexivity|]. simpl. f_equal. exact IH.
Qed.

Lemma without_version_unv v : vn_version v = None -> without_version v = v.
Proof. destruct v; simpl; intros ->; reflexivity. Qed.

Lemma map_without_version_unv vs : (forall v, In v vs -> vn_version v = None) -> map without_version vs = vs.
Proof.
  induction vs as [|v tl IH]; intros H; [reflexivity|]. simpl. rewrite (without_version_unv v), IH; auto.
  - intros w Hw. apply H. right. exact Hw.
  - apply H. left. reflexivity.
Qed.

Lemma placed_wr b0 b v : In b0 bs0 -> placed b0 b -> In v (wr b) -> vn_version v = None /\ written_any v.
Proof.
  intros Hb0 (_ & vs & Hs & Hvs) Hv. rewrite (wr_app_phis vs (b_stmts b0) b Hs) in Hv.
  rewrite map_without_version_unv in Hv by (intros w Hw; apply Hvs; exact Hw).
  apply in_app_or in Hv. destruct Hv as [Hv|Hv]; [apply Hvs; exact Hv|].
  split; [eapply Hunv; eassumption|]. exists b0. auto.
Qed.

Lemma placed_grows vars b0 b b' :
  placed b0 b -> grows vars b b' -> (forall v, In v vars -> vn_version v = None /\ written_any v) -> placed b0 b'.
Proof.
  intros (Su & vs & Hs & Hvs) (_ & vs' & Hs' & Hvs' & Su') Hvars. split; [congruence|].
  exists (vs' ++ vs). rewrite Hs', Hs, map_app, <- app_assoc. split; [reflexivity|].
  intros v Hv. apply in_app_or in Hv. destruct Hv as [Hv|Hv]; [apply Hvars; apply Hvs'; exact Hv|apply Hvs; exact Hv].
Qed.

Definition wl_inv (bs : list block) (work : list nat) : Prop :=
  Forall2 placed bs0 bs /\ forall a, ~ In a work -> closed_at bs a.

Lemma insert_phis_closed : forall fuel bs work bs',
  insert_phis fuel frontier bs work = SOk bs' -> wl_inv bs work -> wl_inv bs' [].
Proof.
  induction fuel as [|fuel IH]; intros bs work bs' H Hi.
  - destruct work; simpl in H; [|discriminate]. inversion H; subst. exact Hi.
  - destruct work as [|cur rest]; simpl in H; [inversion H; subst; exact Hi|].
    destruct (nth_error bs cur) as [b|] eqn:Eb; [|discriminate].
    destruct Hi as [HP HC].
    destruct (vars_written b) as [|v0 vs0] eqn:Ev.
    + eapply IH; [exact H|]. split; [exact HP|]. intros a Ha.
      destruct (Nat.eq_dec a cur) as [->|Hne].
      * intros ba v f bf Hba Hv. rewrite Eb in Hba. inversion Hba; subst ba. rewrite Ev in Hv. destruct Hv.
      * apply HC. intros [E|Hin]; [congruence|exact (Ha Hin)].
    + destruct (process_frontier (v0 :: vs0) (nth cur frontier []) bs rest) as [bs1 work1] eqn:Ep.
      destruct (process_frontier_spec _ _ _ _ _ _ Ep) as (A & G & C & W).
      eapply IH; [exact H|].
      (* the written variables of the popped block are unversioned and written in the original graph *)
      destruct (forall2_nth _ _ _ _ _ HP Eb) as (b0 & Hb0 & Pb).
      assert (Hvars : forall v, In v (v0 :: vs0) -> vn_version v = None /\ written_any v).
      { intros v Hv. rewrite <- Ev in Hv. apply vars_written_iff in Hv.
        eapply placed_wr; [eapply nth_error_In; exact Hb0|exact Pb|exact Hv]. }
      split.
      * eapply forall2_comp; [|exact HP|exact G]. intros x y z Hp Hg. eapply placed_grows; eassumption.
      * intros a Ha ba v f bf Hba Hv Hf Hbf.
        destruct (C a) as [Hs|Hw]; [|contradiction].
        rewrite Hs in Hba.
        destruct (Nat.eq_dec a cur) as [->|Hne].
        -- rewrite Eb in Hba. inversion Hba; subst ba. rewrite Ev in Hv.
           eapply A; [exact Hf|exact Hbf|exact Hv|apply Hvars; exact Hv].
        -- destruct (forall2_nth _ _ _ _ _ G Hbf) as (bm & Hbm & Mm & _). apply Mm.
           eapply (HC a); [|exact Hba|exact Hv|exact Hf|exact Hbm].
           intros [E|Hin]; [congruence|]. apply Ha. apply W. exact Hin.
Qed.

Lemma placed_refl b : placed b b.
Proof. split; [reflexivity|]. exists []. split; [reflexivity|intros v []]. Qed.

(* H1: when the work list is empty, placement is closed *)
Theorem phi_placement fuel bs1 :
  insert_phis fuel frontier bs0 (rev (seq 0 (length bs0))) = SOk bs1 ->
  Forall2 placed bs0 bs1 /\ forall a, closed_at bs1 a.
Proof.
  intros H. destruct (insert_phis_closed _ _ _ _ H) as [HP HC].
  - split; [apply forall2_refl; exact placed_refl|]. intros a Ha ba v f bf Hba. exfalso. apply Ha.
    apply -> in_rev. apply in_seq. split; [lia|]. simpl. apply nth_error_Some. congruence.
  - split; [exact HP|]. intros a. apply HC. intros [].
Qed.
End WorkList.

(* a block that lies in no frontier row receives no phi *)
Lemma process_frontier_untouched vars i : forall fr bs work,
  ~ In i (map N.to_nat fr) -> nth_error (fst (process_frontier vars fr bs work)) i = nth_error bs i.
Proof.
  induction fr as [|f tl IH]; intros bs work Hi; simpl; [reflexivity|].
  assert (Hne : N.to_nat f <> i) by (intros E; apply Hi; left; exact E).
  assert (Htl : ~ In i (map N.to_nat tl)) by (intros E; apply Hi; right; exact E).
  destruct (nth_error bs (N.to_nat f)) as [b|]; [|apply IH; exact Htl].
  destruct (add_phis vars b 0) as [b' pushes]. rewrite IH by exact Htl. apply update_nth_other. exact Hne.
Qed.

Lemma insert_phis_untouched frontier i : forall fuel bs work bs',
  insert_phis fuel frontier bs work = SOk bs' ->
  (forall a, a < length bs -> ~ In i (map N.to_nat (nth a frontier []))) ->
  nth_error bs' i = nth_error bs i.
Proof.
  induction fuel as [|fuel IH]; intros bs work bs' H Hf.
  - destruct work; simpl in H; [|discriminate]. inversion H; subst. reflexivity.
  - destruct work as [|cur rest]; simpl in H; [inversion H; subst; reflexivity|].
    destruct (nth_error bs cur) as [b|] eqn:Eb; [|discriminate].
    destruct (vars_written b) as [|v vs] eqn:Ev; [eapply IH; eassumption|].
    assert (Hc : cur < length bs) by (apply nth_error_Some; congruence).
    pose proof (process_frontier_untouched (v :: vs) i (nth cur frontier []) bs rest (Hf cur Hc)) as U.
    pose proof (process_frontier_length (v :: vs) (nth cur frontier []) bs rest) as L.
    destruct (process_frontier (v :: vs) (nth cur frontier []) bs rest) as [bs1 work1]. cbn [fst] in U, L.
    rewrite <- U. eapply IH; [exact H|]. rewrite L. exact Hf.
Qed.
