(* C07: from walks of an IR graph (Spec.SsaSpec.is_walk, plain lists) to the path notions of
   Spec.CtlSpec on the lifted skeleton graph with the same edges. *)
From Coq Require Import ZArith Lia.
From stdpp Require Import list list_numbers sets.
Require Model.Base Model.Ir Model.Lift Model.Dom Model.DegGraph.
Require Spec.DomSpec Spec.SsaSpec Spec.SsaDomSpec Spec.CfgSpec Spec.CtlSpec.
Require Proofs.MirrorsDom Proofs.SsaDomBridge Proofs.DegGraphRooted Proofs.CtlBridge.

Lemma list_last_cons {A} (l : list A) : forall s i, List.last (s :: l) i = List.last l s.
Proof. induction l as [|y l IH]; intros s i; [done|]. change (List.last (s :: y :: l) i) with (List.last (y :: l) i). by rewrite (IH y i), (IH y s). Qed.

Section Walks.
Context (c : Ir.cfg) (g : list Lift.block).
Context (Hsame : DegGraph.dom_graph_of c = MirrorsDom.to_dom g).
Context (Hgc : DegGraph.graph_consistent c = true).

Lemma same_length : length g = length (Ir.c_blocks c).
Proof.
  rewrite <- (MirrorsDom.to_dom_length g), <- Hsame. unfold DegGraph.dom_graph_of. apply map_length.
Qed.

Lemma cedge_target_lt i s : SsaDomSpec.cedge c i s -> s < length g.
Proof.
  intros He. apply SsaDomBridge.edge_iff in He. destruct He as (x & Hx & Hs).
  pose proof (DomSpec.rooted_succs _ (DegGraphRooted.consistent_rooted c Hgc) i x s Hx Hs) as H.
  by rewrite SsaDomBridge.graph_of_length, <- same_length in H.
Qed.

Lemma path_of_walk : forall l i, i < length g -> SsaSpec.is_walk c i l ->
  CfgSpec.path g i l (List.last l i).
Proof.
  induction l as [|s l IH]; intros i Hi Hw.
  - by apply CfgSpec.path_nil.
  - simpl in Hw. destruct Hw as [He Hw].
    rewrite list_last_cons.
    eapply CfgSpec.path_cons; [by apply (CtlBridge.cedge_iff c g Hsame)|].
    apply IH; [by apply (cedge_target_lt i s)|done].
Qed.

Lemma can_split_of_walks q a t1 t2 : q < length g ->
  SsaSpec.is_walk c q (t1 ++ [a]) -> SsaSpec.is_walk c q (t2 ++ [a]) ->
  ~ In q t1 -> ~ In a t1 -> ~ In q t2 -> ~ In a t2 ->
  (forall x, In x t1 -> ~ In x t2) -> hd a t1 <> hd a t2 ->
  CtlSpec.can_split g q a.
Proof.
  intros Hq W1 W2 Hq1 Ha1 Hq2 Ha2 Hdis Hhd.
  assert (Hl : forall t, List.last (t ++ [a]) q = a) by (intros t; apply last_last).
  exists t1, t2. split; [|split; [|split]].
  - split; [|split; by rewrite elem_of_list_In].
    pose proof (path_of_walk _ q Hq W1) as P. by rewrite Hl in P.
  - split; [|split; by rewrite elem_of_list_In].
    pose proof (path_of_walk _ q Hq W2) as P. by rewrite Hl in P.
  - intros x H1 H2. apply elem_of_list_In in H1, H2. by apply (Hdis x).
  - destruct t1 as [|y1 t1]; [|by left]. destruct t2 as [|y2 t2]; [|by right]. done.
Qed.

Lemma is_join_of a b : nth_error (Ir.c_blocks c) a = Some b -> 2 <= length (Ir.b_preds b) -> CtlSpec.is_join g a.
Proof.
  intros Hb Hlen.
  assert (Hl : SsaDomBridge.graph_of c !! a = Some (Dom.Node (N.to_nat <$> Ir.b_preds b) (N.to_nat <$> Ir.b_succs b))).
  { apply SsaDomBridge.graph_of_lookup. eauto. }
  rewrite (CtlBridge.same_graph c g Hsame) in Hl.
  apply MirrorsDom.to_dom_lookup in Hl. destruct Hl as (bj & Hbj & E). injection E as Ep _.
  exists bj. split; [done|]. rewrite <- Ep, fmap_length. done.
Qed.
End Walks.
