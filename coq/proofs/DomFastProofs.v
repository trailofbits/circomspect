(* The rootedness test on bit masks (Spec.DomFast) computes the same boolean as
   the one on lists, so both decide [rooted]; and the children sets hold block
   indices only whenever the mirror returns, rooted graph or not. *)
From Coq Require Import ZArith Lia.
From stdpp Require Import list list_numbers sets.
Require Import Model.Dom Spec.DomSpec Spec.DomFast Proofs.DomProofs Proofs.DomOracle.

Lemma mem_succ_mask g a b : mem b (succ_mask g a) = true ↔ b ∈ succs_of g a.
Proof.
  unfold succ_mask. induction (succs_of g a) as [|x l IH]; cbn [foldr].
  - rewrite mem_0. split; [done|by intros ?%elem_of_nil].
  - rewrite mem_ins, orb_true_iff, bool_decide_eq_true, IH, elem_of_cons. done.
Qed.

Lemma mem_fold_succ g l vis v :
  mem v (foldr (λ a acc, N.lor (succ_mask g a) acc) vis l) = true ↔
  mem v vis = true ∨ Exists (λ u, v ∈ succs_of g u) l.
Proof.
  induction l as [|x l IH]; cbn [foldr].
  - rewrite Exists_nil. tauto.
  - rewrite mem_lor, orb_true_iff, IH, mem_succ_mask, Exists_cons. tauto.
Qed.

Lemma mem_expand_m g vis v :
  mem v (expand_m g vis) = true ↔ mem v vis = true ∨ ∃ u, mem u vis = true ∧ v ∈ succs_of g u.
Proof.
  unfold expand_m. rewrite mem_fold_succ, Exists_exists. by setoid_rewrite elem_of_members.
Qed.

Lemma reach_m_list g avoid k v :
  avoid ≠ 0 → (∀ a x, g !! a = Some x → avoid ∉ succs x) →
  mem v (Nat.iter k (expand_m g) (ins 0 0%N)) = true ↔
  v ∈ Nat.iter k (expand g avoid) (if decide (avoid = 0) then [] else [0]).
Proof.
  intros Hne Hs. revert v. induction k as [|k IH]; intros v; cbn [Nat.iter nat_rect].
  - rewrite mem_ins, mem_0, orb_false_r, bool_decide_eq_true, decide_False, elem_of_list_singleton by done.
    done.
  - rewrite mem_expand_m, elem_of_expand. setoid_rewrite IH. setoid_rewrite succs_of_edge.
    split; [|naive_solver]. intros [?|(u & ? & He)]; [by left|right]. split; [|by eauto].
    intros ->. destruct He as (x & Hx & Hv). by apply (Hs _ _ Hx).
Qed.

Lemma rooted_fast_b_eq g : rooted_fast_b g = rooted_b g.
Proof.
  rewrite rooted_b_split.
  change (rooted_fast_b g) with (rooted_local_b g && forallb (λ j, mem j (reach_m g)) (seq 0 (length g))).
  destruct (rooted_local_b g) eqn:Hloc; [|done].
  apply rooted_local_spec in Hloc as (Hn & Hs & _).
  assert (length g ≠ 0) as Hne by lia.
  assert (∀ a x, g !! a = Some x → length g ∉ succs x) as Hs'.
  { intros a x Hx Hin. specialize (Hs _ _ _ Hx Hin). lia. }
  apply eq_true_iff_eq. rewrite !andb_true_l, !forallb_elem_of. setoid_rewrite bool_decide_eq_true.
  unfold reach_m, reach_avoiding. by setoid_rewrite (reach_m_list g (length g) _ _ Hne Hs').
Qed.

Corollary rooted_b_iff g : rooted_b g = true ↔ rooted g.
Proof. split; [apply rooted_b_sound|apply rooted_b_complete]. Qed.

Corollary rooted_fast_b_iff g : rooted_fast_b g = true ↔ rooted g.
Proof. rewrite rooted_fast_b_eq. apply rooted_b_iff. Qed.

Lemma idom_loop_ch_range ord D bound is : ∀ idom ch idom' ch',
  idom_loop ord D is idom ch = Ok (idom', ch') →
  Forall (λ i, i < bound) is →
  Forall (λ c, ∀ x, mem x c = true → x < bound) ch →
  Forall (λ c, ∀ x, mem x c = true → x < bound) ch'.
Proof.
  induction is as [|i is IH]; intros idom ch idom' ch' H His Hch; cbn [idom_loop] in H.
  { by injection H as <- <-. }
  apply Forall_cons in His as [Hi His].
  destruct (idom_candidates ord D i) as [cands| | |]; cbn [Base.bind] in H; try discriminate.
  destruct (members cands) as [|j ?]; [by eapply IH|].
  destruct (get site_idom_index idom i); cbn [Base.bind] in H; try discriminate.
  unfold get in H. destruct (ch !! j) as [cj|] eqn:Hcj; cbn [Base.bind] in H; try discriminate.
  eapply IH; [exact H|done|]. apply Forall_insert; [done|]. intros x.
  rewrite mem_ins, orb_true_iff, bool_decide_eq_true. intros [->|Hx]; [done|].
  by eapply (Forall_lookup_1 _ _ _ _ Hch Hcj).
Qed.

Theorem children_in_range g ord t j cj i :
  dominator_tree (dom_fuel g) ord g = Ok t →
  dt_children t !! j = Some cj → mem i cj = true → i < length g.
Proof.
  intros Ht Hj. unfold dominator_tree in Ht.
  destruct (compute_dominators (dom_fuel g) g) as [D| | |]; cbn [Base.bind] in Ht; try discriminate.
  destruct (compute_immediate_dominators ord g D) as [[idom ch]| | |] eqn:Hic; cbn [Base.bind fst snd] in Ht; try discriminate.
  destruct (compute_dominance_frontier (dom_fuel g) g idom) as [DF| | |]; cbn [Base.bind] in Ht; try discriminate.
  destruct (get site_entry_assert idom 0) as [o| | |]; cbn [Base.bind] in Ht; try discriminate.
  destruct o; try discriminate. injection Ht as <-. cbn [dt_children] in Hj.
  assert (Forall (λ c, ∀ x, mem x c = true → x < length g) ch) as Hch.
  { eapply idom_loop_ch_range; [exact Hic| |].
    - apply Forall_seq. lia.
    - apply Forall_replicate. intros x. by rewrite mem_0. }
  apply (Forall_lookup_1 _ _ _ _ Hch Hj).
Qed.
