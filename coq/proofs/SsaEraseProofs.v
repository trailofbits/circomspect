(* C14: each read sees the assignment that reaches it in the original program
   (the statement: Spec.SsaOrigin). *)
From Coq Require Import ZArith NArith List Bool.
Require Import Model.Base Model.Ir Model.SsaCheck Model.SsaErase.
Require Import Spec.SsaSpec Spec.SsaOrigin Proofs.IrFacts Proofs.SsaProofs.
Import ListNotations.

Lemma vname_sim_key a b : vname_sim a b = true -> key_of a = key_of b.
Proof. unfold vname_sim. apply key_eqb_eq. Qed.

Lemma stmt_sim_assigns a b : stmt_sim a b = true ->
  match assigns a, assigns b with
  | Some x, Some y => key_of x = key_of y
  | None, None => True
  | _, _ => False
  end.
Proof.
  destruct a, b; cbn [stmt_sim assigns]; try discriminate; auto.
  intros H. repeat (apply andb_true_iff in H as [H ?]). apply vname_sim_key. assumption.
Qed.

Lemma ns_eqb_eq a : forall b, ns_eqb a b = true -> a = b.
Proof.
  induction a as [|x ta IH]; intros [|y tb]; cbn [ns_eqb]; try discriminate; [reflexivity|].
  intros H. apply andb_true_iff in H as [H1 H2]. apply N.eqb_eq in H1. subst y. f_equal. apply IH. exact H2.
Qed.

Lemma blocks_sim_nth xs : forall ys i, blocks_sim xs ys = true ->
  match nth_error xs i, nth_error ys i with
  | Some x, Some y => block_sim x y = true
  | None, None => True
  | _, _ => False
  end.
Proof.
  induction xs as [|x tx IH]; intros [|y ty] i; cbn [blocks_sim]; try discriminate.
  - intros _. destruct i; cbn; exact I.
  - intros H. apply andb_true_iff in H as [H1 H2]. destruct i as [|i]; cbn [nth_error]; [exact H1|]. apply IH. exact H2.
Qed.

Lemma stmts_sim_firstn xs : forall ys k, stmts_sim xs ys = true -> stmts_sim (firstn k xs) (firstn k ys) = true.
Proof.
  induction xs as [|x tx IH]; intros [|y ty] k; cbn [stmts_sim]; try discriminate.
  - intros _. destruct k; reflexivity.
  - intros H. apply andb_true_iff in H as [H1 H2]. destruct k as [|k]; cbn [firstn stmts_sim]; [reflexivity|].
    rewrite H1. cbn. apply IH. exact H2.
Qed.

Lemma stmts_sim_nth xs : forall ys k y, stmts_sim xs ys = true -> nth_error ys k = Some y ->
  exists x, nth_error xs k = Some x /\ stmt_sim x y = true.
Proof.
  induction xs as [|x tx IH]; intros [|y0 ty] k y; cbn [stmts_sim]; try discriminate.
  - intros _ H. destruct k; discriminate.
  - intros H Hn. apply andb_true_iff in H as [H1 H2]. destruct k as [|k]; cbn [nth_error] in *.
    + injection Hn as <-. eauto.
    + eapply IH; eauto.
Qed.

Lemma erase_succs pre c i : erase_eqb pre c = true ->
  option_map b_succs (nth_error (c_blocks pre) i) = option_map b_succs (nth_error (c_blocks c) i).
Proof.
  intros H. pose proof (blocks_sim_nth _ _ i H) as Hn.
  destruct (nth_error (c_blocks pre) i) as [bp|], (nth_error (c_blocks c) i) as [bs|]; cbn; try contradiction; [|reflexivity].
  unfold block_sim in Hn. repeat (apply andb_true_iff in Hn as [Hn ?]).
  f_equal. apply ns_eqb_eq. assumption.
Qed.

Lemma is_walk_succs g1 g2 :
  (forall i, option_map b_succs (nth_error (c_blocks g1) i) = option_map b_succs (nth_error (c_blocks g2) i)) ->
  forall pi p, is_walk g1 p pi -> is_walk g2 p pi.
Proof.
  intros Hs. induction pi as [|s tl IH]; intros p; cbn [is_walk]; [auto|].
  intros [(b & Hb & Hin) Hw]. split; [|apply IH; exact Hw].
  specialize (Hs p). rewrite Hb in Hs. cbn in Hs.
  destruct (nth_error (c_blocks g2) p) as [b2|]; [|discriminate]. cbn in Hs. injection Hs as Hs.
  exists b2. split; [reflexivity|]. rewrite <- Hs. exact Hin.
Qed.

Theorem erase_same_paths pre c pi : erase_eqb pre c = true ->
  (path_from_entry c pi <-> path_from_entry pre pi).
Proof.
  intros H. unfold path_from_entry. destruct pi as [|[|n] tl]; try tauto.
  split; apply is_walk_succs; intros i; [symmetry|]; apply erase_succs; exact H.
Qed.

Definition versioned_key (c : cfg) (x : key) : Prop :=
  exists y, In y (all_targets c ++ c_params c) /\ key_of y = x /\ vn_version y <> None.

Definition in_graph (c : cfg) (s : stmt) : Prop := exists b, In b (c_blocks c) /\ In s (b_stmts b).

Lemma in_graph_target c s x : in_graph c s -> assigns s = Some x -> In x (all_targets c).
Proof.
  intros (b & Hb & Hs) Ha. unfold all_targets. apply in_flat_map. exists b. split; [exact Hb|].
  apply in_flat_map. exists s. split; [exact Hs|]. rewrite Ha. left. reflexivity.
Qed.

Lemma mixed_spec c x : mixed_keys_ok c = true -> In x (all_targets c) -> vn_version x = None ->
  ~ versioned_key c (key_of x).
Proof.
  unfold mixed_keys_ok. intros H Hin Hv (y & Hy & Hk & Hvy).
  rewrite forallb_forall in H. specialize (H x Hin). unfold versioned in H at 1. rewrite Hv in H. cbn in H.
  apply negb_true_iff in H. assert (E : existsb (fun y0 => vname_sim x y0 && versioned y0) (all_targets c ++ c_params c) = true).
  { apply existsb_exists. exists y. split; [exact Hy|]. apply andb_true_iff. split.
    - unfold vname_sim. apply key_eqb_eq. symmetry. exact Hk.
    - unfold versioned. destruct (vn_version y); [reflexivity|congruence]. }
  congruence.
Qed.

Definition Inv (c : cfg) (st : ostate) (S : smap) : Prop :=
  (forall x, versioned_key c x -> S x = match vget (fst st) x with Some n => snd st x n | None => None end) /\
  (forall x n, vget (fst st) x = Some n -> versioned_key c x).

Lemma stmt_def_assigns s x : stmt_def s = Some x -> assigns s = Some x /\ vn_version x <> None.
Proof.
  destruct s; cbn [stmt_def assigns]; try discriminate.
  destruct (vn_version v) eqn:E; [|discriminate]. intros [= <-]. split; [reflexivity|congruence].
Qed.

Lemma assigns_unversioned s x : assigns s = Some x -> vn_version x = None -> stmt_def s = None.
Proof. destruct s; cbn [stmt_def assigns]; try discriminate. intros [= ->] ->. reflexivity. Qed.

Lemma assigns_versioned s x n : assigns s = Some x -> vn_version x = Some n -> stmt_def s = Some x.
Proof. destruct s; cbn [stmt_def assigns]; try discriminate. intros [= ->] ->. reflexivity. Qed.

Lemma versioned_key_target c s x n : in_graph c s -> assigns s = Some x -> vn_version x = Some n ->
  versioned_key c (key_of x).
Proof.
  intros Hg Ha Hv. exists x. split; [apply in_or_app; left; eapply in_graph_target; eauto|]. split; [reflexivity|congruence].
Qed.

(* a version n of x starts to run, with origin o, which is the position the source side holds for x *)
Lemma inv_set c L O S S' x n o : Inv c (L, O) S -> versioned_key c x -> S' x = o ->
  (forall z, key_eqb x z = false -> S' z = S z) -> Inv c (vset L x n, oset O x n o) S'.
Proof.
  intros [I1 I2] Hx Ho HS. split; cbn [fst snd] in *.
  - intros z Hz. rewrite vget_vset. unfold oset. destruct (key_eqb x z) eqn:Ek.
    + apply key_eqb_eq in Ek. subst z. rewrite N.eqb_refl. exact Ho.
    + rewrite (HS z Ek), (I1 z Hz). destruct (vget L z); reflexivity.
  - intros z m. rewrite vget_vset. destruct (key_eqb x z) eqn:Ek; [|apply I2].
    intros _. apply key_eqb_eq in Ek. subst z. exact Hx.
Qed.

(* a body statement of the SSA graph against the similar statement of the original graph *)
Lemma inv_stmt c q st S s' s : mixed_keys_ok c = true -> in_graph c s -> stmt_sim s' s = true ->
  Inv c st S -> Inv c (org_stmt q st s) (src_stmt q S s').
Proof.
  intros Hmix Hg Hsim HI. pose proof (stmt_sim_assigns _ _ Hsim) as Ha.
  unfold org_stmt, src_stmt, track. destruct st as [L O]. cbn [fst snd] in *.
  destruct (assigns s') as [x'|] eqn:Ea', (assigns s) as [x|] eqn:Ea; try contradiction.
  - destruct (vn_version x) as [n|] eqn:Ev.
    + rewrite (assigns_versioned _ _ _ Ea Ev). cbv beta iota. rewrite Ev, Ha.
      apply (inv_set c L O S); [exact HI|eapply versioned_key_target; eauto| |]; unfold sset.
      * rewrite key_eqb_refl. reflexivity.
      * intros z Ek. rewrite Ek. reflexivity.
    + rewrite (assigns_unversioned _ _ Ea Ev). cbv beta iota. destruct HI as [I1 I2]. split; [|exact I2].
      cbn [fst snd]. intros z Hz. unfold sset. rewrite Ha. destruct (key_eqb (key_of x) z) eqn:Ek; [|apply I1; exact Hz].
      apply key_eqb_eq in Ek. subst z. exfalso. eapply mixed_spec; eauto. eapply in_graph_target; eauto.
  - assert (stmt_def s = None) as ->. { destruct (stmt_def s) eqn:E; [|reflexivity]. apply stmt_def_assigns in E as [E _]. congruence. }
    exact HI.
Qed.

Lemma inv_phi c st S s : in_graph c s -> is_phi_stmt s = true -> Inv c st S -> Inv c (org_phi st s) S.
Proof.
  intros Hg Hphi HI. destruct (is_phi_parts s Hphi) as (x & args & Hp).
  assert (Ha : assigns s = Some x). { destruct s; try discriminate. cbn in Hp. destruct rhe; try discriminate. injection Hp as -> _. reflexivity. }
  unfold org_phi, track. destruct st as [L O]. cbn [fst snd] in *. rewrite Hp.
  destruct (vn_version x) as [n|] eqn:Ev.
  - rewrite (assigns_versioned _ _ _ Ha Ev). cbv beta iota. rewrite Ev.
    assert (Hx : versioned_key c (key_of x)) by (eapply versioned_key_target; eauto).
    apply (inv_set c L O S); [exact HI|exact Hx| |reflexivity]. exact (proj1 HI _ Hx).
  - rewrite (assigns_unversioned _ _ Ha Ev). exact HI.
Qed.

Lemma inv_phis c S phis : forall st, (forall s, In s phis -> in_graph c s /\ is_phi_stmt s = true) ->
  Inv c st S -> Inv c (fold_left org_phi phis st) S.
Proof.
  induction phis as [|s tl IH]; intros st Hall HI; cbn [fold_left]; [exact HI|].
  apply IH; [intros s' Hs'; apply Hall; right; exact Hs'|].
  destruct (Hall s (or_introl eq_refl)) as [Hg Hp]. apply inv_phi; assumption.
Qed.

Lemma inv_body c i : mixed_keys_ok c = true -> forall ss' ss k st S,
  (forall s, In s ss -> in_graph c s) -> stmts_sim ss' ss = true ->
  Inv c st S -> Inv c (org_body i k st ss) (src_body i k S ss').
Proof.
  intros Hmix. induction ss' as [|s' tl' IH]; intros [|s tl] k st S Hall Hsim HI; cbn [stmts_sim] in Hsim; try discriminate.
  - exact HI.
  - apply andb_true_iff in Hsim as [H1 H2]. cbn [org_body src_body]. apply IH; [intros x Hx; apply Hall; right; exact Hx|exact H2|].
    apply inv_stmt; auto. apply Hall. left. reflexivity.
Qed.

Lemma block_parts b : b_stmts b = fst (leading_phis (b_stmts b)) ++ body_of b.
Proof. unfold body_of. destruct (leading_phis (b_stmts b)) as [p q] eqn:E. cbn. eapply leading_phis_app; eauto. Qed.

Lemma block_phis_are_phis b : Forall (fun s => is_phi_stmt s = true) (fst (leading_phis (b_stmts b))).
Proof. destruct (leading_phis (b_stmts b)) as [p q] eqn:E. cbn. eapply leading_phis_are_phis; eauto. Qed.

Lemma inv_block_prefix c i bp bs k st S : mixed_keys_ok c = true -> In bs (c_blocks c) -> block_sim bp bs = true ->
  Inv c st S ->
  Inv c (org_body i 0 (fold_left org_phi (fst (leading_phis (b_stmts bs))) st) (firstn k (body_of bs)))
        (src_body i 0 S (firstn k (b_stmts bp))).
Proof.
  intros Hmix Hin Hsim HI. unfold block_sim in Hsim. apply andb_true_iff in Hsim as [_ Hsim].
  apply inv_body; [exact Hmix| |apply stmts_sim_firstn; exact Hsim|].
  - intros s Hs. exists bs. split; [exact Hin|]. rewrite block_parts, <- (firstn_skipn k (body_of bs)). apply in_or_app. right. apply in_or_app. left. exact Hs.
  - apply inv_phis; [|exact HI]. intros s Hs. split.
    + exists bs. split; [exact Hin|]. rewrite block_parts. apply in_or_app. left. exact Hs.
    + pose proof (block_phis_are_phis bs) as Hf. rewrite Forall_forall in Hf. apply Hf. exact Hs.
Qed.

Lemma inv_block c i bp bs st S : mixed_keys_ok c = true -> In bs (c_blocks c) -> block_sim bp bs = true ->
  Inv c st S -> Inv c (org_block i st bs) (src_body i 0 S (b_stmts bp)).
Proof.
  intros Hmix Hin Hsim HI. pose proof (inv_block_prefix c i bp bs (length (b_stmts bp) + length (body_of bs)) st S Hmix Hin Hsim HI) as H.
  rewrite !firstn_all2 in H by (apply Nat.le_add_r || apply Nat.le_add_l). exact H.
Qed.

Lemma inv_path pre c : erase_check pre c = true -> forall pi st S,
  Inv c st S -> Inv c (org_path c st pi) (src_path pre S pi).
Proof.
  intros Hchk. unfold erase_check in Hchk. apply andb_true_iff in Hchk as [Hsim Hmix].
  induction pi as [|i tl IH]; intros st S HI; cbn [org_path src_path]; [exact HI|].
  pose proof (blocks_sim_nth _ _ i Hsim) as Hn.
  destruct (nth_error (c_blocks pre) i) as [bp|] eqn:Ep, (nth_error (c_blocks c) i) as [bs|] eqn:Es; try contradiction; [|exact HI].
  apply IH. apply inv_block; auto. eapply nth_error_In; eauto.
Qed.

Lemma params_map_vget ps : forall m x n,
  vget (fold_left (fun m x => match vn_version x with Some n => vset m (key_of x) n | None => m end) ps m) x = Some n ->
  vget m x = Some n \/ exists y, In y ps /\ key_of y = x /\ vn_version y <> None.
Proof.
  induction ps as [|p tl IH]; intros m x n; cbn [fold_left]; [auto|].
  intros H. destruct (IH _ _ _ H) as [H1|(y & Hy & Hk & Hv)].
  - destruct (vn_version p) as [k|] eqn:Ev; [|auto]. rewrite vget_vset in H1.
    destruct (key_eqb (key_of p) x) eqn:Ek; [|auto]. right. exists p. split; [left; reflexivity|].
    split; [apply key_eqb_eq; exact Ek|congruence].
  - right. exists y. split; [right; exact Hy|auto].
Qed.

Lemma inv_init c : Inv c (params_map (c_params c), O0) S0.
Proof.
  split; cbn [fst snd].
  - intros x _. unfold S0, O0. destruct (vget (params_map (c_params c)) x); reflexivity.
  - intros x n H. unfold params_map in H. destruct (params_map_vget _ _ _ _ H) as [H1|(y & Hy & Hk & Hv)]; [discriminate|].
    exists y. split; [apply in_or_app; right; exact Hy|auto].
Qed.

(* PATH LEVEL: at the end of every path, the origin of the running version of a
   variable is the position of the last source assignment to it on that path *)
Theorem origin_is_last_source_assignment pre c pi x n :
  erase_check pre c = true ->
  vget (fst (org_path c (params_map (c_params c), O0) pi)) x = Some n ->
  snd (org_path c (params_map (c_params c), O0) pi) x n = src_path pre S0 pi x.
Proof.
  intros Hchk Hv. destruct (inv_path pre c Hchk pi _ _ (inv_init c)) as [I1 I2].
  rewrite (I1 x (I2 x n Hv)), Hv. reflexivity.
Qed.

Lemma fold_org_phi_fst phis : forall st, fst (fold_left org_phi phis st) = apply_phis (fst st) phis.
Proof. unfold apply_phis. induction phis as [|s tl IH]; intros st; cbn [fold_left]; [reflexivity|]. rewrite IH. reflexivity. Qed.

Lemma org_body_fst i ss : forall k st, fst (org_body i k st ss) = fold_left track ss (fst st).
Proof. induction ss as [|s tl IH]; intros k st; cbn [org_body fold_left]; [reflexivity|]. rewrite IH. reflexivity. Qed.

Lemma enter_block_org L b L' i O : enter_block L b = Some L' -> fst (org_block i (L, O) b) = L'.
Proof.
  unfold enter_block, org_block, body_of. destruct (leading_phis (b_stmts b)) as [phis body]. cbn [fst snd].
  destruct (forallb (phi_read_ok L) phis); [|discriminate]. intros H.
  rewrite org_body_fst, fold_org_phi_fst. cbn [fst]. symmetry. apply body_run_fold. exact H.
Qed.

Lemma exec_path_org c : forall pi L O L', exec_path c L pi = Some L' -> fst (org_path c (L, O) pi) = L'.
Proof.
  induction pi as [|i tl IH]; intros L O L'; cbn [exec_path org_path]; [cbn [fst]; congruence|].
  destruct (nth_error (c_blocks c) i) as [b|]; [|discriminate].
  destruct (enter_block L b) as [L1|] eqn:Ee; [|discriminate]. intros H.
  pose proof (enter_block_org L b L1 i O Ee) as H1.
  destruct (org_block i (L, O) b) as [L2 O2]. cbn [fst] in H1. subst L2. eapply IH. exact H.
Qed.

(* STATEMENT LEVEL: on a graph accepted by both validators, for every path from
   the entry ending in block bi and every read of a versioned local v = x.n by the
   k-th body statement s of bi (the fresh base version of an element-wise update of a
   never-assigned array excepted):
     - the original block has, at the same position, a statement similar to s,
     - x.n is the running version of x in front of s, and
     - its origin is the position of the source assignment to x executed last in
       the original program along the same path, in front of that statement. *)
Theorem reads_see_source_assignment pre c idom pi bi b k s v n :
  ssa_check c idom = true -> erase_check pre c = true ->
  path_from_entry c (pi ++ [bi]) ->
  nth_error (c_blocks c) bi = Some b -> nth_error (body_of b) k = Some s ->
  In v (stmt_reads s) -> vn_version v = Some n -> update_base s <> Some v ->
  path_from_entry pre (pi ++ [bi]) /\
  (exists bp s', nth_error (c_blocks pre) bi = Some bp /\ nth_error (b_stmts bp) k = Some s' /\ stmt_sim s' s = true) /\
  vget (fst (org_at c pi bi k)) (key_of v) = Some n /\
  snd (org_at c pi bi k) (key_of v) n = src_at pre pi bi k (key_of v).
Proof.
  intros Hc Hchk Hp Hb Hk Hv Hn Hu.
  pose proof Hchk as Hchk'. unfold erase_check in Hchk'. apply andb_true_iff in Hchk' as [Hsim Hmix].
  split; [apply (erase_same_paths pre c _ Hsim); exact Hp|].
  pose proof (blocks_sim_nth _ _ bi Hsim) as Hbn. rewrite Hb in Hbn.
  destruct (nth_error (c_blocks pre) bi) as [bp|] eqn:Ebp; [|contradiction].
  assert (Hss : stmts_sim (b_stmts bp) (body_of b) = true).
  { unfold block_sim in Hbn. apply andb_true_iff in Hbn as [_ H]. exact H. }
  split.
  { destruct (stmts_sim_nth _ _ _ _ Hss Hk) as (s' & Hs' & Hsm). exists bp, s'. auto. }
  assert (HI : Inv c (org_at c pi bi k) (src_at pre pi bi k)).
  { unfold org_at, src_at. rewrite Hb, Ebp. apply inv_block_prefix; auto.
    - eapply nth_error_In; eauto.
    - apply inv_path; [exact Hchk|apply inv_init]. }
  (* the running version in front of the statement, from the dynamic check *)
  destruct (ssa_check_paths_ok c idom _ Hc Hp) as [Lf Hex].
  unfold body_of in Hk. destruct (leading_phis (b_stmts b)) as [phis body] eqn:El. cbn [snd] in Hk.
  destruct (exec_read c _ pi bi b phis body k s v n Lf Hex Hb El Hk Hv Hn) as (L1 & Hpre & [Hrun|[_ Hu']]); [|contradiction].
  assert (Hfst : fst (org_at c pi bi k) = fold_left track (phis ++ firstn k body) L1).
  { unfold org_at. rewrite Hb. unfold body_of. rewrite El. cbn [fst snd].
    rewrite org_body_fst, fold_org_phi_fst, (exec_path_org c pi _ O0 L1 Hpre), fold_left_app. reflexivity. }
  rewrite Hfst. split; [exact Hrun|].
  destruct HI as [I1 I2]. rewrite Hfst in I1, I2.
  rewrite (I1 _ (I2 _ _ Hrun)), Hrun. reflexivity.
Qed.
