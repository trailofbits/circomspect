(* C04: the end-to-end label statement with the provenance steps of the desugarer
   (Proofs.DesugarMetas) and of the SSA construction (Proofs.LabelsSsa) proved instead of
   assumed.  The step in between - the IR node built for an AST node copies its meta - is
   the hypothesis [Hlift] here, stated about the graph BEFORE SSA; Proofs.LiftFullC04 proves
   it for the mirror Model.LiftFull (labels_wellformed_through_desugaring_lifting_and_ssa).
   The skeleton mirror Model.Lift abstracts metas away; what it says about locations is
   [lift_nodes_are_source_nodes]. *)
From Coq Require Import NArith List Bool Lia.
Require Import Model.Base Model.Ir Model.Ssa Model.Labels.
Require Import Spec.MetaSpec Proofs.LabelsProofs Proofs.LabelsDesugar Proofs.LabelsSsa.
Require Model.Ast Model.Desugar Spec.ExpandSpec Proofs.DesugarMetas.
Require Model.Lift Spec.CfgSpec Proofs.LiftTheorems.
Require Import Model.Preprocess Spec.LexSpec Proofs.PreprocessProofs.
Import ListNotations.

Theorem labels_wellformed_through_desugaring_and_ssa :
  forall (P : N -> N -> Prop) env lib body body' frontier children c c' ctor ls l,
    Forall (fun m => P (Model.Ast.m_start m) (Model.Ast.m_end m)) (Spec.ExpandSpec.stmt_metas body) ->
    Model.Desugar.desugar_template env lib body = Model.Desugar.DOk body' ->
    (forall m, In m (cfg_stmt_metas c) ->
       In m (map ir_meta_of (Spec.ExpandSpec.stmt_metas body')) \/ (m_start m = 0%N /\ m_end m = 0%N)) ->
    into_ssa frontier children c = SOk c' ->
    P 0%N 0%N ->
    (forall m, In m (nodes_of ctor) -> In m (cfg_stmt_metas c')) ->
    (forall r, In r (parser_ranges_of ctor) -> P (fst r) (snd r)) ->
    labels_of (sources_of ctor) = Ok ls -> In l ls -> P (l_start l) (l_end l).
Proof.
  intros P env lib body body' frontier children c c' ctor ls l Hparsed Hd Hlift Hssa H0 Hn Hr.
  apply (labels_wellformed_through_desugaring P env lib body body' (cfg_stmt_metas c') ctor ls l);
    try assumption.
  intros m Hm. destruct (ssa_metas_from_input frontier children c c' Hssa m Hm) as [Hin| ->].
  - apply Hlift. exact Hin.
  - right. split; reflexivity.
Qed.

(* the lifting mirror: the graph holds exactly the statements and conditions of
   the source body, once each, in source order *)
Theorem lift_nodes_are_source_nodes : forall body g,
  Model.Lift.lift body = Ok g ->
  concat (map (fun b => map Spec.CfgSpec.item_key (Model.Lift.b_items b)) g)
  = map fst (Spec.CfgSpec.nesting 0 body).
Proof. exact Proofs.LiftTheorems.every_item_exactly_once. Qed.

(* One constructor whose range is CREATED by modelled code instead of inherited
   from a node: the unclosed-comment error.  Its label is valid without any
   hypothesis about the parser: one primary label in the file being parsed, the
   two bytes of the opener, inside the ORIGINAL text, on scalar boundaries. *)
Theorem unclosed_comment_label_valid : forall s o file ls l,
  preprocess s = Err (unclosed o) ->
  labels_of (sources_of (CUnclosedComment file o)) = Ok ls -> In l ls ->
  ls = [l] /\ l_primary l = true /\ l_file l = file /\
  l_start l = N.of_nat o /\ l_end l = N.of_nat (o + 2) /\ (l_start l <= l_end l)%N /\
  boundary s o /\ boundary s (o + 2) /\ (o + 2 <= text_bytes s)%nat /\
  scalar_at s o 47%N /\ scalar_at s (o + 1) 42%N.
Proof.
  intros s o file ls l Hp Hl Hin.
  destruct (unclosed_comment_range_valid s o Hp) as (A & B & C & D & E).
  simpl in Hl. inversion Hl; subst ls. destruct Hin as [<-|[]]. simpl.
  repeat split; try assumption. lia.
Qed.
