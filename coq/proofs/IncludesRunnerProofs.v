(* C19, the part the property text words as "definitions from files that were
   only included ... never produce findings of their own": Model.Includes
   (parse_files: which files are user inputs) composed with Model.Runner (main:
   filter_by_file and the analysis of user definitions only) through
   Model.IncludesRunner.file_library_user_inputs (FileLibrary::add_file).

   Also: a file named on the command line is a user input whatever the order of
   the arguments and whatever includes what. *)
Require Model.Base Model.Runner Spec.RunnerSpec Proofs.RunnerProofs Proofs.RunnerShownFiltered.
From Coq Require Import ZArith Ascii String.
From stdpp Require Import list strings.
Require Import Model.Includes Spec.IncludesSpec Proofs.IncludesProofs Model.IncludesRunner.

Lemma user_ids_from_spec {path} (files : list (path * bool)) : forall n z,
  In z (user_ids_from n files) <-> exists i f, z = Z.of_nat (n + i) /\ files !! i = Some (f, true).
Proof.
  induction files as [|[f u] files IH]; intros n z; simpl.
  - split; [done|]. intros (i & f & _ & Hi). by rewrite lookup_nil in Hi.
  - rewrite in_app_iff, IH. split.
    + intros [Hz|(i & g & -> & Hi)].
      * destruct u; [|done]. destruct Hz as [<-|[]]. exists 0, f. split; [by rewrite Nat.add_0_r|done].
      * exists (S i), g. split; [f_equal; lia|done].
    + intros (i & g & -> & Hi). destruct i as [|i]; simpl in Hi.
      * inversion Hi; subst. left. rewrite Nat.add_0_r. by left.
      * right. exists i, g. split; [f_equal; lia|done].
Qed.

Lemma file_library_user_inputs_spec {path} (files : list (path * bool)) z :
  In z (file_library_user_inputs files) <-> exists i f, z = Z.of_nat i /\ files !! i = Some (f, true).
Proof. unfold file_library_user_inputs. by rewrite user_ids_from_spec. Qed.

Lemma file_library_user_inputs_flag {path} (files : list (path * bool)) i f u :
  files !! i = Some (f, u) -> (In (Z.of_nat i) (file_library_user_inputs files) <-> u = true).
Proof.
  intros Hi. rewrite file_library_user_inputs_spec. split.
  - intros (j & g & E & Hj). apply Nat2Z.inj in E. subst j. congruence.
  - intros ->. eauto.
Qed.

Section IncludesRunner.
  Context {path : Type} `{EqDecision path}.
  Variable canon : path -> option path.
  Variable is_dir : path -> bool.
  Variable is_file : path -> bool.
  Variable read_dir : path -> option (list path).
  Variable join : path -> path -> path.
  Variable parent : path -> path.
  Variable file_name : path -> option path.
  Variable ext_circom : path -> bool.
  Variable starts_dot : path -> bool.
  Variable has_sep : path -> bool.
  Variable content : path -> file_content path.

  Notation parse_files :=
    (parse_files canon is_dir is_file read_dir join parent file_name ext_circom starts_dot has_sep content).
  Notation named := (named canon is_dir read_dir join ext_circom).
  Notation dirs_revisited := (dirs_revisited canon is_dir read_dir join ext_circom).

  Hypothesis canon_idem : forall p c, canon p = Some c -> canon c = Some c.

  Notation flags := (included_only_files_are_not_user_inputs canon is_dir is_file read_dir join parent file_name
                       ext_circom starts_dot has_sep content canon_idem).
  Notation reads := (reads_exactly_reachable canon is_dir is_file read_dir join parent file_name
                       ext_circom starts_dot has_sep content canon_idem).
  Notation files := (elem_of_files canon is_dir is_file read_dir join parent file_name
                       ext_circom starts_dot has_sep content canon_idem).

  (* what the FileLibrary holds, in one statement *)
  Lemma files_characterised dfuel fuel paths libs s :
    dirs_revisited dfuel paths libs = false ->
    parse_files false dfuel fuel paths libs = Ok s ->
    forall f u, (f, u) ∈ ps_files s <->
                f ∈ ps_read s /\ content f <> Unreadable /\ (u = true <-> named paths f).
  Proof.
    intros Hno Hp f u. destruct (flags _ _ _ _ _ Hno Hp) as [U _].
    by rewrite (files _ _ _ _ _ _ _ Hp), Bool.eq_iff_eq_true, U.
  Qed.

  Lemma named_is_user_input dfuel fuel paths libs s c :
    dirs_revisited dfuel paths libs = false ->
    parse_files false dfuel fuel paths libs = Ok s ->
    named paths c ->
    is_user_input (ps_stack s) c = true /\
    c ∈ ps_read s /\
    (forall i u, ps_files s !! i = Some (c, u) -> u = true) /\
    (content c <> Unreadable ->
     exists i, ps_files s !! i = Some (c, true) /\ In (Z.of_nat i) (file_library_user_inputs (ps_files s))).
  Proof.
    intros Hno Hp Hn. destruct (flags _ _ _ _ _ Hno Hp) as [U F].
    assert (Hr : c ∈ ps_read s) by (apply (reads _ _ _ _ _ Hno Hp); by apply reach_named).
    split; [by apply U|]. split; [done|]. split.
    - intros i u Hi. by apply (F i c u Hi).
    - intros Hc. assert ((c, true) ∈ ps_files s) as (i & Hi)%elem_of_list_lookup_1
        by (by apply (files_characterised _ _ _ _ _ Hno Hp)).
      exists i. split; [done|]. by eapply file_library_user_inputs_flag.
  Qed.

  Lemma argument_is_named paths p c :
    p ∈ paths -> is_dir p = false -> canon p = Some c -> named paths c.
  Proof. intros Hp Hd Hc. exists p. split; [done|]. by apply expands_file. Qed.

  (* any two orders of the same arguments (each run with whatever fuel made it
     finish): same files read, same FileLibrary entries with the same flags,
     same user-input predicate; only the numbering of the files may differ *)
  Lemma user_inputs_order_independent dfuel fuel dfuel' fuel' paths paths' libs s s' :
    paths ≡ₚ paths' ->
    dirs_revisited dfuel paths libs = false ->
    dirs_revisited dfuel' paths' libs = false ->
    parse_files false dfuel fuel paths libs = Ok s ->
    parse_files false dfuel' fuel' paths' libs = Ok s' ->
    (forall c, c ∈ ps_read s <-> c ∈ ps_read s') /\
    (forall f u, (f, u) ∈ ps_files s <-> (f, u) ∈ ps_files s') /\
    (forall c, is_user_input (ps_stack s) c = is_user_input (ps_stack s') c).
  Proof.
    intros P Hno1 Hno2 H1 H2.
    assert (N : forall c, named paths c <-> named paths' c).
    { intros c. unfold IncludesSpec.named. by setoid_rewrite P. }
    assert (R : forall c, c ∈ ps_read s <-> c ∈ ps_read s').
    { intros c. rewrite (reads _ _ _ _ _ Hno1 H1 c), (reads _ _ _ _ _ Hno2 H2 c).
      split; apply reachable_ext; intros x; apply N. }
    split; [done|]. split.
    - intros f u. by rewrite (files_characterised _ _ _ _ _ Hno1 H1), (files_characterised _ _ _ _ _ Hno2 H2), R, N.
    - intros c. destruct (flags _ _ _ _ _ Hno1 H1) as [U1 _], (flags _ _ _ _ _ Hno2 H2) as [U2 _].
      by rewrite Bool.eq_iff_eq_true, U1, U2.
  Qed.

  (* a report all of whose primary labels lie in files for which the stack
     answers is_user_input = false is filtered, whatever the options, the
     definitions, the analysis order *)
  Lemma included_only_report_never_displayed dfuel fuel paths libs s (r : Runner.report) :
    dirs_revisited dfuel paths libs = false ->
    parse_files false dfuel fuel paths libs = Ok s ->
    Runner.r_pfiles r <> [] ->
    (forall z, In z (Runner.r_pfiles r) ->
               exists i f u, z = Z.of_nat i /\ ps_files s !! i = Some (f, u) /\
                             is_user_input (ps_stack s) f = false) ->
    Runner.filter_by_file r (file_library_user_inputs (ps_files s)) = false /\
    (forall o, Runner.passes_filters o (file_library_user_inputs (ps_files s)) r = false) /\
    (forall (p : Runner.project) o order,
        Runner.p_user p = file_library_user_inputs (ps_files s) ->
        ~ In r (Runner.res_shown (Runner.run_keys p o order)) /\
        (forall results rules, Runner.res_sarif (Runner.run_keys p o order) = Some (results, rules) ->
                               ~ In r results)).
  Proof.
    intros Hno Hp Hne Hall.
    pose proof (flags _ _ _ _ _ Hno Hp) as [U F].
    assert (FF : Runner.filter_by_file r (file_library_user_inputs (ps_files s)) = false).
    { apply RunnerShownFiltered.filter_by_file_false; [done|].
      intros z Hz Hu. destruct (Hall z Hz) as (i & f & u & -> & Hi & Hf).
      apply (file_library_user_inputs_flag _ _ _ _ Hi) in Hu. subst u.
      assert (Hn : named paths f) by (by apply (F i f true Hi)).
      apply U in Hn. congruence. }
    assert (PF : forall o, Runner.passes_filters o (file_library_user_inputs (ps_files s)) r = false).
    { intros o. unfold Runner.passes_filters. rewrite FF. by rewrite andb_false_r. }
    split; [done|]. split; [done|]. intros p o order Eu. split.
    - intros Hin. apply RunnerShownFiltered.shown_passes_filters in Hin. rewrite Eu, PF in Hin. done.
    - intros results rules Es Hin. eapply RunnerShownFiltered.sarif_passes_filters in Hin; [|done].
      rewrite Eu, PF in Hin. done.
  Qed.

  (* the other direction: a primary label in a named file passes the file filter *)
  Lemma named_file_report_passes_file_filter dfuel fuel paths libs s (r : Runner.report) i f u :
    dirs_revisited dfuel paths libs = false ->
    parse_files false dfuel fuel paths libs = Ok s ->
    In (Z.of_nat i) (Runner.r_pfiles r) -> ps_files s !! i = Some (f, u) -> named paths f ->
    Runner.filter_by_file r (file_library_user_inputs (ps_files s)) = true.
  Proof.
    intros Hno Hp Hin Hi Hn.
    pose proof (flags _ _ _ _ _ Hno Hp) as [_ F].
    apply RunnerProofs.filter_by_file_true. right. exists (Z.of_nat i). split; [done|].
    apply (file_library_user_inputs_flag _ _ _ _ Hi). by apply (F i f u Hi).
  Qed.

  (* everything main displays was produced by the parser or for a definition
     that lives in a named file, and is located nowhere or (also) in a named file *)
  Lemma displayed_findings_come_from_named_files dfuel fuel paths libs s
        (p : Runner.project) o order (r : Runner.report) :
    dirs_revisited dfuel paths libs = false ->
    parse_files false dfuel fuel paths libs = Ok s ->
    Runner.p_user p = file_library_user_inputs (ps_files s) ->
    RunnerSpec.wf_project p -> RunnerSpec.analysis_order p order ->
    In r (Runner.res_shown (Runner.run_keys p o order)) ->
    (In r (Runner.p_parse p) \/
     exists d i f, In d (Runner.p_defs p) /\ In r (RunnerSpec.produced_def d) /\
                   Runner.d_file d = Z.of_nat i /\ ps_files s !! i = Some (f, true) /\ named paths f) /\
    (Runner.r_pfiles r = [] \/
     exists i f, In (Z.of_nat i) (Runner.r_pfiles r) /\ ps_files s !! i = Some (f, true) /\ named paths f).
  Proof.
    intros Hno Hp Eu Hwf Hord Hin.
    pose proof (flags _ _ _ _ _ Hno Hp) as [_ F].
    assert (G : forall z, In z (Runner.p_user p) ->
                          exists i f, z = Z.of_nat i /\ ps_files s !! i = Some (f, true) /\ named paths f).
    { intros z Hz. rewrite Eu in Hz. apply file_library_user_inputs_spec in Hz as (i & f & -> & Hi).
      exists i, f. split; [done|]. split; [done|]. by apply (F i f true Hi). }
    split.
    - apply (RunnerProofs.displayed_iff_kept p o order r Hwf Hord) in Hin as [Hprod _].
      unfold RunnerSpec.produced in Hprod. apply in_app_iff in Hprod as [Hprod|Hprod]; [by left|right].
      apply in_flat_map in Hprod as (d & Hd & Hr). unfold RunnerSpec.user_defs in Hd.
      apply filter_In in Hd as [Hd Hu]. unfold RunnerSpec.user_def_b in Hu.
      apply existsb_exists in Hu as (z & Hz & E). apply Z.eqb_eq in E. subst z.
      destruct (G _ Hz) as (i & f & E & Hi & Hn). exists d, i, f. done.
    - apply RunnerShownFiltered.shown_passes_filters, RunnerShownFiltered.passes_filters_file in Hin.
      apply RunnerProofs.filter_by_file_true in Hin as [Hin|(z & Hz & Hu)]; [by left|right].
      destruct (G _ Hu) as (i & f & -> & Hi & Hn). by exists i, f.
  Qed.
End IncludesRunner.

(* Witness: `main.circom` includes "lib.circom" and "inc.circom"; lib.circom
   and main.circom are named, in both orders.  With `lib.circom main.circom`
   the stack pops main.circom first and lib.circom is first met through the
   include entry — it is a user input all the same. *)

Definition ord_fs : fs_data := FsData
  [ (str "main.circom", Some (str "/r/main.circom"));
    (str "lib.circom", Some (str "/r/lib.circom"));
    (str "/r/main.circom", Some (str "/r/main.circom"));
    (str "/r/lib.circom", Some (str "/r/lib.circom"));
    (str "/r/inc.circom", Some (str "/r/inc.circom")) ]
  [ ]
  [ str "/r/main.circom"; str "/r/lib.circom"; str "/r/inc.circom" ]
  [ (str "/r/main.circom", Parsed [(str "lib.circom", 21, 42); (str "inc.circom", 43, 64)]);
    (str "/r/lib.circom", Parsed []);
    (str "/r/inc.circom", Parsed []) ].

(* a finding located in file 1 only / in files 1 and 2 *)
Definition ord_report_inc : Runner.report := Runner.mkReport Category.Warning 5 5 [1%Z] 0.
Definition ord_report_both : Runner.report := Runner.mkReport Category.Warning 5 5 [1%Z; 2%Z] 0.

Lemma ord_witness :
  canon_idempotent_b ord_fs = true /\
  exists s s',
    run_project false ord_fs [str "lib.circom"; str "main.circom"] [] = Ok s /\
    run_project false ord_fs [str "main.circom"; str "lib.circom"] [] = Ok s' /\
    ps_files s = [(str "/r/main.circom", true); (str "/r/inc.circom", false); (str "/r/lib.circom", true)] /\
    ps_files s' = [(str "/r/lib.circom", true); (str "/r/main.circom", true); (str "/r/inc.circom", false)] /\
    file_library_user_inputs (ps_files s) = [0%Z; 2%Z] /\
    file_library_user_inputs (ps_files s') = [0%Z; 1%Z] /\
    is_user_input (ps_stack s) (str "/r/inc.circom") = false /\
    Runner.filter_by_file ord_report_inc (file_library_user_inputs (ps_files s)) = false /\
    Runner.filter_by_file ord_report_both (file_library_user_inputs (ps_files s)) = true.
Proof.
  split; [vm_compute; reflexivity|]. eexists _, _.
  split; [vm_compute; reflexivity|]. split; [vm_compute; reflexivity|].
  repeat split; vm_compute; reflexivity.
Qed.
