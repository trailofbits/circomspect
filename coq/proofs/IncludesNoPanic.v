(* C01 (on top of C19's development): neither `expect` of parser/src/include_logic.rs
   fires — Model.Includes.parse_files never returns [Panic], for every file
   system, command line and library list.

   * `self.current_location.clone().expect("parsing file")` (site 1901):
     add_include is reached only through parse_file, which parse_loop calls on the
     stack returned by take_next together with a path; that stack has
     current_location = Some (parent p), and push / include_library keep it.
   * `lib.path.file_name().expect("good library file")` (site 1902): a library that
     is not a directory was entered by add_library as the canonical form of a path
     that is not a directory. The one assumption about the file system is that
     such a canonical path has a file name (Path::file_name is None only for the
     root, a prefix, or a path ending in `..`; a canonical path that is not a
     directory is none of these). *)
Require Model.Base.
From Coq Require Import ZArith.
From stdpp Require Import list.
Require Import Model.Includes Proofs.IncludesProofs.

Section IncludesNoPanic.
  Context {path : Type} `{EqDecision path}.
  Variable canon : path -> option path.
  Variable is_dir : path -> bool.
  Variable is_file : path -> bool.
  Variable read_dir : path -> option (list path).
  Variable join : path -> path -> path.
  Variable parent : path -> path.
  Variable file_name : path -> option path.
  Variable ext_circom : path -> bool.
  Variable starts_dot : path -> bool.
  Variable has_sep : path -> bool.
  Variable content : path -> file_content path.

  Hypothesis canonical_file_has_name :
    forall p c, is_dir p = false -> canon p = Some c -> file_name c <> None.

  Notation add_files := (add_files canon is_dir read_dir join ext_circom).
  Notation add_libraries := (add_libraries canon is_dir ext_circom).
  Notation add_files_once := (add_files_once canon is_dir read_dir join ext_circom).
  Notation search_libraries := (search_libraries canon is_file join file_name starts_dot has_sep).
  Notation include_library := (include_library canon is_file join file_name starts_dot has_sep).
  Notation add_include := (add_include canon is_file join file_name starts_dot has_sep).
  Notation add_includes := (add_includes canon is_file join file_name starts_dot has_sep).
  Notation parse_file := (parse_file canon is_file join file_name starts_dot has_sep content).
  Notation parse_loop := (parse_loop canon is_file join parent file_name starts_dot has_sep content).
  Notation parse_files := (parse_files canon is_dir is_file read_dir join parent file_name ext_circom starts_dot has_sep content).

  Definition no_panic {A} (m : outcome A) : Prop := forall s, m <> Panic s.

  Lemma bind_no_panic {A B} (m : outcome A) (f : A -> outcome B) :
    no_panic m -> (forall a, m = Ok a -> no_panic (f a)) -> no_panic (Base.bind m f).
  Proof. intros Hm Hf s. destruct m as [a| |site|]; simpl; try done. - by apply Hf. - intros [= ->]. by apply (Hm s). Qed.

  Lemma add_files_no_panic fuel : forall named paths acc, no_panic (add_files fuel named paths acc).
  Proof.
    induction fuel as [|k IHk]; intros named; [intros paths acc s; by destruct paths|].
    induction paths as [|p rest IH]; intros acc; [done|].
    rewrite add_files_cons. apply bind_no_panic; [|auto].
    destruct (is_dir p); [|done]. destruct (read_dir p); [apply IHk|done].
  Qed.

  Lemma add_files_once_no_panic fuel : forall named paths dirs acc, no_panic (add_files_once fuel named paths dirs acc).
  Proof.
    induction fuel as [|k IHk]; intros named; [intros paths dirs acc s; by destruct paths|].
    induction paths as [|p rest IH]; intros dirs acc; [done|].
    rewrite add_files_once_cons. apply bind_no_panic; [|auto].
    destruct (is_dir p); [|done]. destruct (visit canon p dirs); [|done]. destruct (read_dir p); [apply IHk|done].
  Qed.

  Definition lib_named (l : library) : Prop := lib_dir l = false -> file_name (lib_path l) <> None.

  Lemma add_libraries_named libs reports : Forall lib_named (add_libraries libs reports).1.
  Proof.
    eapply Forall_impl; [apply add_libraries_spec|].
    intros l Hl Hd. destruct (Hl Hd) as (p & Hp & Hc). by eapply canonical_file_has_name.
  Qed.

  Lemma search_libraries_no_panic d23 inc : forall libs, Forall lib_named libs ->
    no_panic (search_libraries d23 inc libs).
  Proof.
    induction libs as [|l rest IH]; intros Hl; [done|].
    inversion Hl as [|? ? Hn Hr]; subst. simpl.
    destruct (lib_dir l) eqn:Ed.
    - destruct (starts_dot inc); [by apply IH|].
      destruct (canon (join (lib_path l) inc)); [|by apply IH].
      destruct (is_file p); [done|by apply IH].
    - destruct (has_sep inc); [by apply IH|].
      destruct (file_name (lib_path l)) as [n|] eqn:En; [|by destruct (Hn Ed)].
      destruct (decide (n = inc)); [done|by apply IH].
  Qed.

  (* the invariant of the file stack while files are parsed *)
  Definition st_ok (st : file_stack) : Prop :=
    current_location st <> None /\ Forall lib_named (libraries st).

  Lemma include_library_ok d23 st inc : st_ok st ->
    no_panic (include_library d23 st inc) /\
    forall r, include_library d23 st inc = Ok r -> st_ok r.1.
  Proof.
    intros [Hc Hl]. unfold Includes.include_library. split.
    - apply bind_no_panic; [by apply search_libraries_no_panic|]. by intros [p|] _.
    - intros r (o & _ & Hr)%bind_ok. by destruct o; injection Hr as <-.
  Qed.

  Lemma add_include_ok d23 st inc : st_ok st ->
    no_panic (add_include d23 st inc) /\
    forall r, add_include d23 st inc = Ok r -> st_ok r.1.
  Proof.
    intros Hok. pose proof Hok as [Hc Hl]. unfold Includes.add_include.
    destruct (current_location st) as [loc|] eqn:El; [|done].
    destruct (canon (join loc (inc_path inc))) as [p|]; [|by apply include_library_ok].
    destruct (is_file p); [|by apply include_library_ok].
    split; [done|]. intros r [= <-]. simpl.
    destruct (decide (p ∈ black_paths st)); [done|]. split; simpl; [by rewrite El|done].
  Qed.

  Lemma add_includes_ok d23 : forall incs st ws, st_ok st ->
    no_panic (add_includes d23 st incs ws) /\
    forall r, add_includes d23 st incs ws = Ok r -> st_ok r.1.
  Proof.
    induction incs as [|inc rest IH]; intros st ws Hok; simpl; [split; [done|]; by intros r [= <-]|].
    destruct (add_include_ok d23 st inc Hok) as [Hn Hs]. split.
    - apply bind_no_panic; [done|]. intros r1 Hr1. by apply IH, Hs.
    - intros r (r1 & Hr1 & Hr)%bind_ok. eapply IH; [|done]. by apply Hs.
  Qed.

  Lemma parse_file_ok d23 p s : st_ok (ps_stack s) ->
    no_panic (parse_file d23 p s) /\
    forall s', parse_file d23 p s = Ok s' -> Forall lib_named (libraries (ps_stack s')).
  Proof.
    intros Hok. unfold Includes.parse_file. destruct (content p) as [| |incs].
    1,2: split; [done|]; intros s' [= <-]; apply Hok.
    destruct (add_includes_ok d23 (map (mk_include (length (ps_files s))) incs) (ps_stack s) [] Hok) as [Hn Hs]. split.
    - by apply bind_no_panic.
    - intros s' (r & Hr & [= <-])%bind_ok. by apply (Hs r).
  Qed.

  Lemma take_next_libraries st : libraries (take_next parent st).2 = libraries st.
  Proof. unfold take_next. by destruct (pop_next (black_paths st) (stack st)) as [[? ?]|]. Qed.

  Lemma take_next_some st p : (take_next parent st).1 = Some p -> current_location (take_next parent st).2 <> None.
  Proof. unfold take_next. by destruct (pop_next (black_paths st) (stack st)) as [[? ?]|]. Qed.

  Lemma parse_loop_no_panic d23 : forall fuel s, Forall lib_named (libraries (ps_stack s)) ->
    no_panic (parse_loop d23 fuel s).
  Proof.
    induction fuel as [|fuel IH]; intros s Hl; [done|]. simpl.
    pose proof (take_next_libraries (ps_stack s)) as Hlib.
    pose proof (take_next_some (ps_stack s)) as Hsome.
    destruct (take_next parent (ps_stack s)) as [[p|] st]; simpl in *; [|done].
    assert (Hok : st_ok st) by (split; [by apply (Hsome p)|by rewrite Hlib]).
    apply bind_no_panic; [by apply parse_file_ok|]. intros s' Hs'. eapply IH, parse_file_ok, Hs'. done.
  Qed.

  Theorem parse_files_no_panic d23 dfuel fuel paths libs : no_panic (parse_files d23 dfuel fuel paths libs).
  Proof.
    unfold Includes.parse_files, Includes.new.
    pose proof (add_libraries_named libs []) as Hl. destruct (add_libraries libs []) as [ls reps].
    apply bind_no_panic; [apply bind_no_panic; [apply add_files_once_no_panic|done]|].
    intros [st r] (x & _ & [= <- <-])%bind_ok. by apply parse_loop_no_panic.
  Qed.
End IncludesNoPanic.
