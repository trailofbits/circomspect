(* Reflection lemmas for the boolean equalities of Model.Ir / Model.SsaCheck / Model.SsaErase,
   and a few facts about lists ([last], [combine] with [seq]). *)
From Coq Require Import ZArith NArith List Bool.
Require Import Model.Base Model.Ir Model.SsaCheck Model.SsaErase Proofs.IrInd.
Import ListNotations.

Lemma ident_eqb_eq a b : ident_eqb a b = true <-> a = b.
Proof. unfold ident_eqb. destruct (list_eq_dec N.eq_dec a b); split; congruence. Qed.

Lemma ident_eqb_refl a : ident_eqb a a = true.
Proof. apply ident_eqb_eq. reflexivity. Qed.

Lemma opt_eqb_eq {A} (f : A -> A -> bool) (Hf : forall x y, f x y = true <-> x = y) a b :
  opt_eqb f a b = true <-> a = b.
Proof.
  destruct a, b; cbn; split; try congruence; intros H.
  - f_equal. apply Hf. exact H.
  - apply Hf. congruence.
Qed.

Lemma optN_eqb_eq a b : opt_eqb N.eqb a b = true <-> a = b.
Proof. apply opt_eqb_eq. apply N.eqb_eq. Qed.

Lemma optN_eqb_refl (o : option N) : opt_eqb N.eqb o o = true.
Proof. apply optN_eqb_eq. reflexivity. Qed.

Lemma vname_eqb_eq a b : vname_eqb a b = true <-> a = b.
Proof.
  unfold vname_eqb. rewrite !andb_true_iff, ident_eqb_eq.
  rewrite (opt_eqb_eq ident_eqb ident_eqb_eq), optN_eqb_eq.
  destruct a, b; cbn. split.
  - intros [[-> ->] ->]. reflexivity.
  - intros [= -> -> ->]. auto.
Qed.

Lemma vname_eqb_refl a : vname_eqb a a = true.
Proof. apply vname_eqb_eq. reflexivity. Qed.

Lemma vname_eqb_sym a b : vname_eqb a b = vname_eqb b a.
Proof. apply eq_true_iff_eq. rewrite !vname_eqb_eq. split; congruence. Qed.

Lemma vtype_eqb_eq a b : vtype_eqb a b = true <-> a = b.
Proof. destruct a, b; cbn; split; congruence. Qed.

Lemma vtype_eqb_refl a : vtype_eqb a a = true.
Proof. apply vtype_eqb_eq. reflexivity. Qed.

Lemma meta_eqb_eq a b : meta_eqb a b = true <-> a = b.
Proof.
  unfold meta_eqb. rewrite !andb_true_iff, !N.eqb_eq, optN_eqb_eq. destruct a, b; cbn. split.
  - intros [[-> ->] ->]. reflexivity.
  - intros [= -> -> ->]. auto.
Qed.

Lemma meta_eqb_refl a : meta_eqb a a = true.
Proof. apply meta_eqb_eq. reflexivity. Qed.

Lemma assign_eqb_eq a b : assign_eqb a b = true <-> a = b.
Proof. destruct a, b; cbn; split; congruence. Qed.

Lemma ns_eqb_refl : forall l, ns_eqb l l = true.
Proof. induction l as [|x tl IH]; cbn; [reflexivity|]. rewrite N.eqb_refl. exact IH. Qed.

Lemma key_eqb_eq a b : key_eqb a b = true <-> a = b.
Proof.
  unfold key_eqb. rewrite andb_true_iff, ident_eqb_eq, (opt_eqb_eq ident_eqb ident_eqb_eq).
  destruct a, b; cbn. split; [intros [-> ->]; reflexivity|intros [= -> ->]; auto].
Qed.

Lemma key_eqb_refl a : key_eqb a a = true.
Proof. apply key_eqb_eq. reflexivity. Qed.

Lemma vmap_eqb_eq a : forall b, vmap_eqb a b = true -> a = b.
Proof.
  induction a as [|[k n] ta IH]; intros [|[k' n'] tb]; cbn; try discriminate; [reflexivity|].
  intros H. apply andb_true_iff in H as [H1 H2]. unfold kn_eqb in H1. cbn in H1.
  apply andb_true_iff in H1 as [Hk Hn]. apply key_eqb_eq in Hk. apply N.eqb_eq in Hn. subst.
  f_equal. auto.
Qed.

Lemma vget_some_in m k n : vget m k = Some n -> In k (map fst m).
Proof.
  induction m as [|[k' n'] tl IH]; cbn; [discriminate|].
  destruct (key_eqb k' k) eqn:E.
  - apply key_eqb_eq in E. auto.
  - intros H. right. auto.
Qed.

Lemma vget_vset m k n k' : vget (vset m k n) k' = if key_eqb k k' then Some n else vget m k'.
Proof. reflexivity. Qed.

(* lists *)
Lemma combine_seq_nth {A} (l : list A) : forall k i x, nth_error l i = Some x ->
  In ((k + i)%nat, x) (combine (seq k (length l)) l).
Proof.
  induction l as [|y tl IH]; intros k i x Hn; [destruct i; discriminate|].
  cbn [length seq combine]. destruct i as [|i]; cbn in Hn.
  - injection Hn as ->. left. rewrite Nat.add_0_r. reflexivity.
  - right. rewrite Nat.add_succ_r. apply (IH (S k)). exact Hn.
Qed.

Lemma last_in {A} (l : list A) (d : A) : l <> [] -> In (last l d) l.
Proof.
  induction l as [|x tl IH]; [congruence|]. intros _. destruct tl as [|y tl']; [left; reflexivity|].
  right. apply IH. discriminate.
Qed.

Lemma last_cons_cons {A} (s : A) tl p : last (s :: tl) p = last tl s.
Proof.
  revert s p. induction tl as [|y tl IH]; intros s p; [reflexivity|].
  change (last (s :: y :: tl) p) with (last (y :: tl) p). rewrite (IH y p), (IH y s). reflexivity.
Qed.

Lemma last_app_cons {A} (l1 : list A) x l2 : forall d, last (l1 ++ x :: l2) d = last l2 x.
Proof.
  induction l1 as [|y l1 IH]; intros d; cbn [app]; [apply last_cons_cons|].
  rewrite last_cons_cons. apply IH.
Qed.

(* the default of [last] matters for the empty list only *)
Lemma last_default {A} (l : list A) d d' : l <> [] -> last l d = last l d'.
Proof. destruct l as [|x l]; [congruence|]. intros _. rewrite !last_cons_cons. reflexivity. Qed.

(* the induction hypotheses on operand lists are [Forall]s; the boolean functions over
   expr spell their recursion over lists out as local fixpoints *)
Lemma Forall_mp {A} (P Q : A -> Prop) l : Forall (fun x => P x -> Q x) l -> Forall P l -> Forall Q l.
Proof. induction 1; intros HP; [constructor|]. apply Forall_cons_iff in HP as [H1 H2]. constructor; auto. Qed.

Lemma forallb_Forall {A} (f : A -> bool) l : forallb f l = true <-> Forall (fun x => f x = true) l.
Proof. rewrite forallb_forall, Forall_forall. reflexivity. Qed.

Lemma list_forallb (f : expr -> bool) es :
  (fix go (es : list expr) : bool := match es with [] => true | x :: tl => f x && go tl end) es = forallb f es.
Proof. reflexivity. Qed.

Lemma acc_forallb (f : expr -> bool) acc :
  (fix go (acc : list (access expr)) : bool :=
     match acc with [] => true | AIdx x :: tl => f x && go tl | AComp _ :: tl => go tl end) acc =
  forallb f (acc_exprs acc).
Proof.
  induction acc as [|[x|n] tl IH]; [reflexivity| |exact IH].
  cbn [acc_exprs flat_map app forallb]. f_equal. exact IH.
Qed.
