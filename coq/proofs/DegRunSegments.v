(* C07: the abstract firing schedule of Proofs.DegRunLoops, instantiated for families of runs
   whose paths are cut into ASCENDING SEGMENTS that start at the same blocks for every valuation
   (the loop headers): the schedule fires the blocks in index order, once per segment.  Its
   hypothesis that no cell is overwritten for a run for which it holds the running version, and
   that every statement reads running versions, are derived from the validator's maps
   (Model.SsaCheck.infos_ok) and the decidable conditions of Model.DegLoops. *)
From Coq Require Import ZArith NArith List Bool Arith Lia Sorting.Sorted.
Require Import Model.Base Model.Ir Model.SsaCheck Model.Propagate Model.Justify Model.DegJustify Model.DegGraph Model.DegLoops.
Require Import Spec.PolyDeg Spec.SsaSpec Spec.DegSem Spec.DegRun Proofs.IrInd Proofs.IrFacts Proofs.ValueProofs Proofs.SsaProofs.
Require Import Proofs.PolyDegProofs Proofs.DegreeProofs Proofs.DegGraphProofs Proofs.DegGraphRooted.
Require Import Proofs.DegRunProofs Proofs.DegRunBranch Proofs.DegRunLoops Proofs.DegRunDecided.
Import ListNotations.
Local Open Scope Z_scope.

Lemma update_bases_fresh_sound infos c i info b phis body : update_bases_fresh infos c = true ->
  nth_error infos i = Some info -> nth_error (c_blocks c) i = Some b -> leading_phis (b_stmts b) = (phis, body) ->
  ubf_body c (bi_in info) body = true.
Proof.
  unfold update_bases_fresh. rewrite forallb_forall. intros H Hi Hb Elp.
  assert (Hin : In (info, b) (combine infos (c_blocks c))).
  { clear -Hi Hb. revert infos Hi Hb. generalize (c_blocks c) as bs.
    induction i as [|i IH]; intros [|b0 bs] [|i0 is_]; cbn; try discriminate.
    - intros [= ->] [= ->]. left. reflexivity.
    - intros H1 H2. right. eapply IH; eauto. }
  specialize (H _ Hin). cbn [fst snd] in H. rewrite Elp in H. exact H.
Qed.

Lemma no_future_version_sound infos c i info a b x : no_future_version infos c = true ->
  nth_error infos i = Some info -> nth_error (c_blocks c) a = Some b -> (i < a)%nat ->
  In x (local_targets c (b_stmts b)) -> vget (bi_out info) (key_of x) <> vn_version x.
Proof.
  unfold no_future_version. rewrite forallb_forall. intros H Hi Hb Hlt Hx.
  pose proof (combine_seq_nth infos 0 i info Hi) as Hin1. cbn [Nat.add] in Hin1.
  specialize (H _ Hin1). cbn [fst snd] in H. rewrite forallb_forall in H.
  pose proof (combine_seq_nth (c_blocks c) 0 a b Hb) as Hin2. cbn [Nat.add] in Hin2.
  specialize (H _ Hin2). cbn [fst snd] in H. apply orb_true_iff in H as [H|H]; [apply Nat.leb_le in H; lia|].
  rewrite forallb_forall in H. specialize (H x Hx). apply negb_true_iff in H.
  intros E. rewrite E in H. assert (opt_eqb N.eqb (vn_version x) (vn_version x) = true) by (apply optN_eqb_eq; reflexivity). congruence.
Qed.

Lemma concat_firstn_S {A} (l : list (list A)) : forall j, concat (firstn (S j) l) = concat (firstn j l) ++ nth j l [].
Proof.
  induction l as [|x l IH]; intros [|j]; cbn [firstn concat nth]; try reflexivity.
  - rewrite app_nil_r. reflexivity.
  - rewrite IH, app_assoc. reflexivity.
Qed.

Lemma divmod_at n j a : (a < n)%nat -> ((j * n + a) / n = j /\ (j * n + a) mod n = a)%nat.
Proof.
  intros Ha. assert (Hn : n <> 0%nat) by lia. split.
  - rewrite Nat.div_add_l by exact Hn. rewrite Nat.div_small by exact Ha. lia.
  - rewrite Nat.add_comm, Nat.mod_add by exact Hn. apply Nat.mod_small. exact Ha.
Qed.

Lemma last_below_lt a l d : below a l <> [] -> (last (below a l) d < a)%nat.
Proof.
  intros Hne. assert (Hin : In (last (below a l) d) (below a l)) by (apply last_in; exact Hne).
  unfold below in Hin. apply filter_In in Hin as [_ H]. apply Nat.ltb_lt in H. exact H.
Qed.

Section Segments.
Variable V : Type.
Variable p : Z.
Variable sem2 : infix_op -> Z -> Z -> Z.
Variable sem1 : prefix_op -> Z -> Z.
Variable call_sem : ident -> list Z -> Z.
Variable name_code : ident -> Z.
Variable c : cfg.
Variable idom : list (option N).
Variable S0 : fstore V.
Variable infos : list binfo.
Variable sg : V -> list (list nat).   (* the path of a valuation, cut into ascending segments *)
Variable heads : list nat.            (* the first blocks of the segments: the same for every valuation *)
Variable s0 s : V -> cstore.
Variable reps : list V.
Notation L0 := (params_map (c_params c)).
Notation n := (length (c_blocks c)).
Notation K := (length heads).
Notation cexec_path := (cexec_path p sem2 sem1 call_sem name_code).
Notation cexec_nocheck := (cexec_nocheck p sem2 sem1 call_sem name_code c).
Notation alltgts := (local_targets c (all_stmts (c_blocks c))).

Notation blk_s := (blk_s c).
Notation vis_s := (vis_s V c sg).
Notation pre_s := (pre V blk_s vis_s).

Lemma vis_s_in rho j a : (a < n)%nat -> vis_s rho (j * n + a) = true <-> In a (nth j (sg rho) []).
Proof.
  intros Ha. unfold vis_s. destruct (divmod_at n j a Ha) as [-> ->]. rewrite existsb_exists. split.
  - intros (x & Hx & E). apply Nat.eqb_eq in E. subst x. exact Hx.
  - intros H. exists a. split; [exact H|apply Nat.eqb_refl].
Qed.

Hypothesis Hsorted : forall rho, Forall (StronglySorted lt) (sg rho).

Lemma seg_nth_sorted rho j : StronglySorted lt (nth j (sg rho) []).
Proof.
  destruct (Nat.lt_ge_cases j (length (sg rho))) as [H|H].
  - pose proof (Hsorted rho) as Hs. rewrite Forall_forall in Hs. apply Hs. apply nth_In. exact H.
  - rewrite nth_overflow by exact H. constructor.
Qed.

(* what a run has executed before step (j, a) *)
Lemma pre_seg_S rho j a X : (a < n)%nat -> pre_s rho (j * n + a) = X ++ below a (nth j (sg rho) []) ->
  pre_s rho (j * n + S a) = X ++ below (S a) (nth j (sg rho) []).
Proof.
  intros Ha E. replace (j * n + S a)%nat with (S (j * n + a)) by lia. cbn [pre]. rewrite E.
  destruct (vis_s rho (j * n + a)) eqn:Ev.
  - apply vis_s_in in Ev; [|exact Ha]. rewrite (below_S_in a _ (seg_nth_sorted rho j) Ev). unfold DegRunLoops.blk_s.
    destruct (divmod_at n j a Ha) as [_ ->]. rewrite app_assoc. reflexivity.
  - rewrite below_S_notin; [rewrite app_nil_r; reflexivity|]. intros Hin. apply (vis_s_in rho j a Ha) in Hin. congruence.
Qed.

Hypothesis Hrunp : forall rho, cexec_path c L0 (s0 rho) (concat (sg rho)) = Some (s rho).

Lemma seg_lt rho : forall i, In i (concat (sg rho)) -> (i < n)%nat.
Proof. intros i Hi. eapply cexec_path_indices; [apply (Hrunp rho)|exact Hi]. Qed.

Lemma seg_nth_lt rho j i : In i (nth j (sg rho) []) -> (i < n)%nat.
Proof.
  intros Hi. apply (seg_lt rho). apply in_concat. exists (nth j (sg rho) []). split; [|exact Hi].
  destruct (Nat.lt_ge_cases j (length (sg rho))) as [H|H]; [apply nth_In; exact H|]. rewrite nth_overflow in Hi by exact H. contradiction.
Qed.

Lemma pre_seg rho : forall j a, (a <= n)%nat ->
  pre_s rho (j * n + a) = concat (firstn j (sg rho)) ++ below a (nth j (sg rho) []).
Proof.
  assert (Hb0 : forall l, below 0 l = []) by (intros l; apply below_none, Forall_forall; intros; lia).
  induction j as [|j IHj]; (induction a as [|a IHa]; intros Ha; [|apply pre_seg_S; [lia|apply IHa; lia]]).
  - rewrite Hb0. reflexivity.
  - replace (S j * n + 0)%nat with (j * n + n)%nat by lia.
    rewrite (IHj n (le_n _)), (below_all n _ (seg_nth_lt rho j)), concat_firstn_S, Hb0, app_nil_r. reflexivity.
Qed.

Hypothesis Hheads : forall rho, map (hd 0%nat) (sg rho) = heads /\ Forall (fun seg => seg <> []) (sg rho).

Lemma sg_len rho : length (sg rho) = K.
Proof. destruct (Hheads rho) as [<- _]. rewrite map_length. reflexivity. Qed.

Lemma pre_all rho : pre_s rho (K * n) = concat (sg rho).
Proof.
  replace (K * n)%nat with (K * n + 0)%nat by lia. rewrite (pre_seg rho K 0 ltac:(lia)).
  rewrite <- (sg_len rho), firstn_all, nth_overflow by lia. cbn. apply app_nil_r.
Qed.

(* the segments start at the same blocks for every valuation *)
Lemma seg_head rho j : (j < K)%nat -> exists rest, nth j (sg rho) [] = nth j heads 0%nat :: rest.
Proof.
  intros Hj. destruct (Hheads rho) as [Hm Hne]. pose proof (map_nth (hd 0%nat) (sg rho) [] j) as Hn. cbn [hd] in Hn. rewrite <- Hm, Hn.
  rewrite Forall_forall in Hne. specialize (Hne (nth j (sg rho) []) (nth_In _ _ ltac:(rewrite sg_len; exact Hj))).
  destruct (nth j (sg rho) []) as [|h rest]; [congruence|]. exists rest. reflexivity.
Qed.

Hypothesis Hentry : forall rho, exists tl, concat (sg rho) = 0%nat :: tl.
Hypothesis Hok : infos_ok infos c = true.
Hypothesis Hidx : forall i b, nth_error (c_blocks c) i = Some b -> b_index b = N.of_nat i.

Lemma npos : (0 < n)%nat.
Proof.
  destruct (SsaProofs.entry_facts c infos Hok) as (i0 & b0 & _ & Hb0 & _).
  assert (0 < n)%nat by (apply nth_error_Some; congruence). exact H.
Qed.

(* every prefix of the schedule is a walk from the entry block, and the validator's exit map
   of its last block is the running map *)
Lemma pre_walk rho t d : (t + d = K * n)%nat -> pre_s rho t <> [] ->
  exists tl rest, pre_s rho t = 0%nat :: tl /\ concat (sg rho) = (0%nat :: tl) ++ rest /\ is_walk c 0 (tl ++ rest) /\
    exists il, nth_error infos (last tl 0%nat) = Some il /\ meq (vmap_after c L0 (pre_s rho t)) (bi_out il).
Proof.
  intros Htd Hne. destruct (pre_prefix V blk_s vis_s rho d t) as (rest & E). rewrite Htd, pre_all in E.
  destruct (Hentry rho) as (tl0 & E0). destruct (pre_s rho t) as [|x tl] eqn:Ep; [congruence|].
  rewrite E0 in E. cbn [app] in E. injection E as <- E.
  exists tl, rest. split; [reflexivity|]. split; [rewrite E0, E; reflexivity|].
  assert (W : is_walk c 0 (tl ++ rest)).
  { apply (cexec_path_walk p sem2 sem1 call_sem name_code c _ L0 (s0 rho) 0%nat (s rho)). rewrite <- E, <- E0. apply Hrunp. }
  split; [exact W|]. exact (entry_walk_meq c infos Hok Hidx tl (is_walk_app c tl 0%nat rest W)).
Qed.

Hypothesis Hnf : no_future_version infos c = true.

(* no cell is overwritten for a run for which it holds the running version *)
Lemma dead_s : forall t rho x, (t < K * n)%nat -> firedb V reps vis_s t = true -> vis_s rho t = false ->
  In x (tgts c (blk_s t)) -> ~ live (Lats V c L0 blk_s vis_s rho t) x.
Proof.
  intros t rho x Ht Hf Hnv Hx Hlive.
  pose proof npos as Hn.
  set (j := (t / n)%nat). set (A := (t mod n)%nat).
  assert (HA : (A < n)%nat) by (apply Nat.mod_upper_bound; lia).
  assert (Et : t = (j * n + A)%nat) by (unfold j, A; rewrite Nat.mul_comm; apply Nat.div_mod; lia).
  unfold firedb in Hf. apply existsb_exists in Hf as (r & _ & Hr).
  assert (HrA : In A (nth j (sg r) [])) by (apply (vis_s_in r j A HA); rewrite <- Et; exact Hr).
  assert (HnA : ~ In A (nth j (sg rho) [])) by (intros H; apply (vis_s_in rho j A HA) in H; rewrite <- Et in H; congruence).
  assert (Hj : (j < K)%nat).
  { rewrite <- (sg_len r). destruct (Nat.lt_ge_cases j (length (sg r))) as [H|H]; [exact H|]. rewrite nth_overflow in HrA by exact H. contradiction. }
  (* the run of rho has executed the head of the segment, a block below A *)
  pose proof (seg_nth_sorted r j) as Hs. pose proof (pre_seg rho j A ltac:(lia)) as Epre. rewrite <- Et in Epre.
  destruct (seg_head r j Hj) as (rr & Er). destruct (seg_head rho j Hj) as (rest & Eseg). rewrite Er in HrA, Hs. rewrite Eseg in HnA, Epre.
  assert (HhA : (nth j heads 0 < A)%nat).
  { destruct HrA as [E|Hin]; [exfalso; apply HnA; left; exact E|].
    apply StronglySorted_inv in Hs as [_ Hall]. rewrite Forall_forall in Hall. exact (Hall A Hin). }
  assert (Hbne : below A (nth j heads 0%nat :: rest) <> []).
  { cbn [below filter]. rewrite (proj2 (Nat.ltb_lt _ _) HhA). discriminate. }
  destruct (pre_walk rho t (K * n - t) ltac:(lia)) as (tl & rest1 & Ept & _ & _ & il & Hil & Hm).
  { rewrite Epre. intros H. apply app_eq_nil in H as [_ H]. exact (Hbne H). }
  assert (Hlast : (last tl 0%nat < A)%nat).
  { rewrite <- (last_cons_cons 0%nat tl 0%nat), <- Ept, Epre.
    destruct (below A (nth j heads 0%nat :: rest)) as [|z zs] eqn:Ez; [congruence|].
    rewrite last_app_cons, <- (last_cons_cons z zs 0%nat), <- Ez. apply last_below_lt. rewrite Ez. exact Hbne. }
  unfold tgts, DegRunLoops.blk_s in Hx. fold A in Hx. destruct (nth_error (c_blocks c) A) as [b|] eqn:Eb; [|contradiction].
  apply (no_future_version_sound infos c _ il A b x Hnf Hil Eb Hlast Hx).
  unfold live, Lats in Hlive. rewrite <- (Hm (key_of x)). exact Hlive.
Qed.

Hypothesis Htv : targets_versioned c = true.
Hypothesis Hub : update_bases_fresh infos c = true.

Lemma reads_s : forall rho t b phis body, (t < K * n)%nat -> vis_s rho t = true ->
  nth_error (c_blocks c) (blk_s t) = Some b -> leading_phis (b_stmts b) = (phis, body) ->
  reads_live c (apply_phis (Lats V c L0 blk_s vis_s rho t) phis) body.
Proof.
  intros rho t b phis body Ht Ev Hb Elp.
  assert (Hallb : forall st, In st body -> In st (all_stmts (c_blocks c))).
  { intros st Hs. unfold all_stmts. apply in_flat_map. exists b. split; [eapply nth_error_In; eauto|].
    rewrite (leading_phis_app _ _ _ Elp). apply in_or_app. right. exact Hs. }
  assert (Hnext : exists rest, concat (sg rho) = pre_s rho t ++ blk_s t :: rest).
  { destruct (pre_prefix V blk_s vis_s rho (K * n - S t) (S t)) as (rest & E).
    replace (S t + (K * n - S t))%nat with (K * n)%nat in E by lia. rewrite pre_all in E. cbn [pre] in E. rewrite Ev, <- app_assoc in E.
    exists rest. exact E. }
  destruct Hnext as (rest1 & Enext).
  unfold Lats. destruct (pre_s rho t) as [|x0 tl0] eqn:Ep.
  - (* the entry block *)
    destruct (Hentry rho) as (tl & E0). rewrite E0 in Enext. cbn [app] in Enext. injection Enext as Eb0 _.
    destruct (SsaProofs.entry_facts c infos Hok) as (i0 & b0 & Hi0 & Hb0 & Hin0 & Hnophi).
    rewrite <- Eb0, Hb0 in Hb. injection Hb as <-. rewrite Elp in Hnophi. cbn [fst] in Hnophi. subst phis.
    destruct (SsaProofs.block_facts c infos Hok 0 b0 Hb0) as (i0' & Hi0' & Hblk). rewrite Hi0 in Hi0'. injection Hi0' as <-.
    unfold block_ok in Hblk. rewrite Elp in Hblk. apply andb_true_iff in Hblk as [_ Hbody]. rewrite Hin0 in Hbody.
    destruct (body_run L0 body) as [o|] eqn:Ebr; [|discriminate].
    cbn. apply (body_run_reads_live c Htv body L0 (bi_in i0) o); [rewrite Hin0; apply meq_refl| |exact Ebr].
    exact (update_bases_fresh_sound infos c 0 i0 b0 [] body Hub Hi0 Hb0 Elp).
  - destruct (pre_walk rho t (K * n - t) ltac:(lia)) as (tl & rest & Ept & Econ & W & il & Hil & Hm); [rewrite Ep; discriminate|].
    rewrite Ep in Ept, Hm. injection Ept as -> ->.
    assert (Erest : rest = blk_s t :: rest1).
    { rewrite Enext in Econ. apply app_inv_head in Econ. symmetry. exact Econ. }
    subst rest.
    pose proof (walk_edge_at c tl 0%nat (blk_s t) rest1 W) as (bp & Hbp & Hsucc).
    pose proof (SsaProofs.edge_facts c infos Hok _ bp _ Hbp Hsucc (Hidx _ _ Hbp)) as He.
    destruct (SsaProofs.block_facts c infos Hok _ b Hb) as (ib & Hib & Hblk).
    destruct (SsaProofs.enter_step c infos _ _ il ib b _ Hil Hib Hb He Hblk Hm) as (L' & HL' & _).
    unfold enter_block in HL'. rewrite Elp in HL'. destruct (forallb (phi_read_ok _) phis); [|discriminate].
    apply (body_run_reads_live c Htv body _ (bi_in ib) L'); [|exact (update_bases_fresh_sound infos c _ ib b phis body Hub Hib Hb Elp)|exact HL'].
    exact (enter_in_meq c infos _ _ il ib b _ phis body Hil Hib Hb He Hblk Hm Elp).
Qed.

Hypothesis Hreps : forall rho, exists r, In r reps /\ sg r = sg rho.
Hypothesis H0 : forall rho, rel_store V rho (s0 rho) S0.
Hypothesis Hsa : NoDup alltgts.

(* THE REPRESENTATION THEOREM for families whose ascending segments start at the same blocks *)
Theorem same_heads_runs_represented :
  picks_decided_sched V p sem2 sem1 call_sem name_code c idom L0 s0 reps (K * n) blk_s vis_s ->
  exists S, freachable V p sem2 sem1 call_sem name_code c idom S0 S /\
    forall rho, sync_on V (fun x => ~ In x alltgts \/ live (vmap_after c L0 (concat (sg rho))) x) rho (s rho) S.
Proof.
  intros Hpick.
  destruct (schedule_runs_represented V p sem2 sem1 call_sem name_code c idom S0 L0 s0 reps (K * n) blk_s vis_s) as (S & Hreach & Hsync).
  - intros rho. destruct (Hreps rho) as (r & Hr & E). exists r. split; [exact Hr|]. intros t. unfold vis_s. rewrite E. reflexivity.
  - intros rho. rewrite pre_all. rewrite (cexec_path_nocheck p sem2 sem1 call_sem name_code c _ _ _ _ (Hrunp rho)). discriminate.
  - intros rho. apply rel_sub_store. apply H0.
  - exact Hsa.
  - exact reads_s.
  - exact dead_s.
  - exact Hpick.
  - exists S. split; [exact Hreach|]. intros rho. specialize (Hsync rho (s rho)). rewrite pre_all in Hsync. apply Hsync.
    apply cexec_path_nocheck. apply Hrunp.
Qed.
End Segments.

Lemma loops_ok_parts infos c : loops_ok infos c = true ->
  single_assignment c /\ targets_versioned c = true /\ update_bases_fresh infos c = true /\ no_future_version infos c = true.
Proof.
  unfold loops_ok. intros H. apply andb_true_iff in H as [H H4]. apply andb_true_iff in H as [H H3].
  apply andb_true_iff in H as [H1 H2]. split; [apply single_assignment_b_sound; exact H1|auto].
Qed.

Section Statements.
Variable V : Type.
Variable line : V -> V -> Z -> V.
Variable p : Z.
Variable sem2 : infix_op -> Z -> Z -> Z.
Variable sem1 : prefix_op -> Z -> Z.
Variable call_sem : ident -> list Z -> Z.
Variable name_code : ident -> Z.

Theorem loops_runs_represented (c : cfg) (idom : list (option N)) (infos : list binfo) (S0 : fstore V)
    (sg : V -> list (list nat)) (heads : list nat) (s0 s : V -> cstore) (reps : list V) :
  infos_ok infos c = true -> graph_consistent c = true -> loops_ok infos c = true ->
  (forall rho, map (hd 0%nat) (sg rho) = heads /\ Forall (fun seg => seg <> []) (sg rho)) ->
  (forall rho, Forall (StronglySorted lt) (sg rho)) ->
  (forall rho, exists r, In r reps /\ sg r = sg rho) ->
  (forall rho, exists tl, concat (sg rho) = 0%nat :: tl) ->
  (forall rho, rel_store V rho (s0 rho) S0) ->
  (forall rho, cexec_path p sem2 sem1 call_sem name_code c (params_map (c_params c)) (s0 rho) (concat (sg rho)) = Some (s rho)) ->
  picks_decided_sched V p sem2 sem1 call_sem name_code c idom (params_map (c_params c)) s0 reps
                      (length heads * length (c_blocks c)) (blk_s c) (vis_s V c sg) ->
  exists S, freachable V p sem2 sem1 call_sem name_code c idom S0 S /\
            forall rho, sync_on V (current_at c (concat (sg rho))) rho (s rho) S.
Proof.
  intros Hok Hgc Hlo Hheads Hsorted Hreps Hentry H0 Hrun Hpick.
  destruct (loops_ok_parts infos c Hlo) as (Hsa & Htv & Hub & Hnf).
  exact (same_heads_runs_represented V p sem2 sem1 call_sem name_code c idom S0 infos sg heads s0 s reps
           Hsorted Hrun Hheads Hentry Hok (consistent_index c Hgc) Hnf Htv Hub Hreps H0 Hsa Hpick).
Qed.

Hypothesis Hsem2 : forall op, op_den p op (sem2 op).
Hypothesis Hsem1 : forall op, prefix_den p op (sem1 op).

Theorem loops_runs_claims_true (c : cfg) (idom : list (option N)) (infos : list binfo) (S0 : fstore V)
    (sg : V -> list (list nat)) (heads : list nat) (s0 s : V -> cstore) (reps : list V) :
  djust_cfg c idom = true -> finit_ok V line p c S0 ->
  infos_ok infos c = true -> graph_consistent c = true -> loops_ok infos c = true ->
  (forall rho, map (hd 0%nat) (sg rho) = heads /\ Forall (fun seg => seg <> []) (sg rho)) ->
  (forall rho, Forall (StronglySorted lt) (sg rho)) ->
  (forall rho, exists r, In r reps /\ sg r = sg rho) ->
  (forall rho, exists tl, concat (sg rho) = 0%nat :: tl) ->
  (forall rho, rel_store V rho (s0 rho) S0) ->
  (forall rho, cexec_path p sem2 sem1 call_sem name_code c (params_map (c_params c)) (s0 rho) (concat (sg rho)) = Some (s rho)) ->
  picks_decided_sched V p sem2 sem1 call_sem name_code c idom (params_map (c_params c)) s0 reps
                      (length heads * length (c_blocks c)) (blk_s c) (vis_s V c sg) ->
  forall e r (val : V -> cell),
  djust_expr c e = true -> expr_deg e = Some r ->
  (forall rho, cval p sem2 sem1 call_sem name_code (s rho) e = Some (val rho)) ->
  (forall rho y, In y (expr_reads e) -> current_at c (concat (sg rho)) y) ->
  forall i, SemDeg V line p (snd r) (fun rho => val rho i).
Proof.
  intros Hv Hi Hok Hgc Hlo Hheads Hsorted Hreps Hentry H0 Hrun Hpick e r val Hj Hd Hval Hcur.
  destruct (loops_runs_represented c idom infos S0 sg heads s0 s reps Hok Hgc Hlo Hheads Hsorted Hreps Hentry H0 Hrun Hpick)
    as (S & Hreach & Hsync).
  apply (represented_claim_true V line p sem2 sem1 call_sem name_code Hsem2 Hsem1 c idom S0 S e r val Hv Hi Hreach Hj Hd).
  intros rho. exact (cval_den_on V p sem2 sem1 call_sem name_code _ rho (s rho) S e (val rho) (Hsync rho) (Hcur rho) (Hval rho)).
Qed.
End Statements.
