(* Elementary theory of path-based dominance on Ir.cfg (Spec.SsaDomSpec), as far as
   the correctness proof of the SSA construction needs it: dominance is reflexive,
   transitive and (on reachable blocks) antisymmetric; the immediate dominator of a
   block dominates each of its predecessors; only the entry dominates the entry. *)
From Coq Require Import ZArith NArith List Bool Lia Arith.
Require Import Model.Base Model.Ir Spec.SsaDomSpec.
Import ListNotations.

Section Dom.
Variable c : cfg.
Notation n := (length (c_blocks c)).

Lemma cedge_lt a b : cedge c a b -> a < n.
Proof. intros (x & Hx & _). apply nth_error_Some. congruence. Qed.

Lemma cpath_first a b l : cpath c a b l -> exists tl, l = a :: tl.
Proof. intros H. destruct H; eauto. Qed.

Lemma cpath_src_lt a b l : cpath c a b l -> a < n.
Proof. intros H. destruct H as [a Ha|a m b l He _]; [exact Ha|eapply cedge_lt; exact He]. Qed.

Lemma cpath_in_dst a b l : cpath c a b l -> In b l.
Proof. induction 1; [left; reflexivity|right; assumption]. Qed.

Lemma cpath_dst_lt a b l : cpath c a b l -> b < n.
Proof. induction 1; assumption. Qed.

Lemma cpath_snoc a p s l : cpath c a p l -> cedge c p s -> s < n -> cpath c a s (l ++ [s]).
Proof.
  intros H He Hs. induction H as [a Ha|a m b l Hm _ IH]; simpl.
  - apply cpath_cons with (m := s); [exact He|apply cpath_one; exact Hs].
  - apply cpath_cons with (m := m); [exact Hm|apply IH; exact He].
Qed.

Lemma cpath_split : forall l1 a b z l2, cpath c a b (l1 ++ z :: l2) -> cpath c a z (l1 ++ [z]).
Proof.
  induction l1 as [|x l1 IH]; intros a b z l2 H; simpl in *.
  - destruct (cpath_first _ _ _ H) as (tl & E). inversion E; subst z.
    apply cpath_one. eapply cpath_src_lt. exact H.
  - inversion H as [a0 Ha E1 E2|a0 m b0 l He Hp E1 E2]; subst.
    + destruct l1; discriminate.
    + apply cpath_cons with (m := m); [exact He|]. eapply IH. exact Hp.
Qed.

Lemma cdom_refl j : cdom c j j.
Proof. intros l H. eapply cpath_in_dst. exact H. Qed.

Lemma cdom_trans i j k : cdom c i j -> cdom c j k -> cdom c i k.
Proof.
  intros Hij Hjk l H. pose proof (Hjk l H) as Hj. apply in_split in Hj. destruct Hj as (l1 & l2 & ->).
  pose proof (cpath_split _ _ _ _ _ H) as Hp. specialize (Hij _ Hp).
  apply in_app_or in Hij. apply in_or_app. destruct Hij as [Hi|[<-|[]]]; [left; exact Hi|right; left; reflexivity].
Qed.

Lemma cdom_antisym_aux : forall m l a d, length l <= m -> cpath c 0 d l -> cdom c a d -> cdom c d a -> a <> d -> False.
Proof.
  induction m as [|m IH]; intros l a d Hl Hp Had Hda Hne.
  - destruct (cpath_first _ _ _ Hp) as (tl & ->). simpl in Hl. lia.
  - pose proof (Had l Hp) as Ha. apply in_split in Ha. destruct Ha as (l1 & l2 & ->).
    pose proof (cpath_split _ _ _ _ _ Hp) as Hpa.
    pose proof (Hda _ Hpa) as Hd. apply in_app_or in Hd. destruct Hd as [Hd|[Hd|[]]]; [|congruence].
    apply in_split in Hd. destruct Hd as (l3 & l4 & ->).
    rewrite <- app_assoc in Hpa. simpl in Hpa.
    pose proof (cpath_split _ _ _ _ _ Hpa) as Hpd.
    apply (IH (l3 ++ [d]) a d); [|exact Hpd|exact Had|exact Hda|exact Hne].
    repeat (rewrite ?app_length in *; simpl in * ). lia.
Qed.

Lemma cdom_antisym a d : (exists l, cpath c 0 d l) -> cdom c a d -> cdom c d a -> a = d.
Proof.
  intros (l & Hp) Had Hda. destruct (Nat.eq_dec a d) as [E|Hne]; [exact E|exfalso].
  eapply (cdom_antisym_aux (length l) l a d); eauto.
Qed.

Lemma cdom_entry d : 0 < n -> cdom c d 0 -> d = 0.
Proof.
  intros Hn H. specialize (H [0] (cpath_one c 0 Hn)). destruct H as [H|[]]. symmetry. exact H.
Qed.

Lemma cidom_dom_pred d s p : cidom c d s -> cedge c p s -> s < n -> cdom c d p.
Proof.
  intros [[Hd Hne] _] He Hs l Hp.
  pose proof (cpath_snoc _ _ _ _ Hp He Hs) as Hps. specialize (Hd _ Hps).
  apply in_app_or in Hd. destruct Hd as [Hd|[Hd|[]]]; [exact Hd|congruence].
Qed.

Lemma cidom_dom d s : cidom c d s -> cdom c d s.
Proof. intros [[H _] _]. exact H. Qed.
End Dom.
