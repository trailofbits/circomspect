(* C16: the windowed exponentiation mirrored in Model.FieldPow computes the
   value of Model.Field.pow with a number of multiplications that is linear in
   the number of limbs of the exponent. *)
From Coq Require Import ZArith Zpow_facts Lia Bool Znumtheory List.
Require Import Model.Base Model.Field Model.FieldPow Spec.FieldSpec Proofs.FieldProofs.
Import ListNotations.
Local Open Scope Z_scope.
Local Opaque Z.pow.

Lemma mm_pow p x n m : 0 < p -> 0 <= n -> 0 <= m -> mm p (x ^ n mod p) (x ^ m mod p) = x ^ (n + m) mod p.
Proof.
  intros Hp Hn Hm. unfold mm. rewrite <- Zmult_mod. rewrite Z.pow_add_r by lia. reflexivity.
Qed.

Lemma powers_from_nth n : forall p x j i, 0 < p -> 0 <= j -> (i < n)%nat ->
  nth i (powers_from n p (x mod p) (x ^ j mod p)) 0 = x ^ (j + 1 + Z.of_nat i) mod p.
Proof.
  induction n as [|n IH]; intros p x j i Hp Hj Hi; [lia|].
  cbn [powers_from]. cbv zeta.
  assert (E : mm p (x ^ j mod p) (x mod p) = x ^ (j + 1) mod p).
  { replace (x mod p) with (x ^ 1 mod p) by (rewrite Z.pow_1_r; reflexivity). apply mm_pow; lia. }
  rewrite E. destruct i as [|i]; cbn [nth].
  - f_equal. f_equal. lia.
  - rewrite IH by lia. f_equal. f_equal. lia.
Qed.

Lemma powers_nth p x d : 0 < p -> 0 <= d < 16 -> nth (Z.to_nat d) (powers p x) 0 = x ^ d mod p.
Proof.
  intros Hp Hd. unfold powers. cbv zeta.
  destruct (Z.to_nat d) as [|[|i]] eqn:E.
  - cbn [nth]. replace d with 0 by lia. rewrite Z.pow_0_r. reflexivity.
  - cbn [nth]. replace d with 1 by lia. rewrite Z.pow_1_r. reflexivity.
  - cbn [nth]. replace (x mod p) with (x ^ 1 mod p) at 2 by (rewrite Z.pow_1_r; reflexivity).
    rewrite powers_from_nth by lia. f_equal. f_equal. lia.
Qed.

Lemma window_range e k : 0 <= window e k < 16.
Proof. unfold window. apply Z.mod_pos_bound. lia. Qed.

Lemma window_step e k : 0 <= e ->
  e / 16 ^ Z.of_nat k = 16 * (e / 16 ^ Z.of_nat (S k)) + window e k.
Proof.
  intros He. unfold window.
  replace (Z.of_nat (S k)) with (Z.of_nat k + 1) by lia.
  rewrite Z.pow_add_r, Z.pow_1_r by lia.
  rewrite <- Z.div_div by (try apply Z.pow_pos_nonneg; lia).
  apply Z.div_mod. lia.
Qed.

(* loop invariant after the first window: the accumulator stands for x^(the windows consumed
   so far), and every further window costs four squarings and one multiplication *)
Lemma windows_spec p x e : 0 < p -> 0 <= e ->
  forall k z cnt, z = x ^ (e / 16 ^ Z.of_nat k) mod p ->
  windows k false p e (powers p x) z cnt = (x ^ e mod p, cnt + 5 * Z.of_nat k).
Proof.
  intros Hp He. induction k as [|k IH]; intros z cnt Hz; cbn [windows].
  - rewrite Hz. change (Z.of_nat 0) with 0. rewrite Z.pow_0_r, Z.div_1_r. f_equal. lia.
  - pose proof (window_range e k) as Hw. pose proof (window_step e k He) as Hs.
    assert (Hq : 0 <= e / 16 ^ Z.of_nat (S k)) by (apply Z.div_pos; [lia|apply Z.pow_pos_nonneg; lia]).
    set (q := e / 16 ^ Z.of_nat (S k)) in *. clearbody q. subst z. cbv zeta.
    rewrite powers_nth by lia. rewrite IH; [f_equal; lia|].
    rewrite !mm_pow, Hs by lia. f_equal. f_equal. lia.
Qed.

Lemma nlimbs_nonneg e : 0 <= nlimbs e.
Proof. unfold nlimbs. pose proof (bits_ge0 e). apply Z.div_pos; lia. Qed.

Lemma above_all_windows e : 0 <= e -> e / 16 ^ Z.of_nat (Z.to_nat (16 * nlimbs e)) = 0.
Proof.
  intros He. pose proof (nlimbs_nonneg e) as Hl. rewrite Z2Nat.id by lia.
  change 16 with (2 ^ 4) at 1. rewrite <- Z.pow_mul_r by lia.
  apply (shr_doc_small e (bits e)); [pose proof (lt_pow2_bits e); lia|].
  unfold nlimbs. Z.div_mod_to_equations. lia.
Qed.

Definition monty_steps (e : Z) : Z := if e =? 0 then 17 else 80 * nlimbs e + 13.

Lemma monty_modpow_spec x e p : 0 < p -> 0 <= e ->
  monty_modpow x e p = (x ^ e mod p, monty_steps e).
Proof.
  intros Hp He. unfold monty_modpow, monty_steps. cbv zeta.
  pose proof (above_all_windows e He) as Habove. pose proof (nlimbs_nonneg e) as Hl.
  assert (H0 : nth 0 (powers p x) 0 = x ^ 0 mod p) by (apply (powers_nth p x 0); lia).
  destruct (Z.to_nat (16 * nlimbs e)) as [|k] eqn:Ek; cbn [windows]; rewrite H0.
  - (* no limb: the exponent is 0 *)
    change (Z.of_nat 0) with 0 in Habove. rewrite Z.pow_0_r, Z.div_1_r in Habove. subst e.
    rewrite Z.mod_mod by lia. reflexivity.
  - (* the first window is not preceded by squarings; the accumulator is Montgomery 1 *)
    pose proof (window_range e k) as Hw. pose proof (window_step e k He) as Hs. rewrite Habove in Hs.
    rewrite powers_nth, mm_pow by lia. rewrite (windows_spec p x e Hp He) by (rewrite Hs; f_equal; lia).
    rewrite Z.mod_mod by lia.
    destruct (Z.eqb_spec e 0) as [->|_]; [discriminate Ek|]. f_equal. lia.
Qed.

Lemma odd_prime_odd p : prime p -> 2 < p -> Z.odd p = true.
Proof.
  intros Hprime Hp. destruct (Z.odd p) eqn:E; [reflexivity|exfalso].
  assert (Hev : Z.even p = true) by (rewrite <- Z.negb_odd, E; reflexivity).
  apply Z.even_spec in Hev. destruct Hev as [k Hk].
  destruct Hprime as [_ Hrel]. specialize (Hrel 2 ltac:(lia)).
  apply Zgcd_1_rel_prime in Hrel.
  assert (Z.gcd 2 p = 2). { subst p. apply Z.gcd_mul_diag_l; lia. }
  lia.
Qed.

Theorem modpow_steps_spec b e p :
  prime p -> 2 < p -> 0 <= b -> 0 <= e ->
  modpow_steps b e p = Ok (pow b e p, monty_steps e).
Proof.
  intros Hprime Hp Hb He. unfold modpow_steps.
  destruct (Z.ltb_spec e 0); [lia|]. destruct (Z.eqb_spec p 0); [lia|].
  rewrite (odd_prime_odd p Hprime Hp). cbn [negb].
  rewrite !Z.abs_eq by lia. rewrite monty_modpow_spec by lia.
  unfold pow. rewrite Zpow_mod_spec by lia.
  destruct (Z.ltb_spec b 0); [lia|]. destruct (Z.ltb_spec p 0); [lia|].
  destruct (Z.eqb_spec (b ^ e mod p) 0) as [->|]; reflexivity.
Qed.

Theorem monty_steps_bound e : 0 <= e -> 17 <= monty_steps e <= 2 * bits e + 93.
Proof.
  intros He. unfold monty_steps, nlimbs. rewrite bits_spec by lia.
  destruct (Z.eqb_spec e 0) as [->|Hn]; [cbn; lia|].
  pose proof (Z.log2_nonneg e). Z.div_mod_to_equations. lia.
Qed.
