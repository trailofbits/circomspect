(* C01 (on top of C14's construction mirror Model.Ssa): the SSA construction never
   reaches one of its assert!/expect sites ([SPanic]) on a graph whose variables are
   still unversioned and whose dominator-tree children lists describe a tree.

   Sites (control_flow_graph/ssa_impl.rs, static_single_assignment/mod.rs):
     assert!(name.version().is_none()) / assert!(var.version().is_none())   renaming
     expect("invalid block index during SSA generation")                    tree walk
     basic_blocks[current_index] / basic_blocks[frontier_index]             phi insertion
   [SFuel] (the fuelled work list and tree recursion of the mirror) and
   [SErrUndefined] (a genuine error report) are not excluded here. *)
From Coq Require Import ZArith NArith List Bool Lia Arith.
Require Import Model.Base Model.Ir Model.SsaCheck Model.Ssa Proofs.IrInd.
Require Export Proofs.SsaWalk.
Require Import Proofs.BaseFacts.
Import ListNotations.

Definition np {A} (m : ssa_result A) : Prop := m <> SPanic.

Lemma np_bind {A B} (m : ssa_result A) (f : A -> ssa_result B) :
  np m -> (forall a, m = SOk a -> np (f a)) -> np (sbind m f).
Proof. unfold np. intros Hm Hf. destruct m; simpl; try discriminate; auto. Qed.

(* The renaming has no fuel and its only panics are the two assertions: an outcome is
   never [SFuel], and [SPanic] only when the condition [u] on the input fails.  Both
   C01 statements about the renaming (here and in Proofs.SsaFuel) are read off this. *)
Definition fine {A} (u : bool) (m : ssa_result A) : Prop :=
  match m with SFuel => False | SPanic => u = false | _ => True end.

Lemma fine_bind {A B} u1 u2 (m : ssa_result A) (f : A -> ssa_result B) :
  fine u1 m -> (forall a, fine u2 (f a)) -> fine (u1 && u2) (sbind m f).
Proof.
  destruct m as [a| | |]; cbn; intros Hm Hf; [|exact I|subst; reflexivity|exact Hm].
  specialize (Hf a). destruct (f a); cbn in *; auto. subst. apply andb_false_r.
Qed.

Lemma fine_last {A B} u (m : ssa_result A) (f : A -> ssa_result B) :
  fine u m -> (forall a, fine true (f a)) -> fine u (sbind m f).
Proof. intros Hm Hf. rewrite <- (andb_true_r u). apply fine_bind; assumption. Qed.

Lemma fine_np {A} u (m : ssa_result A) : fine u m -> u = true -> np m.
Proof. intros H Hu ->. cbn in H. congruence. Qed.

Definition isnone {A} (o : option A) : bool := match o with None => true | Some _ => false end.

(* every variable occurrence that the renaming asserts on is unversioned; the
   arguments of a phi expression are never visited *)
Fixpoint expr_unv (e : expr) : bool :=
  let fix l_unv (es : list expr) : bool :=
      match es with [] => true | x :: tl => expr_unv x && l_unv tl end in
  let fix a_unv (acc : list (access expr)) : bool :=
      match acc with
      | [] => true
      | AComp _ :: tl => a_unv tl
      | AIdx x :: tl => expr_unv x && a_unv tl
      end in
  match e with
  | ENum _ _ | EPhi _ _ => true
  | EVar v _ => isnone (vn_version v)
  | EInfix _ l r _ => expr_unv l && expr_unv r
  | EPrefix _ x _ => expr_unv x
  | ESwitch c t f _ => expr_unv c && expr_unv t && expr_unv f
  | ECall _ args _ => l_unv args
  | EArray vs _ => l_unv vs
  | EAccess v acc _ => isnone (vn_version v) && a_unv acc
  | EUpdate v acc rhe _ => isnone (vn_version v) && a_unv acc && expr_unv rhe
  end.

Fixpoint list_unv (es : list expr) : bool :=
  match es with [] => true | x :: tl => expr_unv x && list_unv tl end.
Fixpoint acc_unv (acc : list (access expr)) : bool :=
  match acc with
  | [] => true
  | AComp _ :: tl => acc_unv tl
  | AIdx x :: tl => expr_unv x && acc_unv tl
  end.

Lemma expr_unv_call n args k : expr_unv (ECall n args k) = list_unv args.
Proof. reflexivity. Qed.
Lemma expr_unv_array vs k : expr_unv (EArray vs k) = list_unv vs.
Proof. reflexivity. Qed.
Lemma expr_unv_access v acc k : expr_unv (EAccess v acc k) = isnone (vn_version v) && acc_unv acc.
Proof. reflexivity. Qed.
Lemma expr_unv_update v acc rhe k :
  expr_unv (EUpdate v acc rhe k) = isnone (vn_version v) && acc_unv acc && expr_unv rhe.
Proof. reflexivity. Qed.

Lemma isnone_true {A} (o : option A) : isnone o = true -> o = None.
Proof. destruct o; [discriminate|reflexivity]. Qed.

Definition logarg_unv (a : logarg) : bool := match a with LStr => true | LExpr e => expr_unv e end.

Definition stmt_unv (s : stmt) : bool :=
  match s with
  | SDecl _ _ _ dims => list_unv dims
  | SSubst _ v _ rhe _ _ => isnone (vn_version v) && expr_unv rhe
  | SCeq _ l r => expr_unv l && expr_unv r
  | SLog _ args => forallb logarg_unv args
  | SIf _ c _ _ => expr_unv c
  | SRet _ e => expr_unv e
  | SAssert _ e => expr_unv e
  end.

Definition block_unv (b : block) : bool := forallb stmt_unv (b_stmts b).

Section Rename.
Variable decls : list (vname * vtype).

Lemma rename_read_fine env v : fine (isnone (vn_version v)) (rename_read decls env v).
Proof.
  unfold rename_read. destruct (vn_version v); [reflexivity|].
  destruct (is_local_in decls v); [|exact I]. destruct (cur_version env v); exact I.
Qed.

Definition expr_fine (e : expr) : Prop := forall env, fine (expr_unv e) (ssa_expr decls env e).

Lemma ssa_list_fine : forall es, Forall expr_fine es -> forall env, fine (list_unv es) (ssa_list decls env es).
Proof.
  induction 1 as [|x tl Hx _ IH]; intros env; cbn [list_unv ssa_list]; [exact I|].
  apply fine_bind; [apply Hx|]. intros [x' env1]. apply fine_last; [apply IH|]. intros [tl' env2]. exact I.
Qed.

Lemma ssa_acc_fine : forall acc, Forall expr_fine (acc_exprs acc) ->
  forall env, fine (acc_unv acc) (ssa_acc decls env acc).
Proof.
  induction acc as [|[x|n] tl IH]; cbn [acc_exprs flat_map app acc_unv ssa_acc]; intros HF env; [exact I| |].
  - apply Forall_cons_iff in HF as [Hx Htl].
    apply fine_bind; [apply Hx|]. intros [x' env1]. apply fine_last; [apply IH; exact Htl|]. intros [tl' env2]. exact I.
  - apply fine_last; [apply IH; exact HF|]. intros [tl' env2]. exact I.
Qed.

Lemma ssa_expr_fine : forall e, expr_fine e.
Proof.
  induction e as [z k|v k|op l r k IHl IHr|op x k IHx|c t f k IHc IHt IHf|n args k IH|vs k IH
                 |v acc k IH|v acc rhe k IH IHr|args k] using expr_ind'; intros env.
  - exact I.
  - cbn [ssa_expr expr_unv]. destruct (is_local_in decls v); [|exact I].
    apply fine_last; [apply rename_read_fine|]. intros v'. exact I.
  - cbn [ssa_expr expr_unv]. apply fine_bind; [apply IHl|]. intros [l' env1].
    apply fine_last; [apply IHr|]. intros [r' env2]. exact I.
  - cbn [ssa_expr expr_unv]. apply fine_last; [apply IHx|]. intros [x' env1]. exact I.
  - cbn [ssa_expr expr_unv]. rewrite <- andb_assoc. apply fine_bind; [apply IHc|]. intros [c' env1].
    apply fine_bind; [apply IHt|]. intros [t' env2]. apply fine_last; [apply IHf|]. intros [f' env3]. exact I.
  - rewrite expr_unv_call, ssa_expr_call. apply fine_last; [apply ssa_list_fine; exact IH|]. intros [a e1]. exact I.
  - rewrite expr_unv_array, ssa_expr_array. apply fine_last; [apply ssa_list_fine; exact IH|]. intros [a e1]. exact I.
  - rewrite expr_unv_access, ssa_expr_access, andb_comm.
    apply fine_bind; [apply ssa_acc_fine; exact IH|]. intros [acc' env1].
    destruct (is_local_in decls v); [|exact I]. apply fine_last; [apply rename_read_fine|]. intros v'. exact I.
  - rewrite expr_unv_update, ssa_expr_update, andb_comm, (andb_comm (isnone _)).
    apply fine_bind; [apply IHr|]. intros [rhe' env1].
    apply fine_bind; [apply ssa_acc_fine; exact IH|]. intros [acc' env2].
    destruct (is_local_in decls v); [|exact I]. destruct (vn_version v); [reflexivity|].
    destruct (cur_version env2 v); [exact I|]. destruct (next_version env2 v). exact I.
  - exact I.
Qed.

Lemma ssa_expr_np : forall e env, expr_unv e = true -> np (ssa_expr decls env e).
Proof. intros e env. apply fine_np. apply ssa_expr_fine. Qed.

Lemma ssa_logargs_fine : forall es env, fine (forallb logarg_unv es) (ssa_logargs decls env es).
Proof.
  induction es as [|[|x] tl IH]; intros env; cbn [forallb logarg_unv ssa_logargs]; [exact I| |].
  - apply fine_last; [apply IH|]. intros [tl' env2]. exact I.
  - apply fine_bind; [apply ssa_expr_fine|]. intros [x' env1]. apply fine_last; [apply IH|]. intros [tl' env2]. exact I.
Qed.

Lemma ssa_stmt_fine s env : fine (stmt_unv s) (ssa_stmt decls env s).
Proof.
  destruct s as [m names t dims|m c t f|m e|m v op rhe sval stype|m l r|m args|m e]; cbn [stmt_unv ssa_stmt].
  - apply fine_last; [apply ssa_list_fine, Forall_forall; intros e _; apply ssa_expr_fine|]. intros [d e1]. exact I.
  - apply fine_last; [apply ssa_expr_fine|]. intros [d e1]. exact I.
  - apply fine_last; [apply ssa_expr_fine|]. intros [d e1]. exact I.
  - destruct (vn_version v); [reflexivity|]. apply fine_last; [apply ssa_expr_fine|]. intros [rhe' env1].
    destruct (is_local_in decls v); [destruct (next_version env1 v)|]; exact I.
  - apply fine_bind; [apply ssa_expr_fine|]. intros [l' env1]. apply fine_last; [apply ssa_expr_fine|]. intros [r' env2]. exact I.
  - apply fine_last; [apply ssa_logargs_fine|]. intros [d e1]. exact I.
  - apply fine_last; [apply ssa_expr_fine|]. intros [d e1]. exact I.
Qed.

Lemma ssa_stmts_fine : forall ss env, fine (forallb stmt_unv ss) (ssa_stmts decls env ss).
Proof.
  induction ss as [|s tl IH]; intros env; cbn [forallb ssa_stmts]; [exact I|].
  apply fine_bind; [apply ssa_stmt_fine|]. intros [s' env1]. apply fine_last; [apply IH|]. intros [tl' env2]. exact I.
Qed.
End Rename.

Lemma phi_stmt_unv v : stmt_unv (phi_stmt_for v) = true.
Proof. reflexivity. Qed.

Definition all_unv (bs : list block) : Prop := forall i b, nth_error bs i = Some b -> block_unv b = true.

Lemma all_unv_Forall bs : all_unv bs <-> Forall (fun b => block_unv b = true) bs.
Proof.
  rewrite Forall_forall. split.
  - intros H b Hb. apply In_nth_error in Hb as [i Hi]. exact (H i b Hi).
  - intros H i b Hi. apply H. eapply nth_error_In. exact Hi.
Qed.

Lemma process_frontier_length vars : forall fr bs work, length (fst (process_frontier vars fr bs work)) = length bs.
Proof.
  induction fr as [|f tl IH]; intros bs work; simpl; [reflexivity|].
  destruct (nth_error bs (N.to_nat f)) as [b|]; [|apply IH].
  destruct (add_phis vars b 0) as [b' pushes]. rewrite IH. apply update_nth_length.
Qed.

(* the work list holds indices of blocks: the only panic of the work list is out of reach *)
Lemma process_frontier_work vars : forall fr bs work, Forall (fun i => i < length bs) work ->
  Forall (fun i => i < length bs) (snd (process_frontier vars fr bs work)).
Proof.
  induction fr as [|f tl IH]; intros bs work Hw; simpl; [exact Hw|].
  destruct (nth_error bs (N.to_nat f)) as [b|] eqn:E; [|apply IH; exact Hw].
  destruct (add_phis vars b 0) as [b' pushes].
  rewrite <- (update_nth_length (fun _ => b') bs (N.to_nat f)). apply IH. rewrite update_nth_length.
  apply Forall_app. split; [|exact Hw]. apply Forall_forall. intros x Hx. apply repeat_spec in Hx. subst x.
  apply nth_error_Some. congruence.
Qed.

Lemma insert_phis_np frontier : forall fuel bs work,
  Forall (fun i => i < length bs) work -> np (insert_phis fuel frontier bs work).
Proof.
  induction fuel as [|fuel IH]; intros bs [|cur rest] Hw; cbn [insert_phis]; try discriminate.
  apply Forall_cons_iff in Hw as [Hc Hr].
  destruct (nth_error bs cur) as [b|] eqn:E; [|apply nth_error_None in E; lia].
  destruct (vars_written b) as [|v vs]; [apply IH; exact Hr|].
  pose proof (process_frontier_work (v :: vs) (nth cur frontier []) bs rest Hr) as Hw'.
  pose proof (process_frontier_length (v :: vs) (nth cur frontier []) bs rest) as L.
  destruct (process_frontier (v :: vs) (nth cur frontier []) bs rest) as [bs1 work1]. cbn [fst snd] in *.
  apply IH. rewrite L. exact Hw'.
Qed.

Lemma insert_phis_unv frontier fuel bs work bs' :
  insert_phis fuel frontier bs work = SOk bs' -> all_unv bs -> all_unv bs' /\ length bs' = length bs.
Proof.
  intros H Hu. apply all_unv_Forall, forall2_of_Forall in Hu.
  apply (insert_phis_keeps (fun _ => True) _ (fun _ _ _ _ _ => I) (fun _ b v _ (Hb : block_unv b = true) => Hb) _ _ _ _ _ _ H) in Hu.
  split; [eapply all_unv_Forall, Forall_of_forall2; exact Hu|eapply forall2_length; exact Hu].
Qed.

Definition unv_at (bs : list block) (i : nat) : Prop :=
  exists b, nth_error bs i = Some b /\ block_unv b = true.

Lemma unv_at_update bs i f j : (forall b, block_unv b = true -> block_unv (f b) = true) ->
  unv_at bs j -> unv_at (update_nth bs i f) j.
Proof.
  intros Hf (b & Hb & Hu). destruct (Nat.eq_dec i j) as [->|Hne].
  - exists (f b). split; [apply update_nth_same; exact Hb|apply Hf; exact Hu].
  - exists b. split; [rewrite update_nth_other by exact Hne; exact Hb|exact Hu].
Qed.

Lemma unv_at_update_other bs i (f : block -> block) j : i <> j -> unv_at bs j -> unv_at (update_nth bs i f) j.
Proof. intros Hne (b & Hb & Hu). exists b. split; [rewrite update_nth_other by exact Hne; exact Hb|exact Hu]. Qed.

Lemma ensure_phi_arg_unv env s : stmt_unv (ensure_phi_arg env s) = stmt_unv s.
Proof. apply ensure_phi_arg_same. reflexivity. Qed.

Lemma update_phis_unv env : forall ss, forallb stmt_unv (update_phis env ss) = forallb stmt_unv ss.
Proof.
  induction ss as [|s tl IH]; simpl; [reflexivity|].
  destruct (is_phi_stmt s); [|reflexivity]. simpl. rewrite ensure_phi_arg_unv, IH. reflexivity.
Qed.

Lemma block_unv_update_phis env b :
  block_unv b = true -> block_unv (set_stmts b (update_phis env (b_stmts b))) = true.
Proof. unfold block_unv. cbn [set_stmts b_stmts]. rewrite update_phis_unv. auto. Qed.



Section Tree.
Variable decls : list (vname * vtype).
Variable children : list (list N).

(* a block outside the subtree is touched only by adding phi arguments *)
Lemma rename_tree_frame fuel cur bs env bs' env' :
  rename_tree fuel decls children cur bs env = SOk (bs', env') ->
  forall i, ~ In i (preorder fuel children cur) -> unv_at bs i -> unv_at bs' i.
Proof.
  intros H.
  refine (proj1 (rename_tree_inv decls children (fun i => In i (preorder fuel children cur))
            (fun _ l => forall i, ~ In i (preorder fuel children cur) -> unv_at bs i -> unv_at l i)
            (fun _ => True) _ _ _ _ _ _ _ _ _ _ _ (fun _ Hi => Hi) H (fun _ _ Hi => Hi))); auto.
  - intros e l c b ss e1 Hc Hl _ _. split; [|exact I]. intros i Hi Hu.
    apply unv_at_update_other; [intros ->; exact (Hi Hc)|auto].
  - intros e l s Hl i Hi Hu. apply unv_at_update; [apply block_unv_update_phis|auto].
Qed.

(* the walk meets each block of the subtree once, so it finds it unversioned *)
Lemma rename_tree_np : forall fuel cur bs env,
  NoDup (preorder fuel children cur) ->
  (forall i, In i (preorder fuel children cur) -> unv_at bs i) ->
  np (rename_tree fuel decls children cur bs env).
Proof.
  induction fuel as [|fuel IH]; intros cur bs env Hnd Hunv; [discriminate|].
  rewrite rename_tree_unfold. cbn [preorder] in *. apply NoDup_cons_iff in Hnd as [Hcur Hkids].
  destruct (Hunv cur (or_introl eq_refl)) as (b & Hb & Hbu). rewrite Hb.
  apply np_bind; [exact (fine_np _ _ (ssa_stmts_fine decls _ env) Hbu)|]. intros [ss env1] _.
  assert (U : forall i, In i (flat_map (fun k => preorder fuel children (N.to_nat k)) (nth cur children [])) ->
              unv_at (update_succ_phis env1 (b_succs b) (update_nth bs cur (fun b0 => set_stmts b0 ss))) i).
  { intros i Hi. generalize (b_succs b). intros succs.
    assert (H1 : unv_at (update_nth bs cur (fun b0 => set_stmts b0 ss)) i).
    { apply unv_at_update_other; [intros ->; exact (Hcur Hi)|]. apply Hunv. right. exact Hi. }
    revert H1. generalize (update_nth bs cur (fun b0 => set_stmts b0 ss)).
    induction succs as [|s tl IHs]; intros l Hl; cbn [update_succ_phis]; [exact Hl|].
    apply IHs. apply unv_at_update; [apply block_unv_update_phis|exact Hl]. }
  clear Hcur Hunv. revert Hkids U.
  generalize (update_succ_phis env1 (b_succs b) (update_nth bs cur (fun b0 => set_stmts b0 ss))). generalize env1.
  induction (nth cur children []) as [|k tl IHk]; intros e l Hkids U; cbn [rename_kids flat_map] in *; [discriminate|].
  apply NoDup_app_iff in Hkids as (Hk & Htl & Hd).
  apply np_bind; [apply IH; [exact Hk|]; intros i Hi; apply U, in_or_app; left; exact Hi|].
  intros [l1 e1] E1. apply IHk; [exact Htl|]. intros i Hi.
  apply (rename_tree_frame _ _ _ _ _ _ E1); [intros Hin; exact (Hd i Hin Hi)|apply U, in_or_app; right; exact Hi].
Qed.
End Tree.

(* the hypotheses: no variable of the graph carries a version yet (IR lifting builds
   names with from_string / with_suffix only), and the children lists of the
   dominator tree describe a tree below block 0 whose nodes are blocks of the graph
   (C15: a block is a child of its unique immediate dominator, which strictly
   dominates it) *)
Definition unversioned (c : cfg) : Prop := all_unv (c_blocks c).
Definition children_tree (children : list (list N)) (n : nat) : Prop :=
  NoDup (preorder (S n) children 0) /\ forall i, In i (preorder (S n) children 0) -> i < n.

Theorem into_ssa_never_panics frontier children c :
  unversioned c -> children_tree children (length (c_blocks c)) ->
  into_ssa frontier children c <> SPanic.
Proof.
  intros Hu [Hnd Hin]. change (np (into_ssa frontier children c)). unfold into_ssa.
  apply np_bind.
  { apply insert_phis_np. apply Forall_forall. intros x Hx. apply in_rev in Hx. apply in_seq in Hx. lia. }
  intros bs1 E1. destruct (insert_phis_unv _ _ _ _ _ E1 Hu) as [U1 L1].
  apply np_bind; [|intros [bs2 env] _; discriminate].
  apply rename_tree_np; [exact Hnd|]. intros i Hi. specialize (Hin i Hi).
  destruct (nth_error bs1 i) as [b|] eqn:Eb; [|apply nth_error_None in Eb; lia].
  exists b. split; [exact Eb|]. eapply U1. exact Eb.
Qed.

Lemma NoDup_flat_map {A B} (g : A -> list B) : forall l,
  NoDup l -> (forall a, In a l -> NoDup (g a)) ->
  (forall a b x, In a l -> In b l -> a <> b -> In x (g a) -> ~ In x (g b)) ->
  NoDup (flat_map g l).
Proof.
  induction l as [|a l IH]; intros Hl Hg Hd; simpl; [constructor|].
  apply NoDup_cons_iff in Hl as [Ha Hl'].
  apply NoDup_app_intro.
  - apply Hg. left. reflexivity.
  - apply IH; [exact Hl'|intros; apply Hg; right; assumption|].
    intros a0 b x Ha0 Hb. apply Hd; right; assumption.
  - intros x Hx Hin. apply in_flat_map in Hin. destruct Hin as (b & Hb & Hxb).
    apply (Hd a b x (or_introl eq_refl) (or_intror Hb)); [intros ->; exact (Ha Hb)|exact Hx|exact Hxb].
Qed.

Section Kids.
Variable children : list (list N).
Definition kids (j : nat) : list nat := map N.to_nat (nth j children []).
End Kids.

(* A children table describes a tree as soon as some rank grows strictly from a parent to
   its children, a children list has no duplicates and a block has one parent. *)
Section RankTree.
Variable children : list (list N).
Variable n : nat.
Variable r : nat -> nat.
Hypothesis kid_rank : forall j k, In k (kids children j) -> r j < r k /\ k < n.
Hypothesis kid_nodup : forall j, NoDup (kids children j).
Hypothesis kid_parent : forall j j' k, In k (kids children j) -> In k (kids children j') -> j = j'.

Lemma preorder_step f cur :
  preorder (S f) children cur = cur :: flat_map (preorder f children) (kids children cur).
Proof.
  simpl. f_equal. unfold kids. induction (nth cur children []) as [|k tl IH]; simpl; [reflexivity|].
  rewrite IH. reflexivity.
Qed.

Lemma sub_ge : forall f k x, In x (preorder f children k) -> r k <= r x.
Proof.
  induction f as [|f IH]; intros k x H; [contradiction|].
  rewrite preorder_step in H. destruct H as [->|H]; [lia|].
  apply in_flat_map in H. destruct H as (c & Hc & Hx).
  apply IH in Hx. destruct (kid_rank k c Hc). lia.
Qed.

Lemma sub_lt : forall f k x, k < n -> In x (preorder f children k) -> x < n.
Proof.
  induction f as [|f IH]; intros k x Hk H; [contradiction|].
  rewrite preorder_step in H. destruct H as [->|H]; [exact Hk|].
  apply in_flat_map in H. destruct H as (c & Hc & Hx).
  apply (IH c x); [apply (kid_rank k c Hc)|exact Hx].
Qed.

(* the parent of a proper descendant of a lies in the subtree of a *)
Lemma sub_parent : forall f a x p, In x (preorder f children a) -> x <> a -> In x (kids children p) ->
  In p (preorder f children a).
Proof.
  induction f as [|f IH]; intros r0 x p H Hne Hp; [contradiction|].
  rewrite preorder_step in H |- *. destruct H as [->|H]; [congruence|].
  apply in_flat_map in H. destruct H as (c & Hc & Hx).
  destruct (Nat.eq_dec x c) as [->|Hxc].
  - left. exact (kid_parent _ _ _ Hc Hp).
  - right. apply in_flat_map. exists c. split; [exact Hc|]. exact (IH c x p Hx Hxc Hp).
Qed.

Lemma sub_self_or_child f r0 x : In x (preorder (S f) children r0) ->
  x = r0 \/ exists c, In c (kids children r0) /\ In x (preorder f children c).
Proof.
  rewrite preorder_step. intros [->|H]; [left; reflexivity|].
  apply in_flat_map in H. destruct H as (c & Hc & Hx). right. eauto.
Qed.

Lemma sub_mono f r0 c x : In c (kids children r0) -> In x (preorder f children c) -> In x (preorder (S f) children r0).
Proof. intros Hc Hx. rewrite preorder_step. right. apply in_flat_map. eauto. Qed.

(* two subtrees that meet are nested *)
Lemma sub_meet : forall f k k' x, k <> k' ->
  In x (preorder f children k) -> In x (preorder f children k') ->
  In k (preorder f children k') \/ In k' (preorder f children k).
Proof.
  induction f as [|f IH]; intros k k' x Hne H H'; [contradiction|].
  destruct (sub_self_or_child f k x H) as [->|(c & Hc & Hx)]; [left; exact H'|].
  destruct (sub_self_or_child f k' x H') as [->|(c' & Hc' & Hx')]; [right; exact H|].
  destruct (Nat.eq_dec c c') as [->|Hcc]; [exfalso; apply Hne; exact (kid_parent _ _ _ Hc Hc')|].
  destruct (IH c c' x Hcc Hx Hx') as [Hin|Hin].
  - left. apply (sub_mono f k' c' k Hc'). exact (sub_parent f c' c k Hin Hcc Hc).
  - right. apply (sub_mono f k c k' Hc). apply (sub_parent f c c' k' Hin); [congruence|exact Hc'].
Qed.

Lemma preorder_nodup : forall f cur, NoDup (preorder f children cur).
Proof.
  induction f as [|f IH]; intros cur; [constructor|].
  rewrite preorder_step. constructor.
  - intros Hin. apply in_flat_map in Hin. destruct Hin as (c & Hc & Hx).
    apply sub_ge in Hx. destruct (kid_rank cur c Hc). lia.
  - apply NoDup_flat_map; [apply kid_nodup|intros; apply IH|].
    intros c c' x Hc Hc' Hne Hx Hx'.
    (* the parent cur of the deeper of c and c' lies below the other *)
    destruct (sub_meet f c c' x Hne Hx Hx') as [Hin|Hin].
    + pose proof (sub_parent f c' c cur Hin Hne Hc) as Hp. apply sub_ge in Hp.
      destruct (kid_rank cur c' Hc'). lia.
    + pose proof (sub_parent f c c' cur Hin (fun e => Hne (eq_sym e)) Hc') as Hp. apply sub_ge in Hp.
      destruct (kid_rank cur c Hc). lia.
Qed.

Theorem children_tree_of_rank : 0 < n -> children_tree children n.
Proof. intros Hn. split; [apply preorder_nodup|]. intros i Hi. exact (sub_lt (S n) 0 i Hn Hi). Qed.
End RankTree.

(* What C15 and C12 state about the dominator tree, in list form:
     kid_range   a child is a block of the graph and has a larger index than its
                 parent (the parent strictly dominates it, C15_idom_exact;
                 dominance implies <=, C12_dom_implies_le)
     kid_nodup   a children list has no duplicates (it enumerates a set)
     kid_parent  a block is a child of at most one block (children invert the
                 immediate-dominator function, C15_dom_tree_children_invert_idom) *)
Section TreeShape.
Variable children : list (list N).
Variable n : nat.

Hypothesis kid_range : forall j k, In k (kids children j) -> j < k /\ k < n.
Hypothesis kid_nodup : forall j, NoDup (kids children j).
Hypothesis kid_parent : forall j j' k, In k (kids children j) -> In k (kids children j') -> j = j'.

Theorem children_tree_of_order : 0 < n -> children_tree children n.
Proof. exact (children_tree_of_rank children n (fun i => i) kid_range kid_nodup kid_parent). Qed.
End TreeShape.

(* the closed form used by C01: unversioned graph + the three order facts *)
Theorem into_ssa_never_panics_tree frontier children c :
  unversioned c -> 0 < length (c_blocks c) ->
  (forall j k, In k (kids children j) -> j < k /\ k < length (c_blocks c)) ->
  (forall j, NoDup (kids children j)) ->
  (forall j j' k, In k (kids children j) -> In k (kids children j') -> j = j') ->
  into_ssa frontier children c <> SPanic.
Proof.
  intros Hu Hn H1 H2 H3. apply into_ssa_never_panics; [exact Hu|].
  exact (children_tree_of_order children (length (c_blocks c)) H1 H2 H3 Hn).
Qed.
