(* C07: diverging runs in LOOP-FREE graphs in single-assignment form are represented by the
   lock-step relation of Spec.DegSem.

   The schedule.  The lock-step relation fires, block after block in the order of the indices,
   every statement of every block that SOME run visits, for ALL valuations
   (Proofs.DegRunLoops.block_all, with every name valid): valuations that do not visit the block
   compute it speculatively (harmless: single assignment, nobody reads a cell he has not
   assigned).  A leading phi of a join copies, for a valuation that visits the block, the
   argument that arrives along its path; for the others the argument of a fixed visitor.

   The assumption [picks_decided] of Proofs.DegRunBranch about the family is then DERIVED for
   loop-free graphs that (a) pass the SSA validator of C14 (Model.SsaCheck.infos_ok: then the
   version that arrives at a block is a function of the incoming edge), (b) have the predecessor
   and successor lists of a lifted skeleton, are consistent and come with their true
   immediate-dominator table (then the block where two runs part is named by
   Spec.DegSem.decides: Proofs.CtlBridge), (c) are in single-assignment form (then the
   condition the runs parted on still has, in the stores with which they enter the join,
   the value it branched on). *)
From Coq Require Import ZArith NArith List Bool Arith Lia Sorting.Sorted.
Require Import Model.Base Model.Ir Model.SsaCheck Model.Propagate Model.Justify Model.DegJustify.
Require Import Spec.PolyDeg Spec.SsaSpec Spec.DegSem Spec.DegRun Proofs.IrInd Proofs.IrFacts Proofs.ValueProofs Proofs.SsaProofs.
Require Import Proofs.DegGraphProofs Proofs.DegRunProofs Proofs.DegRunBranch Proofs.DegRunLoops.
Require Model.Lift Model.DegGraph Spec.CtlSpec Proofs.MirrorsDom Proofs.DegGraphRooted Proofs.CtlBridge Proofs.CtlSplitWalks.
Import ListNotations.
Local Open Scope Z_scope.

Lemma enter_block_vmap L b L' : enter_block L b = Some L' -> L' = block_vmap L b.
Proof.
  unfold enter_block, block_vmap. destruct (leading_phis (b_stmts b)) as [phis body].
  destruct (forallb (phi_read_ok L) phis); [apply body_run_fold|discriminate].
Qed.

(* where two walks from a common block part for the last time *)
Lemma parting_block (a : nat) : forall k (d : nat) tl1 tl2, (length tl1 <= k)%nat ->
  ~ In a tl1 -> ~ In a tl2 -> last tl1 d <> last tl2 d ->
  exists q h1 t1 h2 t2, d :: tl1 = h1 ++ q :: t1 /\ d :: tl2 = h2 ++ q :: t2 /\
    (forall x, In x t1 -> ~ In x t2) /\ hd a t1 <> hd a t2.
Proof.
  induction k as [|k IH]; intros d tl1 tl2 Hk Ha1 Ha2 Hlast.
  - destruct tl1; [|cbn in Hk; lia]. exists d, [], [], [], tl2. split; [reflexivity|]. split; [reflexivity|].
    split; [intros x []|]. destruct tl2 as [|y tl2]; [cbn in Hlast; congruence|].
    cbn [hd]. intros ->. apply Ha2. left. reflexivity.
  - destruct (find (fun x => existsb (Nat.eqb x) tl2) tl1) as [x|] eqn:Ef.
    + apply find_some in Ef as [Hx1 Hx2]. apply existsb_exists in Hx2 as (x' & Hx2 & E). apply Nat.eqb_eq in E. subst x'.
      apply in_split in Hx1 as (u1 & w1 & ->). apply in_split in Hx2 as (u2 & w2 & ->).
      destruct (IH x w1 w2) as (q & h1 & t1 & h2 & t2 & E1 & E2 & Hd & Hh).
      * rewrite app_length in Hk. cbn [length] in Hk. clear -Hk. lia.
      * intros H. apply Ha1. apply in_or_app. right. right. exact H.
      * intros H. apply Ha2. apply in_or_app. right. right. exact H.
      * rewrite !last_app_cons in Hlast. exact Hlast.
      * exists q, ((d :: u1) ++ h1), t1, ((d :: u2) ++ h2), t2.
        split; [rewrite <- app_assoc, <- E1; reflexivity|]. split; [rewrite <- app_assoc, <- E2; reflexivity|]. auto.
    + exists d, [], tl1, [], tl2. split; [reflexivity|]. split; [reflexivity|].
      assert (Hdis : forall x, In x tl1 -> ~ In x tl2).
      { intros x Hx1 Hx2. pose proof (find_none _ _ Ef x Hx1) as Hn. cbn in Hn.
        assert (existsb (Nat.eqb x) tl2 = true) by (apply existsb_exists; exists x; split; [exact Hx2|apply Nat.eqb_refl]). congruence. }
      split; [exact Hdis|].
      destruct tl1 as [|y1 tl1], tl2 as [|y2 tl2]; cbn [hd].
      * cbn in Hlast. congruence.
      * intros ->. apply Ha2. left. reflexivity.
      * intros ->. apply Ha1. left. reflexivity.
      * intros ->. apply (Hdis y2); left; reflexivity.
Qed.

Lemma two_distinct_length {A} (l : list A) x y : In x l -> In y l -> x <> y -> (2 <= length l)%nat.
Proof.
  destruct l as [|a [|b l]]; cbn; intros Hx Hy Hne; try contradiction; [|lia].
  destruct Hx as [<-|[]], Hy as [<-|[]]. congruence.
Qed.


(* (a) the arriving version is a function of the incoming edge *)
Section Ssa.
Variable c : cfg.
Variable infos : list binfo.
Hypothesis Hok : infos_ok infos c = true.
Hypothesis Hidx : forall i b, nth_error (c_blocks c) i = Some b -> b_index b = N.of_nat i.

Lemma exec_path_vmap : forall pi L L', exec_path c L pi = Some L' -> L' = vmap_after c L pi.
Proof.
  induction pi as [|i tl IH]; intros L L'; unfold vmap_after; cbn [exec_path fold_left]; [congruence|].
  destruct (nth_error (c_blocks c) i) as [b|]; [|discriminate].
  destruct (enter_block L b) as [L1|] eqn:E; [|discriminate]. rewrite <- (enter_block_vmap L b L1 E). apply IH.
Qed.

Lemma walk_meq : forall pi p ip L,
  nth_error infos p = Some ip -> meq L (bi_out ip) -> is_walk c p pi ->
  exists il, nth_error infos (last pi p) = Some il /\ meq (vmap_after c L pi) (bi_out il).
Proof.
  intros pi p ip L Hip HL Hw. destruct (walk_run c infos Hok Hidx pi p ip L Hip HL Hw) as (L' & il & Hex & Hil & Hm).
  exists il. rewrite <- (last_cons_cons p pi 0%nat), <- (exec_path_vmap _ _ _ Hex). split; assumption.
Qed.

Lemma entry_walk_meq tl : is_walk c 0 tl ->
  exists il, nth_error infos (last tl 0%nat) = Some il /\
             meq (vmap_after c (params_map (c_params c)) (0%nat :: tl)) (bi_out il).
Proof.
  intros Hw. destruct (paths_run c infos Hok Hidx (0%nat :: tl) Hw) as (L & il & Hex & Hil & Hm).
  exists il. rewrite <- (last_cons_cons 0%nat tl 0%nat), <- (exec_path_vmap _ _ _ Hex). split; assumption.
Qed.
End Ssa.

Section Runs.
Variable V : Type.
Variable p : Z.
Variable sem2 : infix_op -> Z -> Z -> Z.
Variable sem1 : prefix_op -> Z -> Z.
Variable call_sem : ident -> list Z -> Z.
Variable name_code : ident -> Z.
Variable c : cfg.
Notation n := (length (c_blocks c)).
Notation cval := (cval p sem2 sem1 call_sem name_code).
Notation branch_okb := (branch_okb p sem2 sem1 call_sem name_code).
Notation cexec_block := (cexec_block p sem2 sem1 call_sem name_code).
Notation cexec_path := (cexec_path p sem2 sem1 call_sem name_code).
Notation cexec_nocheck := (cexec_nocheck p sem2 sem1 call_sem name_code c).
Notation alltgts := (local_targets c (all_stmts (c_blocks c))).
Notation cexec_path_cons := (cexec_path_cons p sem2 sem1 call_sem name_code c).

Lemma branch_okb_succ s b j : branch_okb s b j = true -> In (N.of_nat j) (b_succs b).
Proof.
  unfold DegRun.branch_okb. intros H. apply andb_true_iff in H as [H _]. apply existsb_exists in H.
  destruct H as (x & Hx & E). apply N.eqb_eq in E. subst x. exact Hx.
Qed.

Lemma cexec_path_walk pi : forall L s i s', cexec_path c L s (i :: pi) = Some s' -> is_walk c i pi.
Proof.
  induction pi as [|j tl IH]; intros L s i s' H; [exact I|].
  destruct (cexec_path_cons _ _ _ _ _ H) as (b & s1 & Hb & _ & Hbr & Htl). split; [|exact (IH _ _ _ _ Htl)].
  exists b. split; [exact Hb|]. exact (branch_okb_succ s1 b j (Hbr j tl eq_refl)).
Qed.

Lemma is_walk_app l1 : forall i l2, is_walk c i (l1 ++ l2) -> is_walk c i l1.
Proof. induction l1 as [|x l1 IH]; intros i l2; cbn [app is_walk]; [auto|]. intros [H1 H2]. split; [exact H1|eapply IH; eauto]. Qed.

Lemma walk_edge_at l1 : forall i x l2, is_walk c i (l1 ++ x :: l2) -> Spec.SsaDomSpec.cedge c (last l1 i) x.
Proof.
  induction l1 as [|y l1 IH]; intros i x l2; cbn [app is_walk].
  - intros [H _]. exact H.
  - intros [_ H]. rewrite last_cons_cons. eapply IH; eauto.
Qed.

Lemma cexec_path_indices pi : forall L s s', cexec_path c L s pi = Some s' -> forall i, In i pi -> (i < n)%nat.
Proof.
  induction pi as [|j tl IH]; intros L s s' H i Hi; [contradiction|].
  destruct (cexec_path_cons _ _ _ _ _ H) as (b & s1 & Hb & _ & _ & Htl).
  destruct Hi as [<-|Hi]; [apply nth_error_Some; congruence|exact (IH _ _ _ Htl i Hi)].
Qed.

Lemma cexec_path_split h : forall L s rest s', cexec_path c L s (h ++ rest) = Some s' ->
  exists sq, cexec_nocheck L s h = Some sq /\ cexec_path c (vmap_after c L h) sq rest = Some s'.
Proof.
  induction h as [|i h IH]; intros L s rest s' H; cbn [app] in H; [eauto|].
  destruct (cexec_path_cons _ _ _ _ _ H) as (b & s1 & Hb & Hblk & _ & Htl).
  cbn [DegRunBranch.cexec_nocheck]. unfold vmap_after. cbn [fold_left]. rewrite Hb, Hblk. exact (IH _ _ _ _ Htl).
Qed.

(* two runs that leave a block by different successors evaluated its condition differently *)
Lemma branch_differ s1 s2 bq n1 n2 :
  branch_okb s1 bq n1 = true ->
  branch_okb s2 bq n2 = true -> n1 <> n2 ->
  exists m cond t f v1 v2,
    last (b_stmts bq) (SLog m []) = SIf m cond t f /\
    cval s1 cond = Some v1 /\ cval s2 cond = Some v2 /\
    v1 [] <> v2 [].
Proof.
  unfold branch_okb. intros H1 H2 Hne.
  apply andb_true_iff in H1 as [Hs1 H1]. apply andb_true_iff in H2 as [Hs2 H2].
  assert (Hinj : forall x y : nat, N.of_nat x = N.of_nat y -> x = y) by (intros; lia).
  destruct (last (b_stmts bq) (SLog {| m_start := 0%N; m_end := 0%N; m_file := None |} [])) as [| m cond t f | | | | |] eqn:El;
    try (exfalso; destruct (b_succs bq) as [|x0 [|? ?]]; try discriminate;
         cbn in Hs1, Hs2; rewrite orb_false_r in Hs1, Hs2; apply N.eqb_eq in Hs1, Hs2; apply Hne, Hinj; congruence).
  destruct (cval s1 cond) as [v1|] eqn:E1; [|discriminate].
  destruct (cval s2 cond) as [v2|] eqn:E2; [|discriminate].
  exists m, cond, t, f, v1, v2.
  split.
  { rewrite <- El. apply last_default. intros E. rewrite E in El. discriminate. }
  split; [exact E1|]. split; [exact E2|].
  intros Hv. rewrite Hv in H1. apply Hne, Hinj.
  destruct (v2 [] =? 0).
  - destruct f as [fi|].
    + apply N.eqb_eq in H1, H2. congruence.
    + destruct (b_succs bq) as [|x0 [|y0 [|? ?]]]; try discriminate. apply N.eqb_eq in H1, H2. congruence.
  - apply N.eqb_eq in H1, H2. congruence.
Qed.

(* (c) concrete stores only grow; values are kept *)
Definition csub (s s' : cstore) : Prop := forall x v, s x = Some v -> s' x = Some v.
Lemma csub_refl s : csub s s. Proof. intros x v H. exact H. Qed.
Lemma csub_trans s1 s2 s3 : csub s1 s2 -> csub s2 s3 -> csub s1 s3.
Proof. intros H1 H2 x v H. apply H2, H1, H. Qed.

Section One.
Variables s s' : cstore.
Hypothesis Hsub : csub s s'.

Lemma cval_csub : forall e v, cval s e = Some v -> cval s' e = Some v.
Proof. intros e. apply cval_mono. apply Forall_forall. intros y _ w. apply Hsub. Qed.
End One.

Section Run.
Variable L0 : vmap.
Variable pth : V -> list nat.
Variable s0 : V -> cstore.
Notation ent := (ent V p sem2 sem1 call_sem name_code c L0 pth s0).
Notation Lat := (Lat V c L0 pth).
Notation visits := (visits V pth).

Hypothesis Hsorted : forall rho, StronglySorted lt (pth rho).
Hypothesis Hrun : forall rho, cexec_nocheck L0 (s0 rho) (pth rho) <> None.
Hypothesis Hsa : NoDup alltgts.
Hypothesis Hs0 : forall rho x, In x alltgts -> s0 rho x = None.

(* a run has not defined the targets of the blocks it has not reached *)
Lemma ent_fresh rho x a' : In x (tgts c a') -> forall a, (a <= a')%nat -> ent rho a x = None.
Proof.
  intros Hx. induction a as [|a IH]; intros Ha.
  { rewrite (ent_0 V p sem2 sem1 call_sem name_code c L0 pth s0). exact (Hs0 rho x (tgts_all c a' x Hx)). }
  destruct (visits rho a) eqn:Ev; [|rewrite (E_step_out V p sem2 sem1 call_sem name_code c L0 pth s0 rho a Ev); apply IH; lia].
  destruct (nth_error (c_blocks c) a) as [b|] eqn:Eb.
  - rewrite (cexec_block_frame p sem2 sem1 call_sem name_code c (Lat rho a) (ent rho a) b _
               (E_step_in V p sem2 sem1 call_sem name_code c L0 pth s0 Hsorted Hrun rho a b Ev Eb) x); [apply IH; lia|].
    intros Hin. assert (a = a'); [|lia]. apply (tgts_unique c Hsa a a' x); [|exact Hx]. unfold tgts. rewrite Eb. exact Hin.
  - exfalso. apply nth_error_None in Eb. unfold tgts in Hx. destruct (nth_error (c_blocks c) a') eqn:Ea'; [|contradiction].
    assert (a' < n)%nat by (apply nth_error_Some; congruence). lia.
Qed.

Lemma ent_grow_step rho a : (a < n)%nat -> csub (ent rho a) (ent rho (S a)).
Proof.
  intros Ha. destruct (nth_error (c_blocks c) a) as [b|] eqn:Eb; [|apply nth_error_None in Eb; lia].
  destruct (visits rho a) eqn:Ev; [|rewrite (E_step_out V p sem2 sem1 call_sem name_code c L0 pth s0 rho a Ev); apply csub_refl].
  intros x v Hx.
  rewrite (cexec_block_frame p sem2 sem1 call_sem name_code c (Lat rho a) (ent rho a) b _
             (E_step_in V p sem2 sem1 call_sem name_code c L0 pth s0 Hsorted Hrun rho a b Ev Eb) x); [exact Hx|].
  intros Hin. rewrite (ent_fresh rho x a) in Hx; [discriminate| |lia]. unfold tgts. rewrite Eb. exact Hin.
Qed.

Lemma ent_grow rho q : forall a, (q <= a)%nat -> (a <= n)%nat -> csub (ent rho q) (ent rho a).
Proof.
  induction a as [|a IH]; intros Hq Ha.
  - assert (q = 0)%nat by lia. subst q. apply csub_refl.
  - destruct (Nat.eq_dec q (S a)) as [->|Hne]; [apply csub_refl|].
    eapply csub_trans; [apply IH; lia|]. apply ent_grow_step. lia.
Qed.
End Run.

(* one run along an increasing path from the entry block *)
Section Visit.
Variable L0 : vmap.
Variable pth : V -> list nat.
Variable s0 s : V -> cstore.
Notation ent := (ent V p sem2 sem1 call_sem name_code c L0 pth s0).
Notation visits := (visits V pth).
Hypothesis Hsorted : forall rho, StronglySorted lt (pth rho).
Hypothesis Hrunp : forall rho, cexec_path c L0 (s0 rho) (pth rho) = Some (s rho).

(* from the block q where it parts from another run for the last time: the store after q is that
   of the schedule, q is left according to its condition, towards the block the path continues with *)
Lemma parted_run r h q t a post : pth r = h ++ q :: t ++ a :: post ->
  exists bq, nth_error (c_blocks c) q = Some bq /\
    branch_okb (ent r (S q)) bq (hd a t) = true /\
    is_walk c q (t ++ [a]) /\ ~ In q t /\ ~ In a t /\ (q < a)%nat.
Proof.
  intros P. pose proof (Hrunp r) as R. pose proof (Hsorted r) as Hs. rewrite P in R, Hs.
  destruct (cexec_path_split h _ _ _ _ R) as (sh & Hh & Rq).
  pose proof (cexec_path_walk _ _ _ _ _ Rq) as W.
  destruct (cexec_path_cons _ _ _ _ _ Rq) as (bq & sq & Hbq & Hblk & Br & _).
  assert (N : exists rest, t ++ a :: post = hd a t :: rest) by (destruct t; cbn; eauto). destruct N as (rest & N).
  specialize (Br _ _ N).
  assert (Hent : E V p sem2 sem1 call_sem name_code c L0 pth s0 r (S q) = cexec_nocheck L0 (s0 r) (h ++ [q])).
  { unfold E. rewrite P, (proj2 (below_split h q _ Hs)). reflexivity. }
  rewrite nocheck_app, Hh in Hent. cbn [DegRunBranch.cexec_nocheck] in Hent. rewrite Hbq, Hblk in Hent.
  assert (Es : ent r (S q) = sq) by (unfold DegRunBranch.ent; rewrite Hent; reflexivity).
  destruct (sorted_app_lt _ _ Hs) as (_ & _ & Hq). apply StronglySorted_inv in Hq as [Ht Hq]. rewrite Forall_forall in Hq.
  destruct (sorted_app_lt _ _ Ht) as (Hta & _).
  exists bq. split; [exact Hbq|]. split; [rewrite Es; exact Br|]. split; [|split; [|split]].
  - apply (is_walk_app (t ++ [a]) q post). rewrite <- app_assoc. exact W.
  - intros H. specialize (Hq q (in_or_app _ _ _ (or_introl H))). lia.
  - intros H. specialize (Hta a a H (or_introl eq_refl)). lia.
  - apply Hq. apply in_or_app. right. left. reflexivity.
Qed.

Hypothesis Hentry : forall rho, exists tl, pth rho = 0%nat :: tl.

(* up to a block it visits, other than the entry block *)
Lemma visit_prefix r a : a <> 0%nat -> visits r a = true ->
  exists tl post, pth r = 0%nat :: tl ++ a :: post /\ below a (pth r) = 0%nat :: tl /\
                  is_walk c 0 (tl ++ a :: post) /\ ~ In a tl.
Proof.
  intros Ha Hv. apply (visits_in V pth) in Hv. apply in_split in Hv as ([|d tl] & post & E); destruct (Hentry r) as (tl0 & T).
  - rewrite T in E. injection E as <- _. congruence.
  - assert (d = 0%nat) by (rewrite T in E; injection E as <- _; reflexivity). subst d.
    pose proof (Hsorted r) as Hs. rewrite E in Hs. exists tl, post. split; [exact E|]. split; [|split].
    + rewrite E. apply (below_split (0%nat :: tl) a post Hs).
    + apply (cexec_path_walk _ L0 (s0 r) 0%nat (s r)). cbn [app] in E. rewrite <- E. apply Hrunp.
    + destruct (sorted_app_lt _ _ Hs) as (Hlt' & _). intros H. specialize (Hlt' a a (or_intror H) (or_introl eq_refl)). lia.
Qed.

End Visit.

Section Decided.
Variable idom : list (option N).
Variable pth : V -> list nat.
Variable s0 s : V -> cstore.
Variable infos : list binfo.
Variable g : list Lift.block.
Variable body : Lift.sk.
Notation L0 := (params_map (c_params c)).
Notation ent := (ent V p sem2 sem1 call_sem name_code c L0 pth s0).
Notation Lat := (Lat V c L0 pth).
Notation visits := (visits V pth).

Hypothesis Hsorted : forall rho, StronglySorted lt (pth rho).
Hypothesis Hlt : forall rho i, In i (pth rho) -> (i < n)%nat.
Hypothesis Hentry : forall rho, exists tl, pth rho = 0%nat :: tl.
Hypothesis Hrunp : forall rho, cexec_path c L0 (s0 rho) (pth rho) = Some (s rho).
Hypothesis Hsa : NoDup (local_targets c (all_stmts (c_blocks c))).
Hypothesis Hs0 : forall rho x, In x (local_targets c (all_stmts (c_blocks c))) -> s0 rho x = None.
Hypothesis Hok : infos_ok infos c = true.
Hypothesis Hgc : DegGraph.graph_consistent c = true.
Hypothesis Htab : DegGraph.idom_is_dominator_table c idom = true.
Hypothesis Hshape : idom_shape c idom = true.
Hypothesis Hsame : DegGraph.dom_graph_of c = MirrorsDom.to_dom g.
Hypothesis Hlift : Lift.lift body = Ok g.

Lemma runs_complete : forall rho, cexec_nocheck L0 (s0 rho) (pth rho) <> None.
Proof. intros rho. rewrite (cexec_path_nocheck p sem2 sem1 call_sem name_code c _ _ _ _ (Hrunp rho)). discriminate. Qed.

Theorem picks_decided_holds : picks_decided V p sem2 sem1 call_sem name_code c idom L0 pth s0.
Proof.
  intros a b Hb m x op args k sv stt Hin Hloc r1 r2 Hv1 Hv2 Hne.
  pose proof (DegGraphRooted.consistent_index c Hgc) as Hidx.
  assert (Han : (a < n)%nat) by (apply nth_error_Some; congruence).
  assert (Harg : forall r, arg_of V (fun rho => Lat rho a) x args r =
                           match vget (vmap_after c L0 (below a (pth r))) (key_of x) with Some n0 => phi_arg x n0 args | None => None end)
    by reflexivity.
  destruct (Nat.eq_dec a 0) as [->|Ha0].
  { exfalso. apply Hne. rewrite !Harg, !(below_none 0) by (apply Forall_forall; intros; lia). reflexivity. }
  destruct (visit_prefix L0 pth s0 s Hsorted Hrunp Hentry r1 a Ha0 Hv1) as (tl1 & post1 & E1 & B1 & W1 & Ha1).
  destruct (visit_prefix L0 pth s0 s Hsorted Hrunp Hentry r2 a Ha0 Hv2) as (tl2 & post2 & E2 & B2 & W2 & Ha2).
  (* (a) different arriving versions: different incoming edges *)
  destruct (entry_walk_meq c infos Hok Hidx tl1 (is_walk_app tl1 0%nat _ W1)) as (il1 & Hil1 & Hm1).
  destruct (entry_walk_meq c infos Hok Hidx tl2 (is_walk_app tl2 0%nat _ W2)) as (il2 & Hil2 & Hm2).
  assert (Hlast : last tl1 0%nat <> last tl2 0%nat).
  { intros El. rewrite El in Hil1. rewrite Hil1 in Hil2. injection Hil2 as <-.
    apply Hne. rewrite !Harg, B1, B2. rewrite (Hm1 (key_of x)), (Hm2 (key_of x)). reflexivity. }
  (* the block where the two runs part for the last time, and the test that parts them *)
  destruct (parting_block a (length tl1) 0%nat tl1 tl2 (le_n _) Ha1 Ha2 Hlast) as (q & h1 & t1 & h2 & t2 & D1 & D2 & Hdis & Hhd).
  assert (P1 : pth r1 = h1 ++ q :: t1 ++ a :: post1) by (rewrite E1, app_comm_cons, D1, <- app_assoc; reflexivity).
  assert (P2 : pth r2 = h2 ++ q :: t2 ++ a :: post2) by (rewrite E2, app_comm_cons, D2, <- app_assoc; reflexivity).
  destruct (parted_run L0 pth s0 s Hsorted Hrunp r1 h1 q t1 a post1 P1) as (bq & Hbq & Br1 & Wq1 & Hq1 & Hat1 & Hqa).
  destruct (parted_run L0 pth s0 s Hsorted Hrunp r2 h2 q t2 a post2 P2) as (bq' & Hbq' & Br2 & Wq2 & Hq2 & Hat2 & _).
  rewrite Hbq in Hbq'. injection Hbq' as <-.
  destruct (branch_differ _ _ bq _ _ Br1 Br2 Hhd) as (mm & cond & t & f & v1 & v2 & Hl & Hc1 & Hc2 & Hdiff).
  (* (c) the condition keeps its value until the join is entered *)
  assert (Hkeep : forall r v, cval (ent r (S q)) cond = Some v -> cval (ent r a) cond = Some v).
  { intros r v. apply cval_csub. apply (ent_grow L0 pth s0 Hsorted runs_complete Hsa Hs0 r (S q) a); [exact Hqa|exact (Nat.lt_le_incl _ _ Han)]. }
  (* the two incoming edges: the block is a join *)
  pose proof (DegGraphRooted.edge_is_pred c Hgc a b _ Hb (walk_edge_at tl1 0%nat a post1 W1)) as Pr1.
  pose proof (DegGraphRooted.edge_is_pred c Hgc a b _ Hb (walk_edge_at tl2 0%nat a post2 W2)) as Pr2.
  assert (Hjoin : (2 <= length (b_preds b))%nat).
  { apply (two_distinct_length _ _ _ Pr1 Pr2). intros E. apply Hlast. apply Nat2N.inj. exact E. }
  split; [exact Hjoin|].
  exists cond, v1, v2. split; [|split; [exact (Hkeep r1 v1 Hc1)|split; [exact (Hkeep r2 v2 Hc2)|exact Hdiff]]].
  (* (b) the parting block is named by the table walk *)
  assert (Hqg : (q < length g)%nat) by (rewrite (CtlSplitWalks.same_length c g Hsame); exact (Nat.lt_trans _ _ _ Hqa Han)).
  pose proof (CtlSplitWalks.can_split_of_walks c g Hsame Hgc q a t1 t2 Hqg Wq1 Wq2 Hq1 Hat1 Hq2 Hat2 Hdis Hhd) as Hcs.
  pose proof (CtlSplitWalks.is_join_of c g Hsame a b Hb Hjoin) as Hj.
  exact (CtlBridge.lifted_split_decides c idom g Hsame Hgc Htab Hshape body Hlift a b q bq mm cond t f Hb Hbq Hcs Hj Hl).
Qed.
End Decided.

Lemma reads_in_all done ss : reads_in c (fun _ => True) done ss.
Proof. revert done. induction ss as [|st tl IH]; intros done; cbn [reads_in]; auto. Qed.

Section Family.
Variable idom : list (option N).
Variable S0 : fstore V.
Variable L0 : vmap.
Variable pth : V -> list nat.
Variable s0 : V -> cstore.
Variable reps : list V.
Notation freachable := (freachable V p sem2 sem1 call_sem name_code c idom S0).
Notation sub_store := (sub_store V).
Notation ent := (ent V p sem2 sem1 call_sem name_code c L0 pth s0).
Notation Lat := (Lat V c L0 pth).
Notation visits := (visits V pth).

Hypothesis Hsorted : forall rho, StronglySorted lt (pth rho).
Hypothesis Hreps : forall rho, exists r, In r reps /\ pth r = pth rho.
Hypothesis Hrun : forall rho, cexec_nocheck L0 (s0 rho) (pth rho) <> None.
Hypothesis H0 : forall rho, sub_store rho (s0 rho) S0.
Hypothesis Hsa : NoDup alltgts.
Hypothesis Hinit : forall x, In x alltgts -> S0 x = None.
Hypothesis Hpick : picks_decided V p sem2 sem1 call_sem name_code c idom L0 pth s0.

Lemma start_fresh rho x : In x alltgts -> s0 rho x = None.
Proof.
  intros Hx. destruct (s0 rho x) as [v|] eqn:E; [|reflexivity].
  destruct (H0 rho x v E) as (F & HF & _). rewrite (Hinit x Hx) in HF. discriminate.
Qed.

(* the blocks below a have fired: block a fires *)
Lemma schedule_step a : (a < n)%nat ->
  (exists St, freachable St /\ forall rho, sub_store rho (ent rho a) St) ->
  exists St, freachable St /\ forall rho, sub_store rho (ent rho (S a)) St.
Proof.
  intros Ha (St & Hreach & Hsub).
  destruct (nth_error (c_blocks c) a) as [b|] eqn:Eb; [|apply nth_error_None in Eb; lia].
  assert (Hfresh : forall rho x, In x (local_targets c (b_stmts b)) -> ent rho a x = None).
  { intros rho x Hx. apply (ent_fresh L0 pth s0 Hsorted Hrun Hsa start_fresh rho x a); [|lia].
    unfold tgts. rewrite Eb. exact Hx. }
  destruct (existsb (fun r => visits r a) reps) eqn:Evis.
  - (* some run visits block a *)
    apply existsb_exists in Evis. destruct Evis as (r0 & _ & Hr0).
    destruct (block_all V p sem2 sem1 call_sem name_code c idom S0 (fun rho => visits rho a) r0 Hr0 (fun _ _ => True)
                (fun rho => Lat rho a) b (fun rho => ent rho a) (fun rho => ent rho (S a)) St Hsa (nth_error_In _ _ Eb) Hreach)
      as (S' & Hreach' & Hvis' & Hnv').
    + intros rho x v _ Hx. exact (Hsub rho x v Hx).
    + intros rho Ev. exact (E_step_in V p sem2 sem1 call_sem name_code c L0 pth s0 Hsorted Hrun rho a b Ev Eb).
    + auto.
    + intros phis body _ rho _. apply reads_in_all.
    + (* a deciding condition has a value at the entry of the block: it reads no target of the block *)
      intros pre m x op args k sv stt post E Hl r1 r2 E1 E2 Hne.
      destruct (Hpick a b Eb m x op args k sv stt) with (r1 := r1) (r2 := r2) as (Hj & cond & v1 & v2 & Hd & H1 & H2 & Hdf); auto.
      { rewrite E. apply in_or_app. right. left. reflexivity. }
      split; [exact Hj|]. exists cond, v1, v2. repeat (split; [assumption|]).
      intros y Hy. repeat (split; [auto|]). intros Hpre.
      assert (Hv : cval (ent r1 a) cond <> None) by congruence.
      apply cval_strict in Hv. rewrite Forall_forall in Hv. apply (Hv y Hy). apply Hfresh.
      destruct (leading_phis (b_stmts b)) as [phis body] eqn:Elp. cbn [fst] in E.
      rewrite (leading_phis_app _ _ _ Elp), E, !local_targets_app. apply in_or_app. left. apply in_or_app. left. exact Hpre.
    + exists S'. split; [exact Hreach'|]. intros rho x v Hx. destruct (visits rho a) eqn:Ev.
      * apply (Hvis' rho Ev x v); auto.
      * rewrite (E_step_out V p sem2 sem1 call_sem name_code c L0 pth s0 rho a Ev) in Hx.
        apply (Hnv' rho Ev x v); [|exact Hx]. split; [exact I|]. intros Hin. rewrite (Hfresh rho x Hin) in Hx. discriminate.
  - (* nobody visits block a *)
    exists St. split; [exact Hreach|]. intros rho.
    rewrite (E_step_out V p sem2 sem1 call_sem name_code c L0 pth s0 rho a); [apply Hsub|].
    destruct (visits rho a) eqn:Ev; [|reflexivity]. destruct (Hreps rho) as (r & Hr & Hp).
    rewrite <- Evis. symmetry. apply existsb_exists. exists r. split; [exact Hr|]. unfold DegRunBranch.visits in *. rewrite Hp. exact Ev.
Qed.

Hypothesis Hlt : forall rho i, In i (pth rho) -> (i < n)%nat.

(* THE REPRESENTATION THEOREM for diverging runs *)
Theorem diverging_runs_represented_nocheck :
  exists S, freachable S /\ forall rho s', cexec_nocheck L0 (s0 rho) (pth rho) = Some s' -> sub_store rho s' S.
Proof.
  assert (Hupto : forall a, (a <= n)%nat -> exists S, freachable S /\ forall rho, sub_store rho (ent rho a) S).
  { induction a as [|a IH]; intros Ha; [|apply schedule_step; [lia|apply IH; lia]].
    exists S0. split; [constructor|]. intros rho. rewrite (ent_0 V p sem2 sem1 call_sem name_code c L0 pth s0). apply H0. }
  destruct (Hupto n (le_n _)) as (S & Hreach & Hsub).
  exists S. split; [exact Hreach|]. intros rho s' Hs'. specialize (Hsub rho).
  unfold DegRunBranch.ent, E in Hsub. rewrite (below_all n (pth rho) (Hlt rho)), Hs' in Hsub. exact Hsub.
Qed.
End Family.
End Runs.

Section Statements.
Variable V : Type.
Variable line : V -> V -> Z -> V.
Variable p : Z.
Variable sem2 : infix_op -> Z -> Z -> Z.
Variable sem1 : prefix_op -> Z -> Z.
Variable call_sem : ident -> list Z -> Z.
Variable name_code : ident -> Z.

Theorem diverging_runs_represented (c : cfg) (idom : list (option N)) (S0 : fstore V) (L0 : vmap)
    (pth : V -> list nat) (s0 s : V -> cstore) (reps : list V) :
  (forall rho, StronglySorted lt (pth rho)) ->
  (forall rho i, In i (pth rho) -> (i < length (c_blocks c))%nat) ->
  (forall rho, exists r, In r reps /\ pth r = pth rho) ->
  single_assignment c -> targets_start_undefined V c S0 ->
  (forall rho, rel_store V rho (s0 rho) S0) ->
  (forall rho, cexec_path p sem2 sem1 call_sem name_code c L0 (s0 rho) (pth rho) = Some (s rho)) ->
  picks_decided V p sem2 sem1 call_sem name_code c idom L0 pth s0 ->
  exists S, freachable V p sem2 sem1 call_sem name_code c idom S0 S /\ forall rho, sub_store V rho (s rho) S.
Proof.
  intros Hsorted Hlt Hreps Hsa Hinit H0 Hrun Hpick.
  assert (Hrun' : forall rho, cexec_nocheck p sem2 sem1 call_sem name_code c L0 (s0 rho) (pth rho) = Some (s rho)).
  { intros rho. apply cexec_path_nocheck. apply Hrun. }
  destruct (diverging_runs_represented_nocheck V p sem2 sem1 call_sem name_code c idom S0 L0 pth s0 reps Hsorted Hreps)
    as (S & Hreach & Hsub); auto.
  - intros rho. rewrite Hrun'. discriminate.
  - intros rho. apply rel_sub_store. apply H0.
  - exists S. split; [exact Hreach|]. intros rho. apply Hsub. apply Hrun'.
Qed.

Lemma start_undefined_concrete (c : cfg) (S0 : fstore V) (s0 : V -> cstore) :
  targets_start_undefined V c S0 -> (forall rho, rel_store V rho (s0 rho) S0) ->
  forall rho x, In x (local_targets c (all_stmts (c_blocks c))) -> s0 rho x = None.
Proof.
  intros Ht H0 rho x Hx. specialize (H0 rho x). rewrite (Ht x Hx) in H0. destruct (s0 rho x); [contradiction|reflexivity].
Qed.

(* no assumption about the family is left *)
Theorem loop_free_runs_represented (c : cfg) (idom : list (option N)) (infos : list binfo)
    (g : list Lift.block) (body : Lift.sk) (S0 : fstore V)
    (pth : V -> list nat) (s0 s : V -> cstore) (reps : list V) :
  infos_ok infos c = true ->
  DegGraph.graph_consistent c = true -> DegGraph.idom_is_dominator_table c idom = true -> idom_shape c idom = true ->
  DegGraph.dom_graph_of c = MirrorsDom.to_dom g -> Lift.lift body = Ok g ->
  single_assignment c -> targets_start_undefined V c S0 ->
  (forall rho, StronglySorted lt (pth rho)) ->
  (forall rho i, In i (pth rho) -> (i < length (c_blocks c))%nat) ->
  (forall rho, exists tl, pth rho = 0%nat :: tl) ->
  (forall rho, exists r, In r reps /\ pth r = pth rho) ->
  (forall rho, rel_store V rho (s0 rho) S0) ->
  (forall rho, cexec_path p sem2 sem1 call_sem name_code c (params_map (c_params c)) (s0 rho) (pth rho) = Some (s rho)) ->
  exists S, freachable V p sem2 sem1 call_sem name_code c idom S0 S /\ forall rho, sub_store V rho (s rho) S.
Proof.
  intros Hok Hgc Htab Hshape Hsame Hlift Hsa Hinit Hsorted Hlt Hentry Hreps H0 Hrun.
  apply (diverging_runs_represented c idom S0 (params_map (c_params c)) pth s0 s reps); auto.
  apply (picks_decided_holds V p sem2 sem1 call_sem name_code c idom pth s0 s infos g body); auto.
  exact (start_undefined_concrete c S0 s0 Hinit H0).
Qed.

Hypothesis Hsem2 : forall op, Proofs.DegreeProofs.op_den p op (sem2 op).
Hypothesis Hsem1 : forall op, Proofs.DegreeProofs.prefix_den p op (sem1 op).

Theorem diverging_runs_claims_true (c : cfg) (idom : list (option N)) (S0 : fstore V) (L0 : vmap)
    (pth : V -> list nat) (s0 s : V -> cstore) (reps : list V) :
  djust_cfg c idom = true -> Proofs.DegGraphProofs.finit_ok V line p c S0 ->
  (forall rho, StronglySorted lt (pth rho)) ->
  (forall rho i, In i (pth rho) -> (i < length (c_blocks c))%nat) ->
  (forall rho, exists r, In r reps /\ pth r = pth rho) ->
  single_assignment c -> targets_start_undefined V c S0 ->
  (forall rho, rel_store V rho (s0 rho) S0) ->
  (forall rho, cexec_path p sem2 sem1 call_sem name_code c L0 (s0 rho) (pth rho) = Some (s rho)) ->
  picks_decided V p sem2 sem1 call_sem name_code c idom L0 pth s0 ->
  forall e r (val : V -> cell),
  djust_expr c e = true -> expr_deg e = Some r ->
  (forall rho, cval p sem2 sem1 call_sem name_code (s rho) e = Some (val rho)) ->
  forall i, SemDeg V line p (snd r) (fun rho => val rho i).
Proof.
  intros Hv Hi Hsorted Hlt Hreps Hsa Hinit H0 Hrun Hpick e r val Hj Hd Hval.
  destruct (diverging_runs_represented c idom S0 L0 pth s0 s reps Hsorted Hlt Hreps Hsa Hinit H0 Hrun Hpick) as (S & Hreach & Hsub).
  apply (represented_claim_true V line p sem2 sem1 call_sem name_code Hsem2 Hsem1 c idom S0 S e r val Hv Hi Hreach Hj Hd).
  intros rho. exact (cval_den_sub V p sem2 sem1 call_sem name_code rho (s rho) S e (val rho) (Hsub rho) (Hval rho)).
Qed.
Theorem loop_free_runs_claims_true (c : cfg) (idom : list (option N)) (infos : list binfo)
    (g : list Lift.block) (body : Lift.sk) (S0 : fstore V)
    (pth : V -> list nat) (s0 s : V -> cstore) (reps : list V) :
  djust_cfg c idom = true -> Proofs.DegGraphProofs.finit_ok V line p c S0 ->
  infos_ok infos c = true ->
  DegGraph.graph_consistent c = true -> DegGraph.idom_is_dominator_table c idom = true ->
  DegGraph.dom_graph_of c = MirrorsDom.to_dom g -> Lift.lift body = Ok g ->
  single_assignment c -> targets_start_undefined V c S0 ->
  (forall rho, StronglySorted lt (pth rho)) ->
  (forall rho i, In i (pth rho) -> (i < length (c_blocks c))%nat) ->
  (forall rho, exists tl, pth rho = 0%nat :: tl) ->
  (forall rho, exists r, In r reps /\ pth r = pth rho) ->
  (forall rho, rel_store V rho (s0 rho) S0) ->
  (forall rho, cexec_path p sem2 sem1 call_sem name_code c (params_map (c_params c)) (s0 rho) (pth rho) = Some (s rho)) ->
  forall e r (val : V -> cell),
  djust_expr c e = true -> expr_deg e = Some r ->
  (forall rho, cval p sem2 sem1 call_sem name_code (s rho) e = Some (val rho)) ->
  forall i, SemDeg V line p (snd r) (fun rho => val rho i).
Proof.
  intros Hv Hi Hok Hgc Htab Hsame Hlift Hsa Hinit Hsorted Hlt Hentry Hreps H0 Hrun.
  assert (Hshape : idom_shape c idom = true) by (unfold djust_cfg in Hv; apply andb_true_iff in Hv; apply Hv).
  apply (diverging_runs_claims_true c idom S0 (params_map (c_params c)) pth s0 s reps); auto.
  apply (picks_decided_holds V p sem2 sem1 call_sem name_code c idom pth s0 s infos g body); auto.
  exact (start_undefined_concrete c S0 s0 Hinit H0).
Qed.
End Statements.

(* the hypotheses about the family that follow from decidable ones about the graph *)
Lemma nodup_vnames_sound l : DegGraph.nodup_vnames l = true -> NoDup l.
Proof.
  induction l as [|x tl IH]; cbn [DegGraph.nodup_vnames]; intros H; [constructor|].
  apply andb_true_iff in H as [H1 H2]. constructor; [|auto].
  intros Hin. apply negb_true_iff in H1.
  assert (existsb (vname_eqb x) tl = true) by (apply existsb_exists; exists x; split; [exact Hin|apply vname_eqb_refl]). congruence.
Qed.

Lemma single_assignment_b_sound c : DegGraph.single_assignment_b c = true -> single_assignment c.
Proof. intros H. apply nodup_vnames_sound in H. exact H. Qed.

Lemma forward_edge c : DegGraph.forward_b c = true ->
  forall i b s, nth_error (c_blocks c) i = Some b -> In (N.of_nat s) (b_succs b) -> (i < s)%nat.
Proof.
  unfold DegGraph.forward_b. intros H i b s Hb Hs. rewrite forallb_forall in H.
  pose proof (combine_seq_nth (c_blocks c) 0 i b Hb) as Hin. cbn [Nat.add] in Hin.
  specialize (H _ Hin). cbn [fst snd] in H. rewrite forallb_forall in H. specialize (H _ Hs).
  apply Nat.ltb_lt in H. lia.
Qed.

Lemma forward_sorted c : DegGraph.forward_b c = true -> forall l i, is_walk c i l -> StronglySorted lt (i :: l).
Proof.
  intros Hf. induction l as [|s l IH]; intros i Hw; [repeat constructor|].
  cbn [is_walk] in Hw. destruct Hw as [(b & Hb & Hs) Hw].
  pose proof (forward_edge c Hf i b s Hb Hs) as Hlt. specialize (IH s Hw).
  constructor; [exact IH|]. apply StronglySorted_inv in IH as [_ Hall].
  constructor; [exact Hlt|]. eapply Forall_impl; [|exact Hall]. cbn. intros; lia.
Qed.

Lemma finit_targets_undefined V line p c (S0 : fstore V) :
  Proofs.DegGraphProofs.finit_ok V line p c S0 -> targets_start_undefined V c S0.
Proof.
  intros Hi x Hx. destruct (S0 x) as [F|] eqn:E; [|reflexivity]. exfalso.
  unfold DegRunBranch.local_targets in Hx. apply in_flat_map in Hx as (st & Hst & Hx).
  destruct st as [| | |m y op rhe sv stt| | |]; try contradiction.
  destruct (stores_local c y) eqn:El; [|contradiction]. destruct Hx as [<-|[]].
  destruct (stores_local_spec c y El) as [Hd Hp].
  destruct (Hi y F E) as [[Hp' _]|[(_ & (t & Ht & Hnl) & _)|[Hu _]]].
  - congruence.
  - rewrite Hd in Ht. injection Ht as <-. congruence.
  - unfold unassigned in Hu.
    assert (Hex : existsb (defines y) (all_stmts (c_blocks c)) = true).
    { apply existsb_exists. eexists. split; [exact Hst|]. cbn [defines]. apply vname_eqb_refl. }
    rewrite Hex in Hu. discriminate.
Qed.

(* THE THEOREM WITH DECIDABLE GRAPH HYPOTHESES ONLY: what is asked of the family is that there
   are finitely many path classes, that the runs start at the entry block with the initial
   family taken at their valuation, and that they complete *)
Theorem loop_free_graph_claims_true
  (V : Type) (line : V -> V -> Z -> V) (p : Z)
  (sem2 : infix_op -> Z -> Z -> Z) (sem1 : prefix_op -> Z -> Z) (call_sem : ident -> list Z -> Z) (name_code : ident -> Z) :
  (forall op, Proofs.DegreeProofs.op_den p op (sem2 op)) -> (forall op, Proofs.DegreeProofs.prefix_den p op (sem1 op)) ->
  forall (c : cfg) (idom : list (option N)) (infos : list binfo) (g : list Lift.block) (body : Lift.sk)
         (S0 : fstore V) (pth : V -> list nat) (s0 s : V -> cstore) (reps : list V),
  djust_cfg c idom = true -> infos_ok infos c = true ->
  DegGraph.deg_graph_ok c idom = true -> DegGraph.loop_free_ok c = true ->
  DegGraph.dom_graph_of c = MirrorsDom.to_dom g -> Lift.lift body = Ok g ->
  Proofs.DegGraphProofs.finit_ok V line p c S0 ->
  (forall rho, exists tl, pth rho = 0%nat :: tl) ->
  (forall rho, exists r, In r reps /\ pth r = pth rho) ->
  (forall rho, rel_store V rho (s0 rho) S0) ->
  (forall rho, cexec_path p sem2 sem1 call_sem name_code c (params_map (c_params c)) (s0 rho) (pth rho) = Some (s rho)) ->
  forall e r (val : V -> cell),
  djust_expr c e = true -> expr_deg e = Some r ->
  (forall rho, cval p sem2 sem1 call_sem name_code (s rho) e = Some (val rho)) ->
  forall i, SemDeg V line p (snd r) (fun rho => val rho i).
Proof.
  intros H2 H1 c idom infos g body S0 pth s0 s reps Hv Hok Hdg Hlf Hsame Hlift Hi Hentry Hreps H0 Hrun.
  unfold DegGraph.deg_graph_ok in Hdg. apply andb_true_iff in Hdg as [Hgc Htab].
  unfold DegGraph.loop_free_ok in Hlf. apply andb_true_iff in Hlf as [Hsab Hfw].
  apply (loop_free_runs_claims_true V line p sem2 sem1 call_sem name_code H2 H1 c idom infos g body S0 pth s0 s reps); auto.
  - apply single_assignment_b_sound. exact Hsab.
  - eapply finit_targets_undefined; eauto.
  - intros rho. destruct (Hentry rho) as (tl & E). rewrite E. apply (forward_sorted c Hfw).
    apply (cexec_path_walk p sem2 sem1 call_sem name_code c tl (params_map (c_params c)) (s0 rho) 0%nat (s rho)).
    rewrite <- E. apply Hrun.
  - intros rho. eapply cexec_path_indices. apply Hrun.
Qed.
