(* C13: the content-level provenance of Proofs.LiftFullProofs stated
   with the definitions of Spec.LiftFullSpec, and the skeleton / containment theorem
   for a [key] that tells the statement metas of the body apart. *)
From Coq Require Import String NArith.
From stdpp Require Import list countable.
Require Import Model.Lift Model.LiftFull Spec.CfgSpec Spec.LiftFullSpec Proofs.LiftFullProofs Proofs.CfgContains.
Require Model.LiftFullReport Model.SignalAssign Proofs.LiftFullC08.
Require Model.Ast Model.Ir.
Import Base(outcome, Ok).

Definition tag_of_kind (k : skind) : nat * option Ast.assign_op :=
  match k with
  | KIf => (0, None) | KWhile => (1, None) | KRet => (2, None) | KInit => (3, None) | KDecl => (4, None)
  | KSub op => (5, Some op) | KMSub => (6, None) | KCeq => (7, None) | KLog => (8, None) | KBlock => (9, None)
  | KAssert => (10, None)
  end.

Lemma stmt_tag_kind s : stmt_tag s = tag_of_kind (fst (hdr s)).
Proof. by destruct s. Qed.

Lemma same_renamed_only body body' : same body body' -> renamed_only body body'.
Proof.
  intros (Hs & Hh & _). split; [exact Hs|]. split.
  - transitivity (map tag_of_kind (map fst (map hdr (lifted_stmts body')))).
    { rewrite !map_map. apply map_ext. intros s. apply stmt_tag_kind. }
    rewrite Hh, !map_map. apply map_ext. intros s. symmetry. apply stmt_tag_kind.
  - transitivity (map snd (map hdr (lifted_stmts body'))).
    { by rewrite map_map. }
    by rewrite Hh, map_map.
Qed.

Lemma image0_spec s x : Proofs.LiftFullProofs.image0 s x <-> Spec.LiftFullSpec.image0 s x.
Proof. reflexivity. Qed.

Theorem liftfull_content_provenance : forall kind params pfile ploc body r,
  try_lift_impl kind params pfile ploc body = Ok r ->
  exists body',
    ensure_unique_variables params pfile ploc body = Ok (body', l_reports r) /\
    renamed_only body body' /\
    Forall2 (Spec.LiftFullSpec.image (xc_decls (l_cfg r))) (lifted_stmts body')
            (graph_stmts (xc_blocks (l_cfg r))).
Proof.
  intros kind params pfile ploc body r H.
  destruct (liftfull_provenance _ _ _ _ _ _ H) as (body' & Hu & Hs & F).
  exists body'. split; [exact Hu|]. split; [by apply same_renamed_only|]. exact F.
Qed.

(* every IR statement of the graph carries the meta of a statement of the body *)
Lemma graph_stmt_meta_from_body kind params pfile ploc body r x :
  try_lift_impl kind params pfile ploc body = Ok r ->
  In x (graph_stmts (xc_blocks (l_cfg r))) ->
  exists s, In s (lifted_stmts body) /\ xstmt_meta x = lift_meta (Ast.stmt_meta s).
Proof.
  intros H Hx. pose proof (liftfull_stmt_metas _ _ _ _ _ _ H) as Hm.
  apply (in_map xstmt_meta) in Hx. rewrite Hm in Hx.
  apply in_map_iff in Hx as (s & Hs & Hin). by exists s.
Qed.

Theorem liftfull_contains_source_injective_key : forall key kind params pfile ploc body r,
  try_lift_impl kind params pfile ploc body = Ok r ->
  key_injective_on key body ->
  (forall ds, exists n0, forall n, n0 <= n ->
     trace (skel key body) ds `prefix_of` walk n (map (skel_block key) (xc_blocks (l_cfg r))) ds) /\
  (forall x s, In x (graph_stmts (xc_blocks (l_cfg r))) -> In s (lifted_stmts body) ->
     key (xstmt_meta x) = key (lift_meta (Ast.stmt_meta s)) ->
     xstmt_meta x = lift_meta (Ast.stmt_meta s)).
Proof.
  intros key kind params pfile ploc body r H Hinj. split.
  - intros ds. exact (cfg_contains_source _ _ ds (liftfull_skeleton key kind params pfile ploc body r H)).
  - intros x s Hx Hs Hk.
    destruct (graph_stmt_meta_from_body _ _ _ _ _ _ _ H Hx) as (s' & Hs' & E').
    rewrite E' in Hk |- *.
    assert (E : Ast.stmt_meta s' = Ast.stmt_meta s) by (apply Hinj; [exact Hs'|exact Hs|exact Hk]).
    by rewrite E.
Qed.

(* such keys exist: an injective numbering of all metas *)
Definition meta_key (m : Ir.meta) : nat := encode_nat (Ir.m_start m, Ir.m_end m, Ir.m_file m).

Lemma meta_key_inj a b : meta_key a = meta_key b -> a = b.
Proof.
  unfold meta_key. intros H. apply (inj encode_nat) in H. destruct a, b. simpl in H. by injection H as -> -> ->.
Qed.

Lemma meta_key_injective_on body : key_injective_on meta_key body.
Proof. intros s1 s2 _ _ H. apply meta_key_inj in H. by apply Proofs.LiftFullC08.ir_meta_inj. Qed.

(* the key the model driver uses (position of the first statement with that meta) tells the
   statement metas of the body apart *)
Lemma meta_index_inj l a b : In a l -> In b l ->
  LiftFullReport.meta_index l a = LiftFullReport.meta_index l b -> a = b.
Proof.
  induction l as [|x r IH]; intros Ha Hb; [destruct Ha|]. simpl.
  destruct (SignalAssign.meta_eqb x a) eqn:Ea, (SignalAssign.meta_eqb x b) eqn:Eb; intros H; try discriminate.
  - apply Proofs.LiftFullC08.meta_eqb_eq in Ea, Eb. congruence.
  - injection H as H. apply IH; [| |exact H].
    + destruct Ha as [->|Ha]; [|exact Ha]. by rewrite (proj2 (Proofs.LiftFullC08.meta_eqb_eq a a)) in Ea.
    + destruct Hb as [->|Hb]; [|exact Hb]. by rewrite (proj2 (Proofs.LiftFullC08.meta_eqb_eq b b)) in Eb.
Qed.

Lemma positional_key_injective_on body : key_injective_on (LiftFullReport.positional_key body) body.
Proof.
  intros s1 s2 H1 H2 H. apply Proofs.LiftFullC08.ir_meta_inj.
  apply (meta_index_inj (LiftFullReport.stmt_ir_metas body)); [| |exact H];
    unfold LiftFullReport.stmt_ir_metas;
    [exact (in_map (fun s => lift_meta (Ast.stmt_meta s)) _ _ H1)|exact (in_map (fun s => lift_meta (Ast.stmt_meta s)) _ _ H2)].
Qed.

(* the content-level provenance joined with the ids the walk meets *)
Lemma ast_meta_eqb_true a b : LiftFullReport.ast_meta_eqb a b = true -> a = b.
Proof.
  unfold LiftFullReport.ast_meta_eqb. destruct a as [s1 e1 f1], b as [s2 e2 f2]. simpl.
  rewrite !andb_true_iff. intros [[H1 H2] H3]. apply N.eqb_eq in H1, H2. subst.
  destruct f1, f2; try discriminate; [apply N.eqb_eq in H3; by subst|done].
Qed.

Lemma ast_meta_eqb_refl a : LiftFullReport.ast_meta_eqb a a = true.
Proof.
  unfold LiftFullReport.ast_meta_eqb. destruct a as [s e f]. simpl. rewrite !N.eqb_refl. destruct f; simpl; [apply N.eqb_refl|done].
Qed.

Lemma metas_distinct_b_NoDup l : LiftFullReport.metas_distinct_b l = true -> NoDup l.
Proof.
  induction l as [|x l IH]; simpl; [constructor|]. rewrite andb_true_iff, negb_true_iff. intros [H1 H2].
  constructor; [|auto]. intros Hin. try apply elem_of_list_In in Hin.
  assert (existsb (LiftFullReport.ast_meta_eqb x) l = true); [|congruence].
  apply existsb_exists. exists x. split; [exact Hin|apply ast_meta_eqb_refl].
Qed.

Lemma stmt_metas_distinct_b_sound body :
  LiftFullReport.stmt_metas_distinct_b body = true -> NoDup (map Ast.stmt_meta (lifted_stmts body)).
Proof. apply metas_distinct_b_NoDup. Qed.

Lemma in_map_meta (l l' : list Ast.statement) s' :
  map Ast.stmt_meta l' = map Ast.stmt_meta l -> In s' l' -> exists s, In s l /\ Ast.stmt_meta s = Ast.stmt_meta s'.
Proof.
  intros E Hin. apply (in_map Ast.stmt_meta) in Hin. rewrite E in Hin. apply in_map_iff in Hin as (s & Hs & Hi). by exists s.
Qed.

Theorem liftfull_walk_statements_are_images : forall key kind params pfile ploc body r,
  try_lift_impl kind params pfile ploc body = Ok r ->
  NoDup (map Ast.stmt_meta (lifted_stmts body)) ->
  key_injective_on key body ->
  exists body',
    ensure_unique_variables params pfile ploc body = Ok (body', l_reports r) /\
    renamed_only body body' /\
    (forall ds, exists n0, forall n, n0 <= n ->
       trace (skel key body) ds `prefix_of` walk n (map (skel_block key) (xc_blocks (l_cfg r))) ds) /\
    (forall x s', In x (graph_stmts (xc_blocks (l_cfg r))) -> In s' (lifted_stmts body') ->
       key (xstmt_meta x) = key (lift_meta (Ast.stmt_meta s')) ->
       Spec.LiftFullSpec.image (xc_decls (l_cfg r)) s' x).
Proof.
  intros key kind params pfile ploc body r H Hnd Hinj.
  destruct (liftfull_content_provenance _ _ _ _ _ _ H) as (body' & Hu & Hren & F).
  exists body'. split; [exact Hu|]. split; [exact Hren|]. split.
  - intros ds. exact (cfg_contains_source _ _ ds (liftfull_skeleton key kind params pfile ploc body r H)).
  - intros x s' Hx Hs' Hk. destruct Hren as (_ & _ & Hm).
    apply elem_of_list_In, elem_of_list_lookup in Hx as (i & Hi).
    destruct (Forall2_lookup_r _ _ _ _ _ F Hi) as (sk & Hsk & Himg).
    apply elem_of_list_In, elem_of_list_lookup in Hs' as (j & Hj).
    assert (Ex : xstmt_meta x = lift_meta (Ast.stmt_meta sk)) by exact (f_equal snd (image_hdr _ _ _ Himg)).
    destruct (in_map_meta _ _ sk Hm (proj1 (elem_of_list_In _ _) (elem_of_list_lookup_2 _ _ _ Hsk))) as (a & Ha & Ea).
    destruct (in_map_meta _ _ s' Hm (proj1 (elem_of_list_In _ _) (elem_of_list_lookup_2 _ _ _ Hj))) as (b & Hb & Eb).
    assert (Eab : Ast.stmt_meta sk = Ast.stmt_meta s').
    { rewrite <- Ea, <- Eb. apply Hinj; [exact Ha|exact Hb|]. rewrite Ea, Eb, <- Ex. exact Hk. }
    rewrite <- Hm in Hnd. assert (i = j) as ->; [|by replace s' with sk by congruence].
    apply (NoDup_lookup _ i j (Ast.stmt_meta sk) Hnd); rewrite list_lookup_fmap; [by rewrite Hsk|by rewrite Hj, Eab].
Qed.
