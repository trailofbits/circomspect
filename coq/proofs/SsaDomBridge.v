(* C14 / C15 bridge: the dominance hypotheses of C14_construction_paths_ok
   (Spec.SsaDomSpec: creach, children_sound, frontier_exact) follow from what C15 proves
   about the mirror of DominatorTree::new.  For a graph c whose predecessor / successor
   lists form a rooted graph (Spec.DomSpec.rooted) and the tree t returned by
   Dom.dominator_tree on them, the tables handed to Model.Ssa.into_ssa - the members of
   the frontier and children masks of t in any order - satisfy the three hypotheses. *)
From Coq Require Import ZArith Lia.
From stdpp Require Import list list_numbers sets.
Require Model.Base Model.Ir Model.Dom Spec.DomSpec Spec.SsaDomSpec.
Require Proofs.DomProofs.
Require Model.SsaCheck Model.Ssa Model.SsaPre Spec.SsaSpec Proofs.SsaNoPanic Proofs.SsaTreeRank Proofs.SsaDominance Proofs.DomOracle.

(* DominatorTree::new(&self.basic_blocks) reads the predecessor and successor sets
   (the same function as Model.PipelineMirrors.dom_of_ir) *)
Definition graph_of (c : Ir.cfg) : list Dom.node :=
  (λ b, Dom.Node (N.to_nat <$> Ir.b_preds b) (N.to_nat <$> Ir.b_succs b)) <$> Ir.c_blocks c.

(* the tables handed to into_ssa: the members of each mask, in the order [horder] *)
Definition sets_of (horder : list nat → list nat) (masks : list N) : list (list N) :=
  (λ m, N.of_nat <$> horder (Dom.members m)) <$> masks.

Lemma lookup_nth_error {A} (l : list A) i : l !! i = nth_error l i.
Proof. revert i. induction l as [|x l IH]; intros [|i]; simpl; auto. Qed.

Lemma graph_of_length c : length (graph_of c) = length (Ir.c_blocks c).
Proof. apply fmap_length. Qed.

Lemma sets_of_nth horder masks j :
  nth j (sets_of horder masks) [] = match masks !! j with Some m => N.of_nat <$> horder (Dom.members m) | None => [] end.
Proof. unfold sets_of. revert j. induction masks as [|m masks IH]; intros [|j]; simpl; auto. Qed.

Lemma graph_of_lookup c a y :
  graph_of c !! a = Some y ↔
  ∃ x, nth_error (Ir.c_blocks c) a = Some x ∧ y = Dom.Node (N.to_nat <$> Ir.b_preds x) (N.to_nat <$> Ir.b_succs x).
Proof.
  unfold graph_of. rewrite list_lookup_fmap, lookup_nth_error.
  destruct (nth_error (Ir.c_blocks c) a) as [x|]; simpl; split.
  - intros [= <-]. eauto.
  - intros (x' & [= <-] & ->). done.
  - done.
  - intros (x' & ? & _). done.
Qed.

Lemma edge_iff c a b : SsaDomSpec.cedge c a b ↔ DomSpec.edge (graph_of c) a b.
Proof.
  split.
  - intros (x & Hx & Hin). eexists. split; [apply graph_of_lookup; eauto|]. simpl.
    apply elem_of_list_fmap. exists (N.of_nat b). split; [by rewrite Nat2N.id|]. by apply elem_of_list_In.
  - intros (y & Hy & Hin). apply graph_of_lookup in Hy. destruct Hy as (x & Hx & ->). simpl in Hin.
    apply elem_of_list_fmap in Hin. destruct Hin as (s & -> & Hs). exists x. split; [done|].
    rewrite N2Nat.id. by apply elem_of_list_In.
Qed.

Lemma path_iff c a b l : SsaDomSpec.cpath c a b l ↔ DomSpec.path (graph_of c) a b l.
Proof.
  split.
  - induction 1 as [a Ha|a m b l He _ IH].
    + apply DomSpec.path_one. by rewrite graph_of_length.
    + eapply DomSpec.path_cons; [by apply edge_iff|done].
  - induction 1 as [a Ha|a m b l He _ IH].
    + apply SsaDomSpec.cpath_one. by rewrite <- graph_of_length.
    + eapply SsaDomSpec.cpath_cons; [by apply edge_iff|done].
Qed.

Lemma dom_iff c i j : SsaDomSpec.cdom c i j ↔ DomSpec.dom (graph_of c) i j.
Proof.
  unfold SsaDomSpec.cdom, DomSpec.dom. split; intros H l Hp.
  all: apply elem_of_list_In, H. all: by apply path_iff.
Qed.

Lemma sdom_iff c i j : SsaDomSpec.csdom c i j ↔ DomSpec.sdom (graph_of c) i j.
Proof. unfold SsaDomSpec.csdom, DomSpec.sdom. by rewrite dom_iff. Qed.

Lemma idom_iff c i j : SsaDomSpec.cidom c i j ↔ DomSpec.idom_spec (graph_of c) i j.
Proof.
  unfold SsaDomSpec.cidom, DomSpec.idom_spec. rewrite sdom_iff. split; intros [H1 H2]; (split; [done|]); intros k Hk.
  all: apply dom_iff, H2. all: by apply sdom_iff.
Qed.

Section Rooted.
Context (c : Ir.cfg) (Hg : DomSpec.rooted (graph_of c)).

Lemma df_iff i j : SsaDomSpec.cdf c i j ↔ DomSpec.df_spec (graph_of c) i j.
Proof.
  unfold SsaDomSpec.cdf, DomSpec.df_spec. rewrite sdom_iff. split; intros [H1 H2]; (split; [|done]).
  - destruct H1 as (q & He & Hd). apply edge_iff in He. destruct He as (xq & Hxq & Hj).
    pose proof (DomSpec.rooted_succs _ Hg _ _ _ Hxq Hj) as Hlt. apply lookup_lt_is_Some_2 in Hlt. destruct Hlt as (xj & Hxj).
    exists xj, q. split; [done|]. split; [by apply (DomSpec.rooted_mirror _ Hg q j xq xj)|by apply dom_iff].
  - destruct H1 as (xj & q & Hxj & Hq & Hd).
    pose proof (DomSpec.rooted_preds _ Hg _ _ _ Hxj Hq) as Hlt. apply lookup_lt_is_Some_2 in Hlt. destruct Hlt as (xq & Hxq).
    exists q. split; [|by apply dom_iff]. apply edge_iff. exists xq. split; [done|].
    by apply (DomSpec.rooted_mirror _ Hg q j xq xj).
Qed.

Lemma reach_of_rooted : SsaDomSpec.creach c.
Proof.
  intros j Hj. rewrite <- graph_of_length in Hj. destruct (DomSpec.rooted_reach _ Hg j Hj) as (l & Hl).
  exists l. by apply path_iff.
Qed.

Context (ord : nat → list nat → list nat) (Hord : DomSpec.order_ok ord).
Context (t : Dom.dom_tree).
Context (Ht : Dom.dominator_tree (Dom.dom_fuel (graph_of c)) ord (graph_of c) = Base.Ok t).
Context (horder : list nat → list nat) (Hh : ∀ l, horder l ≡ₚ l).

(* row j of the tables holds the members of mask j *)
Lemma sets_of_row masks j k :
  In k (nth j (sets_of horder masks) []) ↔ ∃ m, masks !! j = Some m ∧ Dom.mem (N.to_nat k) m = true.
Proof.
  rewrite sets_of_nth. destruct (masks !! j) as [m|]; [|split; [done|intros (? & ? & _); done]].
  rewrite <- elem_of_list_In, elem_of_list_fmap. split.
  - intros (i & -> & Hi). rewrite Hh in Hi. apply DomProofs.elem_of_members in Hi. exists m. by rewrite Nat2N.id.
  - intros (m0 & [= <-] & Hm). exists (N.to_nat k). rewrite N2Nat.id. split; [done|]. rewrite Hh. by apply DomProofs.elem_of_members.
Qed.

(* C15 discharges the dominance hypotheses of C14_construction_paths_ok *)
Theorem c15_tables_meet_hypotheses :
  SsaDomSpec.creach c ∧
  SsaDomSpec.children_sound c (sets_of horder (Dom.dt_children t)) ∧
  SsaDomSpec.frontier_exact c (sets_of horder (Dom.dt_frontier t)).
Proof.
  pose proof (DomProofs.tree_is_ok _ ord t Hg Hord Ht) as Hok.
  split; [exact reach_of_rooted|]. split.
  - intros j k Hin. apply sets_of_row in Hin. destruct Hin as (m & Hm & Hk).
    assert (Hj : j < length (graph_of c)).
    { rewrite <- (DomProofs.ok_ch_len _ _ Hok). by eapply lookup_lt_Some. }
    apply idom_iff. apply (DomProofs.child_spec _ ord t Hg Hord Ht j (N.to_nat k) Hj). by rewrite (list_lookup_total_correct _ _ _ Hm).
  - intros a s Ha Hs. rewrite <- graph_of_length in Ha.
    assert (Hla : a < length (Dom.dt_frontier t)) by (by rewrite (DomProofs.ok_df_len _ _ Hok)).
    apply lookup_lt_is_Some_2 in Hla. destruct Hla as (m & Hm).
    rewrite sets_of_row, Nat2N.id, df_iff, <- (DomProofs.frontier_exact _ ord t Hg Hord Ht a m s Hm).
    split; [intros (m0 & Hm0 & H); congruence|eauto].
Qed.
(* the computed children table is a tree that holds every block once (the decidable
   hypothesis children_treeb): rank = number of dominators *)
Lemma kids_sets_of masks j k :
  In k (SsaNoPanic.kids (sets_of horder masks) j) ↔ ∃ m, masks !! j = Some m ∧ Dom.mem k m = true.
Proof.
  unfold SsaNoPanic.kids. rewrite in_map_iff. split.
  - intros (y & <- & Hy). by apply sets_of_row in Hy.
  - intros (m & Hm & Hk). exists (N.of_nat k). rewrite Nat2N.id. split; [done|].
    apply sets_of_row. exists m. by rewrite Nat2N.id.
Qed.

Lemma kids_sets_of_nodup masks j : List.NoDup (SsaNoPanic.kids (sets_of horder masks) j).
Proof.
  unfold SsaNoPanic.kids. rewrite sets_of_nth. destruct (masks !! j) as [m|]; [|constructor].
  change (List.NoDup (N.to_nat <$> (N.of_nat <$> horder (Dom.members m)))).
  rewrite <- list_fmap_compose. erewrite list_fmap_ext; [|intros ? x _; simpl; apply Nat2N.id]. rewrite list_fmap_id.
  apply NoDup_ListNoDup. rewrite Hh. apply DomProofs.NoDup_members.
Qed.

Theorem c15_children_tree :
  SsaPre.children_treeb (sets_of horder (Dom.dt_children t)) (length (Ir.c_blocks c)) = true.
Proof.
  pose proof (DomProofs.tree_is_ok _ ord t Hg Hord Ht) as Hok.
  set (g := graph_of c) in *. rewrite <- graph_of_length. fold g.
  set (rank := λ k, Dom.card (Dom.dt_dominators t !!! k)).
  assert (Hkid : ∀ j k, In k (SsaNoPanic.kids (sets_of horder (Dom.dt_children t)) j) ↔
                        j < length g ∧ Dom.mem k (Dom.dt_children t !!! j) = true).
  { intros j k. rewrite kids_sets_of. split.
    - intros (m & Hm & Hk). split; [rewrite <- (DomProofs.ok_ch_len _ _ Hok); by eapply lookup_lt_Some|].
      by rewrite (list_lookup_total_correct _ _ _ Hm).
    - intros [Hj Hk]. exists (Dom.dt_children t !!! j). split; [|done].
      apply list_lookup_lookup_total_lt. by rewrite (DomProofs.ok_ch_len _ _ Hok). }
  apply (SsaTreeRank.ranked_children_treeb _ _ rank).
  - apply (DomSpec.rooted_nonempty _ Hg).
  - intros j k [Hj Hk]%Hkid. destruct (DomProofs.child_spec g ord t Hg Hord Ht j k Hj Hk) as [Hkn Hid].
    split; [|done]. apply (DomProofs.card_dom_lt g Hg _ (DomProofs.ok_dom _ _ Hok) j k Hkn), Hid.
  - intros j. apply kids_sets_of_nodup.
  - intros j j' k [Hj Hk]%Hkid [Hj' Hk']%Hkid.
    destruct (DomProofs.child_spec g ord t Hg Hord Ht j k Hj Hk) as [Hkn Hid].
    destruct (DomProofs.child_spec g ord t Hg Hord Ht j' k Hj' Hk') as [_ Hid'].
    by apply (DomProofs.idom_spec_unique g j j' k Hg).
  - intros k Hk. destruct (DomProofs.idom_exists g Hg _ (DomProofs.ok_dom _ _ Hok) k Hk) as (j & Hj).
    assert (Hjn : j < length g) by (eapply (DomProofs.sdom_lt g Hg); [|apply Hj]; lia).
    exists j. apply Hkid. split; [done|]. apply (DomProofs.ok_ch _ _ Hok); [done|lia|done].
  - intros k Hk. unfold rank. apply DomProofs.card_bounded. intros i Hi.
    apply (DomProofs.ok_dom _ _ Hok) in Hi; [|done]. by eapply (DomProofs.dom_lt g Hg).
Qed.
End Rooted.

Theorem into_ssa_paths_ok_c15 : ∀ c ord horder t c',
  DomSpec.rooted (graph_of c) → DomSpec.order_ok ord → (∀ l, horder l ≡ₚ l) →
  Dom.dominator_tree (Dom.dom_fuel (graph_of c)) ord (graph_of c) = Base.Ok t →
  SsaPre.ssa_dyn_pre_ok c = true →
  Ssa.into_ssa (sets_of horder (Dom.dt_frontier t)) (sets_of horder (Dom.dt_children t)) c = Ssa.SOk c' →
  ∀ pi, SsaSpec.path_from_entry c' pi →
    ∃ L, SsaSpec.exec_path c' (SsaCheck.params_map (Ir.c_params c')) pi = Some L.
Proof.
  intros c ord horder t c' Hg Hord Hh Ht Hpre Hssa.
  destruct (c15_tables_meet_hypotheses c Hg ord Hord t Ht horder Hh) as (H1 & H2 & H3).
  pose proof (c15_children_tree c Hg ord Hord t Ht horder Hh) as Htree.
  exact (SsaDominance.into_ssa_paths_ok _ _ c c' Hpre Htree H1 H2 H3 Hssa).
Qed.

(* the hypotheses are satisfiable: the loop  var x; x = 0; do { x = x + 1 } while (x); return x  *)
Module Example.
Import Ir.
Definition k0 : know := {| kval := None; kdeg := None |}.
Definition m0 : meta := {| m_start := 0%N; m_end := 0%N; m_file := None |}.
Definition xu : vname := {| vn_name := [120%N]; vn_suffix := None; vn_version := None |}.
Definition loop_pre : cfg :=
  {| c_kind := KFunction; c_params := []; c_decls := [(xu, TLocal)];
     c_blocks :=
       [ {| b_index := 0%N; b_depth := 0%N;
            b_stmts := [ SDecl m0 [xu] TLocal [];
                         SSubst m0 xu OpVar (ENum 0 k0) None (Some TLocal) ];
            b_preds := []; b_succs := [1%N] |};
         {| b_index := 1%N; b_depth := 1%N;
            b_stmts := [ SSubst m0 xu OpVar (EInfix IAdd (EVar xu k0) (ENum 1 k0) k0) None (Some TLocal);
                         SIf m0 (EVar xu k0) 1%N (Some 2%N) ];
            b_preds := [0%N; 1%N]; b_succs := [1%N; 2%N] |};
         {| b_index := 2%N; b_depth := 0%N;
            b_stmts := [ SRet m0 (EVar xu k0) ];
            b_preds := [1%N]; b_succs := [] |} ] |}.
Definition loop_frontier : list (list N) := [[]; [1%N]; []].
Definition loop_children : list (list N) := [[1%N]; [2%N]; []].

Lemma loop_hypotheses :
  SsaPre.ssa_dyn_pre_ok loop_pre = true ∧ SsaPre.children_treeb loop_children (length (c_blocks loop_pre)) = true ∧
  SsaDomSpec.creach loop_pre ∧ SsaDomSpec.children_sound loop_pre loop_children ∧
  SsaDomSpec.frontier_exact loop_pre loop_frontier.
Proof.
  split; [vm_compute; reflexivity|]. split; [vm_compute; reflexivity|].
  assert (Hg : DomSpec.rooted (graph_of loop_pre)) by (apply DomOracle.rooted_b_sound; vm_compute; reflexivity).
  destruct (DomProofs.dominator_tree_correct _ Dom.id_order Hg (proj1 DomOracle.orders_ok)) as (t & Ht & _).
  pose proof (c15_tables_meet_hypotheses loop_pre Hg Dom.id_order (proj1 DomOracle.orders_ok) t Ht (λ l, l) (λ l, reflexivity l)) as H.
  assert (E : Dom.dominator_tree (Dom.dom_fuel (graph_of loop_pre)) Dom.id_order (graph_of loop_pre) =
              Base.Ok {| Dom.dt_dominators := [1; 3; 7]%N; Dom.dt_idom := [None; Some 0; Some 1];
                         Dom.dt_children := [2; 4; 0]%N; Dom.dt_frontier := [0; 2; 0]%N |}) by (vm_compute; reflexivity).
  rewrite E in Ht. injection Ht as <-. exact H.
Qed.
End Example.
