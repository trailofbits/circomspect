(* C01 — proofs about Model.Pipeline: the literal actions never panic on the
   tokens their regular expressions accept, split_string never panics, ends
   and never cuts a scalar for every valid UTF-8 string, and the assembly of
   the stage facts into totality of the pipeline. *)
From Coq Require Import ZArith List Bool Lia Arith.
Require Import Model.Base Model.Pipeline.
Import ListNotations.
Local Open Scope Z_scope.

Definition no_panic {A} (m : outcome A) : Prop := (forall s, m <> Panic s) /\ m <> OutOfFuel.
Definition total {A B} (f : A -> outcome B) : Prop := forall a, no_panic (f a).

Lemma no_panic_ok : forall {A} (a : A), no_panic (Ok a).
Proof. intros A a. split; [intros s|]; discriminate. Qed.

Lemma no_panic_err : forall {A} e, no_panic (@Err A e).
Proof. intros A e. split; [intros s|]; discriminate. Qed.

Lemma no_panic_cases : forall {A} (m : outcome A), no_panic m -> (exists a, m = Ok a) \/ (exists e, m = Err e).
Proof.
  intros A m [H1 H2]. destruct m as [a|e|s|]; eauto.
  - destruct (H1 s eq_refl).
  - destruct (H2 eq_refl).
Qed.

Lemma no_panic_bind : forall {A B} (m : outcome A) (f : A -> outcome B),
  no_panic m -> (forall a, no_panic (f a)) -> no_panic (bind m f).
Proof.
  intros A B m f Hm Hf. destruct (no_panic_cases m Hm) as [[a ->]|[e ->]]; simpl.
  - apply Hf.
  - apply no_panic_err.
Qed.

Lemma digit_of_nonneg : forall radix b d, digit_of radix b = Some d -> 0 <= d.
Proof.
  intros radix b d. unfold digit_of, hex_digit, dec_digit.
  repeat match goal with |- context [if ?c then _ else _] => destruct c eqn:? end.
  all: intros [= <-]; lia.
Qed.

Lemma parse_digits_nonneg : forall radix s acc v, 0 <= radix -> 0 <= acc ->
  parse_digits radix acc s = Some v -> 0 <= v.
Proof.
  intros radix s. induction s as [|b r IH]; intros acc v Hr Hacc H; simpl in H.
  - injection H as <-. exact Hacc.
  - destruct (digit_of radix b) as [d|] eqn:E; [|discriminate].
    apply digit_of_nonneg in E. apply (IH _ _ Hr) in H; [exact H|]. nia.
Qed.

Definition all_digits (radix : Z) (s : list Z) : bool :=
  forallb (fun b => match digit_of radix b with Some _ => true | None => false end) s.

Lemma parse_digits_some : forall radix s acc, all_digits radix s = true ->
  exists v, parse_digits radix acc s = Some v.
Proof.
  intros radix s. induction s as [|b r IH]; intros acc H; simpl in *.
  - eauto.
  - apply andb_prop in H. destruct H as [Hb Hr].
    destruct (digit_of radix b); [apply IH; exact Hr|discriminate].
Qed.

Lemma parse_bytes_nonneg : forall radix s v, 0 <= radix -> parse_bytes radix s = Some v -> 0 <= v.
Proof.
  intros radix s v Hr H. destruct s; [discriminate|].
  apply parse_digits_nonneg in H; [exact H|exact Hr|lia].
Qed.

(* [all_dec] and [all_hex] are [all_digits 10] and [all_digits 16] by computation *)
Lemma parse_bytes_total : forall radix s, 0 <= radix -> nonempty s = true -> all_digits radix s = true ->
  exists v, parse_bytes radix s = Some v /\ 0 <= v.
Proof.
  intros radix s Hr Hn Hd. destruct s as [|b r]; [discriminate|].
  destruct (parse_digits_some radix (b :: r) 0 Hd) as [v Hv].
  exists v. split; [exact Hv|]. exact (parse_bytes_nonneg radix (b :: r) v Hr Hv).
Qed.

Lemma decnumber_action_total : forall tok, dec_token tok = true ->
  exists v, decnumber_action tok = Ok v /\ 0 <= v.
Proof.
  intros tok H. apply andb_prop in H. destruct H as [Hn Hd].
  destruct (parse_bytes_total 10 tok ltac:(lia) Hn Hd) as [v [Hv Hp]].
  unfold decnumber_action. rewrite Hv. exists v. auto.
Qed.

Lemma hexnumber_action_total : forall tok, hex_token tok = true ->
  exists v, hexnumber_action tok = Ok v /\ 0 <= v.
Proof.
  intros tok H. destruct tok as [|a [|b d]]; try discriminate.
  apply andb_prop in H. destruct H as [H Hd].
  apply andb_prop in H. destruct H as [_ Hn].
  destruct (parse_bytes_total 16 d ltac:(lia) Hn Hd) as [v [Hv Hp]].
  unfold hexnumber_action. simpl. rewrite Hv. exists v. auto.
Qed.

(* the defect D1 on the old terminal: `0x` is accepted and the action panics *)
Lemma hexnumber_old_regex_refuted :
  hex_token_old d1_witness = true /\ hexnumber_action d1_witness = Panic site_parse_base16.
Proof. split; reflexivity. Qed.

(* since bdf3e60 the version action cannot panic, whatever the token *)
Lemma small_decnumber_action_never_panics : forall tok,
  (exists v, small_decnumber_action tok = Ok v /\ 0 <= v <= usize_max) \/
  small_decnumber_action tok = Err (EOther 1).
Proof.
  intros tok. unfold small_decnumber_action, usize_from_str.
  destruct (parse_bytes 10 tok) as [v|] eqn:E; [|right; reflexivity].
  destruct (v <=? usize_max) eqn:L; [|right; reflexivity].
  left. exists v. split; [reflexivity|].
  apply parse_bytes_nonneg in E; lia.
Qed.

Lemma version_action_no_panic : forall a b c, no_panic (version_action a b c).
Proof.
  assert (H : forall tok, no_panic (small_decnumber_action tok)).
  { intros tok. destruct (small_decnumber_action_never_panics tok) as [[v [-> _]]| ->].
    - apply no_panic_ok.
    - apply no_panic_err. }
  intros a b c. unfold version_action.
  apply no_panic_bind; [apply H|intros x].
  apply no_panic_bind; [apply H|intros y].
  apply no_panic_bind; [apply H|intros z].
  apply no_panic_ok.
Qed.

Lemma version_action_never_panics : forall a b c s,
  version_action a b c <> Panic s /\ version_action a b c <> OutOfFuel.
Proof. intros a b c s. destruct (version_action_no_panic a b c) as [H1 H2]. split; [apply H1|exact H2]. Qed.

(* the defect D2 on the old action *)
Lemma small_decnumber_old_refuted :
  dec_token d2_witness = true /\ small_decnumber_action_old d2_witness = Panic site_parse_number /\
  small_decnumber_action d2_witness = Err (EOther 1).
Proof. repeat split; vm_compute; reflexivity. Qed.

(* a valid string is a sequence of scalars: a leading byte and exactly the
   number of continuation bytes it announces *)
Inductive utf8 : list Z -> Prop :=
| utf8_nil : utf8 []
| utf8_cons : forall b r s,
    scalar_len b = Some (length r) -> Forall (fun c => is_cont c = true) r -> utf8 s ->
    utf8 (b :: r ++ s).

Lemma scalar_len_not_cont : forall b n, scalar_len b = Some n -> is_cont b = false.
Proof.
  intros b n. unfold scalar_len, is_cont.
  repeat match goal with |- context [if ?c then _ else _] => destruct c eqn:? end.
  all: intros [=]; lia.
Qed.

Lemma scalar_len_le3 : forall b n, scalar_len b = Some n -> (n <= 3)%nat.
Proof.
  intros b n. unfold scalar_len.
  repeat match goal with |- context [if ?c then _ else _] => destruct c end.
  all: intros [= <-]; lia.
Qed.

(* the boundary test of b :: r ++ s beyond the first scalar is the test of s *)
Lemma boundary_shift : forall b r s j, utf8 s ->
  is_char_boundary (b :: r ++ s) (S (length r) + j) = is_char_boundary s j.
Proof.
  intros b r s j Hs. unfold is_char_boundary.
  simpl. rewrite nth_error_app2, app_length, Nat.add_comm, Nat.add_sub by lia.
  destruct j as [|j'].
  - destruct Hs as [|c r' s' Hc _ _]; simpl.
    + rewrite Nat.add_0_r. apply Nat.eqb_refl.
    + rewrite (scalar_len_not_cont c _ Hc). reflexivity.
  - destruct (nth_error s (S j')); [reflexivity|].
    apply eq_true_iff_eq. rewrite !Nat.eqb_eq. lia.
Qed.

(* inside the first scalar there is no boundary *)
Lemma boundary_inside : forall b r s i, Forall (fun c => is_cont c = true) r ->
  (1 <= i <= length r)%nat -> is_char_boundary (b :: r ++ s) i = false.
Proof.
  intros b r s i Hr Hi. unfold is_char_boundary.
  destruct i as [|i']; [lia|]. simpl nth_error.
  rewrite nth_error_app1 by lia.
  destruct (nth_error r i') as [c|] eqn:E.
  - rewrite Forall_forall in Hr. rewrite (Hr c (nth_error_In _ _ E)). reflexivity.
  - apply nth_error_None in E. lia.
Qed.

(* cutting a valid string at a boundary yields two valid strings *)
Lemma utf8_split : forall s, utf8 s -> forall i, (i <= length s)%nat ->
  is_char_boundary s i = true -> utf8 (firstn i s) /\ utf8 (skipn i s).
Proof.
  induction 1 as [|b r s Hb Hr Hs IH]; intros i Hi Hbd.
  - destruct i; split; constructor.
  - destruct (le_lt_dec i (length r)) as [Hin|Hout].
    + destruct i; [split; constructor; assumption|].
      rewrite boundary_inside in Hbd by (auto; lia). discriminate.
    + assert (exists j, i = (S (length r) + j)%nat) as [j ->] by (exists (i - S (length r))%nat; lia).
      rewrite boundary_shift in Hbd by assumption.
      simpl in Hi. rewrite app_length in Hi.
      destruct (IH j ltac:(lia) Hbd) as [H1 H2].
      simpl. rewrite firstn_app_2, skipn_app, skipn_all2, Nat.add_comm, Nat.add_sub by lia.
      split; [constructor|]; assumption.
Qed.

(* every position has a boundary at most three bytes below it *)
Lemma boundary_near : forall s, utf8 s -> forall i, (i <= length s)%nat ->
  exists j, (j <= i)%nat /\ (i <= j + 3)%nat /\ is_char_boundary s j = true.
Proof.
  induction 1 as [|b r s Hb Hr Hs IH]; intros i Hi.
  - exists 0%nat. simpl in Hi. split; [lia|]. split; [lia|reflexivity].
  - pose proof (scalar_len_le3 _ _ Hb) as L3.
    destruct (le_lt_dec i (length r)) as [Hin|Hout].
    + exists 0%nat. split; [lia|]. split; [lia|reflexivity].
    + simpl length in Hi. rewrite app_length in Hi.
      destruct (IH (i - S (length r))%nat ltac:(lia)) as [j [J1 [J2 J3]]].
      exists (S (length r) + j)%nat. split; [lia|]. split; [lia|].
      rewrite boundary_shift by assumption. exact J3.
Qed.

Lemma boundary_len : forall s, is_char_boundary s (length s) = true.
Proof.
  intros s. unfold is_char_boundary. destruct (length s) eqn:E; [reflexivity|].
  rewrite <- E, (proj2 (nth_error_None s (length s)) (le_n _)).
  apply Nat.eqb_refl.
Qed.

Lemma back_to_boundary_ok : forall fuel s e j,
  (j <= e)%nat -> (e - j < fuel)%nat -> is_char_boundary s j = true ->
  exists e', back_to_boundary fuel s e = Ok e' /\ (j <= e' <= e)%nat /\ is_char_boundary s e' = true.
Proof.
  induction fuel as [|f IH]; intros s e j Hje Hf Hj; [lia|].
  simpl. destruct (is_char_boundary s e) eqn:E.
  - exists e. split; [reflexivity|]. split; [lia|exact E].
  - destruct e as [|e'].
    + simpl in E. discriminate.
    + assert (j <> S e') by (intros ->; congruence).
      destruct (IH s e' j ltac:(lia) ltac:(lia) Hj) as [x [X1 [X2 X3]]].
      exists x. split; [exact X1|]. split; [lia|exact X3].
Qed.

(* the loop started at e0 ends on a boundary that makes progress if e0 is the
   end of the string or lies beyond the first scalar *)
Lemma back_to_boundary_window : forall s e0, utf8 s -> (1 <= e0 <= length s)%nat ->
  (e0 = length s \/ 4 <= e0)%nat ->
  exists e, back_to_boundary (S e0) s e0 = Ok e /\ (1 <= e <= e0)%nat /\ is_char_boundary s e = true.
Proof.
  intros s e0 Hs He0 Hc.
  assert (Hj : exists j, (1 <= j <= e0)%nat /\ is_char_boundary s j = true).
  { destruct Hc as [->|H4].
    - exists (length s). split; [lia|apply boundary_len].
    - destruct (boundary_near s Hs e0 ltac:(lia)) as [j [J1 [J2 J3]]].
      exists j. split; [lia|exact J3]. }
  destruct Hj as [j [Hj Hb]].
  destruct (back_to_boundary_ok (S e0) s e0 j ltac:(lia) ltac:(lia) Hb) as [e [E1 [E2 E3]]].
  exists e. split; [exact E1|]. split; [lia|exact E3].
Qed.

(* the chunks of split_string *)
Definition good_chunk (c : list Z) : Prop := utf8 c /\ c <> [] /\ (length c <= sub_len)%nat.

Lemma split_string_step : forall f cur, cur <> [] ->
  split_string (S f) cur =
  (e <- back_to_boundary (S (Nat.min sub_len (length cur))) cur (Nat.min sub_len (length cur)) ;;
   cr <- split_at cur e ;;
   rest <- split_string f (snd cr) ;;
   Ok (fst cr :: rest)).
Proof. intros f cur H. destruct cur; [congruence|reflexivity]. Qed.

Lemma split_string_nil : forall n, split_string n [] = Ok [].
Proof. destruct n; reflexivity. Qed.

Lemma split_string_ok : forall n s, utf8 s -> (length s <= n)%nat ->
  exists chunks, split_string n s = Ok chunks /\ concat chunks = s /\ Forall good_chunk chunks.
Proof.
  induction n as [|n IH]; intros s Hs Hn.
  - destruct s; [|simpl in Hn; lia]. exists []. auto.
  - destruct (list_eq_dec Z.eq_dec s []) as [->|Hne].
    { exists []. rewrite split_string_nil. auto. }
    rewrite split_string_step by assumption. set (e0 := Nat.min sub_len (length s)).
    assert (Hl : length s <> 0%nat) by (rewrite length_zero_iff_nil; exact Hne).
    unfold sub_len in e0.
    destruct (back_to_boundary_window s e0 Hs) as [e [-> [He Hb]]]; [lia|lia|].
    simpl bind. unfold split_at. rewrite Hb. simpl.
    destruct (utf8_split s Hs e ltac:(lia) Hb) as [U1 U2].
    destruct (IH (skipn e s) U2) as [chunks [-> [C2 C3]]].
    { rewrite skipn_length. lia. }
    exists (firstn e s :: chunks). split; [reflexivity|]. split.
    + simpl. rewrite C2. apply firstn_skipn.
    + constructor; [|assumption].
      assert (L : length (firstn e s) = e) by (rewrite firstn_length; lia).
      split; [exact U1|]. split; [|unfold sub_len; lia].
      intros Hnil. rewrite Hnil in L. simpl in L. lia.
Qed.

Lemma good_chunks_no_split : forall chunks, Forall good_chunk chunks -> Forall utf8 chunks.
Proof. intros chunks H. eapply Forall_impl; [|exact H]. intros c [U _]. exact U. Qed.

(* for every valid UTF-8 string: no panic, the fuel |s| suffices, the chunks
   concatenate to the string, every chunk is a non-empty valid UTF-8 string
   (no scalar is cut) of at most 230 bytes *)
Lemma split_string_never_panics : forall s, utf8 s ->
  exists chunks, split_string (length s) s = Ok chunks /\ concat chunks = s /\
    Forall (fun c => utf8 c /\ c <> [] /\ (length c <= 230)%nat) chunks.
Proof. intros s Hs. exact (split_string_ok (length s) s Hs (le_n _)). Qed.

Lemma utf8_repeat_e_acute : forall n, utf8 (concat (repeat [195; 169] n)).
Proof.
  induction n; simpl; [constructor|].
  apply (utf8_cons 195 [169]); [reflexivity|repeat constructor|assumption].
Qed.

(* the defect D26 on the old loop: a valid string on which split_at panics *)
Lemma split_string_old_refuted :
  utf8 d26_witness /\ split_string_old (length d26_witness) d26_witness = Panic site_split_at.
Proof.
  split.
  - unfold d26_witness. change (120 :: ?x) with (120 :: [] ++ x).
    constructor; [reflexivity|constructor|apply utf8_repeat_e_acute].
  - vm_compute. reflexivity.
Qed.

(* STRING: on a token of the terminal that is valid UTF-8 the slice is in
   range and on char boundaries *)
Lemma string_token_shape : forall tok, string_token tok = true ->
  exists body, tok = 34 :: body ++ [34].
Proof.
  intros tok H. unfold string_token in H.
  destruct tok as [|q r]; [discriminate|].
  apply andb_prop in H. destruct H as [Eq H]. apply Z.eqb_eq in Eq. subst q.
  destruct (rev r) as [|q' body'] eqn:Er; [discriminate|].
  apply andb_prop in H. destruct H as [Eq' _]. apply Z.eqb_eq in Eq'. subst q'.
  exists (rev body'). rewrite <- (rev_involutive r). rewrite Er. simpl. reflexivity.
Qed.

Lemma utf8_ascii_head : forall b s, scalar_len b = Some 0%nat -> utf8 (b :: s) -> utf8 s.
Proof.
  intros b s Hb H. inversion H as [|b' r s' Hl Hr Hs' Heq]; subst.
  rewrite Hb in Hl. inversion Hl as [L]. destruct r; [|discriminate]. simpl in *. assumption.
Qed.

Lemma string_action_total : forall tok, string_token tok = true -> utf8 tok ->
  exists s, string_action tok = Ok s.
Proof.
  intros tok Ht Hu. destruct (string_token_shape tok Ht) as [body ->].
  assert (Hrest : utf8 (body ++ [34])) by (eapply utf8_ascii_head; [|exact Hu]; reflexivity).
  (* position 1 is the end of the opening quote *)
  assert (B1 : is_char_boundary (34 :: body ++ [34]) 1 = true) by exact (boundary_shift 34 [] _ 0 Hrest).
  (* at position len - 1 stands the closing quote *)
  assert (B2 : is_char_boundary (34 :: body ++ [34]) (S (length body)) = true).
  { unfold is_char_boundary. simpl nth_error. rewrite nth_error_app2, Nat.sub_diag by lia. reflexivity. }
  unfold string_action. simpl length. rewrite app_length, Nat.add_1_r.
  cbn [Nat.ltb Nat.leb Nat.sub]. rewrite B1, B2. simpl. eauto.
Qed.

Lemma recover_ok : forall {A} (m : outcome A) d, no_panic m -> exists a, recover m d = Ok a.
Proof.
  intros A m d H. destruct (no_panic_cases m H) as [[a ->]|[e ->]]; simpl; eauto.
Qed.

Lemma no_panic_recover : forall {A} (m : outcome A) d, no_panic m -> no_panic (recover m d).
Proof. intros A m d H. destruct (recover_ok m d H) as [a ->]. apply no_panic_ok. Qed.

Lemma map_outcome_ok : forall {A B} (f : A -> outcome B) l,
  (forall a, exists b, f a = Ok b) -> exists bs, map_outcome f l = Ok bs.
Proof.
  intros A B f l H. induction l as [|a r [bs IH]]; simpl; [eauto|].
  destruct (H a) as [b ->]. simpl. rewrite IH. simpl. eauto.
Qed.

Section AssemblyProofs.
  Variables Argv Source Ast Definition_ Cfg Ssa Report : Type.
  Variable stage_files : Argv -> outcome (list Source).
  Variable stage_parse : Source -> outcome Ast.
  Variable stage_desugar : list Ast -> outcome (list Definition_ * list Report).
  Variable stage_lift : Definition_ -> outcome Cfg.
  Variable stage_ssa : Cfg -> outcome Ssa.
  Variable stage_propagate : Ssa -> outcome Ssa.
  Variable stage_passes : Ssa -> outcome (list Report).
  Variable report_of_error : error -> Report.
  Variable stage_output : list Report -> outcome Z.

  Lemma pipeline_total :
    total stage_files -> total stage_parse -> total stage_desugar -> total stage_lift ->
    total stage_ssa -> total stage_propagate -> total stage_passes ->
    (forall rs, stage_output rs = Ok 0 \/ stage_output rs = Ok 1) ->
    forall argv,
      run_pipeline Argv Source Ast Definition_ Cfg Ssa Report stage_files stage_parse stage_desugar
                   stage_lift stage_ssa stage_propagate stage_passes report_of_error stage_output argv = Ok 0 \/
      run_pipeline Argv Source Ast Definition_ Cfg Ssa Report stage_files stage_parse stage_desugar
                   stage_lift stage_ssa stage_propagate stage_passes report_of_error stage_output argv = Ok 1.
  Proof.
    intros Hf Hp Hd Hl Hs Hg Ha Ho argv. unfold run_pipeline.
    destruct (recover_ok (stage_files argv) (fun _ => []) (Hf argv)) as [srcs ->]. simpl bind.
    destruct (map_outcome_ok (parse_one Source Ast Report stage_parse report_of_error) srcs) as [parsed ->].
    { intros s. unfold parse_one. apply recover_ok. apply no_panic_bind; [apply Hp|intros a; apply no_panic_ok]. }
    simpl bind.
    destruct (recover_ok (stage_desugar (somes (map fst parsed))) (fun e => ([], [report_of_error e])) (Hd _)) as [dr ->].
    simpl bind.
    destruct (map_outcome_ok (analyse_definition Definition_ Cfg Ssa Report stage_lift stage_ssa stage_propagate
                                                 stage_passes report_of_error) (fst dr)) as [found ->].
    { intros d. unfold analyse_definition. apply recover_ok.
      apply no_panic_bind; [apply Hl|intros c].
      apply no_panic_bind; [apply Hs|intros s].
      apply no_panic_bind; [apply Hg|intros s']. apply Ha. }
    simpl bind. apply Ho.
  Qed.
End AssemblyProofs.
