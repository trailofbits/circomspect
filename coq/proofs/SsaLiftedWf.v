(* C12, "after into_cfg AND after into_ssa", on the graphs with statements.

     lifted_phi_free       the graph Model.LiftFull.lift_to_ir returns holds no phi
                           expression (the hypothesis of Proofs.SsaWellFormed.into_ssa_shape)
     lifted_cfg_wf         ... and satisfies every clause of Spec.IrCfgSpec.cfg_wf: the
                           theorems of props/C12.v about Model.Lift.lift, moved from the
                           skeleton graph to the graph with statements through
                           Proofs.LiftFullProofs.liftfull_skeleton
     lifted_ssa_cfg_wf     so does the graph Model.Ssa.into_ssa makes of it (any frontier /
                           children tables)
     lifted_ssa_skeleton   and the skeleton of that graph behind its phi assignments
                           (Spec.IrSkel.ir_skel) IS the graph Model.Lift.lift builds from the
                           skeleton of the body: every C12 / C13 theorem stated about
                           [lift (skel key body) = Ok g] speaks about the SSA graph *)
From Coq Require Import ZArith NArith Ascii String.
From stdpp Require Import list.
Require Import Model.Lift Model.LiftFull Proofs.LiftBasics Proofs.LiftProofs Proofs.LiftFullProofs Proofs.LiftTheorems.
Require Model.Ir Model.Ssa Model.SsaPre Model.SsaCheck Spec.CfgSpec Spec.IrCfgSpec Spec.IrSkel.
Require Proofs.SsaWellFormed Proofs.SsaConstruction.
Import Base(outcome, Ok, Err, Panic, OutOfFuel, bind).
Local Open Scope nat_scope.

Module W := Spec.IrCfgSpec.
Module K := Spec.IrSkel.
Module SW := Proofs.SsaWellFormed.

Fixpoint erase_nophi (e : xexpr) : SsaPre.expr_nophi (erase_expr e) = true.
Proof.
  destruct e as [m z|m v|m op l r|m op e|m c t f|m n args|m vs|m v acc|m v acc rhe]; simpl.
  - reflexivity.
  - reflexivity.
  - by rewrite (erase_nophi l), (erase_nophi r).
  - apply erase_nophi.
  - by rewrite (erase_nophi c), (erase_nophi t), (erase_nophi f).
  - induction args as [|x tl IH]; [reflexivity|]. simpl. by rewrite (erase_nophi x), IH.
  - induction vs as [|x tl IH]; [reflexivity|]. simpl. by rewrite (erase_nophi x), IH.
  - induction acc as [|a tl IH]; [reflexivity|]. simpl. destruct a as [x|n]; [|exact IH]. by rewrite (erase_nophi x), IH.
  - rewrite (erase_nophi rhe), andb_true_r.
    induction acc as [|a tl IH]; [reflexivity|]. simpl. destruct a as [x|n]; [|exact IH]. by rewrite (erase_nophi x), IH.
Qed.

Lemma erase_list_nophi l : SsaPre.list_nophi (map erase_expr l) = true.
Proof. induction l as [|x tl IH]; [reflexivity|]. simpl. by rewrite erase_nophi, IH. Qed.

Lemma erase_stmt_nophi s : SsaPre.stmt_nophi (erase_stmt s) = true.
Proof.
  destruct s as [m names t dims|m c t f|m e|m v op rhe st|m l r|m args|m e]; simpl;
    rewrite ?erase_nophi, ?erase_list_nophi; try reflexivity.
  induction args as [|a tl IH]; [reflexivity|]. simpl. rewrite IH, andb_true_r.
  destruct a; simpl; [reflexivity|apply erase_nophi].
Qed.

Theorem erased_phi_free c : SsaPre.phi_free (erase_cfg c) = true.
Proof.
  unfold SsaPre.phi_free, erase_cfg. simpl. apply forallb_forall. intros b Hb.
  apply in_map_iff in Hb as (xb & <- & _). simpl. apply forallb_forall. intros s Hs.
  apply in_map_iff in Hs as (x & <- & _). apply erase_stmt_nophi.
Qed.

Theorem lifted_phi_free kind params pfile ploc body c :
  lift_to_ir kind params pfile ploc body = Ok c -> SsaPre.phi_free c = true.
Proof. unfold lift_to_ir. intros H. inv_bind H. injection H as <-. apply erased_phi_free. Qed.

Lemma nth_error_lookup {A} (l : list A) i : nth_error l i = l !! i.
Proof. revert i. induction l as [|x tl IH]; intros [|i]; simpl; auto. Qed.

Lemma lookup_map {A B} (f : A -> B) l i : map f l !! i = f <$> l !! i.
Proof. apply list_lookup_fmap. Qed.

Lemma in_map_of_nat j l : In (N.of_nat j) (map N.of_nat l) <-> j ∈ l.
Proof.
  rewrite <- elem_of_list_In. split.
  - intros H. apply elem_of_list_fmap in H as (y & Hy & Hin). apply Nat2N.inj in Hy. by subst.
  - intros H. apply elem_of_list_fmap. eauto.
Qed.

Lemma in_map_of_nat_inv x l : In x (map N.of_nat l) -> exists j, x = N.of_nat j /\ j ∈ l.
Proof. intros H. apply in_map_iff in H as (j & <- & Hj). exists j. split; [done|]. by apply elem_of_list_In. Qed.

Lemma erase_stmt_branch x m e t f : erase_stmt x = Ir.SIf m e t f ->
  exists c t0 f0, x = XIf m c t0 f0 /\ t = N.of_nat t0 /\ f = option_map N.of_nat f0.
Proof. destruct x; simpl; intros H; try discriminate. injection H as <- <- <- <-. by eexists _, _, _. Qed.

Section Bridge.
Context (key : Ir.meta -> nat) (body : sk) (xbs : list xblock) (c : Ir.cfg).
Hypothesis Hl : Lift.lift body = Ok (map (skel_block key) xbs).
Hypothesis Hc : Ir.c_blocks c = map erase_block xbs.

Local Notation g := (map (skel_block key) xbs).

Lemma blk_inv i b : W.blk c i = Some b -> exists xb, xbs !! i = Some xb /\ b = erase_block xb.
Proof.
  unfold W.blk. rewrite Hc, nth_error_lookup, lookup_map. intros H.
  destruct (xbs !! i) as [xb|]; [|discriminate]. injection H as <-. eauto.
Qed.

Lemma blk_of i xb : xbs !! i = Some xb -> W.blk c i = Some (erase_block xb).
Proof.
  intros H. unfold W.blk. by rewrite Hc, nth_error_lookup, lookup_map, H.
Qed.

Lemma g_of i xb : xbs !! i = Some xb -> g !! i = Some (skel_block key xb).
Proof. intros H. by rewrite lookup_map, H. Qed.

Lemma g_inv i b : g !! i = Some b -> exists xb, xbs !! i = Some xb /\ b = skel_block key xb.
Proof.
  rewrite lookup_map. destruct (xbs !! i) as [xb|]; [|discriminate]. intros H. injection H as <-. eauto.
Qed.

Lemma nblocks_g : W.nblocks c = length g.
Proof. unfold W.nblocks. by rewrite Hc, !map_length. Qed.

Lemma edge_iff i j : W.edge c i j <-> CfgSpec.edge g i j.
Proof.
  split.
  - intros (b & Hb & Hin). destruct (blk_inv _ _ Hb) as (xb & Hx & ->). simpl in Hin.
    apply in_map_of_nat in Hin. exists (skel_block key xb). split; [by apply g_of|done].
  - intros (b & Hb & Hin). destruct (g_inv _ _ Hb) as (xb & Hx & ->). simpl in Hin.
    exists (erase_block xb). split; [by apply blk_of|]. simpl. by apply in_map_of_nat.
Qed.

Lemma path_iff i l j : W.path c i l j <-> CfgSpec.path g i l j.
Proof.
  split; intros H; induction H as [i Hi|i k l j He _ IH].
  - constructor. by rewrite <- nblocks_g.
  - econstructor; [by apply edge_iff|done].
  - constructor. by rewrite nblocks_g.
  - econstructor; [by apply edge_iff|done].
Qed.

Lemma in_cons_iff (i : nat) l : In i (0 :: l) <-> i ∈ 0 :: l.
Proof. by rewrite elem_of_list_In. Qed.

Lemma last_branch xb m e t f : W.last_stmt (erase_block xb) = Some (Ir.SIf m e t f) ->
  exists t0 f0, last (b_items (skel_block key xb)) = Some (IBranch (key m) t0 f0) /\
                t = N.of_nat t0 /\ f = option_map N.of_nat f0.
Proof.
  unfold W.last_stmt. simpl. rewrite nth_error_lookup, map_length, lookup_map.
  destruct (xb_stmts xb !! pred (length (xb_stmts xb))) as [x|] eqn:E; [|discriminate]. simpl. intros H.
  injection H as H. apply erase_stmt_branch in H as (c0 & t0 & f0 & -> & -> & ->).
  exists t0, f0. split; [|done]. by rewrite last_lookup, map_length, lookup_map, E.
Qed.

Lemma ends_branch_iff xb : W.ends_in_branch (erase_block xb) <-> CfgSpec.ends_in_branch (skel_block key xb).
Proof.
  split.
  - intros (s & Hs & (m & e & t & f & ->)). destruct (last_branch _ _ _ _ _ Hs) as (t0 & f0 & H & _). do 3 eexists. exact H.
  - intros (cc & t & f & H). rewrite last_lookup in H. simpl in H. rewrite map_length, lookup_map in H.
    destruct (xb_stmts xb !! pred (length (xb_stmts xb))) as [x|] eqn:E; [|discriminate]. simpl in H.
    destruct x as [| m c0 t0 f0| | | | |]; try discriminate.
    exists (erase_stmt (XIf m c0 t0 f0)). split; [|simpl; do 4 eexists; reflexivity].
    unfold W.last_stmt. simpl. by rewrite nth_error_lookup, map_length, lookup_map, E.
Qed.

Theorem skeleton_cfg_wf : W.cfg_wf c.
Proof.
  pose proof (entry_no_pred _ _ Hl) as [E1 (b0 & E2 & E3)].
  pose proof (preds_succs_mirror _ _ Hl) as M.
  constructor.
  - intros i b Hb. destruct (blk_inv _ _ Hb) as (xb & Hx & ->). simpl. f_equal.
    exact (E1 _ _ (g_of _ _ Hx)).
  - destruct (g_inv _ _ E2) as (xb & Hx & ->). exists (erase_block xb). split; [by apply blk_of|].
    simpl in *. by rewrite E3.
  - intros i b x Hb Hx. destruct (blk_inv _ _ Hb) as (xb & Hxb & ->). rewrite nblocks_g. simpl in Hx.
    destruct Hx as [Hx|Hx]; apply in_map_of_nat_inv in Hx as (j & -> & Hj); rewrite Nat2N.id.
    + destruct (proj1 (M i j)) as (bj & Hbj & _); [exists (skel_block key xb); split; [by apply g_of|done]|].
      by apply lookup_lt_Some in Hbj.
    + destruct (proj2 (M j i)) as (bj & Hbj & _); [exists (skel_block key xb); split; [by apply g_of|done]|].
      by apply lookup_lt_Some in Hbj.
  - intros i j. split.
    + intros (bi & Hbi & Hin). destruct (blk_inv _ _ Hbi) as (xb & Hx & ->). simpl in Hin. apply in_map_of_nat in Hin.
      destruct (proj1 (M i j)) as (bj & Hbj & Hin'); [exists (skel_block key xb); split; [by apply g_of|done]|].
      destruct (g_inv _ _ Hbj) as (xj & Hxj & ->). exists (erase_block xj). split; [by apply blk_of|].
      simpl. by apply in_map_of_nat.
    + intros (bj & Hbj & Hin). destruct (blk_inv _ _ Hbj) as (xb & Hx & ->). simpl in Hin. apply in_map_of_nat in Hin.
      destruct (proj2 (M i j)) as (bi & Hbi & Hin'); [exists (skel_block key xb); split; [by apply g_of|done]|].
      destruct (g_inv _ _ Hbi) as (xi & Hxi & ->). exists (erase_block xi). split; [by apply blk_of|].
      simpl. by apply in_map_of_nat.
  - intros i b k s Hb Hk (m & e & t & f & ->). destruct (blk_inv _ _ Hb) as (xb & Hx & ->). simpl in *.
    rewrite nth_error_lookup, lookup_map in Hk. destruct (xb_stmts xb !! k) as [x|] eqn:E; [|discriminate]. injection Hk as Hk.
    apply erase_stmt_branch in Hk as (c0 & t0 & f0 & -> & _ & _).
    pose proof (branch_only_last _ _ Hl i (skel_block key xb) k (key m) t0 f0 (g_of _ _ Hx)) as B. simpl in B.
    rewrite map_length in *. apply B.
    by rewrite lookup_map, E.
  - intros i b m e t f Hb Hlast. destruct (blk_inv _ _ Hb) as (xb & Hx & ->).
    destruct (last_branch _ _ _ _ _ Hlast) as (t0 & f0 & Hl0 & -> & ->).
    destruct (branch_targets_exist_and_are_succs _ _ Hl i _ _ _ _ (g_of _ _ Hx) Hl0) as (T1 & T2 & T3 & T4).
    rewrite nblocks_g, Nat2N.id. split; [by rewrite T1|]. split; [done|]. split; [simpl; by apply in_map_of_nat|].
    intros x Hf. destruct f0 as [y|]; [|discriminate]. injection Hf as <-.
    destruct (T4 y eq_refl) as (F1 & F2 & F3). rewrite Nat2N.id. split; [done|]. split; [simpl; by apply in_map_of_nat|].
    intros Heq. apply Nat2N.inj in Heq. done.
  - intros i b Hb. destruct (blk_inv _ _ Hb) as (xb & Hx & ->).
    destruct (at_most_two_succs _ _ Hl i _ (g_of _ _ Hx)) as (A1 & A2 & A3). simpl in *.
    rewrite map_length. split; [|split; [done|]].
    + apply NoDup_ListNoDup. change (map N.of_nat (xb_succs xb)) with (N.of_nat <$> xb_succs xb).
      assert (Inj eq eq N.of_nat) by (intros ? ?; apply Nat2N.inj). by apply NoDup_fmap_2.
    + intros Hn. apply A3. intros He. apply Hn. by apply ends_branch_iff.
  - intros j Hj. rewrite nblocks_g in Hj. destruct (all_reachable _ _ Hl j Hj) as (l & Hp). exists l. by apply path_iff.
  - intros i j Hj Hd. rewrite nblocks_g in Hj. apply (dom_implies_le _ _ Hl i j Hj).
    intros l Hp. apply in_cons_iff. apply Hd. by apply path_iff.
  - intros j Hj. rewrite nblocks_g in Hj. destruct (descending_path _ _ Hl j Hj) as (l & Hp & Hle). exists l.
    split; [by apply path_iff|]. intros x Hx. apply Hle. by apply in_cons_iff.
Qed.
End Bridge.

Theorem lifted_cfg_wf kind params pfile ploc body c :
  lift_to_ir kind params pfile ploc body = Ok c -> W.cfg_wf c.
Proof.
  unfold lift_to_ir. intros H. inv_bind H. injection H as <-.
  eapply (skeleton_cfg_wf (fun _ => 0)); [exact (liftfull_skeleton _ _ _ _ _ _ _ E)|reflexivity].
Qed.

Theorem lifted_ssa_cfg_wf kind params pfile ploc body c frontier children c' :
  lift_to_ir kind params pfile ploc body = Ok c ->
  Ssa.into_ssa frontier children c = Ssa.SOk c' ->
  W.ssa_shape_of c c' /\ W.cfg_wf c'.
Proof.
  intros H Hs. pose proof (SW.into_ssa_shape _ _ _ _ (lifted_phi_free _ _ _ _ _ _ H) Hs) as Sh.
  split; [exact Sh|]. eapply SW.ssa_shape_keeps_wf; [exact Sh|]. eapply lifted_cfg_wf. exact H.
Qed.

Lemma is_phi_b_iff s : K.is_phi_b s = true <-> W.is_phi s.
Proof. symmetry. exact (SW.is_phi_iff s). Qed.

Lemma drop_phis_app P B : Forall W.is_phi P -> Forall (fun s => ~ W.is_phi s) B -> K.drop_phis (P ++ B) = B.
Proof.
  intros HP HB. induction HP as [|p tl Hp _ IH]; simpl.
  - destruct HB as [|s tb Hs _]; [done|]. simpl. destruct (K.is_phi_b s) eqn:E; [|done].
    by apply is_phi_b_iff in E.
  - apply is_phi_b_iff in Hp. by rewrite Hp.
Qed.

Lemma same_kind_item key a s : W.same_kind a s -> K.ir_item key s = K.ir_item key a.
Proof.
  destruct a, s; simpl; try done.
  - by intros [-> _].
  - by intros (-> & -> & ->).
  - by intros ->.
  - by intros [-> _].
  - by intros ->.
  - by intros ->.
  - by intros ->.
Qed.

Lemma same_kind_items key : forall A B, Forall2 W.same_kind A B -> map (K.ir_item key) B = map (K.ir_item key) A.
Proof. intros A B H. induction H as [|a s ta tb Hk _ IH]; [done|]. simpl. by rewrite (same_kind_item key a s Hk), IH. Qed.

Lemma erase_item key x : K.ir_item key (erase_stmt x) = skel_item key x.
Proof. destruct x as [| m c t f| | | | |]; simpl; try done. rewrite Nat2N.id. by destruct f as [y|]; simpl; rewrite ?Nat2N.id. Qed.

Lemma shape_skel_block key xb b' :
  W.same_frame (erase_block xb) b' -> W.phis_then_image (erase_block xb) b' ->
  K.ir_skel_block key b' = skel_block key xb.
Proof.
  intros (Hi & Hd & Hp & Hs) (P & B & Hst & HP & HB & HK). unfold K.ir_skel_block, skel_block.
  rewrite Hi, Hd, Hp, Hs, Hst, (drop_phis_app _ _ HP HB), (same_kind_items key _ _ HK). simpl.
  rewrite !Nat2N.id, !map_to_of_nat. f_equal. rewrite map_map. apply map_ext. apply erase_item.
Qed.

Lemma shape_skel key xc c' : W.ssa_shape_of (erase_cfg xc) c' -> K.ir_skel key c' = map (skel_block key) (xc_blocks xc).
Proof.
  unfold W.ssa_shape_of, K.ir_skel, erase_cfg. simpl. generalize (Ir.c_blocks c'). induction (xc_blocks xc) as [|xb tl IH];
    intros l H; inversion H as [|? b' ? t' [Hf Hi] Ht]; subst; [done|].
  simpl. by rewrite (shape_skel_block key xb b' Hf Hi), (IH _ Ht).
Qed.

Theorem lifted_ssa_skeleton key kind params pfile ploc body r frontier children c' :
  try_lift_impl kind params pfile ploc body = Ok r ->
  Ssa.into_ssa frontier children (erase_cfg (l_cfg r)) = Ssa.SOk c' ->
  Lift.lift (skel key body) = Ok (K.ir_skel key c').
Proof.
  intros H Hs. rewrite (shape_skel key (l_cfg r) c').
  - exact (liftfull_skeleton key _ _ _ _ _ _ H).
  - exact (SW.into_ssa_shape _ _ _ _ (erased_phi_free _) Hs).
Qed.

(* e.g. the loop depths recorded in the SSA graph are the syntactic loop nesting of the source *)
Theorem lifted_ssa_loop_depths key kind params pfile ploc body r frontier children c' :
  try_lift_impl kind params pfile ploc body = Ok r ->
  Ssa.into_ssa frontier children (erase_cfg (l_cfg r)) = Ssa.SOk c' ->
  CfgSpec.graph_items (K.ir_skel key c') = CfgSpec.nesting 0 (skel key body).
Proof. intros H Hs. apply loop_depth_is_nesting. eapply lifted_ssa_skeleton; eassumption. Qed.

(* before the conversion: the same view of the lifted graph itself *)
Theorem lifted_skeleton key kind params pfile ploc body r :
  try_lift_impl kind params pfile ploc body = Ok r ->
  Lift.lift (skel key body) = Ok (K.ir_skel key (erase_cfg (l_cfg r))).
Proof.
  intros H. rewrite (liftfull_skeleton key _ _ _ _ _ _ H). f_equal. symmetry.
  unfold K.ir_skel, erase_cfg. simpl. rewrite map_map. apply map_ext. intros xb.
  unfold K.ir_skel_block, skel_block. simpl. rewrite !Nat2N.id, !map_to_of_nat. f_equal.
  assert (D : K.drop_phis (map erase_stmt (xb_stmts xb)) = map erase_stmt (xb_stmts xb)).
  { destruct (xb_stmts xb) as [|x tl]; [done|]. simpl. destruct x as [| | |m v op rhe st| | |]; try done. by destruct rhe. }
  rewrite D, map_map. apply map_ext. apply erase_item.
Qed.

(* both facts about the lifted graph in one statement (props/C12.v) *)
Theorem lifted_graph_wf kind params pfile ploc body c :
  lift_to_ir kind params pfile ploc body = Ok c -> SsaPre.phi_free c = true /\ W.cfg_wf c.
Proof. intros H. split; [eapply lifted_phi_free|eapply lifted_cfg_wf]; exact H. Qed.
