(* C07: concrete runs in graphs WITH LOOPS whose paths differ between valuations (different
   arms of an `if` inside a loop body) but stay in step at the loop headers are represented
   by the lock-step relation of Spec.DegSem.

   The schedule.  An abstract FIRING SCHEDULE is a sequence of blocks  blkf 0 .. blkf (N-1)
   of which every path of the family is a subsequence:  visf rho t  says whether the run of
   valuation rho executes block  blkf t  at step t.  The lock-step relation fires, step by
   step, every statement of  blkf t  for ALL valuations whenever some run visits it
   (speculatively for the others).  In a graph with loops this OVERWRITES cells: a run that
   does not visit the block at step t keeps, in its own store, the value its last visit
   assigned, while the family store now holds the value of the visitors.  The invariant is
   therefore restricted to the cells that are VALID for a run: those whose defining block
   was last fired at a step the run took part in.

   Why that is enough.  A run only reads cells that hold the RUNNING VERSION of their
   variable (C14's validator, Model.SsaCheck.infos_ok: every read names the version most
   recently assigned on the path), and a cell that holds the running version is valid
   ([live_valid]) provided that no cell is overwritten for a run for which it holds the
   running version - hypothesis [HDead] of the abstract schedule, DERIVED in
   Proofs.DegRunSegments for schedules that fire the blocks in index order once per ascending
   segment of the paths, from a decidable condition on the validator's maps
   ([no_future_version]: the version current at the exit of a block is never one that a block
   with a larger index defines).

   One firing of a block for all valuations ([block_all]) is also the step of the loop-free
   schedule of Proofs.DegRunDecided, where every name is valid. *)
From Coq Require Import ZArith NArith List Bool Arith Lia Sorting.Sorted.
Require Import Model.Base Model.Ir Model.SsaCheck Model.Propagate Model.Justify Model.DegJustify Model.DegGraph Model.DegLoops.
Require Import Spec.PolyDeg Spec.SsaSpec Spec.DegSem Spec.DegRun Proofs.IrInd Proofs.IrFacts Proofs.ValueProofs Proofs.SsaProofs.
Require Import Proofs.PolyDegProofs Proofs.DegreeProofs Proofs.DegGraphProofs Proofs.DegRunProofs Proofs.DegRunBranch.
Require Model.Lift Spec.SsaEffects Proofs.MirrorsDom.
Import ListNotations.
Local Open Scope Z_scope.

Section Runs.
Variable V : Type.
Variable p : Z.
Variable sem2 : infix_op -> Z -> Z -> Z.
Variable sem1 : prefix_op -> Z -> Z.
Variable call_sem : ident -> list Z -> Z.
Variable name_code : ident -> Z.
Variable c : cfg.
Variable idom : list (option N).
Variable S0 : fstore V.
Notation den := (den V p sem2 sem1 call_sem name_code).
Notation cval := (cval p sem2 sem1 call_sem name_code).
Notation cexec_stmt := (cexec_stmt p sem2 sem1 call_sem name_code).
Notation cexec_body := (cexec_body p sem2 sem1 call_sem name_code).
Notation cexec_block := (cexec_block p sem2 sem1 call_sem name_code).
Notation freachable := (freachable V p sem2 sem1 call_sem name_code c idom S0).
Notation local_targets := (local_targets c).

Lemma local_targets_cons st tl : local_targets (st :: tl) = local_targets [st] ++ local_targets tl.
Proof. unfold DegRunBranch.local_targets. cbn [flat_map]. rewrite app_nil_r. reflexivity. Qed.

Lemma local_targets_mem st tl y d :
  In y (local_targets tl ++ (local_targets [st] ++ d)) <-> In y (local_targets (st :: tl) ++ d).
Proof. rewrite (local_targets_cons st tl), !in_app_iff. tauto. Qed.

(* a block changes the cells of its local targets only *)
Lemma cupd_other s x v y : ~ In y [x] -> cupd s x v y = s y.
Proof.
  intros Hy. unfold cupd. destruct (vname_eqb x y) eqn:E; [|reflexivity].
  apply vname_eqb_eq in E. subst y. exfalso. apply Hy. left. reflexivity.
Qed.

Lemma cexec_stmt_frame s st s1 : cexec_stmt c s st = Some s1 -> forall y, ~ In y (local_targets [st]) -> s1 y = s y.
Proof.
  destruct st; cbn [DegRun.cexec_stmt]; try (intros [= <-]; reflexivity).
  unfold DegRunBranch.local_targets. cbn [flat_map]. destruct (stores_local c v); [|intros [= <-]; reflexivity].
  destruct (cval s rhe); [|discriminate]. intros [= <-] y. rewrite app_nil_r. apply cupd_other.
Qed.

Lemma cexec_phi_frame L s st s1 : cexec_phi c L s st = Some s1 -> forall y, ~ In y (local_targets [st]) -> s1 y = s y.
Proof.
  destruct st; cbn [cexec_phi]; try (intros [= <-]; reflexivity). destruct rhe; try (intros [= <-]; reflexivity).
  unfold DegRunBranch.local_targets. cbn [flat_map]. destruct (stores_local c v); [|intros [= <-]; reflexivity].
  destruct (vget L (key_of v)) as [n|]; [|discriminate]. destruct (phi_arg v n args) as [a|]; [|discriminate].
  destruct (s a); [|discriminate]. intros [= <-] y. rewrite app_nil_r. apply cupd_other.
Qed.

Lemma cexec_body_frame ss : forall s s', cexec_body c s ss = Some s' -> forall y, ~ In y (local_targets ss) -> s' y = s y.
Proof.
  induction ss as [|st tl IH]; intros s s'; cbn [DegRun.cexec_body]; [intros [= <-]; reflexivity|].
  destruct (cexec_stmt c s st) as [s1|] eqn:E1; [|discriminate]. intros H y Hy.
  rewrite local_targets_cons, in_app_iff in Hy. rewrite (IH s1 s' H y), (cexec_stmt_frame s st s1 E1 y); tauto.
Qed.

Lemma cexec_phis_frame L phis : forall s s', cexec_phis c L s phis = Some s' -> forall y, ~ In y (local_targets phis) -> s' y = s y.
Proof.
  induction phis as [|st tl IH]; intros s s'; cbn [cexec_phis]; [intros [= <-]; reflexivity|].
  destruct (cexec_phi c L s st) as [s1|] eqn:E1; [|discriminate]. intros H y Hy.
  rewrite local_targets_cons, in_app_iff in Hy. rewrite (IH s1 s' H y), (cexec_phi_frame L s st s1 E1 y); tauto.
Qed.

Lemma cexec_block_frame L s b s' : cexec_block c L s b = Some s' -> forall y, ~ In y (local_targets (b_stmts b)) -> s' y = s y.
Proof.
  unfold DegRun.cexec_block. destruct (leading_phis (b_stmts b)) as [phis body] eqn:Elp.
  rewrite (leading_phis_app _ _ _ Elp), local_targets_app. destruct (cexec_phis c L s phis) as [s1|] eqn:E1; [|discriminate].
  intros H y Hy. rewrite in_app_iff in Hy. rewrite (cexec_body_frame body s1 s' H y), (cexec_phis_frame L phis s s1 E1 y); tauto.
Qed.

(* every cell of the concrete store whose name satisfies P is the family's cell at rho *)
Definition sync_on (P : vname -> Prop) (rho : V) (s : cstore) (S : fstore V) : Prop :=
  forall x v, P x -> s x = Some v -> exists F, S x = Some F /\ rel_cell V rho v F.

Lemma sync_on_weaken (P Q : vname -> Prop) rho s S : (forall x, Q x -> P x) -> sync_on P rho s S -> sync_on Q rho s S.
Proof. intros H Hs x v Hq Hx. apply (Hs x v); auto. Qed.

(* an assignment to x, in the concrete store and in the family *)
Lemma sync_on_upd (P Q : vname -> Prop) rho s S x v F :
  sync_on P rho s S -> rel_cell V rho v F -> (forall y, Q y -> y = x \/ P y) ->
  sync_on Q rho (cupd s x (Some v)) (fupd V S x (Some F)).
Proof.
  intros Hs Hv HQ y w Hy Hc. unfold cupd in Hc. unfold fupd. destruct (vname_eqb x y) eqn:E.
  - injection Hc as <-. eauto.
  - apply (Hs y w); [|exact Hc]. destruct (HQ y Hy) as [->|Hp]; [|exact Hp]. rewrite vname_eqb_refl in E. discriminate.
Qed.

(* ... in the family only *)
Lemma sync_on_keep (P Q : vname -> Prop) rho s S x F :
  sync_on P rho s S -> (forall y, Q y -> y <> x /\ P y) -> sync_on Q rho s (fupd V S x F).
Proof.
  intros Hs HQ y w Hy Hc. destruct (HQ y Hy) as [Hne Hp]. unfold fupd.
  destruct (vname_eqb x y) eqn:E; [|exact (Hs y w Hp Hc)]. apply vname_eqb_eq in E. congruence.
Qed.

Lemma cval_den_on P rho s S e v : sync_on P rho s S -> (forall y, In y (expr_reads e) -> P y) ->
  cval s e = Some v -> exists F, den S e = Some F /\ rel_cell V rho v F.
Proof.
  intros Hs Hr Hv.
  set (s1 := fun x => if existsb (vname_eqb x) (expr_reads e) then s x else None).
  apply (cval_den_sub V p sem2 sem1 call_sem name_code rho s1 S e v).
  - intros x w Hx. unfold s1 in Hx. destruct (existsb (vname_eqb x) (expr_reads e)) eqn:E; [|discriminate].
    apply existsb_exists in E as (y & Hy & E). apply vname_eqb_eq in E. subst y.
    apply (Hs x w); [apply Hr; exact Hy|exact Hx].
  - apply (cval_mono p sem2 sem1 call_sem name_code s s1 e); [|exact Hv]. apply Forall_forall. intros y Hy w Hw. unfold s1.
    rewrite (proj2 (existsb_exists _ _) (ex_intro _ y (conj Hy (vname_eqb_refl y)))). exact Hw.
Qed.

Section Block.
Variable vis : V -> bool.          (* the valuations that visit the block at this step *)
Variable r0 : V.
Hypothesis Hr0 : vis r0 = true.
Variable Pv : V -> vname -> Prop.  (* the names that are valid for a valuation before this step *)

(* the invariant while the block fires, [done] being the targets fired so far: the store of a
   visitor is synchronised on the valid names and on [done], that of another valuation (which
   does not change) on the valid names outside [done] *)
Definition synced (done : list vname) (cur : V -> cstore) (S : fstore V) : Prop :=
  (forall rho, vis rho = true -> sync_on (fun x => Pv rho x \/ In x done) rho (cur rho) S) /\
  (forall rho, vis rho = false -> sync_on (fun x => Pv rho x /\ ~ In x done) rho (cur rho) S).

Lemma synced_ext done done' cur cur' S : (forall rho, cur' rho = cur rho) -> (forall y, In y done <-> In y done') ->
  synced done cur S -> synced done' cur' S.
Proof.
  intros Hc Hd [Hv Hnv]. split; intros rho Ev; rewrite Hc.
  - eapply sync_on_weaken; [|exact (Hv rho Ev)]. intros y [Hy|Hy]; [left; exact Hy|right; apply Hd; exact Hy].
  - eapply sync_on_weaken; [|exact (Hnv rho Ev)]. intros y [Hy Hn]. split; [exact Hy|]. intros H. apply Hn, Hd, H.
Qed.

(* the visitors assign x, each a value that the family F takes at its valuation *)
Lemma synced_fire done cur cur1 S x F :
  synced done cur S ->
  (forall rho, vis rho = true -> exists v, cur1 rho = cupd (cur rho) x (Some v) /\ rel_cell V rho v F) ->
  (forall rho, vis rho = false -> cur1 rho = cur rho) ->
  synced (x :: done) cur1 (fupd V S x (Some F)).
Proof.
  intros [Hv Hnv] H1 H2. split; intros rho Ev.
  - destruct (H1 rho Ev) as (v & -> & Hr). apply (sync_on_upd _ _ _ _ _ _ _ _ (Hv rho Ev) Hr).
    intros y [Hy|[Hy|Hy]]; auto.
  - rewrite (H2 rho Ev). apply (sync_on_keep _ _ _ _ _ _ _ (Hnv rho Ev)).
    intros y [Hy Hn]. split; [intros ->; apply Hn; left; reflexivity|]. split; [exact Hy|]. intros H. apply Hn. right. exact H.
Qed.

(* the stores after the visitors have taken a step *)
Definition after (exec : V -> cstore -> option cstore) (cur : V -> cstore) : V -> cstore :=
  fun rho => if vis rho then match exec rho (cur rho) with Some s1 => s1 | None => cur rho end else cur rho.

Lemma after_spec exec cur : (forall rho, vis rho = true -> exec rho (cur rho) <> None) ->
  (forall rho, vis rho = true -> exec rho (cur rho) = Some (after exec cur rho)) /\
  (forall rho, vis rho = false -> after exec cur rho = cur rho).
Proof.
  intros H. split; intros rho Ev; unfold after; rewrite Ev; [|reflexivity].
  destruct (exec rho (cur rho)) eqn:E; [reflexivity|destruct (H rho Ev E)].
Qed.

(* every read of a statement is valid or was assigned earlier in this firing of the block *)
Fixpoint reads_in (P : vname -> Prop) (done : list vname) (ss : list stmt) : Prop :=
  match ss with
  | [] => True
  | st :: tl => (forall y, In y (stmt_reads st) -> P y \/ In y done) /\ reads_in P (local_targets [st] ++ done) tl
  end.

Lemma body_one st done cur cur1 S :
  In st (all_stmts (c_blocks c)) -> freachable S -> synced done cur S ->
  (forall rho, vis rho = true -> cexec_stmt c (cur rho) st = Some (cur1 rho)) ->
  (forall rho, vis rho = false -> cur1 rho = cur rho) ->
  (forall rho, vis rho = true -> forall y, In y (stmt_reads st) -> Pv rho y \/ In y done) ->
  exists S1, freachable S1 /\ synced (local_targets [st] ++ done) cur1 S1.
Proof.
  intros Hin Hreach Hs Hstep Hnv Hreads. unfold DegRunBranch.local_targets. cbn [flat_map]. rewrite app_nil_r.
  destruct (match st with SSubst _ x _ _ _ _ => stores_local c x | _ => false end) eqn:Eloc.
  - destruct st as [| | |m x op rhe sv stt| | |]; try discriminate. cbn [DegRun.cexec_stmt] in Hstep. rewrite Eloc in Hstep |- *.
    (* every visitor evaluates the right-hand side, to its denotation at the valuation *)
    assert (Hden : forall rho, vis rho = true ->
              exists v F, cur1 rho = cupd (cur rho) x (Some v) /\ den S rhe = Some F /\ rel_cell V rho v F).
    { intros rho Ev. specialize (Hstep rho Ev). destruct (cval (cur rho) rhe) as [v|] eqn:Ec; [|discriminate].
      injection Hstep as <-.
      destruct (cval_den_on _ rho (cur rho) S rhe v (proj1 Hs rho Ev) (Hreads rho Ev) Ec)
        as (F & HF & Hr). eauto. }
    destruct (Hden r0 Hr0) as (v0 & F & _ & HF & _).
    exists (fupd V S x (Some F)). split; [exact (freachable_assign V p sem2 sem1 call_sem name_code c idom S0 S m x op rhe sv stt F Hin Eloc HF Hreach)|].
    apply (synced_fire done cur cur1 S x F Hs); [|exact Hnv].
    intros rho Ev. destruct (Hden rho Ev) as (v & F' & Hc & HF' & Hr). rewrite HF in HF'. injection HF' as <-. eauto.
  - (* any other statement: no cell changes *)
    exists S. split; [exact Hreach|]. replace (match st with SSubst _ x _ _ _ _ => if stores_local c x then [x] else [] | _ => [] end) with (@nil vname)
      by (destruct st; try reflexivity; rewrite Eloc; reflexivity).
    apply (synced_ext done done cur cur1 S); [|reflexivity|exact Hs].
    intros rho. destruct (vis rho) eqn:Ev; [|exact (Hnv rho Ev)]. specialize (Hstep rho Ev).
    destruct st; cbn [DegRun.cexec_stmt] in Hstep; try congruence. rewrite Eloc in Hstep. congruence.
Qed.

Lemma body_steps ss : forall done cur cur' S,
  (forall st, In st ss -> In st (all_stmts (c_blocks c))) -> freachable S -> synced done cur S ->
  (forall rho, vis rho = true -> cexec_body c (cur rho) ss = Some (cur' rho)) ->
  (forall rho, vis rho = false -> cur' rho = cur rho) ->
  (forall rho, vis rho = true -> reads_in (Pv rho) done ss) ->
  exists S', freachable S' /\ synced (local_targets ss ++ done) cur' S'.
Proof.
  induction ss as [|st tl IH]; intros done cur cur' S Hin Hreach Hs Hrun Hnv Hreads.
  - exists S. split; [exact Hreach|]. apply (synced_ext done _ cur _ S); [|reflexivity|exact Hs].
    intros rho. destruct (vis rho) eqn:Ev; [|exact (Hnv rho Ev)]. specialize (Hrun rho Ev). cbn in Hrun. congruence.
  - destruct (after_spec (fun _ s => cexec_stmt c s st) cur) as [H1 H2].
    { intros rho Ev H. specialize (Hrun rho Ev). cbn [DegRun.cexec_body] in Hrun. rewrite H in Hrun. discriminate. }
    destruct (body_one st done cur _ S (Hin st (or_introl eq_refl)) Hreach Hs H1 H2 (fun rho Ev => proj1 (Hreads rho Ev)))
      as (S1 & Hr1 & Hs1).
    destruct (IH _ _ cur' S1 (fun st0 H => Hin st0 (or_intror H)) Hr1 Hs1) as (S' & Hr' & Hs').
    + intros rho Ev. specialize (Hrun rho Ev). cbn [DegRun.cexec_body] in Hrun. rewrite (H1 rho Ev) in Hrun. exact Hrun.
    + intros rho Ev. rewrite (H2 rho Ev). exact (Hnv rho Ev).
    + intros rho Ev. exact (proj2 (Hreads rho Ev)).
    + exists S'. split; [exact Hr'|]. eapply synced_ext; [reflexivity| |exact Hs']. intros y. apply local_targets_mem.
Qed.

Variable Lof : V -> vmap.         (* the running maps with which the block is entered *)
Variable b : block.
Variable ent0 : V -> cstore.      (* the stores with which the visitors enter the block *)

Definition arg_at (x : vname) (args : list vname) (r : V) : option vname :=
  match vget (Lof r) (key_of x) with Some n => phi_arg x n args | None => None end.
(* the phi copies, for a valuation that does not visit the block, the argument of a fixed visitor *)
Definition repv (rho : V) : V := if vis rho then rho else r0.
Definition pick_at (x : vname) (args : list vname) : V -> vname :=
  fun rho => match arg_at x args (repv rho) with Some a => a | None => x end.

Lemma repv_vis rho : vis (repv rho) = true.
Proof. unfold repv. destruct (vis rho) eqn:E; [exact E|exact Hr0]. Qed.

(* THE ASSUMPTION about the family, for this firing of the block: two visitors with different
   arriving arguments enter a join and differ on a deciding condition, whose operands are
   valid for both and are not merged by a phi of this block that stands BEFORE the phi in
   question (the condition is read by Spec.DegSem.cond_fixed in the store of the phi step: an
   earlier phi of the block has already overwritten its target there; the target of the phi
   itself and of later ones are still those of the entry).  [done0]: the targets already fired. *)
Definition picks_decided_at (done0 : list vname) (phis : list stmt) : Prop :=
  forall pre m x op args k sv stt post, phis = pre ++ SSubst m x op (EPhi args k) sv stt :: post ->
  stores_local c x = true ->
  forall r1 r2, vis r1 = true -> vis r2 = true -> arg_at x args r1 <> arg_at x args r2 ->
    (2 <= length (b_preds b))%nat /\
    exists cond v1 v2, decides c idom b cond /\ cval (ent0 r1) cond = Some v1 /\ cval (ent0 r2) cond = Some v2 /\
                       v1 [] <> v2 [] /\
                       forall y, In y (expr_reads cond) -> Pv r1 y /\ Pv r2 y /\ ~ In y done0 /\ ~ In y (local_targets pre).

Lemma picks_decided_at_tl done st tl : picks_decided_at done (st :: tl) -> picks_decided_at (local_targets [st] ++ done) tl.
Proof.
  intros Hpd pre m x op args k sv stt post E Hl r1 r2 E1 E2 Hne.
  destruct (Hpd (st :: pre) m x op args k sv stt post (f_equal (cons st) E) Hl r1 r2 E1 E2 Hne)
    as (Hj & cond & v1 & v2 & Hd & H1 & H2 & Hdf & Hcr).
  split; [exact Hj|]. exists cond, v1, v2. repeat (split; [assumption|]).
  intros y Hy. destruct (Hcr y Hy) as (P1 & P2 & N1 & N2). rewrite local_targets_cons, in_app_iff in N2. rewrite in_app_iff. tauto.
Qed.

(* a condition whose operands are valid and not yet fired has, in the store of a visitor at
   the phi step, the value it had at the entry of the block: its denotation at the valuation *)
Lemma entry_value_den done cur S r cond v : synced done cur S ->
  (forall rho, vis rho = true -> forall y, ~ In y done -> cur rho y = ent0 rho y) ->
  vis r = true -> cval (ent0 r) cond = Some v ->
  (forall y, In y (expr_reads cond) -> Pv r y /\ ~ In y done) -> exists C, den S cond = Some C /\ rel_cell V r v C.
Proof.
  intros Hs Hent Er Hv Hy.
  apply (cval_den_on _ r (cur r) S cond v (proj1 Hs r Er)).
  - intros y Hiny. left. apply (Hy y Hiny).
  - apply (cval_mono p sem2 sem1 call_sem name_code (ent0 r) (cur r) cond); [|exact Hv].
    apply Forall_forall. intros y Hiny w Hw. rewrite (Hent r Er y); [exact Hw|apply (Hy y Hiny)].
Qed.

Lemma phi_one st tl done cur cur1 S :
  is_phi_stmt st = true -> In st (all_stmts (c_blocks c)) -> freachable S -> synced done cur S ->
  (forall rho, vis rho = true -> cexec_phi c (Lof rho) (cur rho) st = Some (cur1 rho)) ->
  (forall rho, vis rho = false -> cur1 rho = cur rho) ->
  (forall rho, vis rho = true -> forall y, ~ In y done -> cur rho y = ent0 rho y) ->
  (forall rho, vis rho = true -> forall x args a, arg_at x args rho = Some a -> Pv rho a) ->
  picks_decided_at done (st :: tl) ->
  (forall x, In x (local_targets [st]) -> forall bq, phi_block_of c x bq -> bq = b) ->
  exists S1, freachable S1 /\ synced (local_targets [st] ++ done) cur1 S1.
Proof.
  intros Hphi Hin Hreach Hs Hstep Hnv Hent Harg Hpd Huniq.
  destruct st as [| | |m x op rhe sv stt| | |]; try discriminate. destruct rhe as [| | | | | | | | |args k]; try discriminate.
  unfold DegRunBranch.local_targets in Huniq |- *. cbn [flat_map DegRun.cexec_phi] in Huniq, Hstep |- *.
  destruct (stores_local c x) eqn:Eloc.
  2:{ (* not a local: no cell changes *)
      exists S. split; [exact Hreach|]. apply (synced_ext done done cur cur1 S); [|reflexivity|exact Hs].
      intros rho. destruct (vis rho) eqn:Ev; [|exact (Hnv rho Ev)]. specialize (Hstep rho Ev). congruence. }
  (* every visitor copies the argument that arrives, a cell that is synchronised *)
  assert (Hok : forall rho, vis rho = true -> exists a v G,
            arg_at x args rho = Some a /\ cur1 rho = cupd (cur rho) x (Some v) /\ S a = Some G /\ rel_cell V rho v G).
  { intros rho Ev. specialize (Hstep rho Ev). pose proof (Harg rho Ev x args) as Ha. unfold arg_at in Ha |- *.
    destruct (vget (Lof rho) (key_of x)) as [n|]; [|discriminate]. destruct (phi_arg x n args) as [a|]; [|discriminate].
    destruct (cur rho a) as [v|] eqn:Ec; [|discriminate]. injection Hstep as <-.
    destruct (proj1 Hs rho Ev a v (or_introl (Ha a eq_refl)) Ec) as (G & HG & Hr). exists a, v, G. auto. }
  set (pick := pick_at x args).
  assert (Hpick : forall rho, exists a G, arg_at x args (repv rho) = Some a /\ pick rho = a /\ S a = Some G).
  { intros rho. destruct (Hok (repv rho) (repv_vis rho)) as (a & v & G & Ha & _ & HG & _). exists a, G.
    unfold pick, pick_at. rewrite Ha. auto. }
  exists (fupd V S x (Some (phi_fam V S pick))). split.
  - destruct (stores_local_spec c x Eloc) as [Hd Hp].
    eapply fr_step; [exact Hreach|]. eapply fs_phi; [exact Hin|exact Hd|exact Hp| | |].
    + intros rho. destruct (Hpick rho) as (a & G & Ha & -> & _). unfold arg_at in Ha.
      destruct (vget (Lof (repv rho)) (key_of x)) as [n|]; [|discriminate]. eapply phi_arg_in; eauto.
    + intros rho. destruct (Hpick rho) as (a & G & _ & -> & HG). congruence.
    + (* the choice varies only under a varying decider *)
      intros bq Hbq Hor r1 r2. destruct (vname_eqb (pick r1) (pick r2)) eqn:E; [apply vname_eqb_eq; exact E|exfalso].
      rewrite (Huniq x (or_introl eq_refl) bq Hbq) in Hor.
      assert (Hne : arg_at x args (repv r1) <> arg_at x args (repv r2)).
      { intros Heq. unfold pick, pick_at in E. rewrite Heq, vname_eqb_refl in E. discriminate. }
      destruct (Hpd [] m x op args k sv stt tl eq_refl Eloc (repv r1) (repv r2) (repv_vis r1) (repv_vis r2) Hne)
        as (Hjoin & cond & v1 & v2 & Hdec & Hv1 & Hv2 & Hdiff & Hcr).
      destruct Hor as [Hlt|Hall]; [lia|]. specialize (Hall cond Hdec). unfold cond_fixed in Hall.
      destruct (entry_value_den done cur S (repv r1) cond v1 Hs Hent (repv_vis r1) Hv1) as (C1 & HC1 & Hr1); [intros y Hy; destruct (Hcr y Hy) as (P1 & _ & N & _); auto|].
      destruct (entry_value_den done cur S (repv r2) cond v2 Hs Hent (repv_vis r2) Hv2) as (C2 & HC2 & Hr2); [intros y Hy; destruct (Hcr y Hy) as (_ & P2 & N & _); auto|].
      rewrite HC1 in HC2. injection HC2 as <-. rewrite HC1 in Hall. apply Hdiff. rewrite (Hr1 []), (Hr2 []). apply Hall.
  - apply (synced_fire done cur cur1 S x _ Hs); [|exact Hnv].
    intros rho Ev. destruct (Hok rho Ev) as (a & v & G & Ha & Hc & HG & Hr). exists v. split; [exact Hc|].
    intros i. unfold phi_fam, pick, pick_at, repv. rewrite Ev, Ha, HG. apply Hr.
Qed.

Lemma phis_steps phis : forall done cur cur' S,
  Forall (fun s => is_phi_stmt s = true) phis ->
  (forall st, In st phis -> In st (all_stmts (c_blocks c))) -> freachable S -> synced done cur S ->
  (forall rho, vis rho = true -> cexec_phis c (Lof rho) (cur rho) phis = Some (cur' rho)) ->
  (forall rho, vis rho = false -> cur' rho = cur rho) ->
  (forall rho, vis rho = true -> forall y, ~ In y done -> cur rho y = ent0 rho y) ->
  (forall rho, vis rho = true -> forall x args a, arg_at x args rho = Some a -> Pv rho a) ->
  picks_decided_at done phis ->
  (forall x, In x (local_targets phis) -> forall bq, phi_block_of c x bq -> bq = b) ->
  exists S', freachable S' /\ synced (local_targets phis ++ done) cur' S'.
Proof.
  induction phis as [|st tl IH]; intros done cur cur' S Hphi Hin Hreach Hs Hrun Hnv Hent Harg Hpd Huniq.
  - exists S. split; [exact Hreach|]. apply (synced_ext done _ cur _ S); [|reflexivity|exact Hs].
    intros rho. destruct (vis rho) eqn:Ev; [|exact (Hnv rho Ev)]. specialize (Hrun rho Ev). cbn in Hrun. congruence.
  - apply Forall_cons_iff in Hphi as [Hphi1 Hphi]. rewrite local_targets_cons in Huniq.
    destruct (after_spec (fun rho s => cexec_phi c (Lof rho) s st) cur) as [H1 H2].
    { intros rho Ev H. specialize (Hrun rho Ev). cbn [cexec_phis] in Hrun. rewrite H in Hrun. discriminate. }
    destruct (phi_one st tl done cur _ S Hphi1 (Hin st (or_introl eq_refl)) Hreach Hs H1 H2 Hent Harg Hpd) as (S1 & Hr1 & Hs1).
    { intros x Hx. apply Huniq. apply in_or_app. left. exact Hx. }
    destruct (IH _ _ cur' S1 Hphi (fun st0 H => Hin st0 (or_intror H)) Hr1 Hs1) as (S' & Hr' & Hs').
    + intros rho Ev. specialize (Hrun rho Ev). cbn [cexec_phis] in Hrun. rewrite (H1 rho Ev) in Hrun. exact Hrun.
    + intros rho Ev. rewrite (H2 rho Ev). exact (Hnv rho Ev).
    + intros rho Ev y Hy. rewrite in_app_iff in Hy.
      rewrite (cexec_phi_frame (Lof rho) (cur rho) st _ (H1 rho Ev) y), (Hent rho Ev y); tauto.
    + exact Harg.
    + exact (picks_decided_at_tl done st tl Hpd).
    + intros x Hx. apply Huniq. apply in_or_app. right. exact Hx.
    + exists S'. split; [exact Hr'|]. eapply synced_ext; [reflexivity| |exact Hs']. intros y. apply local_targets_mem.
Qed.

Lemma phis_all phis : forall (done : list vname) (cur : V -> cstore) (S : fstore V),
  Forall (fun s => is_phi_stmt s = true) phis ->
  (forall st, In st phis -> In st (all_stmts (c_blocks c))) ->
  freachable S ->
  (forall rho, vis rho = true -> sync_on (fun x => Pv rho x \/ In x done) rho (cur rho) S) ->
  (forall rho, vis rho = false -> sync_on (fun x => Pv rho x /\ ~ In x done) rho (cur rho) S) ->
  (forall rho, vis rho = true -> forall y, ~ In y done -> cur rho y = ent0 rho y) ->
  (forall rho, vis rho = true -> cexec_phis c (Lof rho) (cur rho) phis <> None) ->
  (forall rho, vis rho = true -> forall x args a, arg_at x args rho = Some a -> Pv rho a) ->
  picks_decided_at done phis ->
  (forall x, In x (local_targets phis) -> forall bq, phi_block_of c x bq -> bq = b) ->
  exists S', freachable S' /\
    (forall rho, vis rho = true -> forall s', cexec_phis c (Lof rho) (cur rho) phis = Some s' ->
       sync_on (fun x => Pv rho x \/ In x (local_targets phis ++ done)) rho s' S') /\
    (forall rho, vis rho = false -> sync_on (fun x => Pv rho x /\ ~ In x (local_targets phis ++ done)) rho (cur rho) S').
Proof.
  intros done cur S Hphi Hin Hreach Hv Hnv Hent Hrun Harg Hpd Huniq.
  destruct (after_spec (fun rho s => cexec_phis c (Lof rho) s phis) cur Hrun) as [H1 H2].
  destruct (phis_steps phis done cur _ S Hphi Hin Hreach (conj Hv Hnv) H1 H2 Hent Harg Hpd Huniq) as (S' & Hr' & Hv' & Hnv').
  exists S'. split; [exact Hr'|]. split.
  - intros rho Ev s' Hs'. rewrite (H1 rho Ev) in Hs'. injection Hs' as <-. exact (Hv' rho Ev).
  - intros rho Ev. rewrite <- (H2 rho Ev). exact (Hnv' rho Ev).
Qed.

(* the whole block: the leading phis, then the other statements *)
Lemma block_all cur' S :
  NoDup (local_targets (all_stmts (c_blocks c))) -> In b (c_blocks c) -> freachable S ->
  (forall rho, sync_on (Pv rho) rho (ent0 rho) S) ->
  (forall rho, vis rho = true -> cexec_block c (Lof rho) (ent0 rho) b = Some (cur' rho)) ->
  (forall rho, vis rho = true -> forall x args a, arg_at x args rho = Some a -> Pv rho a) ->
  (forall phis body, leading_phis (b_stmts b) = (phis, body) ->
     forall rho, vis rho = true -> reads_in (Pv rho) (local_targets phis) body) ->
  picks_decided_at [] (fst (leading_phis (b_stmts b))) ->
  exists S', freachable S' /\
    (forall rho, vis rho = true -> sync_on (fun x => Pv rho x \/ In x (local_targets (b_stmts b))) rho (cur' rho) S') /\
    (forall rho, vis rho = false -> sync_on (fun x => Pv rho x /\ ~ In x (local_targets (b_stmts b))) rho (ent0 rho) S').
Proof.
  intros Hsa Hb Hreach Hsync Hrun Harg Hreads Hpd. unfold DegRun.cexec_block in Hrun.
  destruct (leading_phis (b_stmts b)) as [phis body] eqn:Elp. cbn [fst] in Hpd.
  pose proof (leading_phis_app _ _ _ Elp) as Hpb.
  assert (Hall : forall st, In st (b_stmts b) -> In st (all_stmts (c_blocks c))).
  { intros st Hst. apply in_flat_map. eauto. }
  rewrite Hpb in Hall.
  destruct (after_spec (fun rho s => cexec_phis c (Lof rho) s phis) ent0) as [H1 H2].
  { intros rho Ev H. specialize (Hrun rho Ev). rewrite H in Hrun. discriminate. }
  assert (Hs0 : synced [] ent0 S).
  { split; intros rho _; (eapply sync_on_weaken; [|exact (Hsync rho)]); [intros y [Hy|[]]; exact Hy|intros y [Hy _]; exact Hy]. }
  assert (Huniq : forall x, In x (local_targets phis) -> forall bq, phi_block_of c x bq -> bq = b).
  { intros x Hx. apply (phi_block_unique c b x Hsa Hb). rewrite Hpb, local_targets_app. apply in_or_app. left. exact Hx. }
  destruct (phis_steps phis [] ent0 _ S (leading_phis_are_phis _ _ _ Elp) (fun st H => Hall st (in_or_app _ _ _ (or_introl H)))
              Hreach Hs0 H1 H2 (fun _ _ _ _ => eq_refl) Harg Hpd Huniq) as (S1 & Hr1 & Hs1).
  destruct (body_steps body _ _ (fun rho => if vis rho then cur' rho else ent0 rho) S1
              (fun st H => Hall st (in_or_app _ _ _ (or_intror H))) Hr1 Hs1) as (S2 & Hr2 & Hv2 & Hnv2).
  - intros rho Ev. specialize (Hrun rho Ev). rewrite (H1 rho Ev) in Hrun. rewrite Ev. exact Hrun.
  - intros rho Ev. rewrite Ev. symmetry. exact (H2 rho Ev).
  - intros rho Ev. rewrite app_nil_r. exact (Hreads phis body eq_refl rho Ev).
  - exists S2. split; [exact Hr2|]. rewrite Hpb, local_targets_app. split; intros rho Ev.
    + specialize (Hv2 rho Ev). rewrite Ev in Hv2. eapply sync_on_weaken; [|exact Hv2].
      intros y. rewrite !in_app_iff. cbn [In]. tauto.
    + specialize (Hnv2 rho Ev). rewrite Ev in Hnv2. eapply sync_on_weaken; [|exact Hnv2].
      intros y. rewrite !in_app_iff. cbn [In]. tauto.
Qed.
End Block.
End Runs.

(* the cell x holds the running version of its variable *)
Definition live (L : vmap) (x : vname) : Prop := vget L (key_of x) = vn_version x.

Lemma vname_key_version (x y : vname) : key_of x = key_of y -> vn_version x = vn_version y -> x = y.
Proof. destruct x, y. unfold key_of. cbn. intros [= -> ->] ->. reflexivity. Qed.

(* a statement makes a name live only by defining it *)
Lemma live_track L st x : live (track L st) x -> live L x \/ stmt_def st = Some x.
Proof.
  unfold live, track. destruct (stmt_def st) as [y|] eqn:Ed; [|auto].
  destruct (vn_version y) as [n|] eqn:Ev; [|auto].
  rewrite vget_vset. destruct (key_eqb (key_of y) (key_of x)) eqn:E; [|auto].
  apply key_eqb_eq in E. intros H. right. f_equal. apply vname_key_version; [exact E|congruence].
Qed.

Lemma stmt_def_target c st x : stmt_def st = Some x -> stores_local c x = true -> In x (local_targets c [st]).
Proof.
  destruct st as [| | |m y op rhe sv stt| | |]; cbn [stmt_def]; try discriminate.
  destruct (vn_version y); [|discriminate]. intros [= ->] Hl.
  unfold local_targets. cbn [flat_map]. rewrite Hl. left. reflexivity.
Qed.

Lemma live_fold_targets c ss : forall L x, stores_local c x = true -> live (fold_left track ss L) x ->
  live L x \/ In x (local_targets c ss).
Proof.
  induction ss as [|st tl IH]; intros L x Hl H; cbn [fold_left] in H; [auto|].
  rewrite local_targets_cons, in_app_iff. destruct (IH _ _ Hl H) as [H1|H1]; [|auto].
  destruct (live_track L st x H1) as [H2|H2]; [auto|]. right. left. exact (stmt_def_target c st x H2 Hl).
Qed.

Lemma block_vmap_live c L b x : live (block_vmap L b) x -> stores_local c x = true ->
  live L x \/ In x (local_targets c (b_stmts b)).
Proof.
  unfold block_vmap. destruct (leading_phis (b_stmts b)) as [phis body] eqn:Elp.
  rewrite (leading_phis_app _ _ _ Elp). unfold apply_phis. rewrite <- fold_left_app.
  intros H Hl. exact (live_fold_targets c _ L x Hl H).
Qed.

Section Pre.
Variable V : Type.
Variable blkf : nat -> nat.        (* the block fired at a step *)
Variable visf : V -> nat -> bool.  (* whether the run of a valuation executes it then *)
(* the blocks a run has executed before step t *)
Fixpoint pre (rho : V) (t : nat) : list nat :=
  match t with O => [] | S t' => pre rho t' ++ (if visf rho t' then [blkf t'] else []) end.

Lemma pre_prefix rho : forall d t, exists rest, pre rho (t + d) = pre rho t ++ rest.
Proof.
  induction d as [|d IH]; intros t.
  - exists []. rewrite Nat.add_0_r, app_nil_r. reflexivity.
  - destruct (IH t) as (rest & E). replace (t + S d)%nat with (S (t + d)) by lia. cbn [pre]. rewrite E, <- app_assoc. eauto.
Qed.
End Pre.

Section Schedule.
Variable V : Type.
Variable p : Z.
Variable sem2 : infix_op -> Z -> Z -> Z.
Variable sem1 : prefix_op -> Z -> Z.
Variable call_sem : ident -> list Z -> Z.
Variable name_code : ident -> Z.
Variable c : cfg.
Variable idom : list (option N).
Variable S0 : fstore V.
Variable L0 : vmap.
Variable s0 : V -> cstore.
Variable reps : list V.
Variable NS : nat.                 (* the number of steps *)
Variable blkf : nat -> nat.        (* the block fired at a step *)
Variable visf : V -> nat -> bool.  (* whether the run of a valuation executes it then *)
Notation cval := (cval p sem2 sem1 call_sem name_code).
Notation cexec_block := (cexec_block p sem2 sem1 call_sem name_code).
Notation cexec_nocheck := (cexec_nocheck p sem2 sem1 call_sem name_code c).
Notation freachable := (freachable V p sem2 sem1 call_sem name_code c idom S0).
Notation sync_on := (sync_on V).
Notation local_targets := (local_targets c).
Notation alltgts := (local_targets (all_stmts (c_blocks c))).

Notation pre := (pre V blkf visf).

Definition Es (rho : V) (t : nat) : option cstore := cexec_nocheck L0 (s0 rho) (pre rho t).
Definition ents (rho : V) (t : nat) : cstore := match Es rho t with Some s => s | None => s0 rho end.
Definition Lats (rho : V) (t : nat) : vmap := vmap_after c L0 (pre rho t).
Definition firedb (t : nat) : bool := existsb (fun r => visf r t) reps.
Definition tgts (a : nat) : list vname :=
  match nth_error (c_blocks c) a with Some b => local_targets (b_stmts b) | None => [] end.

(* a cell is VALID for a run before step t: the last firing of its defining block before t
   was one the run took part in *)
Definition Valid (rho : V) (t : nat) (x : vname) : Prop :=
  forall t1, (t1 < t)%nat -> In x (tgts (blkf t1)) -> firedb t1 = true -> visf rho t1 = false ->
    exists t2, (t1 < t2 < t)%nat /\ blkf t2 = blkf t1 /\ visf rho t2 = true.

(* the statements of a block read running versions, or names the graph never assigns *)
Fixpoint reads_live (L : vmap) (ss : list stmt) : Prop :=
  match ss with
  | [] => True
  | st :: tl => (forall y, In y (stmt_reads st) -> ~ In y alltgts \/ live L y) /\ reads_live (track L st) tl
  end.

(* THE ASSUMPTION about the family (cf. Proofs.DegRunBranch.picks_decided), per step *)
Definition picks_decided_sched : Prop :=
  forall t b, (t < NS)%nat -> nth_error (c_blocks c) (blkf t) = Some b ->
    picks_decided_at V p sem2 sem1 call_sem name_code c idom (fun rho => visf rho t) (fun rho => Valid rho t)
                     (fun rho => Lats rho t) b (fun rho => ents rho t) [] (fst (leading_phis (b_stmts b))).

Hypothesis Hreps : forall rho, exists r, In r reps /\ forall t, visf r t = visf rho t.
Hypothesis Hrun : forall rho, cexec_nocheck L0 (s0 rho) (pre rho NS) <> None.
Hypothesis H0 : forall rho, sub_store V rho (s0 rho) S0.
Hypothesis Hsa : NoDup alltgts.
Hypothesis Hreads : forall rho t b phis body, (t < NS)%nat -> visf rho t = true ->
  nth_error (c_blocks c) (blkf t) = Some b -> leading_phis (b_stmts b) = (phis, body) ->
  reads_live (apply_phis (Lats rho t) phis) body.
(* no cell is overwritten for a run for which it holds the running version *)
Hypothesis HDead : forall t rho x, (t < NS)%nat -> firedb t = true -> visf rho t = false -> In x (tgts (blkf t)) ->
  ~ live (Lats rho t) x.
Hypothesis Hpick : picks_decided_sched.

Lemma firedb_of rho t : visf rho t = true -> firedb t = true.
Proof.
  intros Hv. destruct (Hreps rho) as (r & Hr & He). unfold firedb. apply existsb_exists. exists r. split; [exact Hr|].
  rewrite He. exact Hv.
Qed.

Lemma Es_some rho t : (t <= NS)%nat -> exists s, Es rho t = Some s.
Proof.
  intros Ht. unfold Es. destruct (pre_prefix V blkf visf rho (NS - t) t) as (rest & E). rewrite (Nat.add_comm t), (Nat.sub_add t NS Ht) in E.
  pose proof (Hrun rho) as H. rewrite E, nocheck_app in H.
  destruct (cexec_nocheck L0 (s0 rho) (pre rho t)) as [s|]; [eauto|congruence].
Qed.

Lemma Es_ents rho t : (t <= NS)%nat -> Es rho t = Some (ents rho t).
Proof. intros Ht. unfold ents. destruct (Es_some rho t Ht) as (s & ->). reflexivity. Qed.

Lemma Es_step_in rho t : (t < NS)%nat -> visf rho t = true ->
  exists b, nth_error (c_blocks c) (blkf t) = Some b /\ cexec_block c (Lats rho t) (ents rho t) b = Some (ents rho (S t)).
Proof.
  intros Ht Hv. pose proof (Es_ents rho (S t) ltac:(lia)) as H. unfold Es in H. cbn [pre] in H. rewrite Hv, nocheck_app in H.
  fold (Es rho t) in H. rewrite (Es_ents rho t ltac:(lia)) in H. fold (Lats rho t) in H.
  cbn [DegRunBranch.cexec_nocheck] in H. destruct (nth_error (c_blocks c) (blkf t)) as [b|]; [|discriminate].
  exists b. split; [reflexivity|]. destruct (cexec_block c (Lats rho t) (ents rho t) b); [exact H|discriminate].
Qed.

Lemma step_out rho t : visf rho t = false -> ents rho (S t) = ents rho t /\ Lats rho (S t) = Lats rho t.
Proof. intros Hv. unfold ents, Es, Lats. cbn [pre]. rewrite Hv, app_nil_r. auto. Qed.

Lemma Lats_step_in rho t b : visf rho t = true -> nth_error (c_blocks c) (blkf t) = Some b ->
  Lats rho (S t) = block_vmap (Lats rho t) b.
Proof.
  intros Hv Hb. unfold Lats. cbn [pre]. rewrite Hv. unfold vmap_after. rewrite fold_left_app. cbn [fold_left]. rewrite Hb. reflexivity.
Qed.

Lemma tgts_all a x : In x (tgts a) -> In x alltgts.
Proof.
  unfold tgts. destruct (nth_error (c_blocks c) a) as [b|] eqn:Eb; [|contradiction]. intros Hx.
  rewrite (local_targets_blocks c). apply in_flat_map. exists b. split; [eapply nth_error_In; eauto|exact Hx].
Qed.

Lemma tgts_unique a1 a2 x : In x (tgts a1) -> In x (tgts a2) -> a1 = a2.
Proof.
  unfold tgts. destruct (nth_error (c_blocks c) a1) as [b1|] eqn:E1; [|contradiction].
  destruct (nth_error (c_blocks c) a2) as [b2|] eqn:E2; [|contradiction]. intros H1 H2.
  pose proof Hsa as Hnd. rewrite (local_targets_blocks c) in Hnd. exact (nodup_flat_map_nth _ _ Hnd a1 a2 b1 b2 x E1 E2 H1 H2).
Qed.

(* a name becomes live for a run only by the run executing its defining block *)
Lemma live_gain rho x : stores_local c x = true -> forall d t1, (t1 + d <= NS)%nat ->
  live (Lats rho (t1 + d)) x -> ~ live (Lats rho t1) x ->
  exists t2, (t1 <= t2 < t1 + d)%nat /\ visf rho t2 = true /\ In x (tgts (blkf t2)).
Proof.
  intros Hl. induction d as [|d IH]; intros t1 Hle H1 H2.
  - rewrite Nat.add_0_r in H1. contradiction.
  - replace (t1 + S d)%nat with (S (t1 + d)) in H1 by lia.
    destruct (visf rho (t1 + d)) eqn:Ev.
    + destruct (Es_step_in rho (t1 + d) ltac:(lia) Ev) as (b & Hb & _).
      rewrite (Lats_step_in rho (t1 + d) b Ev Hb) in H1.
      destruct (block_vmap_live c _ b x H1 Hl) as [H3|H3].
      * destruct (IH t1 ltac:(lia) H3 H2) as (t2 & Ht2 & Hv2 & Hx2). exists t2. split; [lia|auto].
      * exists (t1 + d)%nat. split; [lia|]. split; [exact Ev|]. unfold tgts. rewrite Hb. exact H3.
    + destruct (step_out rho (t1 + d) Ev) as [_ EL]. rewrite EL in H1.
      destruct (IH t1 ltac:(lia) H1 H2) as (t2 & Ht2 & Hv2 & Hx2). exists t2. split; [lia|auto].
Qed.

Lemma live_valid rho t x : (t <= NS)%nat -> live (Lats rho t) x -> Valid rho t x.
Proof.
  intros Ht Hlive t1 Hlt Hx Hf Hv.
  assert (Hl : stores_local c x = true) by (eapply local_targets_local; eapply tgts_all; eauto).
  pose proof (HDead t1 rho x ltac:(lia) Hf Hv Hx) as Hdead.
  replace t with (t1 + (t - t1))%nat in Hlive by lia.
  destruct (live_gain rho x Hl (t - t1) t1 ltac:(lia) Hlive Hdead) as (t2 & Ht2 & Hv2 & Hx2).
  exists t2. split; [|split; [eapply tgts_unique; eauto|exact Hv2]].
  destruct (Nat.eq_dec t2 t1) as [->|Hne]; [congruence|lia].
Qed.

Lemma not_target_valid rho t x : ~ In x alltgts -> Valid rho t x.
Proof. intros Hn t1 _ Hx. exfalso. apply Hn. eapply tgts_all; eauto. Qed.

(* the reads of the body of a block are valid or assigned earlier in the block *)
Lemma reads_in_of_live rho t (Ht : (t <= NS)%nat) body : forall L done,
  (forall y, live L y -> In y alltgts -> live (Lats rho t) y \/ In y done) ->
  reads_live L body -> reads_in c (Valid rho t) done body.
Proof.
  induction body as [|st tl IH]; intros L done HL Hr; cbn [reads_in]; [exact I|].
  cbn [reads_live] in Hr. destruct Hr as [Hr1 Hr2]. split.
  - intros y Hy. destruct (Hr1 y Hy) as [Hn|Hlv]; [left; apply not_target_valid; exact Hn|].
    destruct (in_dec SsaEffects.vname_eq_dec y alltgts) as [Hin|Hnin].
    + destruct (HL y Hlv Hin) as [H1|H1]; [left; apply live_valid; assumption|right; exact H1].
    + left. apply not_target_valid. exact Hnin.
  - apply (IH (track L st)); [|exact Hr2].
    intros y Hlv Hin. rewrite in_app_iff.
    destruct (live_fold_targets c [st] L y (local_targets_local c y _ Hin) Hlv) as [H1|H1]; [|auto].
    destruct (HL y H1 Hin); auto.
Qed.

Lemma valid_step_vis rho t x : Valid rho (S t) x -> Valid rho t x \/ In x (tgts (blkf t)).
Proof.
  intros Hv. destruct (in_dec SsaEffects.vname_eq_dec x (tgts (blkf t))) as [Hin|Hnin]; [right; exact Hin|left].
  intros t1 Hlt Hx Hf Hnv. destruct (Hv t1 ltac:(lia) Hx Hf Hnv) as (t2 & Ht2 & Hb2 & Hv2).
  exists t2. split; [|auto]. destruct (Nat.eq_dec t2 t) as [->|Hne]; [|lia]. exfalso. apply Hnin. rewrite Hb2. exact Hx.
Qed.

Lemma valid_step_nonvis rho t x : visf rho t = false -> Valid rho (S t) x ->
  Valid rho t x /\ (firedb t = true -> ~ In x (tgts (blkf t))).
Proof.
  intros Hnv Hv. split.
  - intros t1 Hlt Hx Hf Hnv1. destruct (Hv t1 ltac:(lia) Hx Hf Hnv1) as (t2 & Ht2 & Hb2 & Hv2).
    exists t2. split; [|auto]. destruct (Nat.eq_dec t2 t) as [->|Hne]; [congruence|lia].
  - intros Hf Hx. destruct (Hv t ltac:(lia) Hx Hf Hnv) as (t2 & Ht2 & _). lia.
Qed.

Lemma phi_arg_spec x n args a : phi_arg x n args = Some a -> key_of a = key_of x /\ vn_version a = Some n.
Proof.
  unfold phi_arg. intros H. apply find_some in H as [_ H]. apply andb_true_iff in H as [H1 H2].
  apply key_eqb_eq in H1. apply optN_eqb_eq in H2. auto.
Qed.

Lemma sched_step t : (t < NS)%nat ->
  (exists St, freachable St /\ forall rho, sync_on (Valid rho t) rho (ents rho t) St) ->
  exists St, freachable St /\ forall rho, sync_on (Valid rho (S t)) rho (ents rho (S t)) St.
Proof.
  intros Ht (St & Hreach & Hsync).
  destruct (firedb t) eqn:Ef.
  - (* some run executes the block at this step *)
    pose proof Ef as Ef'. unfold firedb in Ef'. apply existsb_exists in Ef' as (r0 & _ & Hr0).
    destruct (Es_step_in r0 t Ht Hr0) as (b & Hb & _).
    assert (Htg : tgts (blkf t) = local_targets (b_stmts b)) by (unfold tgts; rewrite Hb; reflexivity).
    destruct (block_all V p sem2 sem1 call_sem name_code c idom S0 (fun rho => visf rho t) r0 Hr0 (fun rho => Valid rho t)
                (fun rho => Lats rho t) b (fun rho => ents rho t) (fun rho => ents rho (S t)) St Hsa (nth_error_In _ _ Hb) Hreach Hsync)
      as (S' & Hreach' & Hvis' & Hnv').
    + intros rho Ev. destruct (Es_step_in rho t Ht Ev) as (b' & Hb' & H). rewrite Hb in Hb'. injection Hb' as <-. exact H.
    + intros rho Ev x args a Ha. unfold arg_at in Ha. destruct (vget (Lats rho t) (key_of x)) as [n|] eqn:En; [|discriminate].
      destruct (phi_arg_spec x n args a Ha) as [Hk Hver]. apply live_valid; [lia|]. unfold live. rewrite Hk, En, Hver. reflexivity.
    + intros phis body Elp rho Ev. apply (reads_in_of_live rho t ltac:(lia) body (apply_phis (Lats rho t) phis)).
      * intros y Hlv Hin. exact (live_fold_targets c phis _ y (local_targets_local c y _ Hin) Hlv).
      * exact (Hreads rho t b phis body Ht Ev Hb Elp).
    + exact (Hpick t b Ht Hb).
    + exists S'. split; [exact Hreach'|]. intros rho. destruct (visf rho t) eqn:Ev.
      * eapply sync_on_weaken; [|exact (Hvis' rho Ev)]. intros x Hx. rewrite <- Htg. exact (valid_step_vis rho t x Hx).
      * destruct (step_out rho t Ev) as [-> _]. eapply sync_on_weaken; [|exact (Hnv' rho Ev)].
        intros x Hx. destruct (valid_step_nonvis rho t x Ev Hx) as [H1 H2]. rewrite <- Htg. auto.
  - (* nobody executes a block at this step *)
    exists St. split; [exact Hreach|]. intros rho.
    assert (Ev : visf rho t = false).
    { destruct (visf rho t) eqn:E; [|reflexivity]. rewrite (firedb_of rho t E) in Ef. discriminate. }
    destruct (step_out rho t Ev) as [-> _].
    eapply sync_on_weaken; [|apply Hsync]. intros x Hx. apply (valid_step_nonvis rho t x Ev Hx).
Qed.

Lemma sched_upto t : (t <= NS)%nat ->
  exists St, freachable St /\ forall rho, sync_on (Valid rho t) rho (ents rho t) St.
Proof.
  induction t as [|t IH]; intros Ht.
  - exists S0. split; [constructor|]. intros rho x v _ Hx. unfold ents, Es in Hx. cbn [pre DegRunBranch.cexec_nocheck] in Hx.
    exact (H0 rho x v Hx).
  - apply sched_step; [lia|]. apply IH. lia.
Qed.

(* THE REPRESENTATION THEOREM for a firing schedule: the final stores of the runs are, on every
   cell that holds the running version of its variable and on every cell the graph never
   assigns, one store reachable by the lock-step relation taken at the valuation *)
Theorem schedule_runs_represented :
  exists S, freachable S /\
    forall rho s', cexec_nocheck L0 (s0 rho) (pre rho NS) = Some s' ->
      sync_on (fun x => ~ In x alltgts \/ live (vmap_after c L0 (pre rho NS)) x) rho s' S.
Proof.
  destruct (sched_upto NS (le_n _)) as (S & Hreach & Hsync). exists S. split; [exact Hreach|].
  intros rho s' Hs'. specialize (Hsync rho). unfold ents, Es in Hsync. rewrite Hs' in Hsync.
  eapply sync_on_weaken; [|exact Hsync]. intros x [Hx|Hx]; [apply not_target_valid; exact Hx|apply live_valid; [lia|exact Hx]].
Qed.
End Schedule.


Lemma targets_versioned_sound c x : targets_versioned c = true -> In x (local_targets c (all_stmts (c_blocks c))) ->
  vn_version x <> None.
Proof.
  unfold targets_versioned. rewrite forallb_forall. intros H Hx. specialize (H x Hx). destruct (vn_version x); [discriminate|discriminate].
Qed.

(* a block that passes the validator's run reads running versions only *)
Lemma body_run_reads_live c : targets_versioned c = true ->
  forall ss m m0 m', meq m m0 -> ubf_body c m0 ss = true -> body_run m ss = Some m' ->
  reads_live c m ss.
Proof.
  intros Htv. induction ss as [|s tl IH]; intros m m0 m' Hm Hu H; cbn [reads_live]; [exact I|].
  cbn [body_run] in H. destruct (body_stmt_ok m s) eqn:Eb; [|discriminate].
  cbn [ubf_body] in Hu. apply andb_true_iff in Hu as [Hu1 Hu2]. split.
  - unfold body_stmt_ok in Eb. apply andb_true_iff in Eb as [_ Hr]. rewrite forallb_forall in Hr.
    intros y Hy. specialize (Hr y Hy). unfold read_ok in Hr. unfold live.
    destruct (vn_version y) as [n|] eqn:Ev.
    + destruct (vget m (key_of y)) as [n'|] eqn:Eg.
      * apply N.eqb_eq in Hr. subst n'. right. reflexivity.
      * destruct (update_base s) as [w|] eqn:Ew; [|discriminate]. apply vname_eqb_eq in Hr. subst w.
        left. rewrite <- (Hm (key_of y)), Eg in Hu1. apply negb_true_iff in Hu1. intros Hin.
        assert (E : existsb (vname_eqb y) (local_targets_m c) = true) by (apply existsb_exists; exists y; split; [exact Hin|apply vname_eqb_refl]).
        congruence.
    + left. intros Hin'. exact (targets_versioned_sound c y Htv Hin' Ev).
  - apply (IH (track m s) (track m0 s) m'); [apply meq_track; exact Hm|exact Hu2|exact H].
Qed.

(* entering a block along an edge: after the phis the running map is the validator's entry map *)
Lemma enter_in_meq c infos p s ip is_ bs_ L phis body :
  nth_error infos p = Some ip -> nth_error infos s = Some is_ -> nth_error (c_blocks c) s = Some bs_ ->
  edge_ok infos (c_blocks c) p s = true -> block_ok is_ bs_ = true -> meq L (bi_out ip) ->
  leading_phis (b_stmts bs_) = (phis, body) -> meq (apply_phis L phis) (bi_in is_).
Proof.
  intros Hip His Hbs He Hblk HL Elp.
  unfold block_ok in Hblk. rewrite Elp in Hblk. apply andb_true_iff in Hblk as [Hnd _].
  exact (apply_phis_edge c infos p s ip is_ bs_ L phis body Hip His Hbs He Hnd HL Elp).
Qed.

(* schedules that fire the blocks in index order, once per ascending segment
   (the family [sg]: the path of a valuation, cut into ascending segments; Proofs.DegRunSegments) *)
Section Segments.
Variable V : Type.
Variable c : cfg.
Variable sg : V -> list (list nat).
Notation n := (length (c_blocks c)).

Definition blk_s (t : nat) : nat := (t mod n)%nat.
Definition vis_s (rho : V) (t : nat) : bool := existsb (Nat.eqb (t mod n)) (nth (t / n) (sg rho) []).
End Segments.

Section Statements.
Variable V : Type.
Variable line : V -> V -> Z -> V.
Variable p : Z.
Variable sem2 : infix_op -> Z -> Z -> Z.
Variable sem1 : prefix_op -> Z -> Z.
Variable call_sem : ident -> list Z -> Z.
Variable name_code : ident -> Z.

(* the cells of the final store of a run that the theorem speaks about: those the graph never
   assigns (signals, parameters, never-assigned locals) and those that hold the running
   version of their variable at the end of the path *)
Definition current_at (c : cfg) (pi : list nat) (x : vname) : Prop :=
  ~ In x (local_targets c (all_stmts (c_blocks c))) \/ live (vmap_after c (params_map (c_params c)) pi) x.

Hypothesis Hsem2 : forall op, op_den p op (sem2 op).
Hypothesis Hsem1 : forall op, prefix_den p op (sem1 op).

(* Loops whose trip count depends on the valuation (open: props/C07.v).  What is within reach
   without runs: in a validated graph, a phi of a join one of whose
   deciding conditions VARIES with the valuation in some reachable store (the loop condition of
   a header whose trip count depends on a signal is such a condition: it ends the header, which
   is on the dominator chain of the back edge) carries no claim, or a claim with upper end
   NonQuadratic. *)
Lemma djust_cfg_stmt (c : cfg) (idom : list (option N)) b st : djust_cfg c idom = true -> In b (c_blocks c) -> In st (b_stmts b) ->
  djust_stmt c (block_ctl (c_blocks c) idom b) st = true.
Proof.
  unfold djust_cfg, djust_block. intros H Hb Hst. apply andb_true_iff in H as [_ H].
  rewrite forallb_forall in H. specialize (H b Hb). rewrite forallb_forall in H. exact (H st Hst).
Qed.

Theorem varying_decider_phi_no_low_claim (c : cfg) (idom : list (option N)) (S0 S : fstore V)
    (b : block) m x op args k sv st
    (cond : expr) (C : fam V) (r1 r2 : V) :
  djust_cfg c idom = true -> finit_ok V line p c S0 ->
  freachable V p sem2 sem1 call_sem name_code c idom S0 S ->
  In b (c_blocks c) -> In (SSubst m x op (EPhi args k) sv st) (b_stmts b) -> (2 <= length (b_preds b))%nat ->
  decides c idom b cond -> den V p sem2 sem1 call_sem name_code S cond = Some C -> C [] r1 <> C [] r2 ->
  kdeg k = None \/ exists rg, kdeg k = Some rg /\ snd rg = DNonQuad.
Proof.
  intros Hv Hi Hreach Hb Hin Hjoin Hdec HC Hvar.
  (* the condition is an expression of the graph: validated *)
  assert (Hjc : djust_expr c cond = true).
  { destruct Hdec as (pp & q & bq & mm & t & f & _ & _ & Hq & Hl).
    assert (Hbq : In bq (c_blocks c)) by (eapply nth_error_In; eauto).
    assert (Hls : In (SIf mm cond t f) (b_stmts bq)).
    { rewrite <- Hl. apply last_in. intros E. rewrite E in Hl. discriminate. }
    exact (djust_cfg_stmt c idom bq _ Hv Hbq Hls). }
  (* so its claim, if any, is not "constant" *)
  assert (Hnc : cond_nonconst cond = true \/ cond_unknown cond = true).
  { unfold cond_nonconst, cond_unknown. destruct (expr_deg cond) as [rg|] eqn:Ed; [left|right; reflexivity].
    destruct (range_is_constant rg) eqn:Erc; [exfalso|reflexivity].
    pose proof (justified_degrees_true V line p sem2 sem1 call_sem name_code Hsem2 Hsem1 c idom Hv S0 S cond C rg Hi Hreach Hjc HC Ed []) as Hs.
    unfold range_is_constant in Erc. destruct (snd rg); try discriminate. cbn [SemDeg] in Hs. apply Hvar. apply Hs. }
  (* the phi was judged with a control that is not "constant" *)
  pose proof (djust_cfg_stmt c idom b _ Hv Hb Hin) as Hv'. cbn [djust_stmt] in Hv'. unfold deg_claim_is in Hv'.
  destruct (kdeg k) as [rg|]; [right|left; reflexivity]. exists rg. split; [reflexivity|].
  unfold block_ctl in Hv'. destruct (deciding (c_blocks c) idom b) as [cs|] eqn:Edec.
  - pose proof (decides_in_deciding c idom Hv b cond Hb Hdec cs Edec) as Hincs.
    assert (Hctl : ctl_of_conds cs <> MConst).
    { unfold ctl_of_conds. destruct (existsb cond_nonconst cs) eqn:E1; [discriminate|].
      destruct (existsb cond_unknown cs) eqn:E2; [discriminate|]. exfalso.
      destruct Hnc as [Hn|Hn].
      - assert (existsb cond_nonconst cs = true) by (apply existsb_exists; eauto). congruence.
      - assert (existsb cond_unknown cs = true) by (apply existsb_exists; eauto). congruence. }
    unfold opt_drange_eqb in Hv'.
    destruct (phi_adjust (ctl_of_conds cs) (iter_opt (map (var_range c) args))) as [o|] eqn:Epa; [|discriminate].
    destruct (phi_adjust_cases _ _ _ Epa) as [[Hm _]|Hnq]; [contradiction|].
    unfold drange_eqb in Hv'. apply andb_true_iff in Hv' as [_ H2]. rewrite Hnq in H2. destruct (snd rg); try discriminate. reflexivity.
  - exfalso. unfold deciding in Edec. destruct (length (b_preds b) <? 2)%nat eqn:El; [|discriminate]. apply Nat.ltb_lt in El. lia.
Qed.
End Statements.

(* THE FULL STATEMENT that is open for loops (no hypothesis about the way the valuations go):
   every family of completed concrete runs from the entry block of a validated graph that passes
   the decidable checks - whatever the paths, in particular with trip counts that differ between
   valuations - has every claim true of  valuation |-> concrete value  on the cells the runs
   can still read.  No lock-step store represents such a family (a valuation that has left a
   loop cannot keep its cells while the body fires again for the others), so this needs another
   argument (per iteration context; header phis carry no claim below NonQuadratic by
   [varying_decider_phi_no_low_claim]). *)
Definition C07_valuation_dependent_trip_counts_full_statement : Prop :=
  forall (V : Type) (line : V -> V -> Z -> V) (p : Z)
         (sem2 : infix_op -> Z -> Z -> Z) (sem1 : prefix_op -> Z -> Z) (call_sem : ident -> list Z -> Z) (name_code : ident -> Z),
  (forall op, op_den p op (sem2 op)) -> (forall op, prefix_den p op (sem1 op)) ->
  forall (c : cfg) (idom : list (option N)) (infos : list binfo) (S0 : fstore V) (pth : V -> list nat) (s0 s : V -> cstore),
  djust_cfg c idom = true -> finit_ok V line p c S0 ->
  infos_ok infos c = true -> deg_graph_ok c idom = true -> loops_ok infos c = true ->
  (forall rho, exists tl, pth rho = 0%nat :: tl) ->
  (forall rho, rel_store V rho (s0 rho) S0) ->
  (forall rho, cexec_path p sem2 sem1 call_sem name_code c (params_map (c_params c)) (s0 rho) (pth rho) = Some (s rho)) ->
  forall e r (val : V -> cell),
  djust_expr c e = true -> expr_deg e = Some r ->
  (forall rho, cval p sem2 sem1 call_sem name_code (s rho) e = Some (val rho)) ->
  (forall rho y, In y (expr_reads e) -> current_at c (pth rho) y) ->
  forall i, SemDeg V line p (snd r) (fun rho => val rho i).

(* Also open (props/C07.v): the assumption [picks_decided_sched] of
   Proofs.DegRunSegments.loops_runs_represented derived from the graph, as Proofs.DegRunDecided does
   for loop-free graphs.  Without a side condition this is FALSE for a shape real lifting produces.
   (i) A header with two back edges, `while (k<3) { k=k+1; if (a==x) {x=k;} else {x=2;} }`, phis
   k.1, x.1, parting condition `a == x.1`: the deciding condition reads a phi target of the block.
   The assumption only asks that it read no target of a phi standing BEFORE the phi in question
   (those are the cells already overwritten when Spec.DegSem.cond_fixed reads the store), and this
   shape satisfies it (Proofs.DegRunLoopsExample.header_two_back_edges_example: every hypothesis of
   the theorem, on that graph, for two runs that part).  (ii) What is false: with a THIRD
   merged variable, `.. if (a==x) {x=k; z=1;} else {x=2; z=2;} ..` (header phis k.1, x.1, z.1 in
   this order on the real tool), two runs arrive with different arguments for z.1 and every
   condition that separates them reads x.1, the target of an earlier phi: when the phi of z.1
   fires in block order, x.1 is already overwritten.  The relation itself has no program
   counter and could fire the phi of z.1 first; this proof does not (it fires the leading phis
   in block order), and when two merged variables both occur in the parting condition no order
   helps.  The side condition [deciders_avoid_earlier_phis] excludes exactly that: a condition
   [decides] names for a block b, ending a block OTHER than b (the header's own loop condition
   always reads its phis, but two runs that are both back at the header in the same segment
   were not parted by it), reads no target of a phi of b that stands before another phi of b.
   WHAT THE ANALYSIS CLAIMS THERE, and why it is believed sound: the validator judges every phi
   of the header with the control of the header (Model.Propagate.block_ctl: all deciding
   conditions, `a == x.1` among them); `a` is a signal, so the control is not constant and every
   phi of the header carries no claim or upper end NonQuadratic
   ([varying_decider_phi_no_low_claim]); nothing is claimed that a finer relation could refute. *)
Definition deciders_avoid_earlier_phis (c : cfg) (idom : list (option N)) : Prop :=
  forall b pre st post, In b (c_blocks c) -> fst (leading_phis (b_stmts b)) = pre ++ st :: post ->
  forall p q bq m cond t f,
    In p (b_preds b) ->
    above idom (match nth_error idom (N.to_nat (b_index b)) with Some o => o | None => None end) p q ->
    nth_error (c_blocks c) (N.to_nat q) = Some bq -> last (b_stmts bq) (SLog m []) = SIf m cond t f ->
    q <> b_index b ->
    forall y, In y (expr_reads cond) -> ~ In y (local_targets c pre).

Definition C07_loops_picks_decided_full_statement : Prop :=
  forall (V : Type) (p : Z) (sem2 : infix_op -> Z -> Z -> Z) (sem1 : prefix_op -> Z -> Z)
         (call_sem : ident -> list Z -> Z) (name_code : ident -> Z)
         (c : cfg) (idom : list (option N)) (infos : list binfo) (g : list Lift.block) (body : Lift.sk)
         (sg : V -> list (list nat)) (heads : list nat) (s0 s : V -> cstore) (reps : list V),
  infos_ok infos c = true -> deg_graph_ok c idom = true -> idom_shape c idom = true -> loops_ok infos c = true ->
  dom_graph_of c = MirrorsDom.to_dom g -> Lift.lift body = Ok g ->
  deciders_avoid_earlier_phis c idom ->
  (forall rho, map (hd 0%nat) (sg rho) = heads /\ Forall (fun seg => seg <> []) (sg rho)) ->
  (forall rho, Forall (StronglySorted lt) (sg rho)) ->
  (forall rho, exists r, In r reps /\ sg r = sg rho) ->
  (forall rho, exists tl, concat (sg rho) = 0%nat :: tl) ->
  (forall rho, cexec_path p sem2 sem1 call_sem name_code c (params_map (c_params c)) (s0 rho) (concat (sg rho)) = Some (s rho)) ->
  picks_decided_sched V p sem2 sem1 call_sem name_code c idom (params_map (c_params c)) s0 reps
                      (length heads * length (c_blocks c)) (blk_s c) (vis_s V c sg).
