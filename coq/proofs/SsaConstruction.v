(* C14: universal theorems about the SSA construction mirror Model.Ssa.into_ssa
   (compared with the real `into_ssa` on every run).  For ALL frontier tables,
   ALL children tables and ALL input graphs:

     into_ssa_is_erasure      the output is the input with versions added and phi
                              statements prepended (SsaErase.erase_eqb accepts it)
     into_ssa_phis_at_head    phi statements stand only at the head of blocks
     into_ssa_unique_defs     every versioned local has at most one defining
                              statement (versions come from a per-key counter
                              that only grows)
     into_ssa_mixed_keys_ok   no key is assigned both with and without a version
                              (when the children table covers every block and the
                              parameters are declared locals)

   The hypotheses are decidable syntactic conditions on the graph BEFORE the
   conversion, stated next to each theorem. *)
From Coq Require Import ZArith NArith List Bool Lia Arith.
Require Import Model.Base Model.Ir Model.SsaCheck Model.SsaErase Model.Ssa.
Require Export Model.SsaPre.
Require Import Proofs.IrInd Proofs.IrFacts Proofs.SsaNoPanic.
Import ListNotations.

Fixpoint accs_sim (xs ys : list (access expr)) : bool :=
  match xs, ys with
  | [], [] => true
  | AIdx x :: tx, AIdx y :: ty => expr_sim x y && accs_sim tx ty
  | AComp n :: tx, AComp n' :: ty => ident_eqb n n' && accs_sim tx ty
  | _, _ => false
  end.

Lemma expr_sim_call n args k n' args' k' :
  expr_sim (ECall n args k) (ECall n' args' k') = ident_eqb n n' && exprs_sim args args'.
Proof. reflexivity. Qed.
Lemma expr_sim_array vs k vs' k' : expr_sim (EArray vs k) (EArray vs' k') = exprs_sim vs vs'.
Proof. reflexivity. Qed.
Lemma expr_sim_access v acc k v' acc' k' :
  expr_sim (EAccess v acc k) (EAccess v' acc' k') = vname_sim v v' && accs_sim acc acc'.
Proof. reflexivity. Qed.
Lemma expr_sim_update v acc rhe k v' acc' rhe' k' :
  expr_sim (EUpdate v acc rhe k) (EUpdate v' acc' rhe' k') =
  vname_sim v v' && accs_sim acc acc' && expr_sim rhe rhe'.
Proof. reflexivity. Qed.

Lemma vname_sim_with_version a b n : vname_sim a (with_version b n) = vname_sim a b.
Proof. reflexivity. Qed.
Lemma vname_sim_without_version a b : vname_sim a (without_version b) = vname_sim a b.
Proof. reflexivity. Qed.
Lemma vname_sim_refl a : vname_sim a a = true.
Proof. apply key_eqb_refl. Qed.
Lemma vname_sim_eq a b : vname_sim a b = true <-> key_of a = key_of b.
Proof. apply key_eqb_eq. Qed.

(* similarity looks at the key of a variable only *)
Lemma vname_sim_key a v v' : key_of v' = key_of v -> vname_sim a v = true -> vname_sim a v' = true.
Proof. unfold vname_sim. intros ->. auto. Qed.

Section ExprSim.
Variable decls : list (vname * vtype).

Lemma ssa_rename_sim :
  (forall b env b' env', ssa_expr decls env b = SOk (b', env') ->
     forall a, expr_sim a b = true -> expr_sim a b' = true) /\
  (forall ys env ys' env', ssa_exprs decls env ys = SOk (ys', env') ->
     forall xs, exprs_sim xs ys = true -> exprs_sim xs ys' = true) /\
  (forall ys env ys' env', ssa_acc decls env ys = SOk (ys', env') ->
     forall xs, accs_sim xs ys = true -> accs_sim xs ys' = true).
Proof.
  apply (ssa_expr_ind decls (fun _ b b' _ => forall a, expr_sim a b = true -> expr_sim a b' = true)
           (fun _ ys ys' _ => forall xs, exprs_sim xs ys = true -> exprs_sim xs ys' = true)
           (fun _ ys ys' _ => forall xs, accs_sim xs ys = true -> accs_sim xs ys' = true)).
  - auto.
  - intros env y y' env1 tl tl' env2 Hy Htl [|x tx]; [discriminate|]. apply andb_mono; auto.
  - auto.
  - intros env n tl tl' env2 Htl [|[x|n'] tx]; try discriminate. apply andb_mono; auto.
  - intros env y y' env1 tl tl' env2 Hy Htl [|[x|n'] tx]; try discriminate. apply andb_mono; auto.
  - auto.
  - auto.
  - intros env v v' k Hv [] H; try discriminate H. exact (vname_sim_key _ _ _ (read_as_key _ _ _ _ Hv) H).
  - intros env op l r k l' env1 r' env2 Hl Hr [] H; try discriminate H. revert H. cbn [expr_sim].
    apply andb_mono; [apply andb_mono|]; auto.
  - intros env op x k x' env1 Hx [] H; try discriminate H. revert H. apply andb_mono; auto.
  - intros env c t f k c' env1 t' env2 f' env3 Hc Ht Hf [] H; try discriminate H. revert H. cbn [expr_sim].
    apply andb_mono; [apply andb_mono|]; auto.
  - intros env n args k args' env1 Ha [] H; try discriminate H. revert H. rewrite !expr_sim_call.
    apply andb_mono; auto.
  - intros env vs k vs' env1 Ha [] H; try discriminate H. revert H. rewrite !expr_sim_array. auto.
  - intros env v acc k acc' env1 v' Ha Hv [] H; try discriminate H. revert H. rewrite !expr_sim_access.
    apply andb_mono; [apply vname_sim_key, (read_as_key _ _ _ _ Hv)|auto].
  - intros env v acc rhe k rhe' env1 acc' env2 v' env3 Hr Ha Hv [] H; try discriminate H. revert H.
    rewrite !expr_sim_update.
    apply andb_mono; [apply andb_mono; [apply vname_sim_key, (upd_as_key _ _ _ _ _ Hv)|]|]; auto.
Qed.

Lemma ssa_logargs_sim : forall ys env r env', ssa_logargs decls env ys = SOk (r, env') ->
  forall xs, logargs_sim xs ys = true -> logargs_sim xs r = true.
Proof.
  apply (ssa_logargs_ind decls _ (fun _ ys r _ => forall xs, logargs_sim xs ys = true -> logargs_sim xs r = true)
           (proj1 ssa_rename_sim)).
  - auto.
  - intros env tl tl' env2 Htl [|[|x] tx]; try discriminate. apply Htl.
  - intros env y y' env1 tl tl' env2 Hy Htl [|[|x] tx]; try discriminate. apply andb_mono; auto.
Qed.

Lemma ssa_stmt_sim : forall s env s' env', ssa_stmt decls env s = SOk (s', env') ->
  forall a, stmt_sim a s = true -> stmt_sim a s' = true.
Proof.
  destruct ssa_rename_sim as (He & Hl & _).
  apply (ssa_stmt_cases decls (fun _ s s' _ => forall a, stmt_sim a s = true -> stmt_sim a s' = true)).
  - intros env m names t dims dims' env1 E [] H; try discriminate H. revert H. apply andb_mono; eauto.
  - intros env m c t f c' env1 E [] H; try discriminate H. revert H. cbn [stmt_sim].
    apply andb_mono; [apply andb_mono; [apply andb_mono|]|]; eauto.
  - intros env m e e' env1 E [] H; try discriminate H. revert H. apply andb_mono; eauto.
  - intros env m v op rhe sv st rhe' env1 v' env2 _ E Hv [] H; try discriminate H. revert H. cbn [stmt_sim].
    apply andb_mono; [apply andb_mono; [apply andb_mono; [auto|apply vname_sim_key, (def_as_key _ _ _ _ _ Hv)]|auto]|eauto].
  - intros env m l r l' env1 r' env2 E1 E2 [] H; try discriminate H. revert H. cbn [stmt_sim].
    apply andb_mono; [apply andb_mono|]; eauto.
  - intros env m args args' env1 E [] H; try discriminate H. revert H.
    apply andb_mono; [auto|exact (ssa_logargs_sim _ _ _ _ E _)].
  - intros env m e e' env1 E [] H; try discriminate H. revert H. apply andb_mono; eauto.
Qed.

Lemma ssa_stmts_sim : forall ys env r env', ssa_stmts decls env ys = SOk (r, env') ->
  forall xs, stmts_sim xs ys = true -> stmts_sim xs r = true.
Proof.
  induction ys as [|y ty IH]; intros env r env' H; cbn [ssa_stmts] in H.
  - injection H as <- <-. auto.
  - apply sbind_ok in H as ([y' env1] & E1 & H). apply sbind_ok in H as ([ty' env2] & E2 & H). injection H as <- <-.
    intros [|x tx]; [discriminate|]. apply andb_mono; [exact (ssa_stmt_sim _ _ _ _ E1 x)|exact (IH _ _ _ E2 tx)].
Qed.
End ExprSim.


Definition all_phis (P : list stmt) : Prop := Forall (fun s => is_phi_stmt s = true) P.

(* block b is: the edges of b0, some phi statements, then statements similar to those of b0 *)
Definition erases_to (b0 b : block) : Prop :=
  b_preds b = b_preds b0 /\ b_succs b = b_succs b0 /\
  exists P B, b_stmts b = P ++ B /\ all_phis P /\ stmts_sim (b_stmts b0) B = true.

Definition erase_inv (bs0 bs : list block) : Prop := Forall2 erases_to bs0 bs.

Definition erased (ss0 ss : list stmt) : Prop :=
  exists P B, ss = P ++ B /\ all_phis P /\ stmts_sim ss0 B = true.

Lemma erases_to_set b0 b ss : erases_to b0 b -> erased (b_stmts b0) ss -> erases_to b0 (set_stmts b ss).
Proof. intros (Hp & Hs & _) He. split; [exact Hp|]. split; [exact Hs|exact He]. Qed.

Lemma stmt_sim_not_phi a s : stmt_sim a s = true -> is_phi_stmt s = false.
Proof.
  destruct s as [| | |m v op rhe sval stype| | |]; try reflexivity.
  destruct rhe; try reflexivity.
  destruct a as [| | |m0 v0 op0 rhe0 sval0 stype0| | |]; try discriminate. cbn [stmt_sim].
  rewrite !andb_true_iff. intros (_ & He). destruct rhe0; discriminate He.
Qed.

Lemma stmts_sim_no_phi : forall xs B, stmts_sim xs B = true -> Forall (fun s => is_phi_stmt s = false) B.
Proof.
  induction xs as [|x tx IH]; intros [|y ty] H; cbn [stmts_sim] in H; try discriminate; constructor.
  - apply andb_true_iff in H as [H _]. eapply stmt_sim_not_phi. exact H.
  - apply andb_true_iff in H as [_ H]. apply IH. exact H.
Qed.

Lemma leading_phis_split : forall P B, all_phis P -> (match B with [] => True | s :: _ => is_phi_stmt s = false end) ->
  leading_phis (P ++ B) = (P, B).
Proof.
  induction P as [|p tl IH]; intros B HP HB; simpl.
  - destruct B as [|s tb]; [reflexivity|]. simpl. rewrite HB. reflexivity.
  - inversion HP as [|? ? Hp Htl]; subst. rewrite Hp, (IH B Htl HB). reflexivity.
Qed.

Lemma head_no_phi B : Forall (fun s => is_phi_stmt s = false) B ->
  match B with [] => True | s :: _ => is_phi_stmt s = false end.
Proof. intros H. destruct H; [exact I|assumption]. Qed.

Lemma erases_to_body b0 b : erases_to b0 b -> stmts_sim (b_stmts b0) (body_of b) = true.
Proof.
  intros (_ & _ & P & B & Hb & HP & Hs). unfold body_of.
  rewrite Hb, (leading_phis_split P B HP (head_no_phi _ (stmts_sim_no_phi _ _ Hs))). exact Hs.
Qed.

Lemma erased_phi ss0 ss v : erased ss0 ss -> erased ss0 (phi_stmt_for v :: ss).
Proof.
  intros (P & B & -> & HP & Hs). exists (phi_stmt_for v :: P), B.
  split; [reflexivity|]. split; [constructor; [reflexivity|exact HP]|exact Hs].
Qed.

Lemma ssa_stmt_phi decls s env s' env' :
  ssa_stmt decls env s = SOk (s', env') -> is_phi_stmt s = true -> is_phi_stmt s' = true.
Proof.
  revert s env s' env'. apply (ssa_stmt_cases decls (fun _ s s' _ => is_phi_stmt s = true -> is_phi_stmt s' = true)); auto.
  intros env m v op rhe sv st rhe' env1 v' env2 _ E _. destruct rhe; try discriminate. injection E as <- _. auto.
Qed.

Lemma ssa_stmts_app decls : forall P B env r env',
  ssa_stmts decls env (P ++ B) = SOk (r, env') ->
  exists P' B' env1, r = P' ++ B' /\ ssa_stmts decls env P = SOk (P', env1) /\ ssa_stmts decls env1 B = SOk (B', env').
Proof.
  induction P as [|p tl IH]; intros B env r env' H; simpl in H.
  - exists [], r, env. auto.
  - sb2 H. sb2 H. inversion H; subst. destruct (IH _ _ _ _ E0) as (P' & B' & env1 & -> & H1 & H2).
    exists (x :: P'), B', env1. split; [reflexivity|]. split; [|exact H2].
    cbn [ssa_stmts]. rewrite E. cbn [sbind]. rewrite H1. reflexivity.
Qed.

Lemma ssa_stmts_phis decls : forall P env P' env',
  ssa_stmts decls env P = SOk (P', env') -> all_phis P -> all_phis P'.
Proof. exact (ssa_stmts_Forall decls _ (ssa_stmt_phi decls)). Qed.

Lemma erased_ssa decls ss0 ss env ss' env' :
  erased ss0 ss -> ssa_stmts decls env ss = SOk (ss', env') -> erased ss0 ss'.
Proof.
  intros (P & B & -> & HP & Hs) H. destruct (ssa_stmts_app _ _ _ _ _ _ H) as (P' & B' & e1 & -> & H1 & H2).
  exists P', B'. split; [reflexivity|]. split; [eapply ssa_stmts_phis; eassumption|eapply ssa_stmts_sim; eassumption].
Qed.

Lemma ensure_phi_arg_phi env s : is_phi_stmt (ensure_phi_arg env s) = is_phi_stmt s.
Proof. apply ensure_phi_arg_same. reflexivity. Qed.

Lemma update_phis_split env : forall P B, all_phis P ->
  (match B with [] => True | s :: _ => is_phi_stmt s = false end) ->
  update_phis env (P ++ B) = map (ensure_phi_arg env) P ++ B.
Proof.
  induction P as [|p tl IH]; intros B HP HB; simpl.
  - destruct B as [|s tb]; [reflexivity|]. simpl. rewrite HB. reflexivity.
  - inversion HP as [|? ? Hp Htl]; subst. rewrite Hp, (IH B Htl HB). reflexivity.
Qed.

(* a map that keeps phi statements phi statements *)
Lemma all_phis_map (f : stmt -> stmt) P : (forall s, is_phi_stmt (f s) = is_phi_stmt s) -> all_phis P -> all_phis (map f P).
Proof. intros Hf HP. apply Forall_map. eapply Forall_impl; [|exact HP]. intros s. rewrite Hf. auto. Qed.

Lemma erased_upd env ss0 ss : erased ss0 ss -> erased ss0 (update_phis env ss).
Proof.
  intros (P & B & -> & HP & Hs). exists (map (ensure_phi_arg env) P), B.
  split; [apply update_phis_split; [exact HP|exact (head_no_phi _ (stmts_sim_no_phi _ _ Hs))]|].
  split; [apply all_phis_map; [apply ensure_phi_arg_phi|exact HP]|exact Hs].
Qed.

Lemma insert_phis_erases bs0 frontier fuel bs work bs' :
  insert_phis fuel frontier bs work = SOk bs' -> erase_inv bs0 bs -> erase_inv bs0 bs'.
Proof.
  apply (insert_phis_keeps (fun _ => True) erases_to); [trivial|].
  intros b0 b v _ H. apply erases_to_set; [exact H|]. apply erased_phi. apply H.
Qed.

Lemma rename_tree_erases bs0 decls children fuel cur bs env bs' env' :
  rename_tree fuel decls children cur bs env = SOk (bs', env') -> erase_inv bs0 bs -> erase_inv bs0 bs'.
Proof.
  apply (rename_tree_keeps decls erases_to).
  - intros b0 b e ss e' H E. apply erases_to_set; [exact H|]. eapply erased_ssa; [apply H|exact E].
  - intros b0 b e H. apply erases_to_set; [exact H|]. apply erased_upd. apply H.
Qed.

Lemma versions_of_cons env v : exists n tl, versions_of env v = n :: tl.
Proof. unfold versions_of. destruct (vget (se_global env) (key_of v)); simpl; eauto. Qed.

(* a declaration of a local declares one variable (all listed names have the key of the first) *)
Lemma update_decl_stmt_sim env a s :
  decl_names_ok a = true -> stmt_sim a s = true -> stmt_sim a (update_decl_stmt env s) = true.
Proof.
  intros Hd Hs. destruct s as [m names t dims| | | | | |]; try exact Hs.
  destruct names as [|name rest]; [exact Hs|]. destruct t; try exact Hs.
  destruct a as [m0 names0 t0 dims0| | | | | |]; try discriminate Hs. cbn [stmt_sim update_decl_stmt] in *.
  rewrite !andb_true_iff in Hs. destruct Hs as (((Hm & Hn) & Ht) & Hdims).
  rewrite Hm, Ht, Hdims, !andb_true_r. cbn [andb].
  destruct t0; try discriminate Ht.
  unfold names_sim in Hn. apply andb_true_iff in Hn as [Hn1 Hn2].
  destruct names0 as [|n0 rest0].
  { cbn [forallb existsb] in Hn2. discriminate Hn2. }
  cbn [decl_names_ok] in Hd. rewrite forallb_forall in Hd.
  assert (K0 : forall x, In x (n0 :: rest0) -> key_of x = key_of n0).
  { intros x [<-|Hx]; [reflexivity|]. symmetry. apply vname_sim_eq. apply Hd. exact Hx. }
  assert (Kn : key_of name = key_of n0).
  { cbn [forallb] in Hn2. apply andb_true_iff in Hn2 as [Hn2 _]. apply existsb_exists in Hn2.
    destruct Hn2 as (x & Hx & Hxs). apply vname_sim_eq in Hxs. rewrite <- Hxs. apply K0. exact Hx. }
  destruct (versions_of_cons env name) as (v0 & vtl & Hv). rewrite Hv.
  unfold names_sim. apply andb_true_iff. split.
  - apply forallb_forall. intros x Hx. cbn [map existsb]. rewrite vname_sim_with_version.
    replace (vname_sim x name) with true; [reflexivity|]. symmetry. apply vname_sim_eq. rewrite Kn. apply K0. exact Hx.
  - apply forallb_forall. intros y Hy. apply in_map_iff in Hy. destruct Hy as (n & <- & _).
    cbn [existsb]. rewrite vname_sim_with_version.
    replace (vname_sim n0 name) with true; [reflexivity|]. symmetry. apply vname_sim_eq. symmetry. exact Kn.
Qed.

Lemma update_decl_stmt_phi env s : is_phi_stmt (update_decl_stmt env s) = is_phi_stmt s.
Proof. apply update_decl_stmt_same. reflexivity. Qed.

Lemma update_decls_sim env : forall xs B, forallb decl_names_ok xs = true -> stmts_sim xs B = true ->
  stmts_sim xs (map (update_decl_stmt env) B) = true.
Proof.
  induction xs as [|x tx IH]; intros [|y ty] Hd Hs; cbn [stmts_sim] in Hs; try discriminate; [reflexivity|].
  cbn [forallb] in Hd. apply andb_true_iff in Hd as [Hd1 Hd2]. apply andb_true_iff in Hs as [Hs1 Hs2].
  cbn [map stmts_sim]. rewrite (update_decl_stmt_sim env x y Hd1 Hs1), (IH ty Hd2 Hs2). reflexivity.
Qed.

Lemma erased_decl env ss0 ss : forallb decl_names_ok ss0 = true -> erased ss0 ss ->
  erased ss0 (map (update_decl_stmt env) ss).
Proof.
  intros Hd (P & B & -> & HP & Hs). exists (map (update_decl_stmt env) P), (map (update_decl_stmt env) B).
  split; [apply map_app|]. split; [apply all_phis_map; [apply update_decl_stmt_phi|exact HP]|apply update_decls_sim; assumption].
Qed.

Lemma update_decls_erases env : forall bs0 bs,
  forallb (fun b => forallb decl_names_ok (b_stmts b)) bs0 = true -> erase_inv bs0 bs ->
  erase_inv bs0 (map (fun b => set_stmts b (map (update_decl_stmt env) (b_stmts b))) bs).
Proof.
  intros bs0 bs Hd H. induction H as [|b0 b t0 t Hb Ht IH]; cbn [map]; [constructor|].
  cbn [forallb] in Hd. apply andb_true_iff in Hd as [Hd1 Hd2]. constructor; [|exact (IH Hd2)].
  apply erases_to_set; [exact Hb|]. apply erased_decl; [exact Hd1|apply Hb].
Qed.

Lemma erase_inv_blocks_sim : forall bs0 bs, erase_inv bs0 bs -> blocks_sim bs0 bs = true.
Proof.
  intros bs0 bs H. induction H as [|x0 x t0 t Hx Ht IH]; simpl; [reflexivity|].
  rewrite IH, andb_true_r. unfold block_sim. rewrite (erases_to_body _ _ Hx).
  destruct Hx as (Hp & Hsu & _). rewrite Hp, Hsu, !ns_eqb_refl. reflexivity.
Qed.

Definition self_sim (bs : list block) : bool := forallb (fun b => stmts_sim (b_stmts b) (b_stmts b)) bs.

Lemma self_sim_inv : forall bs, self_sim bs = true -> erase_inv bs bs.
Proof.
  induction bs as [|b tl IH]; intros H; constructor.
  - simpl in H. apply andb_true_iff in H as [H _].
    split; [reflexivity|]. split; [reflexivity|]. exists [], (b_stmts b). split; [reflexivity|]. split; [constructor|exact H].
  - apply IH. simpl in H. apply andb_true_iff in H as [_ H]. exact H.
Qed.

(* the hypothesis: a graph before SSA conversion holds no phi expression;
   a phi is similar to nothing, everything else to itself *)

Lemma expr_nophi_call n args k : expr_nophi (ECall n args k) = list_nophi args.
Proof. reflexivity. Qed.
Lemma expr_nophi_array vs k : expr_nophi (EArray vs k) = list_nophi vs.
Proof. reflexivity. Qed.
Lemma expr_nophi_access v acc k : expr_nophi (EAccess v acc k) = acc_nophi acc.
Proof. reflexivity. Qed.
Lemma expr_nophi_update v acc rhe k : expr_nophi (EUpdate v acc rhe k) = acc_nophi acc && expr_nophi rhe.
Proof. reflexivity. Qed.

Lemma infix_eqb_refl a : infix_eqb a a = true.
Proof. destruct a; reflexivity. Qed.
Lemma prefix_eqb_refl a : prefix_eqb a a = true.
Proof. destruct a; reflexivity. Qed.
Lemma assign_eqb_refl a : assign_eqb a a = true.
Proof. apply assign_eqb_eq. reflexivity. Qed.
Lemma names_sim_refl l : names_sim l l = true.
Proof.
  unfold names_sim. apply andb_true_iff. split; apply forallb_forall; intros x Hx; apply existsb_exists;
    exists x; (split; [exact Hx|apply vname_sim_refl]).
Qed.

Definition sim_refl (e : expr) : Prop := expr_sim e e = expr_nophi e.

Lemma exprs_sim_refl : forall es, Forall sim_refl es -> exprs_sim es es = list_nophi es.
Proof. induction 1 as [|x tl Hx _ IH]; cbn [exprs_sim list_nophi]; [reflexivity|]. rewrite Hx, IH. reflexivity. Qed.

Lemma accs_sim_refl : forall acc, Forall sim_refl (acc_exprs acc) -> accs_sim acc acc = acc_nophi acc.
Proof.
  induction acc as [|[x|n] tl IH]; cbn [acc_exprs flat_map app accs_sim acc_nophi]; intros HF; [reflexivity| |].
  - apply Forall_cons_iff in HF as [Hx Htl]. rewrite Hx, (IH Htl). reflexivity.
  - rewrite ident_eqb_refl. exact (IH HF).
Qed.

Lemma expr_sim_refl : forall e, sim_refl e.
Proof.
  induction e as [z k|v k|op l r k IHl IHr|op x k IHx|c t f k IHc IHt IHf|n args k IH|vs k IH
                 |v acc k IH|v acc rhe k IH IHr|args k] using expr_ind'; unfold sim_refl in *.
  - apply Z.eqb_refl.
  - apply vname_sim_refl.
  - cbn [expr_sim expr_nophi]. rewrite infix_eqb_refl, IHl, IHr. reflexivity.
  - cbn [expr_sim expr_nophi]. rewrite prefix_eqb_refl. exact IHx.
  - cbn [expr_sim expr_nophi]. rewrite IHc, IHt, IHf. reflexivity.
  - rewrite expr_sim_call, expr_nophi_call, ident_eqb_refl. exact (exprs_sim_refl args IH).
  - rewrite expr_sim_array, expr_nophi_array. exact (exprs_sim_refl vs IH).
  - rewrite expr_sim_access, expr_nophi_access, vname_sim_refl. exact (accs_sim_refl acc IH).
  - rewrite expr_sim_update, expr_nophi_update, vname_sim_refl, IHr, (accs_sim_refl acc IH). reflexivity.
  - reflexivity.
Qed.

Lemma stmt_sim_refl s : stmt_sim s s = stmt_nophi s.
Proof.
  destruct s as [m names t dims|m c t f|m e|m v op rhe sval stype|m l r|m args|m e]; cbn [stmt_nophi stmt_sim];
    rewrite meta_eqb_refl, ?expr_sim_refl; cbn [andb]; try reflexivity.
  - rewrite names_sim_refl, vtype_eqb_refl. apply exprs_sim_refl, Forall_forall. intros e _. apply expr_sim_refl.
  - rewrite N.eqb_refl, optN_eqb_refl, !andb_true_r. reflexivity.
  - rewrite vname_sim_refl, assign_eqb_refl. reflexivity.
  - induction args as [|[|x] tl IH]; cbn [logargs_sim forallb logarg_nophi]; [reflexivity|exact IH|].
    rewrite expr_sim_refl, IH. reflexivity.
Qed.

Lemma stmts_sim_refl : forall ss, stmts_sim ss ss = forallb stmt_nophi ss.
Proof. induction ss as [|s tl IH]; cbn [stmts_sim forallb]; [reflexivity|]. rewrite stmt_sim_refl, IH. reflexivity. Qed.

Lemma phi_free_self_sim c : phi_free c = true -> self_sim (c_blocks c) = true.
Proof.
  unfold phi_free, self_sim. rewrite !forallb_forall. intros H b Hb. rewrite stmts_sim_refl. exact (H b Hb).
Qed.


(* phi insertion and renaming, from a graph whose blocks are similar to themselves *)
Lemma stages_erase frontier children decls fuel fuel' bs0 work bs1 env0 bs2 env :
  self_sim bs0 = true -> insert_phis fuel frontier bs0 work = SOk bs1 ->
  rename_tree fuel' decls children 0 bs1 env0 = SOk (bs2, env) -> erase_inv bs0 bs2.
Proof.
  intros Hs H1 H2. eapply rename_tree_erases; [exact H2|]. eapply insert_phis_erases; [exact H1|].
  apply self_sim_inv. exact Hs.
Qed.

Lemma into_ssa_renamed_inv frontier children c c' :
  phi_free c = true -> into_ssa frontier children c = SOk c' ->
  exists bs2 env, erase_inv (c_blocks c) bs2 /\
    c_blocks c' = map (fun b => set_stmts b (map (update_decl_stmt env) (b_stmts b))) bs2.
Proof.
  intros Hpf H. destruct (into_ssa_stages _ _ _ _ H) as (fuel & bs1 & env0 & bs2 & env & H1 & _ & H2 & ->).
  exists bs2, env. split; [|reflexivity]. exact (stages_erase _ _ _ _ _ _ _ _ _ _ _ (phi_free_self_sim c Hpf) H1 H2).
Qed.

Theorem into_ssa_erase_inv frontier children c c' :
  phi_free c = true -> decls_ok c = true -> into_ssa frontier children c = SOk c' ->
  erase_inv (c_blocks c) (c_blocks c').
Proof.
  intros Hpf Hd H. destruct (into_ssa_renamed_inv _ _ _ _ Hpf H) as (bs2 & env & Hi & ->).
  apply update_decls_erases; assumption.
Qed.

Theorem into_ssa_is_erasure : forall frontier children c c',
  phi_free c = true -> decls_ok c = true ->
  into_ssa frontier children c = SOk c' -> erase_eqb c c' = true.
Proof.
  intros frontier children c c' Hpf Hd H. unfold erase_eqb. apply erase_inv_blocks_sim.
  eapply into_ssa_erase_inv; eassumption.
Qed.

(* needs no hypothesis on declarations *)
Theorem into_ssa_phis_at_head : forall frontier children c c',
  into_ssa frontier children c = SOk c' -> phi_free c = true ->
  forall b, In b (c_blocks c') -> Forall (fun s => is_phi_stmt s = false) (body_of b).
Proof.
  intros frontier children c c' H Hpf b Hb.
  destruct (into_ssa_renamed_inv _ _ _ _ Hpf H) as (bs2 & env & Hi & Hc'). rewrite Hc' in Hb.
  apply in_map_iff in Hb as (b2 & <- & Hb2).
  destruct (forall2_in _ _ _ _ Hi Hb2) as (b0 & _ & (_ & _ & P & B & Hs & HP & Hsim)).
  assert (HB : Forall (fun s => is_phi_stmt s = false) (map (update_decl_stmt env) B)).
  { apply Forall_map. eapply Forall_impl; [|exact (stmts_sim_no_phi _ _ Hsim)]. intros s. rewrite update_decl_stmt_phi. auto. }
  unfold body_of. cbn [set_stmts b_stmts]. rewrite Hs, map_app, leading_phis_split; [exact HB| |exact (head_no_phi _ HB)].
  apply all_phis_map; [apply update_decl_stmt_phi|exact HP].
Qed.

(* a relation between environments that every renaming step respects *)

Section EnvRel.
Variable decls : list (vname * vtype).
Variable R : senv -> senv -> Prop.
Hypothesis R_refl : forall e, R e e.
Hypothesis R_trans : forall a b c, R a b -> R b c -> R a c.
Hypothesis R_next : forall e v, R e (snd (next_version e v)).

Lemma ssa_rename_rel :
  (forall e env e' env', ssa_expr decls env e = SOk (e', env') -> R env env') /\
  (forall es env es' env', ssa_exprs decls env es = SOk (es', env') -> R env env') /\
  (forall acc env acc' env', ssa_acc decls env acc = SOk (acc', env') -> R env env').
Proof.
  apply (ssa_expr_ind decls (fun env _ _ env' => R env env') (fun env _ _ env' => R env env')
           (fun env _ _ env' => R env env')).
  - apply R_refl.
  - intros env x x' env1 tl tl' env2. apply R_trans.
  - apply R_refl.
  - auto.
  - intros env x x' env1 tl tl' env2. apply R_trans.
  - intros. apply R_refl.
  - intros. apply R_refl.
  - intros. apply R_refl.
  - intros env op l r k l' env1 r' env2. apply R_trans.
  - auto.
  - intros env c t f k c' env1 t' env2 f' env3 Hc Ht Hf. exact (R_trans _ _ _ Hc (R_trans _ _ _ Ht Hf)).
  - auto.
  - auto.
  - auto.
  - intros env v acc rhe k rhe' env1 acc' env2 v' env3 Hr Ha Hv. apply (R_trans _ env2); [exact (R_trans _ _ _ Hr Ha)|].
    unfold upd_as, fresh_as in Hv. destruct (is_local_in decls v); [destruct (cur_version env2 v)|];
      destruct Hv as [_ ->]; auto.
Qed.

Lemma ssa_logargs_rel : forall es env r env', ssa_logargs decls env es = SOk (r, env') -> R env env'.
Proof.
  apply (ssa_logargs_ind decls _ (fun env _ _ env' => R env env') (proj1 ssa_rename_rel)); auto.
  intros env x x' env1 tl tl' env2. apply R_trans.
Qed.

Lemma ssa_stmt_rel : forall s env s' env', ssa_stmt decls env s = SOk (s', env') -> R env env'.
Proof.
  destruct ssa_rename_rel as (He & Hl & _).
  apply (ssa_stmt_cases decls (fun env _ _ env' => R env env')).
  - intros env m names t dims dims' env1. apply Hl.
  - intros env m c t f c' env1. apply He.
  - intros env m e e' env1. apply He.
  - intros env m v op rhe sv st rhe' env1 v' env2 _ E Hv. apply (R_trans _ env1); [exact (He _ _ _ _ E)|].
    unfold def_as, fresh_as in Hv. destruct (is_local_in decls v); destruct Hv as [_ ->]; auto.
  - intros env m l r l' env1 r' env2 E1 E2. exact (R_trans _ _ _ (He _ _ _ _ E1) (He _ _ _ _ E2)).
  - intros env m args args' env1. apply ssa_logargs_rel.
  - intros env m e e' env1. apply He.
Qed.

Lemma ssa_stmts_rel : forall ss env r env', ssa_stmts decls env ss = SOk (r, env') -> R env env'.
Proof.
  induction ss as [|s tl IH]; intros env r env' H; cbn [ssa_stmts] in H.
  - injection H as _ <-. apply R_refl.
  - apply sbind_ok in H as ([s' env1] & E1 & H). apply sbind_ok in H as ([tl' env2] & E2 & H). injection H as _ <-.
    eapply R_trans; [eapply ssa_stmt_rel; exact E1|eauto].
Qed.
End EnvRel.

(* the per-key version counter only grows *)

Definition gle (g g' : vmap) : Prop :=
  forall k m, vget g k = Some m -> exists m', vget g' k = Some m' /\ (m <= m')%N.
Definition env_gle (e e' : senv) : Prop := gle (se_global e) (se_global e').

Lemma gle_refl g : gle g g.
Proof. intros k m H. exists m. split; [exact H|lia]. Qed.
Lemma gle_trans a b c : gle a b -> gle b c -> gle a c.
Proof.
  intros H1 H2 k m H. destruct (H1 k m H) as (m1 & Hm1 & L1). destruct (H2 k m1 Hm1) as (m2 & Hm2 & L2).
  exists m2. split; [exact Hm2|lia].
Qed.

(* the definition x lies at or below the counter / strictly above the counter *)
Definition bounded (g : vmap) (x : vname) : Prop :=
  exists n m, vn_version x = Some n /\ vget g (key_of x) = Some m /\ (n <= m)%N.
Definition fresh (g : vmap) (x : vname) : Prop :=
  forall n m, vn_version x = Some n -> vget g (key_of x) = Some m -> (m < n)%N.

Lemma bounded_gle g g' x : gle g g' -> bounded g x -> bounded g' x.
Proof.
  intros L (n & m & Hn & Hm & Le). destruct (L _ _ Hm) as (m' & Hm' & Le'). exists n, m'. repeat split; auto. lia.
Qed.
Lemma fresh_gle g g' x : gle g g' -> fresh g' x -> fresh g x.
Proof.
  intros L F n m Hn Hm. destruct (L _ _ Hm) as (m' & Hm' & Le'). specialize (F n m' Hn Hm'). lia.
Qed.
Lemma fresh_not_bounded g x : fresh g x -> bounded g x -> False.
Proof. intros F (n & m & Hn & Hm & Le). specialize (F n m Hn Hm). lia. Qed.

Lemma next_version_global env v :
  se_global (snd (next_version env v)) = vset (se_global env) (key_of v) (fst (next_version env v)).
Proof. reflexivity. Qed.

Lemma next_version_fst env v :
  fst (next_version env v) = match vget (se_global env) (key_of v) with None => 0%N | Some m => N.succ m end.
Proof. reflexivity. Qed.

Lemma next_version_gle env v : env_gle env (snd (next_version env v)).
Proof.
  unfold env_gle. rewrite next_version_global, next_version_fst. intros k m H. rewrite vget_vset.
  destruct (key_eqb (key_of v) k) eqn:Ek.
  - apply key_eqb_eq in Ek. subst k. rewrite H. exists (N.succ m). split; [reflexivity|lia].
  - exists m. split; [exact H|lia].
Qed.

(* the fresh version lies above the counter before and at the counter after *)
Lemma fresh_as_bounds env v v' env' : fresh_as env v v' env' ->
  fresh (se_global env) v' /\ bounded (se_global env') v'.
Proof.
  intros [-> ->]. pose proof (next_version_fst env v) as Hn. pose proof (next_version_global env v) as Hg.
  revert Hn Hg. generalize (fst (next_version env v)) as n. intros n Hn Hg. split.
  - intros n' m [= <-] Hm. change (vget (se_global env) (key_of v) = Some m) in Hm. rewrite Hn, Hm. lia.
  - exists n, n. split; [reflexivity|]. split; [|lia].
    change (key_of (with_version v n)) with (key_of v). rewrite Hg, vget_vset, key_eqb_refl. reflexivity.
Qed.

Definition stmt_defs (ss : list stmt) : list vname :=
  flat_map (fun s => match stmt_def s with Some x => [x] | None => [] end) ss.
Definition blocks_defs (bs : list block) : list vname := flat_map (fun b => stmt_defs (b_stmts b)) bs.

Lemma all_defs_blocks c : all_defs c = blocks_defs (c_blocks c).
Proof. reflexivity. Qed.

Section Defs.
Variable decls : list (vname * vtype).

Lemma env_gle_trans a b c : env_gle a b -> env_gle b c -> env_gle a c.
Proof. apply gle_trans. Qed.

Lemma ssa_expr_gle e env e' env' : ssa_expr decls env e = SOk (e', env') -> env_gle env env'.
Proof. exact (proj1 (ssa_rename_rel decls env_gle (fun e => gle_refl _) env_gle_trans next_version_gle) e env e' env'). Qed.

Lemma ssa_stmt_gle s env s' env' : ssa_stmt decls env s = SOk (s', env') -> env_gle env env'.
Proof. exact (ssa_stmt_rel decls env_gle (fun e => gle_refl _) env_gle_trans next_version_gle s env s' env'). Qed.

Lemma ssa_stmts_gle ss env r env' : ssa_stmts decls env ss = SOk (r, env') -> env_gle env env'.
Proof. exact (ssa_stmts_rel decls env_gle (fun e => gle_refl _) env_gle_trans next_version_gle ss env r env'). Qed.

(* the definition a renamed statement makes is above the counter before and below the counter after *)
Lemma ssa_stmt_def : forall s env s' env', ssa_stmt decls env s = SOk (s', env') ->
  forall x, stmt_def s' = Some x -> fresh (se_global env) x /\ bounded (se_global env') x.
Proof.
  apply (ssa_stmt_cases decls (fun env _ s' env' => forall x, stmt_def s' = Some x ->
           fresh (se_global env) x /\ bounded (se_global env') x)); try discriminate.
  intros env m v op rhe sv st rhe' env1 v' env2 Ev E Hv x. cbn [stmt_def]. unfold def_as in Hv.
  destruct (is_local_in decls v); [|destruct Hv as [-> _]; rewrite Ev; discriminate].
  destruct (fresh_as_bounds _ _ _ _ Hv) as [F B]. destruct (vn_version v'); [|discriminate]. intros [= <-].
  split; [eapply fresh_gle; [exact (ssa_expr_gle _ _ _ _ E)|exact F]|exact B].
Qed.

Lemma ssa_stmts_defs : forall ss env r env', ssa_stmts decls env ss = SOk (r, env') ->
  NoDup (stmt_defs r) /\ forall x, In x (stmt_defs r) -> fresh (se_global env) x /\ bounded (se_global env') x.
Proof.
  induction ss as [|s tl IH]; intros env r env' H; cbn [ssa_stmts] in H.
  - injection H as <- <-. split; [constructor|intros x []].
  - apply sbind_ok in H as ([s' env1] & E & H). apply sbind_ok in H as ([tl' env2] & E0 & H). injection H as <- <-.
    destruct (IH _ _ _ E0) as [ND Htl].
    pose proof (ssa_stmt_gle _ _ _ _ E) as G1. pose proof (ssa_stmts_gle _ _ _ _ E0) as G2.
    assert (Htl' : forall y, In y (stmt_defs tl') -> fresh (se_global env) y /\ bounded (se_global env2) y).
    { intros y Hy. destruct (Htl y Hy) as [F' B']. split; [eapply fresh_gle; eassumption|exact B']. }
    unfold stmt_defs. cbn [flat_map]. fold (stmt_defs tl').
    destruct (stmt_def s') as [x|] eqn:Ed; cbn [app]; [|split; assumption].
    destruct (ssa_stmt_def _ _ _ _ E x Ed) as [F B]. split.
    + constructor; [|exact ND]. intros Hin. exact (fresh_not_bounded _ _ (proj1 (Htl x Hin)) B).
    + intros y [<-|Hy]; [split; [exact F|eapply bounded_gle; eassumption]|auto].
Qed.
End Defs.

Lemma update_nth_split {A} (f : A -> A) : forall l i x, nth_error l i = Some x ->
  l = firstn i l ++ x :: skipn (S i) l /\ update_nth l i f = firstn i l ++ f x :: skipn (S i) l.
Proof.
  induction l as [|y tl IH]; intros [|i] x H; simpl in *; try discriminate.
  - inversion H; subst. auto.
  - destruct (IH i x H) as [H1 H2]. split; f_equal; assumption.
Qed.

Lemma NoDup_replace_mid {A} (a b b' c : list A) :
  NoDup (a ++ b ++ c) -> NoDup b' -> (forall x, In x b' -> ~ In x a /\ ~ In x c) -> NoDup (a ++ b' ++ c).
Proof.
  rewrite !NoDup_app_iff. intros (Ha & (_ & Hc & _) & Hd) Hb' Hd'.
  split; [exact Ha|]. split; [split; [exact Hb'|]; split; [exact Hc|]; intros x Hx; apply (Hd' x Hx)|].
  intros x Hx Hin. apply in_app_or in Hin as [Hin|Hin]; [exact (proj1 (Hd' x Hin) Hx)|].
  apply (Hd x Hx). apply in_or_app. right. exact Hin.
Qed.

Lemma blocks_defs_app a b : blocks_defs (a ++ b) = blocks_defs a ++ blocks_defs b.
Proof. unfold blocks_defs. apply flat_map_app. Qed.

(* steps that do not touch the defined names *)
Lemma blocks_defs_same : forall bs bs',
  Forall2 (fun b b' => stmt_defs (b_stmts b') = stmt_defs (b_stmts b)) bs bs' -> blocks_defs bs' = blocks_defs bs.
Proof. induction 1 as [|b b' t t' Hb _ IH]; [reflexivity|]. unfold blocks_defs in *. cbn [flat_map]. rewrite Hb, IH. reflexivity. Qed.

Lemma ensure_phi_arg_def env s : stmt_def (ensure_phi_arg env s) = stmt_def s.
Proof. apply ensure_phi_arg_same. reflexivity. Qed.

Lemma update_phis_defs env : forall ss, stmt_defs (update_phis env ss) = stmt_defs ss.
Proof.
  induction ss as [|s tl IH]; simpl; [reflexivity|]. destruct (is_phi_stmt s); [|reflexivity].
  unfold stmt_defs in *. cbn [flat_map]. rewrite ensure_phi_arg_def, IH. reflexivity.
Qed.

Lemma insert_phis_defs frontier fuel bs work bs' :
  insert_phis fuel frontier bs work = SOk bs' -> blocks_defs bs' = blocks_defs bs.
Proof.
  intros H. apply blocks_defs_same.
  apply (insert_phis_keeps (fun _ => True) (fun b b' => stmt_defs (b_stmts b') = stmt_defs (b_stmts b))
           (fun _ _ _ _ _ => I) (fun _ _ _ _ Hb => Hb) _ _ _ _ _ _ H).
  apply forall2_refl. reflexivity.
Qed.

Lemma update_decl_stmt_def env s : stmt_def (update_decl_stmt env s) = stmt_def s.
Proof. apply update_decl_stmt_same. reflexivity. Qed.

Lemma update_decls_defs env : forall bs,
  blocks_defs (map (fun b => set_stmts b (map (update_decl_stmt env) (b_stmts b))) bs) = blocks_defs bs.
Proof.
  induction bs as [|b tl IH]; [reflexivity|]. unfold blocks_defs in *. cbn [map flat_map]. rewrite IH. f_equal.
  cbn [set_stmts b_stmts]. unfold stmt_defs. induction (b_stmts b) as [|s ss IHs]; [reflexivity|].
  cbn [map flat_map]. rewrite update_decl_stmt_def, IHs. reflexivity.
Qed.

(* the invariant of the tree walk *)
Definition defs_inv (bs : list block) (g : vmap) : Prop :=
  NoDup (blocks_defs bs) /\ forall x, In x (blocks_defs bs) -> bounded g x.

Lemma defs_inv_gle bs g g' : gle g g' -> defs_inv bs g -> defs_inv bs g'.
Proof. intros L [ND B]. split; [exact ND|]. intros x Hx. eapply bounded_gle; [exact L|apply B; exact Hx]. Qed.

(* renaming a block replaces its definitions by fresh ones *)
Lemma defs_inv_block decls bs cur b env ss env1 : defs_inv bs (se_global env) -> nth_error bs cur = Some b ->
  ssa_stmts decls env (b_stmts b) = SOk (ss, env1) ->
  defs_inv (update_nth bs cur (fun b0 => set_stmts b0 ss)) (se_global env1).
Proof.
  intros [ND B] Eb E. pose proof (ssa_stmts_gle _ _ _ _ _ E) as G1. destruct (ssa_stmts_defs _ _ _ _ _ E) as [ND1 FB1].
  destruct (update_nth_split (fun b0 => set_stmts b0 ss) bs cur b Eb) as [S1 S2]. unfold defs_inv. rewrite S2.
  rewrite S1 in ND, B. rewrite blocks_defs_app in *. unfold blocks_defs at 2 in ND. unfold blocks_defs at 2 in B.
  unfold blocks_defs at 2 4. cbn [flat_map] in *. fold (blocks_defs (skipn (S cur) bs)) in *. cbn [set_stmts b_stmts].
  split.
  - eapply NoDup_replace_mid; [exact ND|exact ND1|]. intros x Hx. destruct (FB1 x Hx) as [F _].
    split; intros Hin; apply (fresh_not_bounded _ _ F), B, in_or_app; [left; exact Hin|].
    right. apply in_or_app. right. exact Hin.
  - intros x Hx. apply in_app_or in Hx as [Hx|Hx]; [eapply bounded_gle; [exact G1|]; apply B, in_or_app; left; exact Hx|].
    apply in_app_or in Hx as [Hx|Hx]; [exact (proj2 (FB1 x Hx))|].
    eapply bounded_gle; [exact G1|]. apply B, in_or_app. right. apply in_or_app. right. exact Hx.
Qed.

Lemma rename_tree_defs decls children fuel cur bs env bs' env' :
  rename_tree fuel decls children cur bs env = SOk (bs', env') -> defs_inv bs (se_global env) ->
  defs_inv bs' (se_global env').
Proof.
  intros H Hi.
  refine (proj1 (rename_tree_inv decls children (fun _ => True) (fun e l => defs_inv l (se_global e)) (fun _ => True)
                  _ _ (fun _ _ Hl => Hl) (fun _ _ Hl => Hl) (fun _ _ _ => I) _ _ _ _ _ _ (fun _ _ => I) H Hi)).
  - intros e l c b ss e1 _ Hl Hb E. split; [exact (defs_inv_block _ _ _ _ _ _ _ Hl Hb E)|exact I].
  - intros e l s [ND B]. unfold defs_inv.
    rewrite (blocks_defs_same l); [split; assumption|].
    apply forall2_update_nth; [apply forall2_refl; reflexivity|]. intros x0 x _ _ <-. apply update_phis_defs.
Qed.

Theorem into_ssa_unique_defs : forall frontier children c c',
  all_defs c = [] -> into_ssa frontier children c = SOk c' -> NoDup (all_defs c').
Proof.
  intros frontier children c c' H0 H.
  destruct (into_ssa_stages _ _ _ _ H) as (fuel & bs1 & env0 & bs2 & env & H1 & _ & H2 & ->).
  rewrite all_defs_blocks in *. cbn [c_blocks]. rewrite update_decls_defs.
  refine (proj1 (rename_tree_defs _ _ _ _ _ _ _ _ H2 _)).
  unfold defs_inv. rewrite (insert_phis_defs _ _ _ _ _ H1), H0. split; [constructor|intros x []].
Qed.

Lemma block_unv_defs b : block_unv b = true -> stmt_defs (b_stmts b) = [].
Proof.
  unfold block_unv, stmt_defs. induction (b_stmts b) as [|s tl IH]; intros H; [reflexivity|].
  cbn [forallb] in H. apply andb_true_iff in H as [Hs Ht]. cbn [flat_map]. rewrite (IH Ht), app_nil_r.
  destruct s as [| | |m v op rhe sval stype| | |]; try reflexivity. cbn [stmt_unv] in Hs.
  apply andb_true_iff in Hs as [Hv _]. cbn [stmt_def]. destruct (vn_version v); [discriminate Hv|reflexivity].
Qed.

Lemma unversioned_no_defs c : unversioned c -> all_defs c = [].
Proof.
  unfold unversioned, all_unv. rewrite all_defs_blocks. induction (c_blocks c) as [|b tl IH]; intros H; [reflexivity|].
  unfold blocks_defs in *. cbn [flat_map]. rewrite (block_unv_defs b (H 0 b eq_refl)). cbn [app].
  apply IH. intros i b' Hi. apply (H (S i) b'). exact Hi.
Qed.

Theorem into_ssa_unique_defs_unversioned : forall frontier children c c',
  unversioned c -> into_ssa frontier children c = SOk c' -> NoDup (all_defs c').
Proof. intros frontier children c c' Hu. apply into_ssa_unique_defs. apply unversioned_no_defs. exact Hu. Qed.

(* a key is assigned with a version exactly when it is a declared local *)

Lemma is_local_in_key decls a b : key_of a = key_of b -> is_local_in decls a = is_local_in decls b.
Proof.
  intros H. unfold is_local_in. induction decls as [|d tl IH]; simpl; [reflexivity|]. rewrite IH, H. reflexivity.
Qed.

Section Targets.
Variable decls : list (vname * vtype).

Definition target_ok (s : stmt) : Prop :=
  forall x, assigns s = Some x -> versioned x = is_local_in decls x.
Definition targets_ok (ss : list stmt) : Prop := forall s, In s ss -> target_ok s.

Lemma ssa_stmt_target : forall s env s' env', ssa_stmt decls env s = SOk (s', env') -> target_ok s'.
Proof.
  apply (ssa_stmt_cases decls (fun _ _ s' _ => target_ok s')); try (intros; discriminate).
  intros env m v op rhe sv st rhe' env1 v' env2 Ev _ Hv x [= <-]. unfold def_as in Hv.
  destruct (is_local_in decls v) eqn:El; destruct Hv as [-> _].
  - rewrite (is_local_in_key decls (with_version v _) v eq_refl), El. reflexivity.
  - unfold versioned. rewrite Ev, El. reflexivity.
Qed.

Lemma ssa_stmts_targets : forall ss env r env', ssa_stmts decls env ss = SOk (r, env') -> targets_ok r.
Proof.
  induction ss as [|s tl IH]; intros env r env' H; cbn [ssa_stmts] in H.
  - injection H as <- _. intros s [].
  - apply sbind_ok in H as ([s' env1] & E & H). apply sbind_ok in H as ([tl' env2] & E0 & H). injection H as <- _.
    intros s0 [<-|Hs]; [eapply ssa_stmt_target; exact E|exact (IH _ _ _ E0 s0 Hs)].
Qed.

Lemma ensure_phi_arg_assigns env s : assigns (ensure_phi_arg env s) = assigns s.
Proof. apply ensure_phi_arg_same. reflexivity. Qed.

Lemma update_phis_targets env : forall ss, targets_ok ss -> targets_ok (update_phis env ss).
Proof.
  induction ss as [|s tl IH]; intros H; simpl; [exact H|]. destruct (is_phi_stmt s); [|exact H].
  intros s' [<-|Hs'].
  - intros x Hx. rewrite ensure_phi_arg_assigns in Hx. apply (H s (or_introl eq_refl) x Hx).
  - apply IH; [|exact Hs']. intros y Hy. apply H. right. exact Hy.
Qed.

Definition ok_at (bs : list block) (i : nat) : Prop :=
  forall b, nth_error bs i = Some b -> targets_ok (b_stmts b).

Variable children : list (list N).

Lemma rename_tree_targets : forall fuel cur bs env bs' env',
  rename_tree fuel decls children cur bs env = SOk (bs', env') ->
  (forall i, ok_at bs i -> ok_at bs' i) /\ (forall i, In i (preorder fuel children cur) -> ok_at bs' i).
Proof.
  intros fuel cur bs env bs' env' H.
  refine (proj2 (rename_tree_inv decls children (fun _ => True) (fun _ _ => True) targets_ok
                  _ (fun _ _ _ _ => I) (fun _ _ _ => I) (fun _ _ _ => I) update_phis_targets
                  _ _ _ _ _ _ (fun _ _ => I) H I)).
  intros e l c b ss e1 _ _ _ E. split; [exact I|exact (ssa_stmts_targets _ _ _ _ E)].
Qed.
End Targets.

Lemma insert_phis_length frontier fuel bs work bs' :
  insert_phis fuel frontier bs work = SOk bs' -> length bs' = length bs.
Proof.
  intros H. apply (forall2_length (fun _ _ => True)).
  apply (insert_phis_keeps (fun _ => True) _ (fun _ _ _ _ _ => I) (fun _ _ _ _ _ => I) _ _ _ _ _ _ H).
  apply forall2_refl. trivial.
Qed.

Lemma rename_tree_length decls children fuel cur bs env bs' env' :
  rename_tree fuel decls children cur bs env = SOk (bs', env') -> length bs' = length bs.
Proof.
  intros H. apply (forall2_length (fun _ _ => True)).
  apply (rename_tree_keeps decls _ (fun _ _ _ _ _ _ _ => I) (fun _ _ _ _ => I) _ _ _ _ _ _ _ _ H).
  apply forall2_refl. trivial.
Qed.

Lemma update_decl_stmt_assigns env s : assigns (update_decl_stmt env s) = assigns s.
Proof. apply update_decl_stmt_same. reflexivity. Qed.

(* the children table reaches every block *)
Definition children_cover (children : list (list N)) (n : nat) : Prop :=
  forall i, i < n -> In i (preorder (S n) children 0).

(* every assignment target of the output is versioned exactly when it is a declared local *)
Lemma into_ssa_targets frontier children c c' :
  children_cover children (length (c_blocks c)) -> into_ssa frontier children c = SOk c' ->
  forall b s x, In b (c_blocks c') -> In s (b_stmts b) -> assigns s = Some x -> versioned x = is_local_in (c_decls c) x.
Proof.
  intros Hcov H. destruct (into_ssa_stages _ _ _ _ H) as (fuel & bs1 & env0 & bs2 & env & H1 & _ & H2 & ->).
  destruct (rename_tree_targets (c_decls c) children _ _ _ _ _ _ H2) as [_ P].
  intros b' s' x Hb' Hs' Hx. cbn [c_blocks] in Hb'. apply in_map_iff in Hb' as (b & <- & Hb).
  cbn [set_stmts b_stmts] in Hs'. apply in_map_iff in Hs' as (s & <- & Hs). rewrite update_decl_stmt_assigns in Hx.
  apply In_nth_error in Hb as [i Hi]. refine (P i (Hcov i _) b Hi s Hs x Hx).
  rewrite <- (insert_phis_length _ _ _ _ _ H1), <- (rename_tree_length _ _ _ _ _ _ _ _ H2).
  apply nth_error_Some. congruence.
Qed.

Theorem into_ssa_mixed_keys_ok : forall frontier children c c',
  children_cover children (length (c_blocks c)) ->
  forallb (is_local_in (c_decls c)) (c_params c) = true ->
  into_ssa frontier children c = SOk c' -> mixed_keys_ok c' = true.
Proof.
  intros frontier children c c' Hcov Hpar H.
  assert (T : forall x, In x (all_targets c') -> versioned x = is_local_in (c_decls c) x).
  { intros x Hx. apply in_flat_map in Hx as (b & Hb & Hx). apply in_flat_map in Hx as (s & Hs & Hx).
    apply (into_ssa_targets _ _ _ _ Hcov H b s x Hb Hs). destruct (assigns s); [|contradiction]. destruct Hx as [<-|[]]. reflexivity. }
  unfold mixed_keys_ok. apply forallb_forall. intros x Hx.
  destruct (versioned x) eqn:Vx; [reflexivity|]. cbn [orb]. apply negb_true_iff.
  destruct (existsb _ _) eqn:Ex; [|reflexivity]. exfalso.
  apply existsb_exists in Ex. destruct Ex as (y & Hy & Hxy). apply andb_true_iff in Hxy as [Hk Vy].
  apply vname_sim_eq in Hk. pose proof (T x Hx) as Tx. rewrite Vx in Tx.
  rewrite (is_local_in_key (c_decls c) x y Hk) in Tx.
  apply in_app_or in Hy. destruct Hy as [Hy|Hy].
  - rewrite <- (T y Hy), Vy in Tx. discriminate Tx.
  - destruct (into_ssa_stages _ _ _ _ H) as (fuel & bs1 & env0 & bs2 & env & _ & _ & _ & ->).
    cbn [c_params] in Hy. apply in_map_iff in Hy. destruct Hy as (p & <- & Hp).
    rewrite forallb_forall in Hpar. rewrite (is_local_in_key (c_decls c) (with_version p 0) p eq_refl), (Hpar p Hp) in Tx.
    discriminate Tx.
Qed.


(* [phi_free] in terms of the validator itself: a graph is phi-free as soon as it is an
   erasure of itself (so the existing `erasecheck pre pre` evaluates the hypothesis) *)
Lemma leading_phis_parts : forall ss, ss = fst (leading_phis ss) ++ snd (leading_phis ss).
Proof.
  induction ss as [|s tl IH]; simpl; [reflexivity|]. destruct (is_phi_stmt s); [|reflexivity].
  destruct (leading_phis tl) as [p b]. simpl in *. f_equal. exact IH.
Qed.

Lemma stmts_sim_length : forall xs ys, stmts_sim xs ys = true -> length xs = length ys.
Proof.
  induction xs as [|a ta IH]; intros [|c tc] H; cbn [stmts_sim] in H; try discriminate; [reflexivity|].
  apply andb_true_iff in H as [_ H]. simpl. f_equal. apply IH. exact H.
Qed.

Lemma self_erasure_self_sim c : erase_eqb c c = true -> self_sim (c_blocks c) = true.
Proof.
  unfold erase_eqb, self_sim. induction (c_blocks c) as [|b tl IH]; intros H; [reflexivity|].
  simpl in H. apply andb_true_iff in H as [Hb Ht]. cbn [forallb]. rewrite (IH Ht), andb_true_r.
  unfold block_sim in Hb. apply andb_true_iff in Hb as [_ Hb]. unfold body_of in Hb.
  pose proof (leading_phis_parts (b_stmts b)) as L. pose proof (stmts_sim_length _ _ Hb) as Len.
  destruct (leading_phis (b_stmts b)) as [p body]. cbn [fst snd] in *.
  assert (p = []) as ->.
  { rewrite L in Len at 1. rewrite app_length in Len. destruct p; [reflexivity|simpl in Len; lia]. }
  simpl in L. rewrite L. rewrite L in Hb at 1. exact Hb.
Qed.

Theorem into_ssa_is_erasure_of_self_erasure : forall frontier children c c',
  erase_eqb c c = true -> decls_ok c = true ->
  into_ssa frontier children c = SOk c' -> erase_eqb c c' = true.
Proof.
  intros frontier children c c' Hs Hd H. unfold erase_eqb. apply erase_inv_blocks_sim.
  destruct (into_ssa_stages _ _ _ _ H) as (fuel & bs1 & env0 & bs2 & env & H1 & _ & H2 & ->). cbn [c_blocks].
  apply update_decls_erases; [exact Hd|].
  exact (stages_erase _ _ _ _ _ _ _ _ _ _ _ (self_erasure_self_sim c Hs) H1 H2).
Qed.

(* the boolean the validator SsaCheck.ssa_check evaluates for T3 *)
Lemma NoDup_nodup_v : forall l, NoDup l -> nodup_v l = true.
Proof.
  induction 1 as [|x tl Hx _ IH]; [reflexivity|]. cbn [nodup_v]. rewrite IH, andb_true_r. apply negb_true_iff.
  destruct (existsb (vname_eqb x) tl) eqn:E; [|reflexivity]. exfalso. apply existsb_exists in E.
  destruct E as (y & Hy & Hxy). apply vname_eqb_eq in Hxy. subst y. exact (Hx Hy).
Qed.

Theorem into_ssa_unique_defs_check : forall frontier children c c',
  unversioned c -> into_ssa frontier children c = SOk c' -> nodup_v (all_defs c') = true.
Proof. intros. apply NoDup_nodup_v. eapply into_ssa_unique_defs_unversioned; eassumption. Qed.

(* [children_cover] as a computation *)
Lemma children_coverb_spec children n : children_coverb children n = true -> children_cover children n.
Proof.
  unfold children_coverb, children_cover. rewrite forallb_forall. intros H i Hi.
  assert (Hin : In i (seq 0 n)) by (apply in_seq; lia).
  specialize (H i Hin). apply existsb_exists in H. destruct H as (j & Hj & Hij). apply Nat.eqb_eq in Hij. subst j. exact Hj.
Qed.

(* the output of the construction passes the whole erasure validator *)
Theorem into_ssa_passes_erase_check : forall frontier children c c',
  pre_ssa_ok c = true -> children_cover children (length (c_blocks c)) ->
  into_ssa frontier children c = SOk c' -> erase_check c c' = true.
Proof.
  intros frontier children c c' Hp Hc H. unfold pre_ssa_ok in Hp.
  apply andb_true_iff in Hp as [Hp Hpar]. apply andb_true_iff in Hp as [Hpf Hd].
  unfold erase_check. rewrite (into_ssa_is_erasure _ _ _ _ Hpf Hd H).
  rewrite (into_ssa_mixed_keys_ok _ _ _ _ Hc Hpar H). reflexivity.
Qed.

(* [unversioned] as a computation *)
Lemma unversioned_of_forallb c : forallb block_unv (c_blocks c) = true -> unversioned c.
Proof.
  unfold unversioned, all_unv. rewrite forallb_forall. intros H i b Hb. apply H. eapply nth_error_In. exact Hb.
Qed.

(* the hypotheses are needed: the statements without them are false *)
Module Needed.
Definition k0 : know := {| kval := None; kdeg := None |}.
Definition m0 : meta := {| m_start := 0%N; m_end := 0%N; m_file := None |}.
Definition xu : vname := {| vn_name := [120%N]; vn_suffix := None; vn_version := None |}.
Definition yu : vname := {| vn_name := [121%N]; vn_suffix := None; vn_version := None |}.
Definition blk i ss ps su := {| b_index := i; b_depth := 0%N; b_stmts := ss; b_preds := ps; b_succs := su |}.

(* a local declaration that lists two different variables: update_decl_stmt re-issues the
   versions of the FIRST name only (the Rust code asserts names.len() == 1 at this point) *)
Definition c1 : cfg :=
  {| c_kind := KFunction; c_params := []; c_decls := [(xu, TLocal); (yu, TLocal)];
     c_blocks := [ blk 0%N [SDecl m0 [xu; yu] TLocal []] [] [] ] |}.
Example two_name_declaration_is_not_erased :
  block_unv (blk 0%N [SDecl m0 [xu; yu] TLocal []] [] []) = true /\ phi_free c1 = true /\ decls_ok c1 = false /\
  exists c', into_ssa [[]] [[]] c1 = SOk c' /\ erase_eqb c1 c' = false.
Proof. vm_compute. repeat split. eexists. split; reflexivity. Qed.

(* a phi expression inside the input (accepted by SsaNoPanic.unversioned: phi arguments are not visited) *)
Definition c2 : cfg :=
  {| c_kind := KFunction; c_params := []; c_decls := [(xu, TLocal)];
     c_blocks := [ blk 0%N [SRet m0 (EInfix IAdd (EPhi [] k0) (ENum 1 k0) k0)] [] [] ] |}.
Example phi_in_input_is_not_erased :
  block_unv (blk 0%N [SRet m0 (EInfix IAdd (EPhi [] k0) (ENum 1 k0) k0)] [] []) = true /\
  phi_free c2 = false /\ decls_ok c2 = true /\
  exists c', into_ssa [[]] [[]] c2 = SOk c' /\ erase_eqb c2 c' = false.
Proof. vm_compute. repeat split. eexists. split; reflexivity. Qed.

(* a children table that does not reach block 1 leaves its assignment unversioned *)
Definition c3 : cfg :=
  {| c_kind := KFunction; c_params := []; c_decls := [(xu, TLocal)];
     c_blocks := [ blk 0%N [SSubst m0 xu OpVar (ENum 1 k0) None (Some TLocal)] [] [1%N];
                   blk 1%N [SSubst m0 xu OpVar (ENum 2 k0) None (Some TLocal)] [0%N] [] ] |}.
Example uncovered_block_gives_mixed_keys :
  pre_ssa_ok c3 = true /\ children_coverb [[]; []] 2 = false /\
  exists c', into_ssa [[]; []] [[]; []] c3 = SOk c' /\ mixed_keys_ok c' = false /\ erase_eqb c3 c' = true.
Proof. vm_compute. repeat split. eexists. repeat split. Qed.

(* a parameter that is not a declared local and is assigned in the body *)
Definition c4 : cfg :=
  {| c_kind := KFunction; c_params := [xu]; c_decls := [];
     c_blocks := [ blk 0%N [SSubst m0 xu OpVar (ENum 1 k0) None (Some TLocal)] [] [] ] |}.
Example undeclared_parameter_gives_mixed_keys :
  pre_ssa_ok c4 = false /\ children_coverb [[]] 1 = true /\
  exists c', into_ssa [[]] [[]] c4 = SOk c' /\ mixed_keys_ok c' = false.
Proof. vm_compute. repeat split. eexists. repeat split. Qed.

(* a phi statement standing behind another statement in the input stays where it is
   (SsaNoPanic.unversioned alone does not give T2) *)
Definition c5 : cfg :=
  {| c_kind := KFunction; c_params := []; c_decls := [(xu, TLocal)];
     c_blocks := [ blk 0%N [SAssert m0 (ENum 1 k0); SSubst m0 xu OpVar (EPhi [] k0) None (Some TLocal)] [] [] ] |}.
Example phi_statement_in_input_stays_in_body :
  forallb block_unv (c_blocks c5) = true /\ phi_free c5 = false /\
  exists c', into_ssa [[]] [[]] c5 = SOk c' /\
             existsb (fun b => existsb is_phi_stmt (body_of b)) (c_blocks c') = true.
Proof. vm_compute. repeat split. eexists. split; reflexivity. Qed.
End Needed.
