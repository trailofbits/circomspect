(* How the visits of Model.Propagate walk over lists of expressions, index lists,
   log arguments, statements, blocks and passes.  A relation between an expression
   and its visited version lifts to every kind of list ([*_lift]); an invariant kept
   by every single statement visit is kept by a pass loop ([values_passes_wp]).
   Failure of the value visits is handled once by [wp]. *)
From Coq Require Import ZArith List Bool.
Require Import Model.Base Model.Ir Model.Propagate Model.Justify Proofs.IrInd.
Require Export Proofs.BaseFacts.
Import ListNotations.



Lemma Forall2_nth_error {A} (R : A -> A -> Prop) l l' n : Forall2 R l l' ->
  match nth_error l n, nth_error l' n with
  | Some x, Some y => R x y
  | None, None => True
  | _, _ => False
  end.
Proof. intros H. revert n. induction H as [|x y l l' Hxy H IH]; intros [|n]; cbn; try exact I; [exact Hxy|apply IH]. Qed.

Lemma Forall2_transfer {A} (R : A -> A -> Prop) (P Q : A -> Prop) l l' :
  Forall2 R l l' -> (forall x y, R x y -> P x -> Q y) -> Forall P l -> Forall Q l'.
Proof.
  intros H HR. induction H; intros HP; [constructor|].
  apply Forall_cons_iff in HP as [H1 H2]. constructor; eauto.
Qed.

Lemma Forall2_map_eq {A B} (f : A -> B) l l' : Forall2 (fun x y => f y = f x) l l' -> map f l' = map f l.
Proof. induction 1; cbn [map]; congruence. Qed.

Lemma flat_map_Forall2 {A B} (R : B -> B -> Prop) (f g : A -> list B) l :
  (forall x, Forall2 R (f x) (g x)) -> Forall2 R (flat_map f l) (flat_map g l).
Proof. intros H. induction l as [|x tl IH]; cbn [flat_map]; [constructor|]. apply Forall2_app; auto. Qed.

Lemma in_app_mid {A} (x a : A) l1 l2 : In x (l1 ++ l2) -> In x (l1 ++ a :: l2).
Proof. intros H. apply in_app_or in H as [H|H]; apply in_or_app; [left|right; right]; exact H. Qed.

Lemma all_ext {A B} (f g : A -> B) l : (forall x, f x = g x) -> Forall (fun x => f x = g x) l.
Proof. intros H. apply Forall_forall. intros x _. apply H. Qed.

Lemma forallb_map_ext {A B} (f : B -> bool) (g : A -> B) (h : A -> bool) l :
  Forall (fun x => f (g x) = h x) l -> forallb f (map g l) = forallb h l.
Proof. induction 1; cbn [map forallb]; congruence. Qed.

Lemma flat_map_map_ext {A B C} (f : B -> list C) (g : A -> B) (h : A -> list C) l :
  Forall (fun x => f (g x) = h x) l -> flat_map f (map g l) = flat_map h l.
Proof. induction 1; cbn [map flat_map]; congruence. Qed.

Lemma all_stmts_app bs1 bs2 : all_stmts (bs1 ++ bs2) = all_stmts bs1 ++ all_stmts bs2.
Proof. unfold all_stmts. apply flat_map_app. Qed.

Lemma all_stmts_cons b bs : all_stmts (b :: bs) = b_stmts b ++ all_stmts bs.
Proof. reflexivity. Qed.

Lemma all_stmts_mid B1 blk X B2 : all_stmts (B1 ++ set_stmts blk X :: B2) = all_stmts B1 ++ X ++ all_stmts B2.
Proof. rewrite all_stmts_app, all_stmts_cons. reflexivity. Qed.

Lemma app_mid {A} (X : list A) x Y : (X ++ [x]) ++ Y = X ++ x :: Y.
Proof. rewrite <- app_assoc. reflexivity. Qed.

Definition la_exprs (args : list logarg) : list expr :=
  flat_map (fun a => match a with LExpr e => [e] | LStr => [] end) args.

Definition amap (g : expr -> expr) (a : access expr) : access expr :=
  match a with AIdx x => AIdx (g x) | AComp n => AComp n end.
Definition lmap (g : expr -> expr) (a : logarg) : logarg :=
  match a with LExpr x => LExpr (g x) | LStr => LStr end.

Lemma acc_exprs_amap g acc : acc_exprs (map (amap g) acc) = map g (acc_exprs acc).
Proof. unfold acc_exprs. induction acc as [|[x|n] tl IH]; cbn [map amap flat_map app]; congruence. Qed.

Lemma la_exprs_lmap g es : la_exprs (map (lmap g) es) = map g (la_exprs es).
Proof. unfold la_exprs. induction es as [|[|x] tl IH]; cbn [map lmap flat_map app]; congruence. Qed.

Definition acc_rel (R : expr -> expr -> Prop) (a a' : access expr) : Prop :=
  match a, a' with
  | AIdx x, AIdx x' => R x x'
  | AComp n, AComp n' => n = n'
  | _, _ => False
  end.
Definition la_rel (R : expr -> expr -> Prop) (a a' : logarg) : Prop :=
  match a, a' with
  | LExpr x, LExpr x' => R x x'
  | LStr, LStr => True
  | _, _ => False
  end.

Lemma acc_rel_exprs R acc acc' : Forall2 (acc_rel R) acc acc' -> Forall2 R (acc_exprs acc) (acc_exprs acc').
Proof.
  induction 1 as [|a a' tl tl' Ha _ IH]; [constructor|].
  destruct a, a'; try contradiction; cbn [acc_exprs flat_map app]; [constructor; assumption|exact IH].
Qed.

Lemma la_rel_exprs R es es' : Forall2 (la_rel R) es es' -> Forall2 R (la_exprs es) (la_exprs es').
Proof.
  induction 1 as [|a a' tl tl' Ha _ IH]; [constructor|].
  destruct a, a'; try contradiction; cbn [la_exprs flat_map app]; [exact IH|constructor; assumption].
Qed.

Lemma acc_rel_map g acc acc' : Forall2 (acc_rel (fun x y => g y = g x)) acc acc' -> map (amap g) acc' = map (amap g) acc.
Proof.
  induction 1 as [|a a' tl tl' Ha _ IH]; [reflexivity|].
  destruct a, a'; try contradiction; cbn [map amap acc_rel] in *; congruence.
Qed.

Lemma la_rel_map g es es' : Forall2 (la_rel (fun x y => g y = g x)) es es' -> map (lmap g) es' = map (lmap g) es.
Proof.
  induction 1 as [|a a' tl tl' Ha _ IH]; [reflexivity|].
  destruct a, a'; try contradiction; cbn [map lmap la_rel] in *; congruence.
Qed.

(* a knowledge slot, value or degree: claims only go from unknown to known *)
Definition oext {A} (a a' : option A) : Prop := forall c, a = Some c -> a' = Some c.

Lemma oext_refl {A} (a : option A) : oext a a.
Proof. intros c H. exact H. Qed.

Section Slot.
Context {A : Type} (get : know -> option A) (put : know -> A -> know).
Hypothesis get_put : forall k a, get (put k a) = Some a.

Definition claims (k : know) (o : option A) : Prop :=
  match get k with None => True | Some c => o = Some c end.

Lemma claims_mono k o o' : oext o o' -> claims k o -> claims k o'.
Proof. unfold claims. destruct (get k); auto. Qed.

Lemma claims_none k o : get k = None -> claims k o.
Proof. unfold claims. intros ->. exact I. Qed.

(* sc_set_val / sc_set_deg *)
Definition sc_put (res : bool) (e : expr) (a : A) : bool * expr :=
  if res then (true, e)
  else (match get (expr_know e) with None => true | Some _ => false end, set_know e (put (expr_know e) a)).

Definition sc_opt (o : option A) (res : bool) (e : expr) : bool * expr :=
  match o with Some a => sc_put res e a | None => (res, e) end.

(* the end of the visit of a node whose rule gave [o] before its operands were
   visited and gives [o'] now *)
Lemma sc_finish e o o' b b' e' :
  claims (expr_know e) o -> oext o o' -> sc_opt o' b e = (b', e') ->
  exists k', e' = set_know e k' /\ claims k' o' /\ oext (get (expr_know e)) (get k').
Proof.
  intros Hc Hext.
  assert (Hsame : (b, e) = (b', e') -> exists k', e' = set_know e k' /\ claims k' o' /\ oext (get (expr_know e)) (get k')).
  { intros [= <- <-]. exists (expr_know e). split; [destruct e; reflexivity|]. split; [eapply claims_mono; eauto|apply oext_refl]. }
  unfold sc_opt. destruct o' as [a|]; [|exact Hsame]. unfold sc_put. destruct b; [exact Hsame|].
  intros [= <- <-]. exists (put (expr_know e) a). split; [reflexivity|]. split.
  - unfold claims. rewrite get_put. reflexivity.
  - intros c Hc'. rewrite get_put. unfold claims in Hc. rewrite Hc' in Hc. apply Hext. exact Hc.
Qed.

Lemma sc_finish_snd (P : expr -> Prop) e o o' b :
  claims (expr_know e) o -> oext o o' ->
  (forall k', claims k' o' -> oext (get (expr_know e)) (get k') -> P (set_know e k')) -> P (snd (sc_opt o' b e)).
Proof.
  intros Hc Hx H. destruct (sc_opt o' b e) as [b' e'] eqn:E.
  destruct (sc_finish e o o' b b' e' Hc Hx E) as (k' & -> & Hk & Hs). exact (H k' Hk Hs).
Qed.
End Slot.

Definition put_val (k : know) (v : vred) : know := {| kval := Some v; kdeg := kdeg k |}.
Definition put_deg (k : know) (r : drange) : know := {| kval := kval k; kdeg := Some r |}.

(* [J] is what a failed run is worth: with [True], a statement about the runs that
   return; with [False], also a proof that the run returns *)
Definition wp {A} (J : Prop) (m : outcome A) (Q : A -> Prop) : Prop :=
  match m with Ok a => Q a | _ => J end.

Lemma wp_bind {A B} J (m : outcome A) (f : A -> outcome B) Q : wp J m (fun a => wp J (f a) Q) -> wp J (bind m f) Q.
Proof. destruct m; exact (fun H => H). Qed.

Lemma wp_mono {A} J (m : outcome A) (Q Q' : A -> Prop) : (forall a, Q a -> Q' a) -> wp J m Q -> wp J m Q'.
Proof. intros H. destruct m; cbn [wp]; auto. Qed.

Lemma wp_ok {A} J (m : outcome A) Q a : wp J m Q -> m = Ok a -> Q a.
Proof. intros H ->. exact H. Qed.

Lemma wp_partial {A} (m : outcome A) (Q : A -> Prop) : (forall a, m = Ok a -> Q a) -> wp True m Q.
Proof. intros H. destruct m; cbn [wp]; auto. Qed.

Lemma wp_total {A} (m : outcome A) Q : wp False m Q -> exists a, m = Ok a /\ Q a.
Proof. destruct m; cbn [wp]; [eauto|contradiction|contradiction|contradiction]. Qed.

Lemma wp_trivial {A} (m : outcome A) : wp True m (fun _ => True).
Proof. destruct m; exact I. Qed.

Lemma wp_opt {A B} J (o : option A) (f : A -> B) (d : B) (Q : B -> Prop) :
  Q (match o with Some a => f a | None => d end) -> wp J (match o with Some a => Ok (f a) | None => Ok d end) Q.
Proof. destruct o; exact (fun H => H). Qed.

Fixpoint pv_accs (p : Z) (env : venv) (res : bool) (acc : list (access expr)) : outcome (bool * list (access expr)) :=
  match acc with
  | [] => Ok (res, [])
  | AComp n :: tl => t <- pv_accs p env res tl ;; let '(b', tl') := t in Ok (b', AComp n :: tl')
  | AIdx x :: tl =>
    if res then Ok (true, AIdx x :: tl)
    else r <- pv_expr p env x ;;
         let '(b, x') := r in
         t <- pv_accs p env b tl ;;
         let '(b', tl') := t in Ok (b', AIdx x' :: tl')
  end.

Lemma pv_list_eq p env es : forall res,
  (fix pv_list (res : bool) (es : list expr) {struct es} : outcome (bool * list expr) :=
     match es with
     | [] => Ok (res, [])
     | x :: tl =>
       if res then Ok (true, x :: tl)
       else r <- pv_expr p env x ;;
            let '(b, x') := r in
            t <- pv_list b tl ;;
            let '(b', tl') := t in Ok (b', x' :: tl')
     end) res es = pv_exprs p env res es.
Proof.
  induction es as [|x tl IH]; intros res; [reflexivity|]. cbn [pv_exprs].
  destruct res; [reflexivity|]. destruct (pv_expr p env x) as [[b x']| | |]; [|reflexivity|reflexivity|reflexivity].
  cbn [bind]. rewrite IH. reflexivity.
Qed.

Lemma pv_acc_eq p env acc : forall res,
  (fix pv_acc (res : bool) (acc : list (access expr)) {struct acc} : outcome (bool * list (access expr)) :=
     match acc with
     | [] => Ok (res, [])
     | AComp n :: tl => t <- pv_acc res tl ;; let '(b', tl') := t in Ok (b', AComp n :: tl')
     | AIdx x :: tl =>
       if res then Ok (true, AIdx x :: tl)
       else r <- pv_expr p env x ;;
            let '(b, x') := r in
            t <- pv_acc b tl ;;
            let '(b', tl') := t in Ok (b', AIdx x' :: tl')
     end) res acc = pv_accs p env res acc.
Proof.
  induction acc as [|[x|n] tl IH]; intros res; [reflexivity| |]; cbn [pv_accs].
  - destruct res; [reflexivity|]. destruct (pv_expr p env x) as [[b x']| | |]; [|reflexivity|reflexivity|reflexivity].
    cbn [bind]. rewrite IH. reflexivity.
  - rewrite IH. reflexivity.
Qed.

Section ValueLists.
Variables (J : Prop) (p : Z) (env : venv) (R : expr -> expr -> Prop).
Hypothesis Rrefl : forall e, R e e.

Definition pv_lifts (e : expr) : Prop := wp J (pv_expr p env e) (fun r => R e (snd r)).

Lemma pv_exprs_lift es : Forall pv_lifts es -> forall res,
  wp J (pv_exprs p env res es) (fun r => Forall2 R es (snd r)).
Proof.
  induction 1 as [|x tl Hx _ IH]; intros res; cbn [pv_exprs]; [constructor|].
  destruct res; [apply forall2_refl; exact Rrefl|].
  apply wp_bind. eapply wp_mono; [|exact Hx]. intros [b x'] HR.
  apply wp_bind. eapply wp_mono; [|apply IH]. intros [b' tl'] Ht. constructor; assumption.
Qed.

Lemma pv_accs_lift acc : Forall pv_lifts (acc_exprs acc) -> forall res,
  wp J (pv_accs p env res acc) (fun r => Forall2 (acc_rel R) acc (snd r)).
Proof.
  induction acc as [|[x|n] tl IH]; intros H res; cbn [pv_accs]; [constructor| |].
  - cbn [acc_exprs flat_map app] in H. apply Forall_cons_iff in H as [Hx Ht].
    destruct res; [apply forall2_refl; intros [y|m]; cbn; auto|].
    apply wp_bind. eapply wp_mono; [|exact Hx]. intros [b x'] HR.
    apply wp_bind. eapply wp_mono; [|apply IH; exact Ht]. intros [b' tl'] Ht'. constructor; assumption.
  - apply wp_bind. eapply wp_mono; [|apply IH; exact H]. intros [b' tl'] Ht'. constructor; [reflexivity|assumption].
Qed.

Lemma pv_logargs_lift es : Forall pv_lifts (la_exprs es) -> forall res,
  wp J (pv_logargs p env res es) (fun r => Forall2 (la_rel R) es (snd r)).
Proof.
  induction es as [|[|x] tl IH]; intros H res; cbn [pv_logargs]; [constructor| |].
  - apply wp_bind. eapply wp_mono; [|apply IH; exact H]. intros [b' tl'] Ht'. constructor; [exact I|assumption].
  - cbn [la_exprs flat_map app] in H. apply Forall_cons_iff in H as [Hx Ht].
    destruct res; [apply forall2_refl; intros [|y]; cbn; auto|].
    apply wp_bind. eapply wp_mono; [|exact Hx]. intros [b x'] HR.
    apply wp_bind. eapply wp_mono; [|apply IH; exact Ht]. intros [b' tl'] Ht'. constructor; assumption.
Qed.
End ValueLists.

Fixpoint pd_accs (env : denv) (res : bool) (acc : list (access expr)) : bool * list (access expr) :=
  match acc with
  | [] => (res, [])
  | AComp n :: tl => let '(b', tl') := pd_accs env res tl in (b', AComp n :: tl')
  | AIdx x :: tl =>
    if res then (true, AIdx x :: tl)
    else let '(b, x') := pd_expr env x in
         let '(b', tl') := pd_accs env b tl in (b', AIdx x' :: tl')
  end.

Lemma pd_list_eq env es : forall res,
  (fix pd_list (res : bool) (es : list expr) {struct es} : bool * list expr :=
     match es with
     | [] => (res, [])
     | x :: tl =>
       if res then (true, x :: tl)
       else let '(b, x') := pd_expr env x in
            let '(b', tl') := pd_list b tl in (b', x' :: tl')
     end) res es = pd_exprs env res es.
Proof.
  induction es as [|x tl IH]; intros res; [reflexivity|]. cbn [pd_exprs].
  destruct res; [reflexivity|]. destruct (pd_expr env x) as [b x']. rewrite IH. reflexivity.
Qed.

Lemma pd_acc_eq env acc : forall res,
  (fix pd_acc (res : bool) (acc : list (access expr)) {struct acc} : bool * list (access expr) :=
     match acc with
     | [] => (res, [])
     | AComp n :: tl => let '(b', tl') := pd_acc res tl in (b', AComp n :: tl')
     | AIdx x :: tl =>
       if res then (true, AIdx x :: tl)
       else let '(b, x') := pd_expr env x in
            let '(b', tl') := pd_acc b tl in (b', AIdx x' :: tl')
     end) res acc = pd_accs env res acc.
Proof.
  induction acc as [|[x|n] tl IH]; intros res; [reflexivity| |]; cbn [pd_accs].
  - destruct res; [reflexivity|]. destruct (pd_expr env x) as [b x']. rewrite IH. reflexivity.
  - rewrite IH. reflexivity.
Qed.

Section DegreeLists.
Variables (env : denv) (R : expr -> expr -> Prop).
Hypothesis Rrefl : forall e, R e e.

Definition pd_lifts (e : expr) : Prop := R e (snd (pd_expr env e)).

Lemma pd_lifts_intro e : (forall b e', pd_expr env e = (b, e') -> R e e') -> pd_lifts e.
Proof. intros H. unfold pd_lifts. destruct (pd_expr env e) as [b e']. exact (H b e' eq_refl). Qed.

Lemma pd_lifts_elim e b e' : pd_lifts e -> pd_expr env e = (b, e') -> R e e'.
Proof. unfold pd_lifts. intros H E. rewrite E in H. exact H. Qed.

Lemma pd_exprs_lift es : Forall pd_lifts es -> forall res, Forall2 R es (snd (pd_exprs env res es)).
Proof.
  induction 1 as [|x tl Hx _ IH]; intros res; cbn [pd_exprs]; [constructor|].
  destruct res; [apply forall2_refl; exact Rrefl|].
  unfold pd_lifts in Hx. destruct (pd_expr env x) as [b x']. specialize (IH b).
  destruct (pd_exprs env b tl) as [b' tl']. constructor; assumption.
Qed.

Lemma pd_accs_lift acc : Forall pd_lifts (acc_exprs acc) -> forall res, Forall2 (acc_rel R) acc (snd (pd_accs env res acc)).
Proof.
  induction acc as [|[x|n] tl IH]; intros H res; cbn [pd_accs]; [constructor| |].
  - cbn [acc_exprs flat_map app] in H. apply Forall_cons_iff in H as [Hx Ht].
    destruct res; [apply forall2_refl; intros [y|m]; cbn; auto|].
    unfold pd_lifts in Hx. destruct (pd_expr env x) as [b x']. specialize (IH Ht b).
    destruct (pd_accs env b tl) as [b' tl']. constructor; assumption.
  - specialize (IH H res). destruct (pd_accs env res tl) as [b' tl']. constructor; [reflexivity|assumption].
Qed.

Lemma pd_logargs_lift es : Forall pd_lifts (la_exprs es) -> forall res, Forall2 (la_rel R) es (snd (pd_logargs env res es)).
Proof.
  induction es as [|[|x] tl IH]; intros H res; cbn [pd_logargs]; [constructor| |].
  - specialize (IH H res). destruct (pd_logargs env res tl) as [b' tl']. constructor; [exact I|assumption].
  - cbn [la_exprs flat_map app] in H. apply Forall_cons_iff in H as [Hx Ht].
    destruct res; [apply forall2_refl; intros [|y]; cbn; auto|].
    unfold pd_lifts in Hx. destruct (pd_expr env x) as [b x']. specialize (IH Ht b).
    destruct (pd_logargs env b tl) as [b' tl']. constructor; assumption.
Qed.
End DegreeLists.

Section ValueLoop.
Variables (J : Prop) (p : Z) (I : list stmt -> venv -> Prop).
Hypothesis Hstep : forall A s B env, I (A ++ s :: B) env ->
  wp J (pv_stmt p env s) (fun r => I (A ++ snd (fst r) :: B) (snd r)).

(* a block body: prefix A already visited, suffix C untouched *)
Lemma pv_stmts_wp : forall ss A C env res, I (A ++ ss ++ C) env ->
  wp J (pv_stmts p env res ss) (fun r => I (A ++ snd (fst r) ++ C) (snd r)).
Proof.
  induction ss as [|s tl IH]; intros A C env res Hi; cbn [pv_stmts]; [exact Hi|].
  destruct res; [exact Hi|].
  apply wp_bind. eapply wp_mono; [|apply (Hstep A s (tl ++ C)); exact Hi]. intros [[b s'] env1] H1. cbn [fst snd] in H1.
  apply wp_bind. rewrite <- app_mid in H1. eapply wp_mono; [|apply (IH _ C _ b H1)].
  intros [[b' tl'] env2] H2. cbn [fst snd] in *. rewrite app_mid in H2. exact H2.
Qed.

Lemma pv_blocks_wp : forall bs2 bs1 env res, I (all_stmts (bs1 ++ bs2)) env ->
  wp J (pv_blocks p env res bs2) (fun r => I (all_stmts (bs1 ++ snd (fst r))) (snd r)).
Proof.
  induction bs2 as [|blk tl IH]; intros bs1 env res Hi; cbn [pv_blocks]; [exact Hi|].
  destruct res; [exact Hi|].
  rewrite all_stmts_app, all_stmts_cons in Hi.
  apply wp_bind. eapply wp_mono; [|apply (pv_stmts_wp _ _ _ _ false Hi)]. intros [[r1 ss'] env1] H1. cbn [fst snd] in H1.
  rewrite <- (all_stmts_mid bs1 blk), <- app_mid in H1.
  apply wp_bind. eapply wp_mono; [|apply (IH _ _ r1 H1)].
  intros [[r2 tl'] env2] H2. cbn [fst snd] in *. rewrite app_mid in H2. exact H2.
Qed.

Lemma values_passes_wp : forall k env bs, I (all_stmts bs) env ->
  wp J (values_passes k p env bs) (fun r => I (all_stmts (fst r)) (snd r)).
Proof.
  induction k as [|k IH]; intros env bs Hi; cbn [values_passes]; [exact Hi|].
  apply wp_bind. eapply wp_mono; [|apply (pv_blocks_wp bs [] env false Hi)].
  intros [[rerun bs1] env1] H1. cbn [fst snd app] in H1. destruct rerun; [apply IH; exact H1|exact H1].
Qed.
End ValueLoop.
