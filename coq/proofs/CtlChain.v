(* C07: the control-dependence fact along the whole chain  lifting -> SSA conversion ->
   propagation.  The graph the analysis annotates has, block by block, the predecessor and
   successor lists of the skeleton graph Model.Lift.lift builds from the body:
     - lifting:      Proofs.LiftFullIr.lifted_dom (the graph of try_lift_impl, erased onto
                     Model.Ir, has the lists of the lifted skeleton);
     - SSA:          Proofs.SsaConstruction.into_ssa_is_erasure (the output is the input
                     with versions added and phis prepended: SsaErase.erase_eqb compares the
                     predecessor and successor lists block by block);
     - propagation:  Proofs.PropagateShape (set_stmts only).
   Hence (Proofs.CtlBridge) on that graph every block whose decision can change the edge
   along which a join is entered, and that ends with a condition, is named by the table
   walk Spec.DegSem.decides. *)
From Coq Require Import ZArith NArith List Bool.
Require Import Model.Base Model.Ir Model.Propagate Model.DegGraph Model.DegJustify Model.SsaErase Model.SsaPre Model.Ssa.
Require Model.Lift Model.LiftFull Model.Dom Spec.CtlSpec Spec.DegSem.
Require Proofs.MirrorsDom Proofs.LiftFullIr Proofs.SsaEraseProofs Proofs.SsaConstruction Proofs.PropagateShape Proofs.CtlBridge.
Import ListNotations.

Lemma blocks_sim_dom_graph xs : forall ys, blocks_sim xs ys = true ->
  map (fun b => Dom.Node (map N.to_nat (b_preds b)) (map N.to_nat (b_succs b))) ys =
  map (fun b => Dom.Node (map N.to_nat (b_preds b)) (map N.to_nat (b_succs b))) xs.
Proof.
  induction xs as [|x tx IH]; intros [|y ty]; cbn [blocks_sim]; try discriminate; [reflexivity|].
  intros H. apply andb_true_iff in H as [H1 H2]. cbn [map]. rewrite (IH ty H2). f_equal.
  unfold block_sim in H1. apply andb_true_iff in H1 as [H1 _]. apply andb_true_iff in H1 as [Hp Hs].
  rewrite (SsaEraseProofs.ns_eqb_eq _ _ Hp), (SsaEraseProofs.ns_eqb_eq _ _ Hs). reflexivity.
Qed.

Lemma erase_keeps_dom_graph pre c : erase_eqb pre c = true -> dom_graph_of c = dom_graph_of pre.
Proof. unfold erase_eqb, dom_graph_of. apply blocks_sim_dom_graph. Qed.

Theorem chain_keeps_skeleton_edges key kind params pfile ploc body r frontier children c1 kv kd q idom c2 :
  LiftFull.try_lift_impl kind params pfile ploc body = Ok r ->
  phi_free (LiftFull.erase_cfg (LiftFull.l_cfg r)) = true -> decls_ok (LiftFull.erase_cfg (LiftFull.l_cfg r)) = true ->
  into_ssa frontier children (LiftFull.erase_cfg (LiftFull.l_cfg r)) = SOk c1 ->
  propagate kv kd q idom c1 = Ok c2 ->
  let g := map (LiftFull.skel_block key) (LiftFull.xc_blocks (LiftFull.l_cfg r)) in
  Lift.lift (LiftFull.skel key body) = Ok g /\ dom_graph_of c2 = MirrorsDom.to_dom g.
Proof.
  intros Hl Hpf Hd Hssa Hprop g.
  destruct (LiftFullIr.lifted_dom key kind params pfile ploc body r Hl) as (Hlift & Hdom & _).
  split; [exact Hlift|].
  rewrite (PropagateShape.propagate_keeps_dom_graph kv kd q idom c1 c2 Hprop).
  rewrite (erase_keeps_dom_graph _ c1 (SsaConstruction.into_ssa_is_erasure frontier children _ c1 Hpf Hd Hssa)).
  exact Hdom.
Qed.

Theorem chain_split_decides key kind params pfile ploc body r frontier children c1 kv kd q idom c2 :
  LiftFull.try_lift_impl kind params pfile ploc body = Ok r ->
  phi_free (LiftFull.erase_cfg (LiftFull.l_cfg r)) = true -> decls_ok (LiftFull.erase_cfg (LiftFull.l_cfg r)) = true ->
  into_ssa frontier children (LiftFull.erase_cfg (LiftFull.l_cfg r)) = SOk c1 ->
  propagate kv kd q idom c1 = Ok c2 ->
  graph_consistent c2 = true -> idom_is_dominator_table c2 idom = true -> idom_shape c2 idom = true ->
  let g := map (LiftFull.skel_block key) (LiftFull.xc_blocks (LiftFull.l_cfg r)) in
  forall j bj b bb m cond t f,
  nth_error (c_blocks c2) j = Some bj -> nth_error (c_blocks c2) b = Some bb ->
  CtlSpec.can_split g b j -> CtlSpec.is_join g j ->
  last (b_stmts bb) (SLog m []) = SIf m cond t f ->
  DegSem.decides c2 idom bj cond.
Proof.
  intros Hl Hpf Hd Hssa Hprop Hgc Htab Hshape g.
  destruct (chain_keeps_skeleton_edges key kind params pfile ploc body r frontier children c1 kv kd q idom c2
              Hl Hpf Hd Hssa Hprop) as [Hlift Hsame].
  exact (CtlBridge.lifted_split_decides c2 idom g Hsame Hgc Htab Hshape (LiftFull.skel key body) Hlift).
Qed.
