(* C20 "the tool still completes normally": the mirror of value and degree
   propagation returns Ok at every budget - it reaches neither a panic site
   (the assert_eq! of ValueEnvironment::add_variable, the arithmetic of
   circom_algebra) nor the end of the field functions' fuel - on every graph that
   carries no claims yet (what lifting and SSA conversion hand over) and in which
   a variable with a local defining assignment has no other assignment.
   The justification invariant of Proofs.CutInvariant travels through the passes (it
   makes a repeated add_variable see the value it stored), together with canonicity of
   every field element in the environment: a justified claim over a canonical
   environment is canonical, which is what the theorems of C16 about the field
   functions ask of their operands. *)
From Coq Require Import ZArith List Bool Znumtheory Lia.
Require Import Model.Base Model.Field Model.Ir Model.Propagate Model.Justify Model.Clean.
Require Import Spec.FieldSpec Spec.ValueSem Proofs.FieldProofs Proofs.IrInd Proofs.IrFacts Proofs.ValueProofs.
Require Import Proofs.PropagateVisit Proofs.CutInvariant Proofs.CutProofs.
Import ListNotations.
Local Open Scope Z_scope.

Section Total.
Variable p : Z.
Hypothesis Hprime : prime p.
Hypothesis Hp : 2 < p.
Hypothesis Hlog : Z.log2 p < 2 ^ 64.

Definition cv (o : option vred) : Prop := forall z, o = Some (VField z) -> 0 <= z < p.
Definition cval (k : know) : Prop := cv (kval k).
Definition cenv (env : venv) : Prop := forall v, cv (venv_get env v).

Lemma cv_none : cv None. Proof. intros z H. discriminate. Qed.
Lemma cv_bool b : cv (Some (VBool b)). Proof. intros z H. discriminate. Qed.
Lemma cv_field z : 0 <= z < p -> cv (Some (VField z)). Proof. intros H z' [= <-]. exact H. Qed.

Lemma cval_set k v : cv (Some v) -> cval (fst (set_val k v)).
Proof. intros H. unfold set_val, cval. cbn [fst kval]. exact H. Qed.

Lemma cenv_add env v x : cenv env -> cv (Some x) -> cenv ((v, x) :: env).
Proof. intros He Hx w. cbn [venv_get]. destruct (vname_eqb v w); [exact Hx|apply He]. Qed.

Lemma wrap_c op v : 0 <= v < p -> cv (Some (wrap op p v)).
Proof. intros H. unfold wrap. destruct (is_cmp op); [apply cv_bool|apply cv_field; exact H]. Qed.

Lemma infix_values_total op a b : cv a -> cv b -> exists o, infix_values op a b p = Ok o /\ cv o.
Proof.
  intros Ha Hb. destruct a as [[x|x]|], b as [[y|y]|];
    try (exists None; split; [destruct op; reflexivity|apply cv_none]).
  - destruct op; cbn [infix_values]; eexists; (split; [reflexivity|]); try apply cv_none; apply cv_bool.
  - specialize (Ha x eq_refl). specialize (Hb y eq_refl).
    destruct (match op with IOr | IAnd => true | _ => false end) eqn:Hbool.
    { exists None. split; [destruct op; try discriminate; reflexivity|apply cv_none]. }
    assert (H1 : op <> IOr) by (intros ->; discriminate).
    assert (H2 : op <> IAnd) by (intros ->; discriminate).
    rewrite infix_values_field by assumption.
    destruct (field_never_panics (DispatchSpec.doc_infix op) x y p Hprime Hp Hlog Ha Hb) as [[c Hc]|[He _]].
    + rewrite Hc. eexists. split; [reflexivity|]. apply wrap_c.
      exact (field_canonical _ _ _ _ _ Hprime Hp Hlog Ha Hb Hc).
    + rewrite He. exists None. split; [reflexivity|apply cv_none].
Qed.

Lemma prefix_values_c op a : cv a -> cv (prefix_values op a p).
Proof.
  intros Ha. destruct a as [[x|x]|]; cbn [prefix_values]; try apply cv_none.
  - destruct op; try apply cv_none. apply cv_bool.
  - specialize (Ha x eq_refl). assert (H0 : 0 <= 0 < p) by lia. destruct op; try apply cv_none; apply cv_field.
    + exact (field_canonical ONeg x 0 p _ Hprime Hp Hlog Ha H0 eq_refl).
    + exact (field_canonical OCompl x 0 p _ Hprime Hp Hlog Ha H0 eq_refl).
Qed.

Lemma switch_value_c c t f : cv t -> cv f -> cv (switch_value c t f).
Proof.
  intros Ht Hf. unfold switch_value. destruct c as [[[|]|z]|]; try apply cv_none.
  - destruct t; [exact Ht|apply cv_none].
  - destruct f; [exact Hf|apply cv_none].
  - destruct (negb (z =? 0)); [destruct t; [exact Ht|apply cv_none]|destruct f; [exact Hf|apply cv_none]].
Qed.

Lemma claim_cv k o : claim_is k o -> cv o -> cv (kval k).
Proof. unfold claim_is. destruct (kval k); [intros -> H; exact H|intros _ _; apply cv_none]. Qed.

Lemma ejust_cv env e : cenv env -> ejust p env e -> cv (expr_val e).
Proof.
  intros He.
  induction e as [z k|v k|op l r k IHl IHr|op e k IHe|c t f k IHc IHt IHf|n args k IHargs|vs k IHvs
                  |v acc k IHacc|v acc rhe k IHacc IHrhe|args k] using expr_ind';
    intros Hj; apply ejust_inv in Hj; unfold expr_val; cbn [expr_know].
  - destruct Hj as [Hz Hk]. apply (claim_cv _ _ Hk). apply cv_field. apply Z.rem_bound_pos; lia.
  - apply (claim_cv _ _ Hj). apply He.
  - destruct Hj as (Hl & Hr & Hk). apply infix_claim in Hk. apply (claim_cv _ _ Hk). unfold infix_val.
    destruct (infix_values_total op _ _ (IHl Hl) (IHr Hr)) as (o & -> & Ho). exact Ho.
  - destruct Hj as [Hx Hk]. apply (claim_cv _ _ Hk). apply prefix_values_c. exact (IHe Hx).
  - destruct Hj as (Hc & Ht & Hf & Hk). apply (claim_cv _ _ Hk). apply switch_value_c; auto.
  - rewrite (proj2 Hj). apply cv_none.
  - rewrite (proj2 Hj). apply cv_none.
  - rewrite (proj2 Hj). apply cv_none.
  - rewrite (proj2 (proj2 Hj)). apply cv_none.
  - destruct (kval k) as [c|]; [|apply cv_none]. destruct (Hj c eq_refl) as [Hne Hall].
    destruct args as [|a tl]; [congruence|]. rewrite <- (Hall a (or_introl eq_refl)). apply He.
Qed.

Lemma pv_expr_runs env e : cenv env -> ejust p env e -> pv_lifts False p env (keeps p env) e.
Proof.
  intros He. apply pv_expr_good. intros op l r Hl Hr.
  destruct (infix_values_total op _ _ (ejust_cv _ _ He Hl) (ejust_cv _ _ He Hr)) as (o & -> & _). exact I.
Qed.

Lemma all_run env es : cenv env -> Forall (ejust p env) es -> Forall (pv_lifts False p env (keeps p env)) es.
Proof. intros He. apply Forall_impl. intros e. exact (pv_expr_runs env e He). Qed.

Lemma ljust_exprs env args : Forall (ljust p env) args -> Forall (ejust p env) (la_exprs args).
Proof.
  induction 1 as [|[|x] tl Hx _ IH]; cbn [la_exprs flat_map app]; [constructor|exact IH|constructor; assumption].
Qed.

(* one statement, in the context of the whole list: a repeated add_variable finds
   the value it stored (the claim of the unique defining assignment is stable) *)
Lemma pv_stmt_tot A s B env :
  Inv p (A ++ s :: B) env -> cenv env -> wp False (pv_stmt p env s) (fun r => cenv (snd r)).
Proof.
  intros [Hj Hb] He. pose proof (Forall_elt _ _ _ Hj) as Hjs.
  destruct s as [m names t dims|m c t f|m e|m v op rhe sval stype|m l r|m args|m e]; cbn [pv_stmt sjust] in *.
  - apply wp_bind. eapply wp_mono; [|exact (pv_exprs_lift _ _ _ _ (keeps_refl p env) dims (all_run env _ He Hjs) false)].
    intros [b d] _. exact He.
  - apply wp_bind. eapply wp_mono; [|exact (pv_expr_runs env c He Hjs)]. intros [b c'] _. exact He.
  - apply wp_bind. eapply wp_mono; [|exact (pv_expr_runs env e He Hjs)]. intros [b e'] _. exact He.
  - destruct Hjs as [Hjr _]. apply wp_bind. eapply wp_mono; [|exact (pv_expr_runs env rhe He Hjr)]. intros [b rhe'] Hk.
    destruct (Hk Hjr) as (Hjr' & Hst & _). cbn [snd] in Hjr', Hst.
    destruct (is_update rhe'); [exact He|].
    destruct (expr_val rhe') as [x|] eqn:Ex; [|exact He].
    assert (Hadd : wp False (if stype_is_local stype then venv_add env v x else Ok env) cenv).
    { destruct (stype_is_local stype); [|exact He].
      unfold venv_add. destruct (venv_get env v) as [y|] eqn:Ey.
      - (* the stored value is the claim of this very statement, which is stable *)
        destruct (proj1 (all_defs_claim_iff _ _ _) (Hb v y Ey)) as [Hall _].
        destruct (Hall _ (in_elt _ _ _) eq_refl) as (_ & _ & Hcl). specialize (Hst y Hcl).
        rewrite Ex in Hst. injection Hst as ->. rewrite (proj2 (vred_eqb_eq y y) eq_refl). exact He.
      - apply cenv_add; [exact He|]. rewrite <- Ex. exact (ejust_cv _ _ He Hjr'). }
    apply wp_bind. eapply wp_mono; [|exact Hadd]. intros env' He'. destruct b; exact He'.
  - destruct Hjs as [Hl Hr]. apply wp_bind. eapply wp_mono; [|exact (pv_expr_runs env l He Hl)]. intros [[|] l'] _; [exact He|].
    apply wp_bind. eapply wp_mono; [|exact (pv_expr_runs env r He Hr)]. intros [b r'] _. exact He.
  - apply wp_bind.
    eapply wp_mono; [|exact (pv_logargs_lift _ _ _ _ (keeps_refl p env) args (all_run env _ He (ljust_exprs _ _ Hjs)) false)].
    intros [b a] _. exact He.
  - apply wp_bind. eapply wp_mono; [|exact (pv_expr_runs env e He Hjs)]. intros [b e'] _. exact He.
Qed.

Definition TInv (ss : list stmt) (env : venv) : Prop := uniq (map sigq ss) /\ Inv p ss env /\ cenv env.

Lemma TInv_step A s B env :
  TInv (A ++ s :: B) env -> wp False (pv_stmt p env s) (fun r => TInv (A ++ snd (fst r) :: B) (snd r)).
Proof.
  intros (Hu & Hi & He). pose proof (pv_stmt_tot A s B env Hi He) as Hs.
  destruct (pv_stmt p env s) as [[[b s'] env1]| | |] eqn:E; try contradiction.
  destruct (step_inv p A s B env b s' env1 Hu Hi E) as (Hi1 & Hm & _). split; [|split; assumption].
  cbn [fst snd]. rewrite Hm. exact Hu.
Qed.

(* C20: at every budget of value passes and degree passes the mirror completes normally *)
Theorem propagate_completes kv kd idom c :
  clean_cfg c = true -> ldefs_unique (all_stmts (c_blocks c)) = true ->
  exists c', propagate kv kd p idom c = Ok c'.
Proof.
  intros Hclean Hu. unfold propagate.
  assert (Hi : TInv (all_stmts (c_blocks c)) []).
  { split; [exact (ldefs_unique_uniq _ Hu)|]. split; [exact (clean_Inv p _ Hclean)|]. intros v. apply cv_none. }
  destruct (wp_total _ _ (values_passes_wp False p TInv TInv_step kv [] (c_blocks c) Hi)) as ([bs1 env1] & -> & _).
  cbn [bind].
  destruct (degrees_passes kd idom (denv_init (c_kind c) (c_params c)) bs1) as [bs2 env2]. eexists. reflexivity.
Qed.
End Total.
