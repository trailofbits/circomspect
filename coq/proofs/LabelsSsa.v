(* C04: meta provenance through the SSA construction (mirror Model.Ssa, the
   construction checked against the real `into_ssa` by property C14's engine).

   The IR mirror Model.Ir keeps the meta of every STATEMENT (expressions carry
   only their knowledge slot; in the Rust code `visit_expression` of ssa_impl.rs
   never writes an expression's meta either, but that is not expressible here).
   What is proved, for every graph, every frontier / children table and every
   outcome of the fuelled loops:

     block i of the SSA form = some number of inserted phi statements, each with
     `Meta::default()` (location 0..0, NO file id) and kind "substitution",
     followed by statements with exactly the metas and kinds of block i of the
     input, in the same order.

   So SSA renames variables and inserts phis, but never moves, invents or
   re-targets a location: every statement meta of the output is a statement
   meta of the input (same block, same position among the non-inserted
   statements, same statement kind) or the file-less default meta, for which
   no label is ever produced (Proofs.LabelsProofs.phi_statement_gets_no_label). *)
From Coq Require Import ZArith NArith List Bool Lia Arith.
Require Import Model.Base Model.Ir Model.SsaCheck Model.Ssa Model.Labels.
Require Import Spec.MetaSpec Proofs.SsaNoPanic Proofs.SsaSteps Proofs.LabelsProofs.
Import ListNotations.

Lemma phi_stmt_tag v : tag (phi_stmt_for v) = phi_tag.
Proof. reflexivity. Qed.

Lemma tag_frame s : tag s = tag (frame s).
Proof. destruct s; reflexivity. Qed.

(* block b' is block b with k inserted phis in front *)
Theorem ssa_blocks_from_input : forall frontier children c c',
  into_ssa frontier children c = SOk c' ->
  Forall2 (fun b b' => exists k,
             map tag (b_stmts b') = repeat (default_meta, KSubst) k ++ map tag (b_stmts b))
          (c_blocks c) (c_blocks c').
Proof. exact (into_ssa_tagged tag phi_tag tag_frame phi_stmt_tag). Qed.

Lemma from_blocks_metas : forall bs bs', Forall2 (tagged_from tag phi_tag) bs bs' ->
  forall m, In m (flat_map (fun b => map stmt_meta (b_stmts b)) bs') ->
            In m (flat_map (fun b => map stmt_meta (b_stmts b)) bs) \/ m = default_meta.
Proof.
  intros bs bs' H. induction H as [|b b' tl tl' Hb _ IH]; intros m Hm; simpl in *.
  - contradiction.
  - apply in_app_or in Hm. destruct Hm as [Hm|Hm].
    + destruct Hb as [k Hk]. apply in_map_iff in Hm. destruct Hm as (s' & <- & Hs').
      assert (Ht : In (tag s') (map tag (b_stmts b'))) by (apply in_map; exact Hs').
      rewrite Hk in Ht. apply in_app_or in Ht. destruct Ht as [Ht|Ht].
      * apply repeat_spec in Ht. right. unfold tag, phi_tag in Ht. congruence.
      * left. apply in_or_app. left. apply in_map_iff in Ht. destruct Ht as (s & Hts & Hs).
        apply in_map_iff. exists s. split; [|exact Hs]. unfold tag in Hts. congruence.
    + destruct (IH m Hm) as [Hl|Hr]; [left; apply in_or_app; right; exact Hl|right; exact Hr].
Qed.

(* every statement meta of the SSA form is a statement meta of the input graph
   or `Meta::default()` *)
Theorem ssa_metas_from_input : forall frontier children c c',
  into_ssa frontier children c = SOk c' ->
  forall m, In m (cfg_stmt_metas c') -> In m (cfg_stmt_metas c) \/ m = default_meta.
Proof.
  intros frontier children c c' H. apply from_blocks_metas.
  exact (ssa_blocks_from_input frontier children c c' H).
Qed.

(* ... and conversely no statement of the input loses its location *)
Theorem ssa_keeps_input_metas : forall frontier children c c',
  into_ssa frontier children c = SOk c' ->
  forall m, In m (cfg_stmt_metas c) -> In m (cfg_stmt_metas c').
Proof.
  intros frontier children c c' H.
  pose proof (ssa_blocks_from_input frontier children c c' H) as F. unfold cfg_stmt_metas.
  induction F as [|b b' tl tl' Hb _ IH]; intros m Hm; simpl in *; [contradiction|].
  apply in_app_or in Hm. apply in_or_app. destruct Hm as [Hm|Hm]; [left|right; apply IH; exact Hm].
  destruct Hb as [k Hk]. apply in_map_iff in Hm. destruct Hm as (s & <- & Hs).
  assert (Ht : In (tag s) (map tag (b_stmts b'))).
  { rewrite Hk. apply in_or_app. right. apply in_map. exact Hs. }
  apply in_map_iff in Ht. destruct Ht as (s' & Hts & Hs'). apply in_map_iff. exists s'.
  split; [unfold tag in Hts; congruence|exact Hs'].
Qed.

(* Label well-formedness for the constructors applied to statement nodes of the
   SSA form: the provenance hypothesis is asked of the graph BEFORE SSA (the
   output of lifting) only. *)
Theorem labels_wellformed_through_ssa :
  forall (P : N -> N -> Prop) (parsed : list meta) frontier children c c' ctor ls l,
    (forall m, In m parsed -> P (m_start m) (m_end m)) ->
    (forall m, In m (cfg_stmt_metas c) -> In m parsed \/ (m_start m = 0%N /\ m_end m = 0%N)) ->
    into_ssa frontier children c = SOk c' ->
    P 0%N 0%N ->
    (forall m, In m (nodes_of ctor) -> In m (cfg_stmt_metas c')) ->
    (forall r, In r (parser_ranges_of ctor) -> P (fst r) (snd r)) ->
    labels_of (sources_of ctor) = Ok ls -> In l ls -> P (l_start l) (l_end l).
Proof.
  intros P parsed frontier children c c' ctor ls l Hp Hlift Hssa H0 Hn Hr.
  apply (labels_wellformed_end_to_end P parsed (cfg_stmt_metas c') ctor ls l); try assumption.
  intros m Hm. destruct (ssa_metas_from_input frontier children c c' Hssa m Hm) as [Hin| ->].
  - apply Hlift. exact Hin.
  - right. split; reflexivity.
Qed.
