(* The macro steps of visit_statement: each is total on a graph that satisfies
   the invariant of Proofs.LiftInv, preserves it, and only grows the graph. *)
From stdpp Require Import list sets.
Require Import Model.Lift Spec.CfgSpec Proofs.LiftBasics Proofs.LiftInv.
Import Base(outcome, Ok, Err, Panic, OutOfFuel, bind).

(* X: the items added, in block order; blocks below the last one of g are not touched *)
Record grow (g : graph) (X : list (key * nat)) (g' : graph) : Prop := {
  grow_len : length g <= length g';
  grow_items : graph_items g' = graph_items g ++ X;
  grow_ext : gext g g';
  grow_frame : forall i, i < length g - 1 -> g' !! i = g !! i;
}.

Lemma grow_refl g : grow g [] g.
Proof. split; [done|by rewrite app_nil_r|apply gext_refl|done]. Qed.

Lemma grow_trans g0 g1 g2 X Y : grow g0 X g1 -> grow g1 Y g2 -> grow g0 (X ++ Y) g2.
Proof.
  intros [A1 A2 A3 A4] [B1 B2 B3 B4]. split.
  - lia.
  - by rewrite B2, A2, app_assoc.
  - by eapply gext_trans.
  - intros i Hi. rewrite B4 by lia. by apply A4.
Qed.

Definition pedge (g : graph) (i j : nat) : Prop := exists b, g !! j = Some b /\ i ∈ b_preds b.

Lemma wf_mirror g P : wf g P -> forall i j, edge g i j <-> pedge g i j.
Proof.
  intros Hwf i j. split; intros (b & Hb & Hin); [by eapply (wf_m1 _ _ Hwf)|by eapply (wf_m2 _ _ Hwf)].
Qed.

Lemma wf_add_edges g g' P P' (A : nat -> nat -> Prop) :
  wf g P ->
  (forall i j, edge g' i j <-> edge g i j \/ A i j) ->
  (forall i j, pedge g' i j <-> pedge g i j \/ A i j) ->
  (forall i b, g' !! i = Some b -> blk_ok (length g') P' i b) ->
  (forall i, P' i -> i < length g') ->
  wf g' P'.
Proof.
  intros Hwf He Hp Hb HP.
  assert (Hm : forall i j, edge g' i j <-> pedge g' i j).
  { intros i j. by rewrite He, Hp, (wf_mirror _ _ Hwf). }
  split; [done| | |done].
  - intros i j bi Hi Hj. apply Hm. by exists bi.
  - intros i j bj Hj Hi. apply Hm. by exists bj.
Qed.

Lemma alter_edges g l f :
  (forall b, b_succs (f b) = b_succs b /\ b_preds (f b) = b_preds b) ->
  (forall i j, edge (alter f l g) i j <-> edge g i j) /\
  (forall i j, pedge (alter f l g) i j <-> pedge g i j).
Proof.
  intros Hf. split; intros i j; unfold edge, pedge; rewrite lookup_alter_case; (case_decide; [|done]).
  - destruct (g !! i) as [b|]; [|done]. destruct (Hf b) as [Hs _].
    split; intros (b' & [= <-] & Hj); eexists; (split; [done|]); congruence.
  - destruct (g !! j) as [b|]; [|done]. destruct (Hf b) as [_ Hp].
    split; intros (b' & [= <-] & Hj); eexists; (split; [done|]); congruence.
Qed.

Lemma plain_no_branch n P i b k c t f :
  blk_ok n P i b -> ends_plain b -> b_items b !! k <> Some (IBranch c t f).
Proof.
  intros Hok Hpl Hk. pose proof (ok_branch_last _ _ _ _ Hok _ _ _ _ Hk) as Hlen.
  apply (Hpl c t f). rewrite last_lookup'. rewrite <- Hlen. simpl. by rewrite Nat.sub_0_r.
Qed.

Lemma graph_items_snoc g b : graph_items (g ++ [b]) = graph_items g ++ bitems b.
Proof. rewrite graph_items_app. f_equal. rewrite graph_items_eq. simpl. by rewrite app_nil_r. Qed.

Lemma graph_last_split (g : graph) : g <> [] ->
  exists g0 b, g = g0 ++ [b] /\ length g0 = length g - 1 /\ g !! (length g - 1) = Some b.
Proof.
  intros Hne. destruct (list_snoc_cases g) as [->|(g0 & b & ->)]; [done|].
  exists g0, b. rewrite app_length. simpl. split; [done|]. split; [lia|].
  rewrite lookup_app_r by lia. replace (length g0 + 1 - 1 - length g0) with 0 by lia. done.
Qed.

Lemma pre_open g d P0 : pre g d P0 ->
  exists bl, g !! (length g - 1) = Some bl /\ ends_plain bl /\ b_depth bl = d /\ b_succs bl = [].
Proof.
  intros [Hwf _ (bl & Hbl & Hpl & Hd)]. exists bl. do 3 (split; [done|]).
  eapply pending_plain_succs; [by apply (wf_blk _ _ Hwf)|by right|done].
Qed.

Lemma grow_push g it bl :
  g !! (length g - 1) = Some bl -> b_succs bl = [] ->
  grow g [(item_key it, b_depth bl)] (alter (push_item it) (length g - 1) g).
Proof.
  intros Hbl Hs. split.
  - by rewrite alter_length.
  - destruct (graph_last_split g) as (g0 & b & Hg & Hl0 & Hb); [by intros ->|].
    rewrite Hbl in Hb. injection Hb as <-.
    rewrite Hg at 2 3. rewrite <- Hl0, <- (Nat.add_0_r (length g0)), alter_app_r. simpl.
    rewrite !graph_items_snoc, <- app_assoc. f_equal. unfold bitems. simpl. by rewrite map_app.
  - intros i b Hb. rewrite lookup_alter_case. case_decide as E.
    + subst i. rewrite Hb. eexists. split; [done|]. apply bext_push. congruence.
    + exists b. split; [done|apply bext_refl].
  - intros i Hi. apply list_lookup_alter_ne. lia.
Qed.

Lemma step_leaf g d P0 id :
  pre g d P0 ->
  pre (alter (push_item (ILeaf id)) (length g - 1) g) d P0 /\
  grow g [(KLeaf id, d)] (alter (push_item (ILeaf id)) (length g - 1) g).
Proof.
  intros Hpre. destruct (pre_open _ _ _ Hpre) as (bl & Hbl & Hpl & Hd & Hsl).
  split; [|rewrite <- Hd; by apply (grow_push g (ILeaf id))].
  destruct Hpre as [Hwf HP0 _]. set (l := length g - 1) in *.
  destruct (alter_edges g l (push_item (ILeaf id))) as [He Hp]; [done|].
  split; rewrite ?alter_length; fold l; [|done|].
  - apply (wf_add_edges g _ _ _ (fun _ _ => False) Hwf); rewrite ?alter_length.
    + intros i j. rewrite He. tauto.
    + intros i j. rewrite Hp. tauto.
    + intros i b'. rewrite lookup_alter_case. case_decide as E; [|by apply (wf_blk _ _ Hwf)].
      subst i. rewrite Hbl. intros [= <-].
      destruct (wf_blk _ _ Hwf _ _ Hbl) as [H1 H2 H3 H4 H5 H6 H7]. split; simpl; try done.
      * intros k c t f Hk. apply lookup_app_Some in Hk as [Hk|[_ Hk]].
        -- exfalso. eapply (plain_no_branch _ _ _ bl); [|done|done]. by split.
        -- destruct (k - length (b_items bl)) as [|[|]]; simpl in Hk; discriminate.
      * unfold shape. simpl. rewrite last_snoc. left. split; [by right|done].
    + by apply (wf_P _ _ Hwf).
  - exists (push_item (ILeaf id) bl). rewrite list_lookup_alter, Hbl. split; [done|].
    split; [|done]. intros c t f. simpl. by rewrite last_snoc.
Qed.

(* what a loop over a set of blocks does to the edges: i -> t is added for i in ps *)
Lemma alters_edges fb g t ps g' :
  alters fb g t ps g' -> t < length g -> (forall i, i ∈ ps -> i < length g /\ i <> t) ->
  (forall b y, y ∈ b_succs (fb b) <-> y ∈ b_succs b \/ y = t) -> (forall b, b_preds (fb b) = b_preds b) ->
  (forall i j, edge g' i j <-> edge g i j \/ (i ∈ ps /\ j = t)) /\
  (forall i j, pedge g' i j <-> pedge g i j \/ (i ∈ ps /\ j = t)).
Proof.
  intros [Hlen Hlk] Ht Hps Hs Hp.
  assert (Hinv : forall i b', g' !! i = Some b' -> exists b, g !! i = Some b /\
            b' = (if decide (i = t) then add_preds ps b else if decide (i ∈ ps) then fb b else b)).
  { intros i b' Hb'. destruct (lookup_lt_is_Some_2 g i) as (b & Hb).
    - rewrite <- Hlen. by eapply lookup_lt_Some.
    - exists b. split; [done|]. rewrite (Hlk _ _ Hb) in Hb'. by injection Hb' as <-. }
  split; intros i j; split.
  - intros (b' & Hb' & Hj). destruct (Hinv _ _ Hb') as (b & Hb & ->).
    case_decide; [rewrite add_preds_eq in Hj|case_decide; [apply Hs in Hj as [Hj| ->]|]];
      [left|left|by right|left]; by exists b.
  - intros [(b & Hb & Hj)|[Hi ->]].
    + eexists. split; [by apply Hlk|].
      case_decide; [by rewrite add_preds_eq|case_decide; [apply Hs; by left|done]].
    + destruct (Hps _ Hi) as [Hlt Hne]. destruct (lookup_lt_is_Some_2 g i Hlt) as (b & Hb).
      eexists. split; [by apply Hlk|]. rewrite decide_False, decide_True by done. apply Hs. by right.
  - intros (b' & Hb' & Hi). destruct (Hinv _ _ Hb') as (b & Hb & ->).
    case_decide as E; [subst j; rewrite add_preds_eq in Hi; apply elem_of_iunion in Hi as [Hi|Hi]|];
      [left|by right|left]; exists b; split; [done..|]. case_decide; [by rewrite <- Hp|done].
  - intros [(b & Hb & Hi)|[Hi ->]].
    + eexists. split; [by apply Hlk|].
      case_decide; [rewrite add_preds_eq; apply elem_of_iunion; by left|case_decide; [by rewrite Hp|done]].
    + destruct (lookup_lt_is_Some_2 g t Ht) as (b & Hb). eexists. split; [by apply Hlk|].
      rewrite decide_True by done. rewrite add_preds_eq. apply elem_of_iunion. by right.
Qed.

Lemma alters_items fb g t ps g' :
  (forall b, bitems (fb b) = bitems b) -> alters fb g t ps g' -> graph_items g' = graph_items g.
Proof.
  intros Hfb [Hlen Hlk]. apply graph_items_same; [done|]. intros i b Hb. eexists. split; [by apply Hlk|].
  case_decide; [by rewrite add_preds_eq|by case_decide].
Qed.

(* complete_basic_block, seen from outside: g' is g with the blocks of ps closed
   towards a new, empty last block of depth d *)
Definition closes (g : graph) (ps : list nat) (d : nat) (g' : graph) : Prop :=
  alters (close (length g)) (g ++ [new_block (length g) d]) (length g) ps g'.

Lemma closes_length g ps d g' : closes g ps d g' -> length g' = S (length g).
Proof. intros [Hlen _]. rewrite Hlen, app_length. simpl. lia. Qed.

Lemma closes_lookup g ps d g' i b :
  closes g ps d g' -> g !! i = Some b ->
  g' !! i = Some (if decide (i ∈ ps) then close (length g) b else b).
Proof.
  intros [_ Hlk] Hb. apply lookup_lt_Some in Hb as Hi.
  rewrite (Hlk i b), decide_False; [done|lia|]. by apply lookup_app_l_Some.
Qed.

Lemma closes_new g ps d g' :
  closes g ps d g' -> g' !! length g = Some (add_preds ps (new_block (length g) d)).
Proof.
  intros [_ Hlk]. rewrite (Hlk _ (new_block (length g) d)), decide_True; [done..|].
  by apply list_lookup_middle.
Qed.

Lemma closes_gext g ps d g' : closes g ps d g' -> gext g g'.
Proof.
  intros Hc i b Hb. eexists. split; [by eapply closes_lookup|].
  case_decide; [apply bext_close|apply bext_refl].
Qed.

Lemma closes_frame g ps d g' i : closes g ps d g' -> i ∉ ps -> i < length g -> g' !! i = g !! i.
Proof.
  intros Hc Hi Hlt. destruct (lookup_lt_is_Some_2 g i Hlt) as (b & Hb).
  by rewrite Hb, (closes_lookup _ _ _ _ _ _ Hc Hb), decide_False.
Qed.

(* closing blocks that are not below the last block of g0 is growth from g0 on *)
Lemma closes_grow g0 X g ps d g' :
  closes g ps d g' -> grow g0 X g -> (forall i, i ∈ ps -> length g0 - 1 <= i) -> grow g0 X g'.
Proof.
  intros Hc [A1 A2 A3 A4] Hps. pose proof (closes_length _ _ _ _ Hc). split.
  - lia.
  - rewrite (alters_items _ _ _ _ _ (bitems_close _) Hc), graph_items_snoc. by rewrite app_nil_r.
  - eapply gext_trans; [done|by eapply closes_gext].
  - intros i Hi'. rewrite <- A4 by done. eapply closes_frame; [done| |lia].
    intros Hin. apply Hps in Hin. lia.
Qed.

Lemma succs_close j b y : y ∈ b_succs (close j b) <-> y ∈ b_succs b \/ y = j.
Proof. simpl. rewrite elem_of_ins. naive_solver. Qed.

Lemma closes_edges g ps d g' :
  closes g ps d g' -> (forall i, i ∈ ps -> i < length g) ->
  (forall i j, edge g' i j <-> edge g i j \/ (i ∈ ps /\ j = length g)) /\
  (forall i j, pedge g' i j <-> pedge g i j \/ (i ∈ ps /\ j = length g)).
Proof.
  intros Hc Hps. destruct (alters_edges _ _ _ _ _ Hc) as [He Hp]; [| |apply succs_close|done|].
  { rewrite app_length. simpl. lia. }
  { intros i Hi%Hps. rewrite app_length. simpl. lia. }
  (* the new block has no edges before the loop *)
  assert (H0 : forall k B, (g ++ [new_block (length g) d]) !! k = Some B ->
            g !! k = Some B \/ (b_succs B = [] /\ b_preds B = [])).
  { intros k B [?|[_ HB]]%lookup_app_Some; [by left|right].
    destruct (k - length g) as [|[|]]; [by injection HB as <-|done..]. }
  split; intros i j; [rewrite He|rewrite Hp]; apply or_iff_compat_r; split;
    try (intros (B & HB & Hin); exists B; split; [by apply lookup_app_l_Some|done]);
    intros (B & HB & Hin); (destruct (H0 _ _ HB) as [?|[Es Ep]]; [by exists B|]).
  - rewrite Es in Hin. by apply elem_of_nil in Hin.
  - rewrite Ep in Hin. by apply elem_of_nil in Hin.
Qed.

(* g1 is g, possibly with statements pushed into pending blocks; what has to be
   checked is that each block is in order once the blocks of ps are closed *)
Lemma pre_complete g g1 ps d (P0 P : nat -> Prop) :
  wf g P -> length g1 = length g ->
  (forall i j, edge g1 i j <-> edge g i j) -> (forall i j, pedge g1 i j <-> pedge g i j) ->
  ps <> [] -> ssorted ps -> (forall i, i ∈ ps -> i < length g) -> (forall i, P0 i -> i < length g) ->
  (forall i b1, g1 !! i = Some b1 ->
     blk_ok (S (length g)) (fun i => P0 i \/ i = length g) i
       (if decide (i ∈ ps) then close (length g) b1 else b1)) ->
  exists g', complete g1 ps d = Ok g' /\ pre g' d P0 /\ closes g1 ps d g'.
Proof.
  intros Hwf Hl1 He1 Hp1 Hne Hss Hps HP0 Hblk. rewrite <- Hl1 in Hps.
  destruct (complete_alters g1 ps d Hps (ssorted_NoDup _ Hss)) as (g' & Hc & Hcl).
  exists g'. split; [done|]. split; [|done].
  destruct (closes_edges _ _ _ _ Hcl Hps) as [He Hp].
  pose proof (closes_length _ _ _ _ Hcl) as Hlen'. pose proof (closes_new _ _ _ _ Hcl) as Hnew.
  pose proof (fun i b => closes_lookup _ _ _ _ i b Hcl) as Hlk.
  rewrite add_preds_eq in Hnew. simpl in Hnew. rewrite Hl1 in *.
  assert (Hpos : 0 < length g).
  { destruct ps as [|p r]; [done|]. specialize (Hps p (elem_of_list_here _ _)). lia. }
  split; rewrite Hlen'; simpl; rewrite Nat.sub_0_r.
  - apply (wf_add_edges g _ _ _ (fun i j => i ∈ ps /\ j = length g) Hwf); rewrite ?Hlen'.
    + intros i j. by rewrite He, He1.
    + intros i j. by rewrite Hp, Hp1.
    + intros i b' Hb'. destruct (g1 !! i) as [b1|] eqn:Hb1.
      * rewrite (Hlk _ _ Hb1) in Hb'. injection Hb' as <-. by apply Hblk.
      * apply lookup_ge_None in Hb1. apply lookup_lt_Some in Hb' as Hlt.
        assert (i = length g) as -> by lia. rewrite Hnew in Hb'. injection Hb' as <-.
        split; simpl; try done; [by apply ssorted_iunion|lia| |unfold shape; left; by split; [right|]].
        intros _. destruct ps as [|p r]; [done|]. exists p.
        split; [apply Hps|apply elem_of_iunion; right]; apply elem_of_list_here.
    + intros i [Hi| ->]; [apply HP0 in Hi|]; lia.
  - done.
  - eexists. split; [done|]. split; [|done]. intros c t f. done.
Qed.

Lemma step_complete g ps d P0 :
  wf g (fun i => P0 i \/ i ∈ ps) -> ps <> [] -> ssorted ps -> (forall i, i ∈ ps -> ~ P0 i) ->
  exists g', complete g ps d = Ok g' /\ pre g' d P0 /\ closes g ps d g'.
Proof.
  intros Hwf Hps Hss Hdisj.
  assert (Hlt : forall i, i ∈ ps -> i < length g) by (intros i Hi; apply (wf_P _ _ Hwf); by right).
  apply (pre_complete g g ps d P0 _ Hwf); try done.
  - intros i Hi. apply (wf_P _ _ Hwf). by left.
  - intros i b Hb. assert (Hok := wf_blk _ _ Hwf _ _ Hb).
    assert (i < length g) by (by eapply lookup_lt_Some). case_decide as E.
    + eapply blk_ok_close; [done|by right| |done|lia]. intros [?| ->]; [by eapply Hdisj|lia].
    + eapply blk_ok_ext; [|  |done]; [lia|]. split; intros [?|?]; auto; [done|lia].
Qed.

Lemma singleton_ext (P0 : nat -> Prop) l i : (P0 i \/ i = l) <-> (P0 i \/ i ∈ [l]).
Proof. by rewrite elem_of_list_singleton. Qed.

Lemma step_complete_last g d P0 :
  pre g d P0 ->
  exists g', complete g [length g - 1] d = Ok g' /\ pre g' d P0 /\ closes g [length g - 1] d g'.
Proof.
  intros [Hwf HP0 _]. apply step_complete.
  - eapply wf_ext; [|exact Hwf]. intros i. apply singleton_ext.
  - done.
  - apply ssorted_singleton.
  - intros i Hi HPi. apply elem_of_list_singleton in Hi as ->. apply HP0 in HPi. lia.
Qed.

Lemma close_branch_true j c b :
  close j (push_item (IBranch c j None) b) = add_succ j (push_item (IBranch c j None) b).
Proof.
  unfold close, patch_false. simpl. rewrite patch_last_snoc. simpl. by rewrite Nat.eqb_refl.
Qed.

Lemma step_branch g d d' P0 c :
  pre g d P0 ->
  exists g1 g2,
    upd_last (push_item (IBranch c (length g) None)) g = Ok g1 /\
    complete g1 [length g - 1] d' = Ok g2 /\ closes g1 [length g - 1] d' g2 /\
    pre g2 d' (fun i => P0 i \/ i = length g - 1) /\ length g2 = S (length g) /\
    grow g [(KCond c, d)] g2 /\
    (exists bo bl, g !! (length g - 1) = Some bo /\ g2 !! (length g - 1) = Some bl /\
       b_items bl = b_items bo ++ [IBranch c (length g) None] /\ b_succs bl = [length g]) /\
    (exists nb, g2 !! length g = Some nb /\ b_items nb = []).
Proof.
  intros Hpre. destruct (pre_open _ _ _ Hpre) as (bl & Hbl & Hpl & Hd & Hsl).
  pose proof (pre_length _ _ _ Hpre) as Hpos. destruct Hpre as [Hwf HP0 _].
  set (l := length g - 1) in *. set (br := IBranch c (length g) None).
  destruct (alter_edges g l (push_item br)) as [He Hp]; [done|].
  destruct (pre_complete g (alter (push_item br) l g) [l] d' (fun i => P0 i \/ i = l) _ Hwf)
    as (g2 & E2 & Hp2 & Hc2); try done.
  { apply alter_length. }
  { apply ssorted_singleton. }
  { intros i ->%elem_of_list_singleton. lia. }
  { intros i [Hi| ->]; [apply HP0 in Hi|]; lia. }
  { intros i b1. rewrite lookup_alter_case. case_decide as E.
    - subst i. rewrite Hbl. intros [= <-]. rewrite decide_True by apply elem_of_list_here.
      unfold br. rewrite close_branch_true.
      destruct (wf_blk _ _ Hwf _ _ Hbl) as [H1 H2 H3 H4 H5 H6 H7]. split; simpl; try done.
      + rewrite Hsl. apply ssorted_singleton.
      + intros k c0 t f Hk. rewrite app_length. simpl.
        apply lookup_app_Some in Hk as [Hk|[Hge Hk]].
        * exfalso. eapply (plain_no_branch _ _ _ bl); [|done|done]. by split.
        * destruct (k - length (b_items bl)) as [|[|]] eqn:E; simpl in Hk; try discriminate. lia.
      + unfold shape. simpl. rewrite last_snoc. split; [unfold l; lia|]. split; [lia|]. left.
        split; [left; by right|]. split; [done|]. intros y.
        rewrite Hsl. simpl. rewrite elem_of_list_singleton. unfold l. lia.
    - intros Hb. rewrite decide_False by (by rewrite elem_of_list_singleton).
      eapply blk_ok_ext; [| |by apply (wf_blk _ _ Hwf)]; [lia|].
      assert (i < length g) by (by eapply lookup_lt_Some). intuition lia. }
  pose proof (closes_length _ _ _ _ Hc2) as Hl2. pose proof (closes_new _ _ _ _ Hc2) as Hnb.
  rewrite alter_length in Hl2, Hnb. rewrite add_preds_eq in Hnb.
  exists (alter (push_item br) l g), g2. split; [by apply upd_last_ok|].
  do 4 (split; [done|]). split; [|split; [|by eexists]].
  - eapply closes_grow; [exact Hc2| |].
    + rewrite <- Hd. by apply (grow_push g br).
    + by intros i ->%elem_of_list_singleton.
  - exists bl. eexists. split; [done|]. split.
    + eapply closes_lookup; [done|]. by rewrite list_lookup_alter, Hbl.
    + rewrite decide_True by apply elem_of_list_here. rewrite alter_length. unfold br.
      rewrite close_branch_true. simpl. by rewrite Hsl.
Qed.

Definition backs (g : graph) (h : nat) (ps : list nat) (g' : graph) : Prop :=
  alters (add_succ h) g h ps g'.

Lemma backs_length g h ps g' : backs g h ps g' -> length g' = length g.
Proof. by intros [? _]. Qed.

Lemma backs_lookup g h ps g' i b :
  backs g h ps g' -> g !! i = Some b -> i ∈ ps -> i <> h -> g' !! i = Some (add_succ h b).
Proof. intros [_ Hlk] Hb Hi Hne. by rewrite (Hlk _ _ Hb), decide_False, decide_True. Qed.

Lemma backs_gext g h ps g' : backs g h ps g' -> gext g g'.
Proof.
  intros [_ Hlk] i b Hb. eexists. split; [by apply Hlk|].
  case_decide; [apply bext_add_preds|case_decide; [apply bext_add_succ|apply bext_refl]].
Qed.

Lemma backs_grow g0 X g h ps g' :
  backs g h ps g' -> grow g0 X g -> length g0 - 1 <= h -> (forall i, i ∈ ps -> h < i) -> grow g0 X g'.
Proof.
  intros Hb [A1 A2 A3 A4] Hh Hps. pose proof Hb as [Hlen Hlk]. split.
  - lia.
  - by rewrite (alters_items (add_succ h) _ _ _ _ (fun b => eq_refl) Hb).
  - eapply gext_trans; [done|by eapply backs_gext].
  - intros i Hi. rewrite <- A4 by done. destruct (g !! i) as [b|] eqn:Hi'.
    + rewrite (Hlk _ _ Hi'), decide_False, decide_False; [done| |lia]. intros Hin. apply Hps in Hin. lia.
    + apply lookup_ge_None. apply lookup_ge_None in Hi'. lia.
Qed.

Lemma backs_edges g h ps g' :
  backs g h ps g' -> h < length g -> (forall i, i ∈ ps -> i < length g /\ i <> h) ->
  (forall i j, edge g' i j <-> edge g i j \/ (i ∈ ps /\ j = h)) /\
  (forall i j, pedge g' i j <-> pedge g i j \/ (i ∈ ps /\ j = h)).
Proof.
  intros Hb Hh Hps. apply (alters_edges _ _ _ _ _ Hb Hh Hps); [|done].
  intros b y. simpl. rewrite elem_of_ins. tauto.
Qed.

Lemma step_back g h ps P0 :
  wf g (fun i => P0 i \/ i = h \/ i ∈ ps) -> ssorted ps -> 0 < h ->
  (forall i, i ∈ ps -> h < i /\ ~ P0 i) ->
  exists g', fold_left (back_edge h) ps (Ok g) = Ok g' /\
    wf g' (fun i => P0 i \/ i = h) /\ backs g h ps g'.
Proof.
  intros Hwf Hss Hh Hps.
  assert (Hhl : h < length g) by (apply (wf_P _ _ Hwf); right; by left).
  assert (Hps' : forall i, i ∈ ps -> i < length g /\ i <> h).
  { intros i Hi. split; [apply (wf_P _ _ Hwf); right; by right|]. destruct (Hps _ Hi). lia. }
  destruct (back_fold h ps g Hhl Hps' (ssorted_NoDup _ Hss)) as (g' & Hf & Hb).
  exists g'. split; [done|]. split; [|done].
  destruct (backs_edges _ _ _ _ Hb Hhl Hps') as [He Hp].
  destruct Hb as [Hlen Hlk].
  apply (wf_add_edges g _ _ _ (fun i j => i ∈ ps /\ j = h) Hwf); rewrite ?Hlen; try done.
  - intros i b' Hb'. destruct (lookup_lt_is_Some_2 g i) as (b & Hb).
    { rewrite <- Hlen. by eapply lookup_lt_Some. }
    rewrite (Hlk _ _ Hb) in Hb'. injection Hb' as <-. pose proof (wf_blk _ _ Hwf _ _ Hb) as Hok.
    case_decide as E1; [subst i|case_decide as E2].
    + apply blk_ok_add_preds; [|done]. eapply blk_ok_ext; [| |done]; [done|]. naive_solver.
    + eapply blk_ok_back; [done|right; by right| |by apply Hps].
      intros [?| ->]; [by eapply Hps|by destruct (Hps' _ E2)].
    + eapply blk_ok_ext; [| |done]; [done|]. naive_solver.
  - intros i [Hi| ->]; [apply (wf_P _ _ Hwf); by left|done].
Qed.
