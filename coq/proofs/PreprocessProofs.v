(* Lemmas about the comment stripper (C05, and the pre-processor clauses of
   C04).  Mirror: Model.Preprocess (look-ahead loop of the Rust code).
   Specification: Spec.LexSpec (one-scalar-per-step automaton plus declarative
   vocabulary). *)
Require Import Model.Base Model.Preprocess Spec.LexSpec.
From Coq Require Import NArith Lia List Bool.
Import ListNotations.
Local Open Scope N_scope.

Lemma scalar_bytes_utf8_len : forall c, scalar_bytes c = utf8_len c.
Proof.
  intro c. unfold scalar_bytes, utf8_len.
  destruct (N.leb_spec c 127), (N.ltb_spec c 128); try lia.
  destruct (N.leb_spec c 2047), (N.ltb_spec c 2048); try lia.
  destruct (N.leb_spec c 65535), (N.ltb_spec c 65536); try lia.
Qed.

Lemma text_bytes_bytes : forall l, text_bytes l = bytes l.
Proof.
  induction l as [|c r IH]; simpl; [reflexivity|].
  fold (text_bytes r). rewrite IH, scalar_bytes_utf8_len. reflexivity.
Qed.

Lemma utf8_len_pos : forall c, (1 <= utf8_len c)%nat.
Proof. intro c. unfold utf8_len. repeat destruct (_ <? _); lia. Qed.

Lemma emit_put : forall out m, emit out m = put out m.
Proof. intros out [t|e|s|]; reflexivity. Qed.

Lemma put_put : forall a b m, put a (put b m) = put (a ++ b) m.
Proof. intros a b [t|e|s|]; simpl; try reflexivity. now rewrite app_assoc. Qed.

Lemma put_nil : forall m, put [] m = m.
Proof. intros [t|e|s|]; reflexivity. Qed.

Lemma spaces_blank : forall c, spaces (scalar_bytes c) = blank c.
Proof. intro c. unfold spaces, blank. now rewrite scalar_bytes_utf8_len. Qed.

Lemma pp_code_slash : forall off c r,
  pp Code off (47 :: c :: r) =
  if c =? 47 then emit [32; 32] (pp LineComment (off + 1 + utf8_len c) r)
  else if c =? 42 then emit [32; 32] (pp (BlockComment off) (off + 1 + utf8_len c) r)
  else emit [47] (pp Code (off + 1) (c :: r)).
Proof. reflexivity. Qed.

Lemma pp_block_star : forall o off c r,
  pp (BlockComment o) off (42 :: c :: r) =
  if c =? 47 then emit [32; 32] (pp Code (off + 1 + utf8_len c) r)
  else emit [32] (pp (BlockComment o) (off + 1) (c :: r)).
Proof. reflexivity. Qed.

(* One statement per automaton state; the pending `/` and the pending `*` of
   the automaton correspond to the look-ahead of the loop. *)
Lemma pp_refines_all : forall l,
  (forall off, pp Code off l = lex_from DCode off l) /\
  (forall off, pp LineComment off l = lex_from DLine off l) /\
  (forall o off, pp (BlockComment o) off l = lex_from (DBlock o) off l) /\
  (forall at_, pp Code at_ (47 :: l) = lex_from (DSlash at_) (at_ + 1) l) /\
  (forall o off, pp (BlockComment o) off (42 :: l) = put [32] (lex_from (DStar o) (off + 1) l)).
Proof.
  induction l as [|c r (IHc & IHl & IHb & IHs & IHst)]; [repeat split; reflexivity|].
  assert (HC : forall off, pp Code off (c :: r) = lex_from DCode off (c :: r)).
  { intro off. cbn [lex_from dstep]. destruct (N.eqb_spec c 47) as [->|Hc]; cbn [fst snd].
    - rewrite put_nil. apply IHs.
    - cbn [pp]. rewrite (proj2 (N.eqb_neq c 47) Hc), emit_put, <- scalar_bytes_utf8_len, IHc. reflexivity. }
  assert (HB : forall o off, pp (BlockComment o) off (c :: r) = lex_from (DBlock o) off (c :: r)).
  { intros o off. cbn [lex_from dstep]. destruct (N.eqb_spec c 42) as [->|Hc]; cbn [fst snd].
    - apply IHst.
    - cbn [pp]. rewrite (proj2 (N.eqb_neq c 42) Hc), emit_put, <- scalar_bytes_utf8_len, IHb, spaces_blank.
      reflexivity. }
  repeat split; try assumption.
  - intro off. cbn [pp lex_from dstep]. rewrite !emit_put, <- scalar_bytes_utf8_len, IHc, IHl, spaces_blank.
    destruct (N.eqb_spec c 10) as [->|_]; reflexivity.
  - intro at_. rewrite pp_code_slash, !emit_put, <- scalar_bytes_utf8_len, IHl, IHb, HC.
    cbn [lex_from dstep]. destruct (c =? 47); [reflexivity|]. destruct (c =? 42); [reflexivity|].
    cbn [fst snd]. now rewrite put_put.
  - intros o off. rewrite pp_block_star, !emit_put, <- scalar_bytes_utf8_len, IHc, HB.
    cbn [lex_from dstep]. destruct (c =? 47); [cbn [fst snd]; now rewrite put_put|].
    destruct (c =? 42); reflexivity.
Qed.

Theorem preprocess_refines_lexer : forall s, preprocess s = lex_spec s.
Proof. intro s. apply pp_refines_all. Qed.

Lemma text_bytes_app : forall a b, text_bytes (a ++ b) = (text_bytes a + text_bytes b)%nat.
Proof. induction a as [|c r IH]; intro b; simpl; [reflexivity|]. fold (text_bytes (r ++ b)) (text_bytes r). rewrite IH. lia. Qed.

Lemma text_bytes_cons : forall c r, text_bytes (c :: r) = (scalar_bytes c + text_bytes r)%nat.
Proof. reflexivity. Qed.

Lemma state_after_cons : forall q off c r,
  state_after q off (c :: r) = state_after (fst (dstep q off c)) (off + scalar_bytes c) r.
Proof. reflexivity. Qed.

Lemma output_after_cons : forall q off c r,
  output_after q off (c :: r) =
  snd (dstep q off c) ++ output_after (fst (dstep q off c)) (off + scalar_bytes c) r.
Proof. reflexivity. Qed.

Lemma state_after_app : forall a b q off,
  state_after q off (a ++ b) = state_after (state_after q off a) (off + text_bytes a) b.
Proof.
  induction a as [|c r IH]; intros b q off; simpl.
  - now rewrite Nat.add_0_r.
  - fold (text_bytes r). rewrite IH. now rewrite Nat.add_assoc.
Qed.

Lemma output_after_app : forall a b q off,
  output_after q off (a ++ b) =
  output_after q off a ++ output_after (state_after q off a) (off + text_bytes a) b.
Proof.
  induction a as [|c r IH]; intros b q off; simpl.
  - now rewrite Nat.add_0_r.
  - fold (text_bytes r). rewrite IH, <- app_assoc. now rewrite Nat.add_assoc.
Qed.

Lemma lex_from_app : forall a b q off,
  lex_from q off (a ++ b) =
  put (output_after q off a) (lex_from (state_after q off a) (off + text_bytes a) b).
Proof.
  induction a as [|c r IH]; intros b q off; simpl.
  - now rewrite put_nil, Nat.add_0_r.
  - fold (text_bytes r). rewrite IH, put_put. now rewrite Nat.add_assoc.
Qed.

Lemma lex_from_finish : forall l q off,
  lex_from q off l = put (output_after q off l) (dfinish (state_after q off l)).
Proof. intros l q off. rewrite <- (app_nil_r l) at 1. now rewrite lex_from_app. Qed.

Lemma has_pair_cons : forall x y c r,
  has_pair x y (c :: r) <-> (c = x /\ exists r', r = y :: r') \/ has_pair x y r.
Proof.
  intros x y c r. split.
  - intros (u & v & H). destruct u as [|c' u]; simpl in H; injection H as -> H.
    + left. split; [reflexivity|]. now exists v.
    + right. now exists u, v.
  - intros [(-> & r' & ->)|(u & v & ->)].
    + now exists [], r'.
    + now exists (c :: u), v.
Qed.

Lemma has_pair_nil : forall x y, ~ has_pair x y [].
Proof. intros x y (u & v & H). destruct u; discriminate. Qed.

Lemma head_pair_dec : forall (x y c : N) (r : list N),
  {r' | c = x /\ r = y :: r'} + {~ (c = x /\ exists r', r = y :: r')}.
Proof.
  intros x y c r. destruct (N.eq_dec c x) as [->|Hc]; [|right; tauto].
  destruct r as [|w r']; [right; intros (_ & r' & H); discriminate|].
  destruct (N.eq_dec w y) as [->|Hw]; [left; now exists r'|].
  right. intros (_ & r'' & H). injection H as -> _. now apply Hw.
Qed.

Lemma ends_with_cons : forall x c r, r <> [] -> (ends_with x (c :: r) <-> ends_with x r).
Proof.
  intros x c r Hr. split.
  - intros (u & H). destruct u as [|c' u]; simpl in H; injection H as -> H.
    + now destruct Hr.
    + now exists u.
  - intros (u & ->). now exists (c :: u).
Qed.

Lemma plain_code_nil : plain_code [].
Proof. repeat split; try apply has_pair_nil. intros (u & H). destruct u; discriminate. Qed.

Lemma plain_code_tail : forall c r, plain_code (c :: r) -> plain_code r.
Proof.
  intros c r (H1 & H2 & H3). repeat split.
  - intro H. apply H1, has_pair_cons. now right.
  - intro H. apply H2, has_pair_cons. now right.
  - intros (u & ->). apply H3. now exists (c :: u).
Qed.

Lemma plain_code_slash : forall r, plain_code (47 :: r) ->
  exists c1 r', r = c1 :: r' /\ c1 <> 47 /\ c1 <> 42.
Proof.
  intros r (H1 & H2 & H3). destruct r as [|c1 r'].
  - destruct H3. now exists [].
  - exists c1, r'. repeat split.
    + intros ->. apply H1. now exists [], r'.
    + intros ->. apply H2. now exists [], r'.
Qed.

Lemma plain_code_cons : forall c r, plain_code r ->
  (c = 47 -> exists c1 r', r = c1 :: r' /\ c1 <> 47 /\ c1 <> 42) -> plain_code (c :: r).
Proof.
  intros c r (H1 & H2 & H3) Hc. repeat split.
  - rewrite has_pair_cons. intros [(-> & r' & ->)|H]; [|tauto].
    destruct (Hc eq_refl) as (c1 & r'' & E & H47 & _). injection E as <- _. now apply H47.
  - rewrite has_pair_cons. intros [(-> & r' & ->)|H]; [|tauto].
    destruct (Hc eq_refl) as (c1 & r'' & E & _ & H42). injection E as <- _. now apply H42.
  - destruct r as [|c1 r']; [|now rewrite ends_with_cons].
    intros (u & E). destruct u as [|? [|? ?]]; try discriminate. injection E as ->.
    destruct (Hc eq_refl) as (? & ? & E & _). discriminate.
Qed.

Lemma plain_code_run : forall a off, plain_code a ->
  state_after DCode off a = DCode /\ output_after DCode off a = a.
Proof.
  induction a as [|c r IH]; intros off Hp; [split; reflexivity|].
  destruct (IH (off + scalar_bytes c)%nat (plain_code_tail _ _ Hp)) as (I1 & I2).
  rewrite state_after_cons, output_after_cons. cbn [dstep].
  destruct (N.eqb_spec c 47) as [->|Hc]; cbn [fst snd]; [|rewrite I1, I2; split; reflexivity].
  (* a `/` pending in code followed by a scalar that cannot complete an opener *)
  destruct (plain_code_slash _ Hp) as (c1 & r' & -> & H47 & H42).
  revert I1 I2. rewrite !state_after_cons, !output_after_cons. cbn [dstep].
  rewrite (proj2 (N.eqb_neq c1 47) H47), (proj2 (N.eqb_neq c1 42) H42). cbn [fst snd app].
  intros -> [= ->]. split; reflexivity.
Qed.

Lemma blanks_cons : forall c r, blanks (c :: r) = spaces (scalar_bytes c) ++ blanks r.
Proof. reflexivity. Qed.

Lemma blanks_app : forall a b, blanks (a ++ b) = blanks a ++ blanks b.
Proof. intros a b. unfold blanks. now rewrite flat_map_app. Qed.

Lemma no_newline_run : forall c off, no_newline c ->
  state_after DLine off c = DLine /\ output_after DLine off c = blanks c.
Proof.
  induction c as [|x r IH]; intros off Hn; [split; reflexivity|].
  assert (Hx : x <> 10) by (intros ->; apply Hn; now left).
  assert (Hr : no_newline r) by (intro H; apply Hn; now right).
  cbn [state_after output_after dstep]. rewrite (proj2 (N.eqb_neq x 10) Hx). cbn [fst snd].
  destruct (IH (off + scalar_bytes x)%nat Hr) as (I1 & I2). rewrite I1, I2, blanks_cons. split; reflexivity.
Qed.

Definition in_block (o : nat) (q : dstate) : Prop := q = DBlock o \/ q = DStar o.

Lemma in_block_step : forall o q off x, in_block o q -> (q = DStar o -> x <> 47) ->
  in_block o (fst (dstep q off x)) /\ snd (dstep q off x) = spaces (scalar_bytes x) /\
  (fst (dstep q off x) = DStar o -> x = 42).
Proof.
  intros o q off x [->| ->] Hx; cbn [dstep].
  - destruct (N.eqb_spec x 42) as [->|H]; cbn [fst snd].
    + split; [now right|]. split; reflexivity.
    + split; [now left|]. split; [reflexivity|discriminate].
  - rewrite (proj2 (N.eqb_neq x 47) (Hx eq_refl)).
    destruct (N.eqb_spec x 42) as [->|H]; cbn [fst snd].
    + split; [now right|]. split; reflexivity.
    + split; [now left|]. split; [reflexivity|discriminate].
Qed.

Lemma no_close_run : forall c o q off, in_block o q ->
  (q = DStar o -> forall r, c <> 47 :: r) -> no_close c ->
  in_block o (state_after q off c) /\ output_after q off c = blanks c.
Proof.
  induction c as [|x r IH]; intros o q off Hq Hhead Hn; [split; [assumption|reflexivity]|].
  destruct (in_block_step o q off x Hq) as (Hq' & Ho & Hs).
  { intros E ->. exact (Hhead E r eq_refl). }
  destruct (IH o (fst (dstep q off x)) (off + scalar_bytes x)%nat Hq') as (I1 & I2).
  - intros E r' ->. apply Hn. rewrite (Hs E). now exists [], r'.
  - intro H. apply Hn, has_pair_cons. now right.
  - rewrite state_after_cons, output_after_cons, Ho, I2. split; [assumption|reflexivity].
Qed.

Lemma close_run : forall o q off, in_block o q ->
  state_after q off [42; 47] = DCode /\ output_after q off [42; 47] = [32; 32].
Proof. intros o q off [->| ->]; split; reflexivity. Qed.

(* moving the start offset only moves the error *)
Definition shift (n : nat) (m : outcome (list N)) : outcome (list N) :=
  match m with
  | Err (EOther z) => Err (EOther (Z.of_nat n + z))
  | other => other
  end.

Lemma after_put_shift : forall pre out m, after pre out m = put out (shift (text_bytes pre) m).
Proof. intros pre out [t|[| |z]|s|]; reflexivity. Qed.

Lemma dfinish_shift_code : shift 0 (dfinish DCode) = dfinish DCode.
Proof. reflexivity. Qed.

(* offsets only matter through the opener recorded in the state *)
Definition shift_state (n : nat) (q : dstate) : dstate :=
  match q with
  | DSlash a => DSlash (n + a)
  | DBlock o => DBlock (n + o)
  | DStar o => DStar (n + o)
  | other => other
  end.

Lemma dstep_shift : forall n q off c,
  dstep (shift_state n q) (n + off) c = (shift_state n (fst (dstep q off c)), snd (dstep q off c)).
Proof.
  intros n q off c. destruct q; cbn [dstep shift_state];
    repeat match goal with |- context [if ?b then _ else _] => destruct b end; reflexivity.
Qed.

Lemma shift_put : forall n out m, shift n (put out m) = put out (shift n m).
Proof. intros n out [t|[| |z]|s|]; reflexivity. Qed.

Lemma lex_from_shift : forall l n q off,
  lex_from (shift_state n q) (n + off) l = shift n (lex_from q off l).
Proof.
  induction l as [|c r IH]; intros n q off.
  - destruct q; cbn [lex_from shift_state dfinish]; unfold UnclosedAt, shift; try reflexivity;
      now rewrite Nat2Z.inj_add.
  - cbn [lex_from]. rewrite dstep_shift. cbn [fst snd].
    replace (n + off + scalar_bytes c)%nat with (n + (off + scalar_bytes c))%nat by lia.
    now rewrite IH, shift_put.
Qed.

Lemma lex_code_shift : forall l n, lex_from DCode n l = shift n (lex_spec l).
Proof.
  intros l n. unfold lex_spec. rewrite <- (lex_from_shift l n DCode 0). cbn [shift_state].
  now rewrite Nat.add_0_r.
Qed.

Lemma lex_app_code : forall pre rest, state_after DCode 0 pre = DCode ->
  lex_spec (pre ++ rest) = after pre (output_after DCode 0 pre) (lex_spec rest).
Proof.
  intros pre rest E. unfold lex_spec at 1.
  rewrite lex_from_app, E, after_put_shift, lex_code_shift. reflexivity.
Qed.

(* code without comment openers is copied *)
Lemma lex_prefix : forall a rest, plain_code a ->
  lex_spec (a ++ rest) = after a a (lex_spec rest).
Proof.
  intros a rest Hp. destruct (plain_code_run a 0%nat Hp) as (E1 & E2).
  now rewrite (lex_app_code a rest E1), E2.
Qed.

Lemma lex_plain : forall s, ~ has_pair 47 47 s -> ~ has_pair 47 42 s -> lex_spec s = Ok s.
Proof.
  intros s H1 H2.
  destruct (list_eq_dec N.eq_dec s []) as [->|Hne]; [reflexivity|].
  destruct (exists_last Hne) as (u & x & ->).
  destruct (N.eq_dec x 47) as [->|Hx].
  - assert (Hu : plain_code u).
    { repeat split.
      - intros (a & b & ->). apply H1. exists a, (b ++ [47]). now rewrite <- !app_assoc.
      - intros (a & b & ->). apply H2. exists a, (b ++ [47]). now rewrite <- !app_assoc.
      - intros (w & ->). apply H1. exists w, []. now rewrite <- app_assoc. }
    rewrite (lex_prefix u [47] Hu). reflexivity.
  - assert (Hp : plain_code (u ++ [x])).
    { repeat split; try assumption. intros (w & H). apply app_inj_tail in H. now destruct H. }
    rewrite <- (app_nil_r (u ++ [x])) at 1. rewrite (lex_prefix _ [] Hp). cbn. now rewrite app_nil_r.
Qed.

Lemma line_run : forall a c, plain_code a -> no_newline c ->
  state_after DCode 0 (a ++ [47; 47] ++ c) = DLine /\
  output_after DCode 0 (a ++ [47; 47] ++ c) = a ++ blanks ([47; 47] ++ c).
Proof.
  intros a c Hp Hn. rewrite !state_after_app, !output_after_app.
  destruct (plain_code_run a 0%nat Hp) as (-> & ->).
  cbn [state_after output_after dstep fst snd N.eqb Pos.eqb app].
  now rewrite (proj1 (no_newline_run c _ Hn)), (proj2 (no_newline_run c _ Hn)).
Qed.

Lemma block_run : forall a c, plain_code a -> no_close c ->
  in_block (text_bytes a) (state_after DCode 0 (a ++ [47; 42] ++ c)) /\
  output_after DCode 0 (a ++ [47; 42] ++ c) = a ++ blanks ([47; 42] ++ c).
Proof.
  intros a c Hp Hn. rewrite !state_after_app, !output_after_app.
  destruct (plain_code_run a 0%nat Hp) as (-> & ->).
  cbn [state_after output_after dstep fst snd N.eqb Pos.eqb app Nat.add].
  destruct (no_close_run c (text_bytes a) (DBlock (text_bytes a)) (text_bytes a + text_bytes [47; 42]) (or_introl eq_refl))
    as (E1 & E2); [discriminate|assumption|].
  now rewrite E2.
Qed.

(* a line comment ends before the next newline *)
Lemma lex_line : forall a c b, plain_code a -> no_newline c ->
  lex_spec (a ++ [47; 47] ++ c ++ [10] ++ b) =
  after (a ++ [47; 47] ++ c ++ [10]) (a ++ blanks ([47; 47] ++ c) ++ [10]) (lex_spec b).
Proof.
  intros a c b Hp Hn. destruct (line_run a c Hp Hn) as (E1 & E2).
  replace (a ++ [47; 47] ++ c ++ [10] ++ b) with (((a ++ [47; 47] ++ c) ++ [10]) ++ b)
    by (now rewrite <- !app_assoc).
  rewrite lex_app_code.
  - rewrite output_after_app, E1, E2. cbn [output_after dstep fst snd N.eqb Pos.eqb].
    now rewrite <- !app_assoc.
  - now rewrite state_after_app, E1.
Qed.

(* ... or at the end of the input *)
Lemma lex_line_eof : forall a c, plain_code a -> no_newline c ->
  lex_spec (a ++ [47; 47] ++ c) = Ok (a ++ blanks ([47; 47] ++ c)).
Proof.
  intros a c Hp Hn. unfold lex_spec. rewrite lex_from_finish.
  destruct (line_run a c Hp Hn) as (-> & ->). cbn [dfinish put]. now rewrite app_nil_r.
Qed.

(* a block comment ends at the FIRST `*/` after its opener, whatever it contains *)
Lemma lex_block : forall a c b, plain_code a -> no_close c ->
  lex_spec (a ++ [47; 42] ++ c ++ [42; 47] ++ b) =
  after (a ++ [47; 42] ++ c ++ [42; 47]) (a ++ blanks ([47; 42] ++ c ++ [42; 47])) (lex_spec b).
Proof.
  intros a c b Hp Hn. destruct (block_run a c Hp Hn) as (Hq & E2).
  replace (a ++ [47; 42] ++ c ++ [42; 47] ++ b) with (((a ++ [47; 42] ++ c) ++ [42; 47]) ++ b)
    by (now rewrite <- !app_assoc).
  rewrite lex_app_code.
  - rewrite output_after_app, E2, (proj2 (close_run _ _ _ Hq)).
    replace (blanks ([47; 42] ++ c ++ [42; 47])) with (blanks ([47; 42] ++ c) ++ [32; 32])
      by (now rewrite (app_assoc [47; 42] c), (blanks_app ([47; 42] ++ c))).
    now rewrite <- !app_assoc.
  - rewrite state_after_app. exact (proj1 (close_run _ _ _ Hq)).
Qed.

(* a block comment that is never closed: error at the byte offset of its opener *)
Lemma lex_unclosed : forall a c, plain_code a -> no_close c ->
  lex_spec (a ++ [47; 42] ++ c) = Err (UnclosedAt (text_bytes a)).
Proof.
  intros a c Hp Hn. unfold lex_spec. rewrite lex_from_finish.
  destruct (block_run a c Hp Hn) as ([-> | ->] & _); reflexivity.
Qed.


Lemma split_first_newline : forall l,
  no_newline l \/ exists c b, no_newline c /\ l = c ++ [10] ++ b.
Proof.
  induction l as [|x r IH]; [left; intros []|].
  destruct (N.eq_dec x 10) as [->|Hx].
  - right. exists [], r. split; [intros []|reflexivity].
  - destruct IH as [Hn|(c & b & Hn & ->)].
    + left. intros [H|H]; [now apply Hx|now apply Hn].
    + right. exists (x :: c), b. split; [|reflexivity]. intros [H|H]; [now apply Hx|now apply Hn].
Qed.

Lemma split_first_pair : forall x y l,
  ~ has_pair x y l \/ exists c b, ~ has_pair x y c /\ l = c ++ [x; y] ++ b.
Proof.
  intros x y. induction l as [|z r IH]; [left; apply has_pair_nil|].
  destruct (head_pair_dec x y z r) as [(r' & -> & ->)|Hh].
  { right. exists [], r'. split; [apply has_pair_nil|reflexivity]. }
  destruct IH as [Hn|(c & b & Hn & ->)].
  - left. rewrite has_pair_cons. tauto.
  - right. exists (z :: c), b. split; [|reflexivity].
    rewrite has_pair_cons. intros [(-> & c' & ->)|H]; [|tauto]. apply Hh. split; [reflexivity|]. now eexists.
Qed.

Lemma split_first_close : forall l,
  no_close l \/ exists c b, no_close c /\ l = c ++ [42; 47] ++ b.
Proof. exact (split_first_pair 42 47). Qed.

Lemma split_first_opener : forall l,
  (~ has_pair 47 47 l /\ ~ has_pair 47 42 l) \/
  exists a x rest, plain_code a /\ (x = 47 \/ x = 42) /\ l = a ++ [47; x] ++ rest.
Proof.
  induction l as [|c r IH]; [left; split; apply has_pair_nil|].
  destruct (head_pair_dec 47 47 c r) as [(r' & -> & ->)|H47].
  { right. exists [], 47, r'. split; [apply plain_code_nil|auto]. }
  destruct (head_pair_dec 47 42 c r) as [(r' & -> & ->)|H42].
  { right. exists [], 42, r'. split; [apply plain_code_nil|auto]. }
  destruct IH as [(H1 & H2)|(a & x & rest & Hp & Hx & ->)].
  - left. rewrite !has_pair_cons. tauto.
  - right. exists (c :: a), x, rest. split; [|auto].
    apply plain_code_cons; [assumption|]. intros ->. destruct a as [|c1 a'].
    + destruct H47. split; [reflexivity|]. now eexists.
    + exists c1, a'. split; [reflexivity|].
      split; intros ->; [apply H47|apply H42]; (split; [reflexivity|]); now eexists.
Qed.

Theorem lex_decompose : forall s,
  (~ has_pair 47 47 s /\ ~ has_pair 47 42 s) \/
  (exists a c, plain_code a /\ no_newline c /\ s = a ++ [47; 47] ++ c) \/
  (exists a c b, plain_code a /\ no_newline c /\ s = a ++ [47; 47] ++ c ++ [10] ++ b) \/
  (exists a c b, plain_code a /\ no_close c /\ s = a ++ [47; 42] ++ c ++ [42; 47] ++ b) \/
  (exists a c, plain_code a /\ no_close c /\ s = a ++ [47; 42] ++ c).
Proof.
  intro s. destruct (split_first_opener s) as [H|(a & x & rest & Hp & [->| ->] & ->)]; [now left|..].
  - destruct (split_first_newline rest) as [Hn|(c & b & Hn & ->)].
    + right; left. now exists a, rest.
    + right; right; left. now exists a, c, b.
  - destruct (split_first_close rest) as [Hn|(c & b & Hn & ->)].
    + right; right; right; right. now exists a, rest.
    + right; right; right; left. now exists a, c, b.
Qed.

(* Induction on a text along its comments: what holds of comment-free text and
   of text that ends inside its first comment, and is carried from the text
   after a complete first comment to the whole, holds of every text. *)
Lemma comment_ind : forall P : list N -> Prop,
  (forall s, ~ has_pair 47 47 s -> ~ has_pair 47 42 s -> P s) ->
  (forall a c, plain_code a -> no_newline c -> P (a ++ [47; 47] ++ c)) ->
  (forall a c b, plain_code a -> no_newline c -> P b -> P (a ++ [47; 47] ++ c ++ [10] ++ b)) ->
  (forall a c b, plain_code a -> no_close c -> P b -> P (a ++ [47; 42] ++ c ++ [42; 47] ++ b)) ->
  (forall a c, plain_code a -> no_close c -> P (a ++ [47; 42] ++ c)) ->
  forall s, P s.
Proof.
  intros P Hplain Heof Hline Hblock Hopen s.
  induction s as [s IH] using (induction_ltof1 _ (@length N)). unfold ltof in IH.
  destruct (lex_decompose s) as [(H1 & H2)|[(a & c & Hp & Hn & ->)|[(a & c & b & Hp & Hn & ->)|
    [(a & c & b & Hp & Hn & ->)|(a & c & Hp & Hn & ->)]]]]; auto.
  - apply Hline; [assumption..|]. apply IH. rewrite !app_length. simpl. lia.
  - apply Hblock; [assumption..|]. apply IH. rewrite !app_length. simpl. lia.
Qed.

Lemma put_err : forall out m e, put out m = Err e <-> m = Err e.
Proof. intros out [t|e'|s|] e; simpl; split; intro H; try discriminate; assumption. Qed.

Lemma UnclosedAt_inj : forall a b, @Err (list N) (UnclosedAt a) = Err (UnclosedAt b) -> a = b.
Proof. intros a b [= H]. now apply Nat2Z.inj. Qed.

Lemma lex_unclosed_iff : forall s o,
  lex_spec s = Err (UnclosedAt o) <-> open_block_at_end s o.
Proof.
  intros s o. unfold lex_spec, open_block_at_end. rewrite lex_from_finish, put_err.
  destruct (state_after DCode 0 s) as [|a| |o'|o']; cbn [dfinish]; split; intro H;
    try discriminate; try (destruct H; discriminate).
  - apply UnclosedAt_inj in H as ->. now left.
  - destruct H as [[= ->]|H]; [reflexivity|discriminate].
  - apply UnclosedAt_inj in H as ->. now right.
  - destruct H as [H|[= ->]]; [discriminate|reflexivity].
Qed.

(* the only failure mode is the unclosed comment *)
Lemma lex_total : forall s,
  (exists t, lex_spec s = Ok t) \/ exists o, lex_spec s = Err (UnclosedAt o).
Proof.
  intro s. unfold lex_spec. rewrite lex_from_finish.
  destruct (state_after DCode 0 s); cbn [dfinish put]; eauto.
Qed.

Lemma after_unclosed : forall pre out o,
  after pre out (Err (UnclosedAt o)) = Err (UnclosedAt (text_bytes pre + o)).
Proof. intros pre out o. unfold UnclosedAt. cbn [after]. now rewrite Nat2Z.inj_add. Qed.

(* Where the error is.  "s = a ++ slash star ++ c with no_close c" alone does not
   say WHICH `/*` is meant: for slash star blank slash star blank x both a = []
   and a = slash star blank fit.  The opener is the one whose prefix ends
   outside every comment ([ends_in_code]); with that clause the decomposition is
   unique and the statement is an equivalence. *)
Lemma lex_unclosed_after : forall a, ends_in_code a -> forall c, no_close c ->
  lex_spec (a ++ [47; 42] ++ c) = Err (UnclosedAt (text_bytes a)).
Proof.
  intros a Ha. induction Ha as [a Hp|a c0 b Hp Hn Hb IH|a c0 b Hp Hn Hb IH]; intros c Hc.
  - now apply lex_unclosed.
  - replace ((a ++ [47; 47] ++ c0 ++ [10] ++ b) ++ [47; 42] ++ c)
      with (a ++ [47; 47] ++ c0 ++ [10] ++ (b ++ [47; 42] ++ c)) by (now rewrite <- !app_assoc).
    rewrite (lex_line a c0 _ Hp Hn), (IH c Hc), after_unclosed, <- text_bytes_app.
    now rewrite <- !app_assoc.
  - replace ((a ++ [47; 42] ++ c0 ++ [42; 47] ++ b) ++ [47; 42] ++ c)
      with (a ++ [47; 42] ++ c0 ++ [42; 47] ++ (b ++ [47; 42] ++ c)) by (now rewrite <- !app_assoc).
    rewrite (lex_block a c0 _ Hp Hn), (IH c Hc), after_unclosed, <- text_bytes_app.
    now rewrite <- !app_assoc.
Qed.

Lemma scalar_bytes_pos : forall c, (1 <= scalar_bytes c)%nat.
Proof. intro c. rewrite scalar_bytes_utf8_len. apply utf8_len_pos. Qed.

Lemma prefix_same_bytes : forall a a' x x',
  a ++ x = a' ++ x' -> text_bytes a = text_bytes a' -> a = a'.
Proof.
  induction a as [|c r IH]; intros [|c' r'] x x' E B; try reflexivity.
  - rewrite text_bytes_cons in B. pose proof (scalar_bytes_pos c'). cbn in B. lia.
  - rewrite text_bytes_cons in B. pose proof (scalar_bytes_pos c). cbn in B. lia.
  - simpl in E. injection E as <- E. rewrite !text_bytes_cons in B.
    f_equal. apply (IH r' x x' E). lia.
Qed.

(* at most one `/*` of a text is an opener that is never closed *)
Theorem unclosed_opener_unique : forall a c a' c',
  a ++ [47; 42] ++ c = a' ++ [47; 42] ++ c' ->
  ends_in_code a -> ends_in_code a' -> no_close c -> no_close c' -> a = a' /\ c = c'.
Proof.
  intros a c a' c' E Ha Ha' Hc Hc'.
  pose proof (lex_unclosed_after a Ha c Hc) as L. rewrite E, (lex_unclosed_after a' Ha' c' Hc') in L.
  apply UnclosedAt_inj in L.
  assert (a = a') by (apply (prefix_same_bytes a a' _ _ E); now symmetry). subst a'.
  split; [reflexivity|]. apply app_inv_head in E. now injection E.
Qed.

(* positions: the output is the input with comment scalars blanked (the
   pre-processor clauses of C04) *)

Lemma blanked_refl : forall s, blanked s s.
Proof. induction s; constructor; assumption. Qed.

Lemma blanked_blanks : forall s, blanked s (blanks s).
Proof. induction s as [|c r IH]; [constructor|]. rewrite blanks_cons. now constructor. Qed.

Lemma blanked_app : forall a a' b b', blanked a a' -> blanked b b' -> blanked (a ++ b) (a' ++ b').
Proof.
  intros a a' b b' Ha Hb. induction Ha; simpl; [assumption| |].
  - now constructor.
  - rewrite <- app_assoc. now constructor.
Qed.

Lemma text_bytes_spaces : forall n, text_bytes (spaces n) = n.
Proof. induction n as [|n IH]; [reflexivity|]. change (spaces (S n)) with (32 :: spaces n).
  rewrite text_bytes_cons, IH. reflexivity. Qed.

Lemma blanked_bytes : forall s t, blanked s t -> text_bytes t = text_bytes s.
Proof.
  intros s t H. induction H; [reflexivity| |].
  - rewrite !text_bytes_cons. lia.
  - rewrite text_bytes_app, text_bytes_spaces, text_bytes_cons. lia.
Qed.

Lemma blanked_split : forall s t, blanked s t -> forall u v, s = u ++ v ->
  exists u' v', t = u' ++ v' /\ blanked u u' /\ blanked v v'.
Proof.
  intros s t H. induction H as [|c s t H IH|c s t H IH]; intros u v E.
  - destruct u; [|discriminate]. destruct v; [|discriminate]. exists [], []. repeat split; constructor.
  - destruct u as [|c' u].
    + simpl in E. subst v. exists [], (c :: t). repeat split; constructor. assumption.
    + simpl in E. injection E as <- E. destruct (IH u v E) as (u' & v' & -> & Hu & Hv).
      exists (c :: u'), v'. repeat split; try assumption. now constructor.
  - destruct u as [|c' u].
    + simpl in E. subst v. exists [], (spaces (scalar_bytes c) ++ t). repeat split; constructor. assumption.
    + simpl in E. injection E as <- E. destruct (IH u v E) as (u' & v' & -> & Hu & Hv).
      exists (spaces (scalar_bytes c) ++ u'), v'. repeat split; try assumption.
      * now rewrite app_assoc.
      * now constructor.
Qed.

(* every scalar boundary of the file is a scalar boundary of the text *)
Lemma blanked_boundary : forall s t o, blanked s t -> boundary s o -> boundary t o.
Proof.
  intros s t o H (u & v & E & <-). destruct (blanked_split s t H u v E) as (u' & v' & -> & Hu & _).
  exists u', v'. split; [reflexivity|]. now apply blanked_bytes.
Qed.

Lemma spaces_prefix : forall k t0 u c v, spaces k ++ t0 = u ++ c :: v -> c <> 32 ->
  exists u1, u = spaces k ++ u1 /\ t0 = u1 ++ c :: v.
Proof.
  induction k as [|k IH]; intros t0 u c v E Hc.
  - now exists u.
  - change (spaces (S k)) with (32 :: spaces k) in *. destruct u as [|x u]; simpl in E.
    + injection E as E _. now destruct Hc.
    + injection E as <- E. destruct (IH t0 u c v E Hc) as (u1 & -> & ->). now exists u1.
Qed.

(* every non-blank scalar of the text is that scalar of the file, at the same
   byte offset *)
Lemma blanked_scalar_at : forall s t, blanked s t -> forall o c,
  scalar_at t o c -> c <> 32 -> scalar_at s o c.
Proof.
  intros s t H. induction H as [|c0 s t H IH|c0 s t H IH]; intros o c (u & v & E & Ho) Hc.
  - destruct u; discriminate.
  - destruct u as [|x u]; simpl in E; injection E as -> E.
    + exists [], s. split; [reflexivity|assumption].
    + destruct (IH (text_bytes u) c) as (u' & v' & -> & Hu'); [now exists u, v|assumption|].
      exists (x :: u'), v'. split; [reflexivity|]. rewrite text_bytes_cons in *. lia.
  - destruct (spaces_prefix _ _ _ _ _ E Hc) as (u1 & -> & E1).
    destruct (IH (text_bytes u1) c) as (u' & v' & -> & Hu'); [now exists u1, v|assumption|].
    exists (c0 :: u'), v'. split; [reflexivity|].
    rewrite text_bytes_app, text_bytes_spaces in Ho. rewrite text_bytes_cons. lia.
Qed.

Lemma blanked_line_shape : forall a c b t', blanked b t' ->
  blanked (a ++ [47; 47] ++ c ++ [10] ++ b) ((a ++ blanks ([47; 47] ++ c) ++ [10]) ++ t').
Proof.
  intros a c b t' Hb. rewrite <- !app_assoc, (app_assoc [47; 47] c).
  apply blanked_app; [apply blanked_refl|]. apply blanked_app; [apply blanked_blanks|].
  now apply blanked_app; [apply blanked_refl|].
Qed.

Lemma blanked_block_shape : forall a c b t', blanked b t' ->
  blanked (a ++ [47; 42] ++ c ++ [42; 47] ++ b) ((a ++ blanks ([47; 42] ++ c ++ [42; 47])) ++ t').
Proof.
  intros a c b t' Hb. rewrite <- !app_assoc, (app_assoc c), (app_assoc [47; 42]).
  apply blanked_app; [apply blanked_refl|]. now apply blanked_app; [apply blanked_blanks|].
Qed.

Lemma has_pair_in : forall x y l, has_pair x y l -> In x l.
Proof. intros x y l (u & v & ->). apply in_or_app. right. now left. Qed.

Lemma ends_with_in : forall x l, ends_with x l -> In x l.
Proof. intros x l (u & ->). apply in_or_app. right. now left. Qed.

Lemma plain_code_no_slash : forall l, ~ In 47 l -> plain_code l.
Proof.
  intros l H. repeat split; intro H'; apply H;
    [apply (has_pair_in _ _ _ H')|apply (has_pair_in _ _ _ H')|apply (ends_with_in _ _ H')].
Qed.

Lemma in_blanks : forall x l, In x (blanks l) -> x = 32.
Proof.
  intros x l. induction l as [|c r IH]; [intros []|]. rewrite blanks_cons. intro H.
  apply in_app_or in H. destruct H as [H|H]; [|now apply IH].
  apply repeat_spec in H. assumption.
Qed.

Lemma plain_code_blanks : forall l, plain_code (blanks l).
Proof. intro l. apply plain_code_no_slash. intro H. apply in_blanks in H. discriminate. Qed.

Lemma text_bytes_blanks : forall l, text_bytes (blanks l) = text_bytes l.
Proof. intro l. apply blanked_bytes, blanked_blanks. Qed.

Lemma plain_code_newline : plain_code [10].
Proof. apply plain_code_no_slash. intros [H|[]]. discriminate. Qed.

Lemma lex_blanked_line_shape : forall a c t', plain_code a -> lex_spec t' = Ok t' ->
  lex_spec ((a ++ blanks ([47; 47] ++ c) ++ [10]) ++ t') = Ok ((a ++ blanks ([47; 47] ++ c) ++ [10]) ++ t').
Proof.
  intros a c t' Hp Hb.
  rewrite <- !app_assoc. rewrite (lex_prefix a _ Hp), (lex_prefix _ _ (plain_code_blanks _)),
    (lex_prefix [10] _ plain_code_newline), Hb. reflexivity.
Qed.

Lemma lex_code_blanks_stable : forall a c t', plain_code a -> lex_spec t' = Ok t' ->
  lex_spec ((a ++ blanks c) ++ t') = Ok ((a ++ blanks c) ++ t').
Proof.
  intros a c t' Hp Hb.
  rewrite <- !app_assoc. rewrite (lex_prefix a _ Hp), (lex_prefix _ _ (plain_code_blanks _)), Hb.
  reflexivity.
Qed.

(* What the lexer does with a text, in one statement: either the result is the
   text with some scalars blanked, which the lexer leaves alone, or the text
   ends inside a block comment whose opener follows a prefix that ends in code,
   and the error is at that opener. *)
Lemma lex_spec_cases : forall s,
  (exists t, lex_spec s = Ok t /\ blanked s t /\ lex_spec t = Ok t) \/
  (exists a c, s = a ++ [47; 42] ++ c /\ ends_in_code a /\ no_close c /\
               lex_spec s = Err (UnclosedAt (text_bytes a))).
Proof.
  intros s. induction s as [s H1 H2|a c Hp Hn|a c b Hp Hn IH|a c b Hp Hn IH|a c Hp Hn] using comment_ind.
  - left. exists s. rewrite (lex_plain s H1 H2). auto using blanked_refl.
  - left. exists (a ++ blanks ([47; 47] ++ c)). split; [now apply lex_line_eof|].
    split; [apply blanked_app; [apply blanked_refl|apply blanked_blanks]|].
    rewrite <- (app_nil_r (a ++ _)). exact (lex_code_blanks_stable a ([47; 47] ++ c) [] Hp eq_refl).
  - rewrite (lex_line a c b Hp Hn). destruct IH as [(t & -> & Hb & Ht)|(a' & c' & -> & Ha' & Hc' & ->)].
    + left. eexists. split; [reflexivity|]. split; [now apply blanked_line_shape|now apply lex_blanked_line_shape].
    + right. exists (a ++ [47; 47] ++ c ++ [10] ++ a'), c'. split; [now rewrite <- !app_assoc|].
      split; [now apply eic_line|]. split; [assumption|].
      rewrite after_unclosed, <- text_bytes_app. now rewrite <- !app_assoc.
  - rewrite (lex_block a c b Hp Hn). destruct IH as [(t & -> & Hb & Ht)|(a' & c' & -> & Ha' & Hc' & ->)].
    + left. eexists. split; [reflexivity|]. split; [now apply blanked_block_shape|now apply lex_code_blanks_stable].
    + right. exists (a ++ [47; 42] ++ c ++ [42; 47] ++ a'), c'. split; [now rewrite <- !app_assoc|].
      split; [now apply eic_block|]. split; [assumption|].
      rewrite after_unclosed, <- text_bytes_app. now rewrite <- !app_assoc.
  - right. exists a, c. split; [reflexivity|]. split; [now apply eic_code|]. split; [assumption|now apply lex_unclosed].
Qed.

Lemma lex_ok_blanked : forall s t, lex_spec s = Ok t -> blanked s t.
Proof.
  intros s t H. destruct (lex_spec_cases s) as [(t' & E & Hb & _)|(a & c & _ & _ & _ & E)]; rewrite E in H.
  - now injection H as <-.
  - discriminate.
Qed.

Lemma lex_idempotent : forall s t, lex_spec s = Ok t -> lex_spec t = Ok t.
Proof.
  intros s t H. destruct (lex_spec_cases s) as [(t' & E & _ & Ht)|(a & c & _ & _ & _ & E)]; rewrite E in H.
  - now injection H as <-.
  - discriminate.
Qed.

Lemma lex_error_at_first_unclosed_opener : forall s o,
  lex_spec s = Err (UnclosedAt o) ->
  exists a c, s = a ++ [47; 42] ++ c /\ ends_in_code a /\ no_close c /\ o = text_bytes a.
Proof.
  intros s o H. destruct (lex_spec_cases s) as [(t' & E & _)|(a & c & Hs & Ha & Hc & E)]; rewrite E in H.
  - discriminate.
  - apply UnclosedAt_inj in H. now exists a, c.
Qed.

(* the whole file with its comments blanked out gives the same parser input *)
Lemma lex_blank_invariant : forall s, lex_spec (blank_comments s) = lex_spec s.
Proof.
  intro s. unfold blank_comments. destruct (lex_spec s) as [t| | |] eqn:E; try assumption.
  now apply lex_idempotent with (s := s).
Qed.

(* ANY single comment replaced by blanks of the same byte length, the rest of
   the file (other comments included) left alone: same parser input, same error *)
Lemma lex_one_block_comment_blanked : forall a c b, plain_code a -> block_comment c ->
  lex_spec (a ++ blanks c ++ b) = lex_spec (a ++ c ++ b).
Proof.
  intros a c b Hp (body & Hn & ->).
  replace (a ++ ([47; 42] ++ body ++ [42; 47]) ++ b) with (a ++ [47; 42] ++ body ++ [42; 47] ++ b)
    by (now rewrite <- !app_assoc).
  rewrite (lex_block a body b Hp Hn), (lex_prefix a _ Hp), (lex_prefix _ b (plain_code_blanks _)).
  destruct (lex_spec b) as [t|[| |z]|s|]; cbn [after]; try reflexivity.
  - now rewrite <- app_assoc.
  - rewrite text_bytes_blanks, (text_bytes_app a), Nat2Z.inj_add, Z.add_assoc. reflexivity.
Qed.

Lemma lex_one_line_comment_blanked : forall a c b, plain_code a -> line_comment c ->
  (b = [] \/ exists b', b = 10 :: b') ->
  lex_spec (a ++ blanks c ++ b) = lex_spec (a ++ c ++ b).
Proof.
  intros a c b Hp (body & Hn & ->) Hb.
  rewrite (lex_prefix a _ Hp), (lex_prefix _ b (plain_code_blanks _)).
  destruct Hb as [->|(b' & ->)].
  - rewrite !app_nil_r. rewrite (lex_line_eof a body Hp Hn).
    change (lex_spec []) with (Ok (@nil N)). cbn [after]. now rewrite app_nil_r.
  - replace (a ++ ([47; 47] ++ body) ++ 10 :: b') with (a ++ [47; 47] ++ body ++ [10] ++ b')
      by (now rewrite <- !app_assoc).
    rewrite (lex_line a body b' Hp Hn).
    change (10 :: b') with ([10] ++ b'). rewrite (lex_prefix [10] b' plain_code_newline).
    destruct (lex_spec b') as [t|[| |z]|s|]; cbn [after]; try reflexivity.
    + now rewrite <- !app_assoc.
    + rewrite text_bytes_blanks, !text_bytes_app. do 2 f_equal. cbn [text_bytes fold_right]. lia.
Qed.

Lemma unclosed_UnclosedAt : forall o, unclosed o = UnclosedAt o.
Proof. reflexivity. Qed.

Theorem preprocess_blanked : forall s t, preprocess s = Ok t -> blanked s t.
Proof. intros s t H. rewrite preprocess_refines_lexer in H. now apply lex_ok_blanked. Qed.

Theorem preprocess_length : forall s t, preprocess s = Ok t -> text_bytes t = text_bytes s.
Proof. intros s t H. now apply blanked_bytes, preprocess_blanked. Qed.

Theorem preprocess_boundaries : forall s t o, preprocess s = Ok t -> boundary s o -> boundary t o.
Proof. intros s t o H. apply blanked_boundary. now apply preprocess_blanked. Qed.

Theorem preprocess_scalar_positions : forall s t o c,
  preprocess s = Ok t -> scalar_at t o c -> c <> 32 -> scalar_at s o c.
Proof. intros s t o c H. apply blanked_scalar_at. now apply preprocess_blanked. Qed.

Theorem unclosed_comment_iff_open_block : forall s o,
  preprocess s = Err (unclosed o) <-> open_block_at_end s o.
Proof. intros s o. rewrite preprocess_refines_lexer. apply lex_unclosed_iff. Qed.

(* the reported offset is that of THE opener: the `/*` whose prefix ends outside
   every comment and that no `*/` follows; there is exactly one such
   decomposition ([unclosed_opener_unique]), so o is determined *)
Theorem unclosed_comment_at_first_unclosed_opener : forall s o,
  preprocess s = Err (unclosed o) <->
  exists a c, s = a ++ [47; 42] ++ c /\ ends_in_code a /\ no_close c /\ o = text_bytes a.
Proof.
  intros s o. rewrite preprocess_refines_lexer, unclosed_UnclosedAt. split.
  - apply lex_error_at_first_unclosed_opener.
  - intros (a & c & -> & Ha & Hc & ->). now apply lex_unclosed_after.
Qed.

Theorem unclosed_comment_location_is_byte_offset_of_opener : forall s o,
  preprocess s = Err (unclosed o) ->
  exists a c, s = a ++ [47; 42] ++ c /\ o = text_bytes a /\ no_close c.
Proof.
  intros s o H. apply unclosed_comment_at_first_unclosed_opener in H.
  destruct H as (a & c & E & _ & Hc & Ho). now exists a, c.
Qed.

Theorem preprocess_total : forall s,
  (exists t, preprocess s = Ok t) \/ exists o, preprocess s = Err (unclosed o).
Proof. intro s. rewrite preprocess_refines_lexer. apply lex_total. Qed.

Theorem blank_invariant : forall s, preprocess (blank_comments s) = preprocess s.
Proof. intro s. rewrite !preprocess_refines_lexer. apply lex_blank_invariant. Qed.

Theorem code_after_block_comment_kept : forall c s, block_comment c ->
  preprocess (c ++ s) = after c (blanks c) (preprocess s).
Proof.
  intros c s (body & Hn & ->). rewrite !preprocess_refines_lexer, <- !app_assoc.
  exact (lex_block [] body s plain_code_nil Hn).
Qed.

Theorem code_after_line_comment_kept : forall c s, line_comment c ->
  preprocess (c ++ [10] ++ s) = after (c ++ [10]) (blanks c ++ [10]) (preprocess s).
Proof.
  intros c s (body & Hn & ->). rewrite !preprocess_refines_lexer.
  exact (lex_line [] body s plain_code_nil Hn).
Qed.

(* the label range start .. start + 2 of the report lies inside the file, on
   scalar boundaries, and covers exactly the two bytes of the opener *)
Theorem unclosed_comment_range_valid : forall s o,
  preprocess s = Err (unclosed o) ->
  scalar_at s o 47 /\ scalar_at s (o + 1) 42 /\
  boundary s o /\ boundary s (o + 2) /\ (o + 2 <= text_bytes s)%nat.
Proof.
  intros s o H. destruct (unclosed_comment_location_is_byte_offset_of_opener s o H) as (a & c & -> & -> & _).
  repeat split.
  - now exists a, (42 :: c).
  - exists (a ++ [47]), c. split; [now rewrite <- app_assoc|]. rewrite text_bytes_app. reflexivity.
  - now exists a, ([47; 42] ++ c).
  - exists (a ++ [47; 42]), c. split; [now rewrite <- app_assoc|]. rewrite text_bytes_app. reflexivity.
  - rewrite !text_bytes_app. cbn [text_bytes fold_right scalar_bytes N.leb N.compare Pos.compare Pos.compare_cont]. lia.
Qed.

Theorem preprocess_plain : forall s, ~ has_pair 47 47 s -> ~ has_pair 47 42 s -> preprocess s = Ok s.
Proof. intros s. rewrite preprocess_refines_lexer. apply lex_plain. Qed.

Theorem preprocess_line_comment : forall a c b, plain_code a -> no_newline c ->
  preprocess (a ++ [47; 47] ++ c ++ [10] ++ b) =
  after (a ++ [47; 47] ++ c ++ [10]) (a ++ blanks ([47; 47] ++ c) ++ [10]) (preprocess b).
Proof. intros a c b. rewrite !preprocess_refines_lexer. apply lex_line. Qed.

Theorem preprocess_line_comment_eof : forall a c, plain_code a -> no_newline c ->
  preprocess (a ++ [47; 47] ++ c) = Ok (a ++ blanks ([47; 47] ++ c)).
Proof. intros a c. rewrite !preprocess_refines_lexer. apply lex_line_eof. Qed.

Theorem preprocess_block_comment : forall a c b, plain_code a -> no_close c ->
  preprocess (a ++ [47; 42] ++ c ++ [42; 47] ++ b) =
  after (a ++ [47; 42] ++ c ++ [42; 47]) (a ++ blanks ([47; 42] ++ c ++ [42; 47])) (preprocess b).
Proof. intros a c b. rewrite !preprocess_refines_lexer. apply lex_block. Qed.

Theorem preprocess_unclosed_comment : forall a c, plain_code a -> no_close c ->
  preprocess (a ++ [47; 42] ++ c) = Err (unclosed (text_bytes a)).
Proof. intros a c. rewrite !preprocess_refines_lexer. apply lex_unclosed. Qed.

Theorem one_block_comment_blanked : forall a c b, plain_code a -> block_comment c ->
  preprocess (a ++ blanks c ++ b) = preprocess (a ++ c ++ b).
Proof. intros a c b. rewrite !preprocess_refines_lexer. apply lex_one_block_comment_blanked. Qed.

Theorem one_line_comment_blanked : forall a c b, plain_code a -> line_comment c ->
  (b = [] \/ exists b', b = 10 :: b') ->
  preprocess (a ++ blanks c ++ b) = preprocess (a ++ c ++ b).
Proof. intros a c b. rewrite !preprocess_refines_lexer. apply lex_one_line_comment_blanked. Qed.
