(* C14, SSA construction: the invariant of the dominator-tree walk
   [rename_tree].  A ghost log records, for every block already renamed, the
   environment in which its statements were renamed, the renamed statements (phi
   arguments stripped) and the environment at its end.  For ALL children tables
   whose pre-order holds no block twice:
     - an unvisited block is still its block after phi insertion, up to phi arguments;
     - a visited block is the recorded output, up to phi arguments;
     - for every visited block p and every successor s of p, every phi at the head
       of s lists the version that ran at the end of p (ensure_phi_arg);
     - a block is renamed in the scope opened on top of the environment at the end
       of its parent in the tree (push_scope / pop_scope discipline). *)
From Coq Require Import ZArith NArith List Bool Arith.
Require Import Model.Base Model.Ir Model.SsaCheck Model.SsaErase Model.Ssa Model.SsaPre.
Require Import Proofs.IrInd Proofs.IrFacts Proofs.SsaNoPanic Proofs.SsaConstruction Proofs.SsaProofs Proofs.SsaRenameSem.
Import ListNotations.

Definition strip (s : stmt) : stmt :=
  match s with SSubst m x op (EPhi _ k) sv st => SSubst m x op (EPhi [] k) sv st | _ => s end.

Lemma strip_not_phi s : is_phi_stmt s = false -> strip s = s.
Proof. destruct s as [| | |m v op rhe sv st| | |]; try reflexivity. destruct rhe; try reflexivity. discriminate. Qed.

Lemma is_phi_strip s : is_phi_stmt (strip s) = is_phi_stmt s.
Proof. destruct s as [| | |m v op rhe sv st| | |]; try reflexivity. destruct rhe; reflexivity. Qed.

Lemma stmt_def_strip s : stmt_def (strip s) = stmt_def s.
Proof. destruct s as [| | |m v op rhe sv st| | |]; try reflexivity. destruct rhe; reflexivity. Qed.

Lemma track_strip m s : track m (strip s) = track m s.
Proof. unfold track. rewrite stmt_def_strip. reflexivity. Qed.

Lemma strip_ensure env s : strip (ensure_phi_arg env s) = strip s.
Proof. apply (ensure_phi_arg_same strip). reflexivity. Qed.

Lemma strip_update_phis env : forall ss, map strip (update_phis env ss) = map strip ss.
Proof.
  induction ss as [|s tl IH]; simpl; [reflexivity|]. destruct (is_phi_stmt s); [|reflexivity].
  simpl. rewrite strip_ensure, IH. reflexivity.
Qed.

Section Strip.
Variable decls : list (vname * vtype).

Lemma ssa_stmt_is_phi s env s' env' : ssa_stmt decls env s = SOk (s', env') -> is_phi_stmt s' = is_phi_stmt s.
Proof.
  apply (ssa_stmt_cases decls (fun _ s s' _ => is_phi_stmt s' = is_phi_stmt s)); try reflexivity.
  intros env0 m v op rhe sv st rhe' env1 v' env2 _ E _. rewrite !is_phi_stmt_subst. exact (ssa_expr_is_phi _ _ _ _ _ E).
Qed.

Lemma ssa_stmt_strip s env s' env' :
  ssa_stmt decls env s = SOk (s', env') -> ssa_stmt decls env (strip s) = SOk (strip s', env').
Proof.
  intros H. destruct (is_phi_stmt s) eqn:Ep.
  - destruct s as [| | |m v op rhe sv st| | |]; try discriminate Ep. destruct rhe; try discriminate Ep.
    cbn [strip ssa_stmt ssa_expr sbind] in *. destruct (vn_version v); [discriminate|].
    destruct (is_local_in decls v); [destruct (next_version env v)|]; inversion H; reflexivity.
  - pose proof (ssa_stmt_is_phi _ _ _ _ H) as Hp. rewrite Ep in Hp.
    rewrite (strip_not_phi s Ep), (strip_not_phi s' Hp). exact H.
Qed.

Lemma ssa_stmts_strip : forall ss env ss' env',
  ssa_stmts decls env ss = SOk (ss', env') -> ssa_stmts decls env (map strip ss) = SOk (map strip ss', env').
Proof.
  induction ss as [|s tl IH]; intros env ss' env' H; simpl in H.
  - inversion H. reflexivity.
  - sb2 H. sb2 H. inversion H; subst. cbn [map ssa_stmts].
    rewrite (ssa_stmt_strip _ _ _ _ E). cbn [sbind]. rewrite (IH _ _ _ E0). reflexivity.
Qed.

(* a renamed phi keeps its key and its arguments *)
Definition phi_kept (s s' : stmt) : Prop :=
  is_phi_stmt s' = is_phi_stmt s /\
  forall x' a', phi_parts s' = Some (x', a') -> exists x, phi_parts s = Some (x, a') /\ key_of x = key_of x'.

Lemma ssa_stmt_phi_kept s env s' env' : ssa_stmt decls env s = SOk (s', env') -> phi_kept s s'.
Proof.
  intros H. split; [eapply ssa_stmt_is_phi; exact H|]. intros x' a' Hp.
  assert (Hphi : is_phi_stmt s = true).
  { rewrite <- (ssa_stmt_is_phi _ _ _ _ H). destruct s' as [| | |m v op rhe sv st| | |]; try discriminate Hp.
    destruct rhe; try discriminate Hp. reflexivity. }
  destruct s as [| | |m v op rhe sv st| | |]; try discriminate Hphi. destruct rhe; try discriminate Hphi.
  cbn [ssa_stmt ssa_expr sbind] in H. destruct (vn_version v); [discriminate|].
  destruct (is_local_in decls v); [destruct (next_version env v)|]; inversion H; subst; cbn in Hp; inversion Hp; subst;
    eexists; split; reflexivity.
Qed.

Lemma ssa_stmts_forall2 (R : stmt -> stmt -> Prop) :
  (forall env s s' env', ssa_stmt decls env s = SOk (s', env') -> R s s') ->
  forall ss env ss' env', ssa_stmts decls env ss = SOk (ss', env') -> Forall2 R ss ss'.
Proof.
  intros HR. induction ss as [|s tl IH]; intros env ss' env' H; simpl in H.
  - inversion H. constructor.
  - sb2 H. sb2 H. inversion H; subst. constructor; [eapply HR; exact E|eapply IH; exact E0].
Qed.

(* the scope stack below the innermost scope is not touched *)
Definition tail_kept (e e' : senv) : Prop :=
  se_scoped e <> [] -> se_scoped e' <> [] /\ tl (se_scoped e') = tl (se_scoped e).

Lemma ssa_stmts_tail ss env ss' env' : ssa_stmts decls env ss = SOk (ss', env') -> tail_kept env env'.
Proof.
  apply (ssa_stmts_rel decls tail_kept); unfold tail_kept.
  - intros e H. auto.
  - intros a b c H1 H2 Ha. destruct (H1 Ha) as [Hb E1]. destruct (H2 Hb) as [Hc E2]. split; [exact Hc|congruence].
  - intros e v He. unfold next_version. cbn [snd se_scoped]. destruct (se_scoped e); [congruence|]. split; [discriminate|reflexivity].
Qed.
End Strip.

Definition phis_of (b : block) : list stmt := fst (leading_phis (b_stmts b)).

Lemma leading_phis_forall2 (R : stmt -> stmt -> Prop) :
  (forall s s', R s s' -> is_phi_stmt s' = is_phi_stmt s) ->
  forall ss ss', Forall2 R ss ss' -> Forall2 R (fst (leading_phis ss)) (fst (leading_phis ss')).
Proof.
  intros HR ss ss' H. induction H as [|s s' tl tl' Hs Ht IH]; simpl; [constructor|].
  rewrite (HR _ _ Hs). destruct (is_phi_stmt s); [|constructor].
  destruct (leading_phis tl), (leading_phis tl'). simpl in *. constructor; assumption.
Qed.

Lemma leading_phis_update env : forall ss,
  leading_phis (update_phis env ss) = (map (ensure_phi_arg env) (fst (leading_phis ss)), snd (leading_phis ss)).
Proof.
  induction ss as [|s tl IH]; simpl; [reflexivity|]. destruct (is_phi_stmt s) eqn:Ep.
  - simpl. rewrite ensure_phi_arg_phi, Ep, IH. destruct (leading_phis tl). reflexivity.
  - simpl. rewrite Ep. reflexivity.
Qed.

(* the arguments of a phi name the variable of the phi *)
Definition args_keyed (b : block) : Prop :=
  forall p x args a, In p (phis_of b) -> phi_parts p = Some (x, args) -> In a args -> key_of a = key_of x.

(* every phi of b' is a phi of b with possibly more arguments *)
Definition phis_ge (b b' : block) : Prop :=
  forall p' x' args', In p' (phis_of b') -> phi_parts p' = Some (x', args') ->
    exists p x args, In p (phis_of b) /\ phi_parts p = Some (x, args) /\ key_of x = key_of x' /\ incl args args'.

(* every phi of the block lists the version that runs in [env] *)
Definition okenv (env : senv) (b : block) : Prop :=
  forall p x args, In p (phis_of b) -> phi_parts p = Some (x, args) -> phi_arg_ok (cur_version env x) x args = true.

Lemma phi_arg_ok_mono o x x' args args' :
  phi_arg_ok o x args = true -> key_of x = key_of x' -> incl args args' -> phi_arg_ok o x' args' = true.
Proof.
  unfold phi_arg_ok. destruct o as [n|]; [|reflexivity]. intros H Hk Hi. apply existsb_exists in H.
  destruct H as (a & Ha & Hok). apply existsb_exists. exists a. split; [apply Hi; exact Ha|]. rewrite <- Hk. exact Hok.
Qed.

Lemma okenv_ge env b b' : okenv env b -> phis_ge b b' -> okenv env b'.
Proof.
  intros Ho Hg p' x' args' Hp' Hpp. destruct (Hg _ _ _ Hp' Hpp) as (p & x & args & Hp & Hpa & Hk & Hi).
  assert (E : cur_version env x' = cur_version env x) by (unfold cur_version; rewrite Hk; reflexivity).
  rewrite E. eapply phi_arg_ok_mono; [eapply Ho; eassumption|exact Hk|exact Hi].
Qed.

Lemma phis_ge_refl b : phis_ge b b.
Proof. intros p x args Hp Hpp. exists p, x, args. repeat split; auto. apply incl_refl. Qed.

Lemma phis_ge_trans a b c : phis_ge a b -> phis_ge b c -> phis_ge a c.
Proof.
  intros H1 H2 p x args Hp Hpp. destruct (H2 _ _ _ Hp Hpp) as (p1 & x1 & a1 & Hp1 & Hpp1 & K1 & I1).
  destruct (H1 _ _ _ Hp1 Hpp1) as (p0 & x0 & a0 & Hp0 & Hpp0 & K0 & I0).
  exists p0, x0, a0. repeat split; auto; [congruence|]. eapply incl_tran; eassumption.
Qed.

Definition upd_block (env : senv) (b : block) : block := set_stmts b (update_phis env (b_stmts b)).

Lemma phis_of_upd env b : phis_of (upd_block env b) = map (ensure_phi_arg env) (phis_of b).
Proof. unfold phis_of, upd_block. cbn [set_stmts b_stmts]. rewrite leading_phis_update. reflexivity. Qed.

(* a phi of the updated block is a phi of the block with possibly one more argument, and
   then lists the version that runs in [env] *)
Lemma upd_block_phi env b p' x args' : In p' (phis_of (upd_block env b)) -> phi_parts p' = Some (x, args') ->
  exists p args, In p (phis_of b) /\ phi_parts p = Some (x, args) /\ incl args args' /\
    ((forall a, In a args -> key_of a = key_of x) ->
     (forall a, In a args' -> key_of a = key_of x) /\ phi_arg_ok (cur_version env x) x args' = true).
Proof.
  intros Hp' Hpp. rewrite phis_of_upd in Hp'. apply in_map_iff in Hp' as (p & <- & Hp). exists p.
  destruct p as [| | |m v op rhe sv st| | |]; try discriminate Hpp. destruct rhe; try discriminate Hpp.
  unfold ensure_phi_arg in Hpp. destruct (cur_version env v) as [n|] eqn:Ec.
  - destruct (existsb (fun a => opt_eqb N.eqb (vn_version a) (Some n)) args) eqn:Ex; cbn in Hpp; inversion Hpp; subst; rewrite Ec.
    + exists args'. split; [exact Hp|]. split; [reflexivity|]. split; [apply incl_refl|]. intros Hk. split; [exact Hk|].
      cbn [phi_arg_ok]. apply existsb_exists in Ex. destruct Ex as (a & Ha & Hv). apply existsb_exists. exists a.
      split; [exact Ha|]. rewrite (Hk a Ha), key_eqb_refl, Hv. reflexivity.
    + exists args. split; [exact Hp|]. split; [reflexivity|]. split; [apply incl_appl; apply incl_refl|]. intros Hk. split.
      * intros a Ha. apply in_app_or in Ha. destruct Ha as [Ha|[<-|[]]]; [apply Hk; exact Ha|reflexivity].
      * cbn [phi_arg_ok]. apply existsb_exists. exists (with_version x n). split; [apply in_or_app; right; left; reflexivity|].
        change (key_of (with_version x n)) with (key_of x). rewrite key_eqb_refl. cbn. apply N.eqb_refl.
  - destruct (existsb (vname_eqb (without_version v)) args); cbn in Hpp; inversion Hpp; subst; rewrite Ec.
    + exists args'. split; [exact Hp|]. split; [reflexivity|]. split; [apply incl_refl|]. intros Hk. split; [exact Hk|reflexivity].
    + exists args. split; [exact Hp|]. split; [reflexivity|]. split; [apply incl_appl; apply incl_refl|]. intros Hk. split; [|reflexivity].
      intros a Ha. apply in_app_or in Ha. destruct Ha as [Ha|[<-|[]]]; [apply Hk; exact Ha|reflexivity].
Qed.

(* what every later step does to a block *)
Definition bstep (b b' : block) : Prop :=
  b_succs b' = b_succs b /\ phis_ge b b' /\ (args_keyed b -> args_keyed b').
Definition ustep (b b' : block) : Prop := bstep b b' /\ map strip (b_stmts b') = map strip (b_stmts b).

Lemma bstep_refl b : bstep b b.
Proof. split; [reflexivity|]. split; [apply phis_ge_refl|auto]. Qed.
Lemma bstep_trans a b c : bstep a b -> bstep b c -> bstep a c.
Proof.
  intros (S1 & G1 & K1) (S2 & G2 & K2). split; [congruence|]. split; [eapply phis_ge_trans; eassumption|auto].
Qed.
Lemma ustep_refl b : ustep b b.
Proof. split; [apply bstep_refl|reflexivity]. Qed.
Lemma ustep_trans a b c : ustep a b -> ustep b c -> ustep a c.
Proof. intros [B1 S1] [B2 S2]. split; [eapply bstep_trans; eassumption|congruence]. Qed.

Lemma upd_block_ustep env b : ustep b (upd_block env b).
Proof.
  split; [split; [reflexivity|split]|].
  - intros p' x' args' Hp' Hpp. destruct (upd_block_phi env b p' x' args' Hp' Hpp) as (p & args & Hp & Hx & Hi & _).
    exists p, x', args. auto.
  - intros Hk p' x' args' a Hp' Hpp. destruct (upd_block_phi env b p' x' args' Hp' Hpp) as (p & args & Hp & Hx & _ & Hok).
    apply (Hok (fun a0 Ha0 => Hk p x' args a0 Hp Hx Ha0)).
  - unfold upd_block. cbn [set_stmts b_stmts]. apply strip_update_phis.
Qed.

Lemma upd_block_okenv env b : args_keyed b -> okenv env (upd_block env b).
Proof.
  intros Hk p' x' args' Hp' Hpp. destruct (upd_block_phi env b p' x' args' Hp' Hpp) as (p & args & Hp & Hx & _ & Hok).
  apply (Hok (fun a0 Ha0 => Hk p x' args a0 Hp Hx Ha0)).
Qed.

(* renaming the statements of a block keeps its phis (key and arguments) *)
Lemma rename_block_bstep decls env b ss env' : ssa_stmts decls env (b_stmts b) = SOk (ss, env') -> bstep b (set_stmts b ss).
Proof.
  intros E.
  assert (Hkept : forall p' x' args', In p' (phis_of (set_stmts b ss)) -> phi_parts p' = Some (x', args') ->
            exists p x, In p (phis_of b) /\ phi_parts p = Some (x, args') /\ key_of x = key_of x').
  { intros p' x' args' Hp' Hpp.
    assert (HF : Forall2 phi_kept (phis_of b) (phis_of (set_stmts b ss))).
    { apply leading_phis_forall2; [intros s s' [Hp _]; exact Hp|].
      eapply ssa_stmts_forall2; [|exact E]. intros. eapply ssa_stmt_phi_kept. eassumption. }
    destruct (forall2_in _ _ _ _ HF Hp') as (p & Hp & (_ & Hk)). destruct (Hk _ _ Hpp) as (x & Hx & Hkx). eauto. }
  split; [reflexivity|]. split.
  - intros p' x' args' Hp' Hpp. destruct (Hkept _ _ _ Hp' Hpp) as (p & x & Hp & Hx & Hkx).
    exists p, x, args'. repeat split; auto. apply incl_refl.
  - intros Hk p' x' args' a Hp' Hpp Ha. destruct (Hkept _ _ _ Hp' Hpp) as (p & x & Hp & Hx & Hkx).
    rewrite <- Hkx. eapply Hk; eassumption.
Qed.

Definition lstep (R : block -> block -> Prop) (bs bs' : list block) : Prop :=
  length bs' = length bs /\ forall i b', nth_error bs' i = Some b' -> exists b, nth_error bs i = Some b /\ R b b'.

Lemma lstep_forall2 (R : block -> block -> Prop) : forall bs bs', lstep R bs bs' -> Forall2 R bs bs'.
Proof.
  induction bs as [|b tl IH]; intros [|b' tl'] [L H]; try discriminate L; constructor.
  - destruct (H 0 b' eq_refl) as (b0 & [= <-] & Hr). exact Hr.
  - apply IH. split; [injection L; auto|]. intros i. exact (H (S i)).
Qed.

Lemma usp_ustep env : forall succs bs, Forall2 ustep bs (update_succ_phis env succs bs).
Proof.
  induction succs as [|s tl IH]; intros bs; simpl; [apply forall2_refl, ustep_refl|].
  eapply forall2_comp; [apply ustep_trans| |apply IH].
  apply forall2_update_nth; [apply forall2_refl, ustep_refl|]. intros b0 b _ _ Hr. eapply ustep_trans; [exact Hr|apply upd_block_ustep].
Qed.

Lemma keyed_step bs bs' : Forall2 bstep bs bs' -> (forall i b, nth_error bs i = Some b -> args_keyed b) ->
  forall i b', nth_error bs' i = Some b' -> args_keyed b'.
Proof. intros H Hk i b' Hb'. destruct (forall2_nth _ _ _ _ _ H Hb') as (b & Hb & (_ & _ & K)). apply K. eapply Hk. exact Hb. Qed.

Lemma ustep_bstep b b' : ustep b b' -> bstep b b'.
Proof. intros [H _]. exact H. Qed.

Lemma usp_okenv env : forall succs bs,
  (forall i b, nth_error bs i = Some b -> args_keyed b) ->
  forall s b', In s succs -> nth_error (update_succ_phis env succs bs) (N.to_nat s) = Some b' -> okenv env b'.
Proof.
  induction succs as [|s0 tl IH]; intros bs Hk s b' Hs Hb'; [destruct Hs|]. simpl in Hb'.
  assert (H1 : Forall2 ustep bs (update_nth bs (N.to_nat s0) (upd_block env))).
  { apply forall2_update_nth; [apply forall2_refl, ustep_refl|]. intros b0 b _ _ Hr. eapply ustep_trans; [exact Hr|apply upd_block_ustep]. }
  set (bs1 := update_nth bs (N.to_nat s0) (upd_block env)) in *.
  pose proof (keyed_step bs bs1 (forall2_impl _ _ ustep_bstep _ _ H1) Hk) as Hk1.
  destruct Hs as [->|Hs]; [|eapply IH; eassumption].
  destruct (forall2_nth _ _ _ _ _ (usp_ustep env tl bs1) Hb') as (bm & Hbm & ((_ & G & _) & _)).
  eapply okenv_ge; [|exact G].
  destruct (forall2_nth _ _ _ _ _ H1 Hbm) as (b & E & _).
  unfold bs1 in Hbm. rewrite (update_nth_same (upd_block env) bs _ b E) in Hbm. inversion Hbm; subst bm.
  apply upd_block_okenv. eapply Hk. exact E.
Qed.

Record lentry := { le_idx : nat; le_in : senv; le_ss : list stmt; le_out : senv }.

Section Walk.
Variable decls : list (vname * vtype).
Variable children : list (list N).
Variable bs1 : list block.      (* the blocks after phi insertion *)

Definition parent_of (pe e : lentry) : Prop :=
  In (le_idx e) (kids children (le_idx pe)) /\ se_scoped (le_in e) = [] :: se_scoped (le_out pe).

(* ancestry among the entries of a log L *)
Inductive eanc (L : list lentry) (a : lentry) : lentry -> Prop :=
| eanc_refl : In a L -> eanc L a a
| eanc_step b c : eanc L a b -> In c L -> parent_of b c -> eanc L a c.

Lemma eanc_in_l L a b : eanc L a b -> In a L.
Proof. induction 1; assumption. Qed.
Lemma eanc_in_r L a b : eanc L a b -> In b L.
Proof. induction 1; assumption. Qed.

Lemma eanc_incl L L' a b : incl L L' -> eanc L a b -> eanc L' a b.
Proof.
  intros Hi H. induction H as [He|y z Hxy IH Hz Hyz].
  - apply eanc_refl. apply Hi. exact He.
  - eapply eanc_step; [exact IH|apply Hi; exact Hz|exact Hyz].
Qed.

Lemma eanc_cons L a b c : In a L -> parent_of a b -> eanc L b c -> eanc L a c.
Proof.
  intros Ha Hab Hbc. induction Hbc as [He|y z Hxy IH Hz Hyz].
  - eapply eanc_step; [apply eanc_refl; exact Ha|exact He|exact Hab].
  - eapply eanc_step; [exact IH|exact Hz|exact Hyz].
Qed.

Lemma eanc_trans L a b c : eanc L a b -> eanc L b c -> eanc L a c.
Proof.
  intros Hab Hbc. induction Hbc as [He|y z Hxy IH Hz Hyz]; [exact Hab|].
  eapply eanc_step; [exact IH|exact Hz|exact Hyz].
Qed.

Record inv2 (bs : list block) (log : list lentry) : Prop := {
  i_len : length bs = length bs1;
  i_succs : forall i b b1, nth_error bs i = Some b -> nth_error bs1 i = Some b1 -> b_succs b = b_succs b1;
  i_keyed : forall i b, nth_error bs i = Some b -> args_keyed b;
  i_run : forall e, In e log -> exists b1, nth_error bs1 (le_idx e) = Some b1 /\
            ssa_stmts decls (le_in e) (b_stmts b1) = SOk (le_ss e, le_out e) /\ se_scoped (le_in e) <> [];
  i_done : forall e, In e log -> exists b, nth_error bs (le_idx e) = Some b /\ map strip (b_stmts b) = le_ss e;
  i_todo : forall i b, ~ In i (map le_idx log) -> nth_error bs i = Some b ->
            exists b1, nth_error bs1 i = Some b1 /\ map strip (b_stmts b) = b_stmts b1;
  i_args : forall e s b1 bsucc, In e log -> nth_error bs1 (le_idx e) = Some b1 -> In s (b_succs b1) ->
            nth_error bs (N.to_nat s) = Some bsucc -> okenv (le_out e) bsucc
}.

(* the blocks change by [bstep], and up to phi arguments only where the blocks of the
   new entries are renamed; every new entry comes with its run, its output and the
   arguments in its successors *)
Lemma inv2_step bs bs' log new : inv2 bs log -> Forall2 bstep bs bs' ->
  (forall i b b', ~ In i (map le_idx new) -> nth_error bs i = Some b -> nth_error bs' i = Some b' ->
     map strip (b_stmts b') = map strip (b_stmts b)) ->
  (forall e, In e log -> ~ In (le_idx e) (map le_idx new)) ->
  (forall e, In e new -> exists b1 b', nth_error bs1 (le_idx e) = Some b1 /\
     ssa_stmts decls (le_in e) (b_stmts b1) = SOk (le_ss e, le_out e) /\ se_scoped (le_in e) <> [] /\
     nth_error bs' (le_idx e) = Some b' /\ map strip (b_stmts b') = le_ss e /\
     forall s bsucc, In s (b_succs b1) -> nth_error bs' (N.to_nat s) = Some bsucc -> okenv (le_out e) bsucc) ->
  inv2 bs' (log ++ new).
Proof.
  intros [I1 I2 I3 I4 I5 I6 I7] HL Hst Hdis Hnew. pose proof (fun i b' => forall2_nth _ _ _ i b' HL) as H. constructor.
  - rewrite (forall2_length _ _ _ HL). exact I1.
  - intros i b' b1 Hb' Hb1. destruct (H _ _ Hb') as (b & Hb & (S & _)). rewrite S. eapply I2; eassumption.
  - exact (keyed_step bs bs' HL I3).
  - intros e He. apply in_app_or in He as [He|He]; [exact (I4 e He)|].
    destruct (Hnew e He) as (b1 & b' & Hb1 & Hr & Hne & _). eauto.
  - intros e He. apply in_app_or in He as [He|He].
    + destruct (I5 e He) as (b & Hb & Hs). destruct (forall2_nth_fwd _ _ _ _ _ HL Hb) as (b' & Hb' & _).
      exists b'. split; [exact Hb'|]. rewrite (Hst _ _ _ (Hdis e He) Hb Hb'). exact Hs.
    + destruct (Hnew e He) as (b1 & b' & _ & _ & _ & Hb' & Hs & _). eauto.
  - intros i b' Hi Hb'. rewrite map_app in Hi. destruct (H _ _ Hb') as (b & Hb & _).
    destruct (I6 i b) as (b1 & Hb1 & Hs); [intros Hin; apply Hi; apply in_or_app; left; exact Hin|exact Hb|].
    exists b1. split; [exact Hb1|]. rewrite <- Hs. apply (Hst i b b'); [|exact Hb|exact Hb'].
    intros Hin. apply Hi. apply in_or_app. right. exact Hin.
  - intros e s b1 bsucc' He Hb1 Hs Hbs'. apply in_app_or in He as [He|He].
    + destruct (H _ _ Hbs') as (bsucc & Hbs & (_ & G & _)). eapply okenv_ge; [eapply I7; eassumption|exact G].
    + destruct (Hnew e He) as (b1' & b' & Hb1' & _ & _ & _ & _ & Hok). rewrite Hb1 in Hb1'. inversion Hb1'; subst b1'.
      eapply Hok; eassumption.
Qed.

(* phi-argument updates keep the invariant *)
Lemma inv2_ustep bs bs' log : inv2 bs log -> lstep ustep bs bs' -> inv2 bs' log.
Proof.
  intros Hi HU. apply lstep_forall2 in HU. rewrite <- (app_nil_r log).
  apply (inv2_step bs bs' log [] Hi (forall2_impl _ _ ustep_bstep _ _ HU)).
  - intros i b b' _ Hb Hb'. destruct (forall2_nth _ _ _ _ _ HU Hb') as (b0 & Hb0 & (_ & St)). congruence.
  - intros e _ [].
  - intros e [].
Qed.

(* block [cur] is renamed and the versions at its end are pushed into its successors *)
Lemma inv2_visit bs log cur b env ss1 env1 :
  inv2 bs log -> nth_error bs cur = Some b -> ~ In cur (map le_idx log) ->
  ssa_stmts decls env (b_stmts b) = SOk (ss1, env1) -> se_scoped env <> [] ->
  inv2 (update_succ_phis env1 (b_succs b) (update_nth bs cur (fun b0 => set_stmts b0 ss1)))
       (log ++ [{| le_idx := cur; le_in := env; le_ss := map strip ss1; le_out := env1 |}]).
Proof.
  intros Hi Eb Hcur E Hne.
  destruct (i_todo _ _ Hi cur b Hcur Eb) as (b1 & Hb1 & Hstrip).
  pose proof (ssa_stmts_strip decls _ _ _ _ E) as Erun. rewrite Hstrip in Erun.
  set (bsA := update_nth bs cur (fun b0 => set_stmts b0 ss1)).
  assert (HA : Forall2 bstep bs bsA).
  { apply forall2_update_nth; [apply forall2_refl, bstep_refl|]. intros b0 b2 Hb0 Hb2 _. rewrite Eb in Hb0, Hb2. inversion Hb0; inversion Hb2; subst b0 b2.
    eapply rename_block_bstep. exact E. }
  pose proof (usp_ustep env1 (b_succs b) bsA) as HU.
  apply (inv2_step bs _ log [_] Hi).
  - eapply forall2_comp; [apply bstep_trans|exact HA|exact (forall2_impl _ _ ustep_bstep _ _ HU)].
  - intros i b0 b' Hi0 Hb0 Hb'. destruct (forall2_nth _ _ _ _ _ HU Hb') as (bA & HbA & (_ & St)). rewrite St.
    unfold bsA in HbA. rewrite update_nth_other in HbA by (intros ->; apply Hi0; left; reflexivity). congruence.
  - intros e He [Heq|[]]. apply Hcur. cbn [le_idx] in Heq. rewrite Heq. apply in_map. exact He.
  - intros e [<-|[]]. cbn [le_idx le_in le_ss le_out].
    destruct (forall2_nth_fwd _ _ _ _ _ HU (update_nth_same (fun b0 => set_stmts b0 ss1) bs cur b Eb)) as (bB & HbB & (_ & St)).
    exists b1, bB. repeat split; auto. intros s bsucc Hs Hbs.
    eapply (usp_okenv env1 (b_succs b) bsA); [exact (keyed_step bs bsA HA (i_keyed _ _ Hi))| |exact Hbs].
    rewrite (i_succs _ _ Hi _ _ _ Eb Hb1). exact Hs.
Qed.

(* the walk below [cur] adds to the log the entry of [cur] and then, in pre-order, entries
   that descend from it, and ends in the scopes of the end of [cur] *)
Definition tree_log (fuel : nat) : Prop := forall cur bs env bs' env' log,
  rename_tree fuel decls children cur bs env = SOk (bs', env') ->
  inv2 bs log -> (forall i, In i (preorder fuel children cur) -> ~ In i (map le_idx log)) ->
  NoDup (preorder fuel children cur) -> se_scoped env <> [] ->
  exists ecur new,
    inv2 bs' (log ++ ecur :: new) /\ map le_idx (ecur :: new) = preorder fuel children cur /\
    le_idx ecur = cur /\ le_in ecur = env /\ se_scoped env' = se_scoped (le_out ecur) /\
    (forall e, In e (ecur :: new) -> eanc (ecur :: new) ecur e).

Lemma rename_kids_log fuel ecur : tree_log fuel -> forall kidl l e l' e' logk,
  rename_kids fuel decls children kidl l e = SOk (l', e') -> inv2 l logk -> In ecur logk ->
  se_scoped e = se_scoped (le_out ecur) ->
  (forall k, In k kidl -> In (N.to_nat k) (kids children (le_idx ecur))) ->
  (forall i, In i (flat_map (fun k => preorder fuel children (N.to_nat k)) kidl) -> ~ In i (map le_idx logk)) ->
  NoDup (flat_map (fun k => preorder fuel children (N.to_nat k)) kidl) ->
  exists newk, inv2 l' (logk ++ newk) /\
    map le_idx newk = flat_map (fun k => preorder fuel children (N.to_nat k)) kidl /\
    se_scoped e' = se_scoped e /\ (forall x, In x newk -> eanc (ecur :: newk) ecur x).
Proof.
  intros IH. induction kidl as [|k ktl IHk]; intros l e l' e' logk Hk Hl Hec Hsc Hkids Hfr Hndk; simpl in Hk.
  - inversion Hk; subst. exists []. rewrite app_nil_r.
    split; [exact Hl|]. split; [reflexivity|]. split; [reflexivity|]. intros x [].
  - sb2 Hk. rename x into la. rename env into ea. cbn [flat_map] in Hfr, Hndk.
    destruct (IH _ _ _ _ _ logk E Hl) as (ek & newk1 & Ia & Hidx & Hik & Hin & Hsa & Hanc).
    { intros i Hi0. apply Hfr. apply in_or_app. left. exact Hi0. }
    { eapply NoDup_app_l. exact Hndk. }
    { discriminate. }
    (* the child is renamed in a fresh scope on top of the end of [ecur] *)
    assert (Hpar : parent_of ecur ek).
    { split; [rewrite Hik; apply Hkids; left; reflexivity|]. rewrite Hin. cbn [push_scope se_scoped]. rewrite Hsc. reflexivity. }
    destruct (i_run _ _ Ia ek) as (bk1 & _ & Hrunk & Hnek); [apply in_or_app; right; left; reflexivity|].
    destruct (ssa_stmts_tail decls _ _ _ _ Hrunk Hnek) as [Hneo Htlo].
    assert (Hpop : se_scoped (pop_scope ea) = se_scoped e).
    { unfold pop_scope. cbn [se_scoped]. rewrite Hsa. rewrite Hin in Htlo. cbn [push_scope se_scoped tl] in Htlo.
      destruct (se_scoped (le_out ek)); [congruence|]. exact Htlo. }
    destruct (IHk la (pop_scope ea) l' e' (logk ++ ek :: newk1) Hk Ia) as (newk2 & Ib & Hidx2 & Hsc2 & Hanc2).
    + apply in_or_app. left. exact Hec.
    + rewrite Hpop. exact Hsc.
    + intros k0 Hk0. apply Hkids. right. exact Hk0.
    + intros i Hi0 Hin0. rewrite map_app in Hin0. apply in_app_or in Hin0. destruct Hin0 as [Hin0|Hin0].
      * apply (Hfr i); [apply in_or_app; right; exact Hi0|exact Hin0].
      * rewrite Hidx in Hin0. exact (NoDup_app_disjoint _ _ Hndk i Hin0 Hi0).
    + eapply NoDup_app_r. exact Hndk.
    + exists ((ek :: newk1) ++ newk2). rewrite app_assoc. split; [exact Ib|]. split; [|split].
      * rewrite map_app, Hidx, Hidx2. reflexivity.
      * rewrite Hsc2. exact Hpop.
      * intros x Hx. apply in_app_or in Hx. destruct Hx as [Hx|Hx].
        -- eapply eanc_cons; [left; reflexivity|exact Hpar|].
           eapply eanc_incl; [|apply Hanc; exact Hx]. intros y Hy. right. apply in_or_app. left. exact Hy.
        -- eapply eanc_incl; [|apply Hanc2; exact Hx]. intros y [<-|Hy]; [left; reflexivity|].
           right. apply in_or_app. right. exact Hy.
Qed.

Lemma rename_tree_log : forall fuel, tree_log fuel.
Proof.
  induction fuel as [|fuel IH]; intros cur bs env bs' env' log H Hi Hfresh Hnd Hne; [discriminate H|].
  rewrite rename_tree_unfold in H.
  destruct (nth_error bs cur) as [b|] eqn:Eb; [|discriminate].
  sb2 H. rename x into ss1. rename env0 into env1. cbn [preorder] in Hfresh, Hnd.
  assert (Hcur : ~ In cur (map le_idx log)) by (apply Hfresh; left; reflexivity).
  pose proof (inv2_visit bs log cur b env ss1 env1 Hi Eb Hcur E Hne) as IB.
  set (ecur := {| le_idx := cur; le_in := env; le_ss := map strip ss1; le_out := env1 |}) in *.
  inversion Hnd as [|? ? Hcn Hndk]; subst.
  destruct (rename_kids_log fuel ecur IH _ _ _ _ _ (log ++ [ecur]) H IB) as (newk & If & Hidx & Hsc & Hanc).
  - apply in_or_app. right. left. reflexivity.
  - reflexivity.
  - intros k Hk. unfold kids. apply in_map. exact Hk.
  - intros i Hi0 Hin0. rewrite map_app in Hin0. apply in_app_or in Hin0. destruct Hin0 as [Hin0|[<-|[]]].
    + apply (Hfresh i); [right; exact Hi0|exact Hin0].
    + exact (Hcn Hi0).
  - exact Hndk.
  - exists ecur, newk. rewrite <- app_assoc in If. split; [exact If|].
    split; [cbn [map preorder]; rewrite Hidx; reflexivity|]. split; [reflexivity|]. split; [reflexivity|]. split; [exact Hsc|].
    intros e [<-|He]; [apply eanc_refl; left; reflexivity|apply Hanc; exact He].
Qed.
End Walk.
