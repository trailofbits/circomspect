(* C09: control dependence (Spec.CtlDep).
   - the decidable forms decide the path-based definitions (escapes_b, ctl_dependent_b);
   - ctl_closed_b B = true  ->  B is closed under the implicit flow cdep;
   - hence the set of names the mirror finds tainted by an input/output signal is closed under
     information flow idep = ddep \/ cdep, and every CS0008 claim is true when "a constraint
     mentions an input or output signal" is read with implicit flows included. *)
From Coq Require Import ZArith NArith List Bool Relations Lia.
Require Import Model.Base Model.Ir Model.VarUse Model.Taint Model.SideEffect
  Spec.NiSpec Spec.SsaEffects Spec.CtlDep Proofs.TaintProofs Proofs.SideEffectProofs.
Import ListNotations.

Section CtlProofs.
  Variable g : cfg.
  Notation bs := (c_blocks g).

  Lemma all_succ_edges_In u v : In (u, v) (all_succ_edges g) <-> CtlDep.edge g u v.
  Proof.
    unfold all_succ_edges, edge. rewrite in_flat_map. split.
    - intros [blk [Hblk H]]. apply in_map_iff in H. destruct H as [s [Heq Hs]]. injection Heq as <- <-.
      exists blk. repeat split; assumption.
    - intros [blk [Hblk [<- Hv]]]. exists blk. split; [assumption|]. apply in_map_iff. exists v. split; [reflexivity | assumption].
  Qed.

  Lemma avoiding_edges_In y u v : In (u, v) (avoiding_edges g y) <-> edge_avoiding g y u v.
  Proof.
    unfold avoiding_edges, edge_avoiding. rewrite filter_In, all_succ_edges_In. cbn [fst snd].
    rewrite andb_true_iff, !negb_true_iff, !N.eqb_neq. tauto.
  Qed.

  Lemma falls_off_b_spec blk : falls_off_b blk = true <-> falls_off blk.
  Proof.
    unfold falls_off_b, falls_off. destruct (b_succs blk) as [|s0 ss] eqn:Hsucc.
    - split; [intros _; left; reflexivity | reflexivity].
    - rewrite existsb_exists. split.
      + intros [s [Hs H]]. right.
        destruct s as [m names t dims|m c t [f|]|m e|m v op rhe sv sty|m l r|m args|m e]; try discriminate.
        exists m, c, t. split; [assumption|]. intros x Hx. rewrite Hx in H. discriminate.
      + intros [H|(m & c & t & Hs & H)]; [discriminate|]. exists (SIf m c t None). split; [assumption|].
        destruct (filter (fun y => negb (N.eqb y t)) (s0 :: ss)) as [|x [|x' r]] eqn:Hf; try reflexivity.
        exfalso. exact (H x eq_refl).
  Qed.

  Lemma is_exit_b_spec e : is_exit_b g e = true <-> is_exit g e.
  Proof.
    unfold is_exit_b, is_exit. rewrite existsb_exists. split.
    - intros [blk [Hblk H]]. apply andb_true_iff in H. destruct H as [He Hs]. apply N.eqb_eq in He.
      exists blk. repeat split; try assumption. apply falls_off_b_spec. assumption.
    - intros [blk [Hblk [<- Hs]]]. exists blk. split; [assumption|]. rewrite N.eqb_refl.
      apply falls_off_b_spec in Hs. rewrite Hs. reflexivity.
  Qed.

  Lemma reach_avoiding y a r :
    multi_step_refl N.eqb (avoiding_edges g y) a = Ok r ->
    forall e, In e r <-> clos_refl_trans N (edge_avoiding g y) a e.
  Proof.
    intros H e. rewrite (closure_exact_refl N N.eqb N.eqb_eq _ _ _ H e).
    split; apply clos_rt_mono; intros u v Huv; apply avoiding_edges_In; exact Huv.
  Qed.

  Lemma escapes_b_spec y a : escapes_b g y a = true <-> escapes g y a.
  Proof.
    unfold escapes_b, escapes. rewrite andb_true_iff, negb_true_iff, N.eqb_neq.
    destruct (fuel_suffices_refl N N.eqb N.eqb_eq (avoiding_edges g y) a) as [r Hr]. rewrite Hr.
    rewrite existsb_exists. split.
    - intros [Hne [e [He Hx]]]. split; [assumption|]. exists e. split; [apply is_exit_b_spec; assumption|].
      apply (reach_avoiding y a r Hr). assumption.
    - intros [Hne [e [Hx He]]]. split; [assumption|]. exists e. split; [|apply is_exit_b_spec; assumption].
      apply (reach_avoiding y a r Hr). assumption.
  Qed.

  Lemma succs_b_In b s : In s (succs_b g b) <-> CtlDep.edge g b s.
  Proof.
    unfold succs_b, edge. rewrite in_flat_map. split.
    - intros [blk [Hblk H]]. destruct (N.eqb (b_index blk) b) eqn:E; [|destruct H]. apply N.eqb_eq in E.
      exists blk. repeat split; assumption.
    - intros [blk [Hblk [<- Hs]]]. exists blk. split; [assumption|]. rewrite N.eqb_refl. assumption.
  Qed.

  Theorem ctl_dependent_b_spec b y : ctl_dependent_b g b y = true <-> ctl_dependent g b y.
  Proof.
    unfold ctl_dependent_b, ctl_dependent, postdom. rewrite andb_true_iff, orb_true_iff, existsb_exists, N.eqb_eq, escapes_b_spec.
    split.
    - intros [[s [Hs Hn]] H]. split; [|assumption]. exists s. split; [apply succs_b_In; assumption|].
      intro Hesc. apply escapes_b_spec in Hesc. rewrite Hesc in Hn. discriminate.
    - intros [[s [Hs Hn]] H]. split; [|assumption]. exists s. split; [apply succs_b_In; assumption|].
      apply negb_true_iff. destruct (escapes_b g y s) eqn:E; [|reflexivity]. exfalso. apply Hn. apply escapes_b_spec. assumption.
  Qed.

  Theorem ctl_closed_b_sound B : ctl_closed_b g B = true -> ctl_closed g B.
  Proof.
    intros H a x Ha (blk & m & c & t & f & yb & Hblk & Hs & Hv & Hr & Hyb & Hctl & Hx).
    unfold ctl_closed_b in H. rewrite forallb_forall in H. specialize (H blk Hblk).
    rewrite forallb_forall in H. specialize (H _ Hs). cbn beta iota in H. rewrite Hv in H.
    apply orb_true_iff in H. destruct H as [H|H].
    - exfalso. apply negb_true_iff in H.
      assert (existsb (fun r => vmem r B) (uses_names (expr_uses (c_decls g) c)) = true); [|congruence].
      apply existsb_exists. exists a. split; [assumption | apply vmem_In; assumption].
    - rewrite forallb_forall in H. specialize (H yb Hyb). apply orb_true_iff in H. destruct H as [H|H].
      + apply negb_true_iff in H. apply ctl_dependent_b_spec in Hctl. congruence.
      + rewrite forallb_forall in H. apply vmem_In. apply H. assumption.
  Qed.
End CtlProofs.

Lemma idep_closed g br es :
  exported_sinks g (t_edges (run_taint_analysis g br)) = Ok es ->
  ctl_closed_b g es = true ->
  forall a b, In a es -> idep g a b -> In b es.
Proof.
  intros Hes Hctl a b Ha [Hd|Hc].
  - eapply ddep_closed; eassumption.
  - eapply ctl_closed_b_sound; eassumption.
Qed.

(* CS0008 with implicit flows: "a constraint mentions an input or output signal" = it uses a name that an
   input/output signal reaches by data OR control dependence. Hypothesis on the branch regions, evaluated on
   every dumped graph: the tainted set is closed under control dependence. *)
Theorem noninterference_with_implicit_flows
  (V : Type) (sem_num : Z -> V) (sem_infix : infix_op -> V -> V -> V) (sem_prefix : prefix_op -> V -> V)
  (sem_switch : V -> V -> V -> V) (sem_call : ident -> list V -> V) (sem_array : list V -> V)
  (sem_access : V -> list (access V) -> V) (sem_update : V -> list (access V) -> V -> V)
  (sem_phi : list pcT -> list (vname * V) -> V) (sem_undef : V) (truthy : V -> bool)
  (g : cfg) (br : branches) (ment : stmt -> bool) (res : result) (f : finding) (es : list vname) :
  exported_sinks g (t_edges (run_taint_analysis g br)) = Ok es ->
  ctl_closed_b g es = true ->
  ment_sound_by g (idep g) ment ->
  exported_targets_declared g = true ->
  run_side_effect_analysis g br = Ok res ->
  In f (r_findings res) ->
  f_kind f = FVarNoSideEffect \/ f_kind f = FParamNoSideEffect ->
  noninterference vname V pcT vname_eq_dec
    (ssa_prog V sem_num sem_infix sem_prefix sem_switch sem_call sem_array sem_access sem_update sem_phi
              sem_undef truthy g ment) (f_var f).
Proof.
  intros Hes Hctl Hment. apply noninterference_of_claims_by with (dep := idep g); [|exact Hment].
  intros es' Hes'. rewrite Hes in Hes'. injection Hes' as <-. eapply idep_closed; eassumption.
Qed.

(* a region that misses a control-dependent block whose write is tainted by nothing else is detected:
   ctl_closed_b is then false (contrapositive of completeness, stated positively) *)
Theorem ctl_closed_b_complete g B : ctl_closed g B -> ctl_closed_b g B = true.
Proof.
  intro H. unfold ctl_closed_b. apply forallb_forall. intros blk Hblk. apply forallb_forall. intros s Hs.
  destruct s as [m names t dims|m c t f|m e|m v op rhe sv sty|m l r|m args|m e]; try reflexivity.
  destruct (expr_val c) eqn:Hv; [reflexivity|].
  destruct (existsb (fun r => vmem r B) (uses_names (expr_uses (c_decls g) c))) eqn:E; [|reflexivity].
  cbn [negb orb]. apply existsb_exists in E. destruct E as [a [Ha Hm]]. apply vmem_In in Hm.
  apply forallb_forall. intros yb Hyb.
  destruct (ctl_dependent_b g (b_index blk) (b_index yb)) eqn:Hc; [|reflexivity]. cbn [negb orb].
  apply forallb_forall. intros x Hx. apply vmem_In. apply (H a x Hm).
  exists blk, m, c, t, f, yb.
  split; [assumption|]. split; [assumption|]. split; [assumption|]. split; [assumption|]. split; [assumption|].
  split; [apply ctl_dependent_b_spec; assumption | assumption].
Qed.
