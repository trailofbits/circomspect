(* C05 — the comment stripper connected to the parse entry points
   (Model.ParseEntry): whatever the parser behind `preprocess` does, it cannot
   tell two sources apart that have the same reference-lexer image; the
   content of a comment is irrelevant. *)
Require Import Model.Base Model.Preprocess Model.ParseEntry Spec.LexSpec Proofs.PreprocessProofs.
From Coq Require Import NArith Lia List.
Import ListNotations.
Local Open Scope N_scope.

Lemma spaces_add : forall n m, spaces (n + m) = spaces n ++ spaces m.
Proof. intros n m. unfold spaces. apply repeat_app. Qed.

Lemma blanks_spaces : forall l, blanks l = spaces (text_bytes l).
Proof.
  induction l as [|c r IH]; [reflexivity|].
  rewrite blanks_cons, text_bytes_cons, spaces_add, IH. reflexivity.
Qed.

Lemma blanks_same_bytes : forall c1 c2, text_bytes c1 = text_bytes c2 -> blanks c1 = blanks c2.
Proof. intros c1 c2 H. now rewrite !blanks_spaces, H. Qed.

Theorem block_comment_content_irrelevant : forall a c1 c2 b,
  plain_code a -> block_comment c1 -> block_comment c2 -> text_bytes c1 = text_bytes c2 ->
  preprocess (a ++ c1 ++ b) = preprocess (a ++ c2 ++ b).
Proof.
  intros a c1 c2 b Ha H1 H2 Hb.
  rewrite <- (one_block_comment_blanked a c1 b Ha H1), <- (one_block_comment_blanked a c2 b Ha H2).
  now rewrite (blanks_same_bytes c1 c2 Hb).
Qed.

Theorem line_comment_content_irrelevant : forall a c1 c2 b,
  plain_code a -> line_comment c1 -> line_comment c2 -> text_bytes c1 = text_bytes c2 ->
  (b = [] \/ exists b', b = 10 :: b') ->
  preprocess (a ++ c1 ++ b) = preprocess (a ++ c2 ++ b).
Proof.
  intros a c1 c2 b Ha H1 H2 Hb Hnl.
  rewrite <- (one_line_comment_blanked a c1 b Ha H1 Hnl), <- (one_line_comment_blanked a c2 b Ha H2 Hnl).
  now rewrite (blanks_same_bytes c1 c2 Hb).
Qed.

(* Consequences of the modelled data flow (Model.ParseEntry): [parser] is a
   function of the pre-processed text and has no access to [src], so these
   lemmas are parametricity facts — true of the model whatever the code does.
   They are NOT obligations of props/C05.v; the tie of this data flow to parser_logic.rs is the run-time AST
   comparison through the hook parser::verif::parse_source (lib/props/C05.py,
   part "parse entry"). *)

Section Entry.
  Variables R A : Type.
  Variable parser : list N -> R.
  Variable finish : R -> outcome A.
  Variable ok : R -> option A.

  (* the parser runs on the reference-lexer image of the file, and only if
     there is one *)
  Lemma parse_file_factors : forall s,
    parse_file parser finish s = bind (lex_spec s) (fun t => finish (parser t)).
  Proof. intro s. unfold parse_file. now rewrite preprocess_refines_lexer. Qed.

  Lemma parse_string_factors : forall s,
    parse_string parser ok s = match lex_spec s with Ok t => ok (parser t) | _ => None end.
  Proof. intro s. unfold parse_string. now rewrite preprocess_refines_lexer. Qed.

  Lemma parse_file_sees_only_lexed_text : forall s1 s2,
    lex_spec s1 = lex_spec s2 -> parse_file parser finish s1 = parse_file parser finish s2.
  Proof. intros s1 s2 H. now rewrite !parse_file_factors, H. Qed.

  Lemma parse_string_sees_only_lexed_text : forall s1 s2,
    lex_spec s1 = lex_spec s2 -> parse_string parser ok s1 = parse_string parser ok s2.
  Proof. intros s1 s2 H. now rewrite !parse_string_factors, H. Qed.

  Lemma parse_file_blank_invariant : forall s,
    parse_file parser finish (blank_comments s) = parse_file parser finish s.
  Proof. intro s. apply parse_file_sees_only_lexed_text, lex_blank_invariant. Qed.

  Lemma parse_string_blank_invariant : forall s,
    parse_string parser ok (blank_comments s) = parse_string parser ok s.
  Proof. intro s. apply parse_string_sees_only_lexed_text, lex_blank_invariant. Qed.

  Lemma parse_file_block_comment_content_irrelevant : forall a c1 c2 b,
    plain_code a -> block_comment c1 -> block_comment c2 -> text_bytes c1 = text_bytes c2 ->
    parse_file parser finish (a ++ c1 ++ b) = parse_file parser finish (a ++ c2 ++ b).
  Proof.
    intros a c1 c2 b Ha H1 H2 Hb. unfold parse_file.
    now rewrite (block_comment_content_irrelevant a c1 c2 b Ha H1 H2 Hb).
  Qed.

  Lemma parse_file_line_comment_content_irrelevant : forall a c1 c2 b,
    plain_code a -> line_comment c1 -> line_comment c2 -> text_bytes c1 = text_bytes c2 ->
    (b = [] \/ exists b', b = 10 :: b') ->
    parse_file parser finish (a ++ c1 ++ b) = parse_file parser finish (a ++ c2 ++ b).
  Proof.
    intros a c1 c2 b Ha H1 H2 Hb Hnl. unfold parse_file.
    now rewrite (line_comment_content_irrelevant a c1 c2 b Ha H1 H2 Hb Hnl).
  Qed.

  (* a file that ends inside a block comment: the answer is the unclosed-comment
     error at the opener, whatever the parser would have said *)
  Lemma parse_file_unclosed_comment : forall s o,
    open_block_at_end s o -> parse_file parser finish s = Err (unclosed o).
  Proof.
    intros s o H. apply unclosed_comment_iff_open_block in H.
    unfold parse_file. now rewrite H.
  Qed.

  Lemma parse_string_unclosed_comment : forall s o,
    open_block_at_end s o -> parse_string parser ok s = None.
  Proof.
    intros s o H. apply unclosed_comment_iff_open_block in H.
    unfold parse_string. now rewrite H.
  Qed.

  (* otherwise the parser is run exactly once, on the file with its comment
     scalars blanked (same byte length, every other scalar at its offset) *)
  Lemma parse_file_parser_input : forall s,
    (exists o, open_block_at_end s o) \/
    exists t, blanked s t /\ text_bytes t = text_bytes s /\
              parse_file parser finish s = finish (parser t) /\
              parse_string parser ok s = ok (parser t).
  Proof.
    intro s. destruct (preprocess_total s) as [(t & E)|(o & E)].
    - right. exists t. repeat split.
      + now apply preprocess_blanked.
      + now apply preprocess_length.
      + unfold parse_file. now rewrite E.
      + unfold parse_string. now rewrite E.
    - left. exists o. now apply unclosed_comment_iff_open_block.
  Qed.
End Entry.
