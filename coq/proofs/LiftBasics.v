(* Basic facts about the data structures of Model.Lift: index sets, block
   updates, lookup characterisations of the primitive graph updates. *)
From stdpp Require Import list sets.
Require Import Model.Lift Spec.CfgSpec.
Require Export Proofs.BaseFacts.
Import Base(outcome, Ok, Err, Panic, OutOfFuel, bind).

Fixpoint ssorted (l : list nat) : Prop :=
  match l with
  | [] => True
  | x :: r => (forall y, y ∈ r -> x < y) /\ ssorted r
  end.

Lemma elem_of_ins x y l : y ∈ ins x l <-> y = x \/ y ∈ l.
Proof.
  induction l as [|z r IH]; simpl.
  - set_solver.
  - destruct (x <? z) eqn:E1; [set_solver|].
    destruct (x =? z) eqn:E2.
    + apply Nat.eqb_eq in E2. set_solver.
    + rewrite !elem_of_cons, IH. naive_solver.
Qed.

Lemma ssorted_ins x l : ssorted l -> ssorted (ins x l).
Proof.
  induction l as [|z r IH]; simpl; intros Hs.
  - split; [set_solver|done].
  - destruct Hs as [Hz Hr].
    destruct (x <? z) eqn:E1.
    + apply Nat.ltb_lt in E1. simpl. split; [|done].
      intros y Hy. apply elem_of_cons in Hy as [->|Hy]; [done|]. specialize (Hz _ Hy). lia.
    + destruct (x =? z) eqn:E2; [done|].
      apply Nat.ltb_ge in E1. apply Nat.eqb_neq in E2. simpl. split; [|auto].
      intros y Hy. apply elem_of_ins in Hy as [->|Hy]; [lia|auto].
Qed.

Lemma ssorted_NoDup l : ssorted l -> NoDup l.
Proof.
  induction l as [|x r IH]; simpl; [constructor|].
  intros [Hx Hr]. constructor; [|auto]. intros Hin. specialize (Hx _ Hin). lia.
Qed.

Lemma ssorted_singleton x : ssorted [x].
Proof. simpl. split; [set_solver|done]. Qed.

Lemma elem_of_iunion a b y : y ∈ iunion a b <-> y ∈ a \/ y ∈ b.
Proof.
  unfold iunion. revert a. induction b as [|x r IH]; intros a; simpl.
  - set_solver.
  - rewrite IH, elem_of_ins. set_solver.
Qed.

Lemma ssorted_iunion a b : ssorted a -> ssorted (iunion a b).
Proof.
  unfold iunion. revert a. induction b as [|x r IH]; intros a Ha; simpl; [done|].
  apply IH, ssorted_ins, Ha.
Qed.

Lemma ins_not_nil x l : ins x l <> [].
Proof. destruct l; simpl; [done|]. repeat case_match; done. Qed.

Lemma is_nil_true {A} (l : list A) : is_nil l = true <-> l = [].
Proof. destruct l; simpl; naive_solver. Qed.
Lemma is_nil_false {A} (l : list A) : is_nil l = false <-> l <> [].
Proof. destruct l; simpl; naive_solver. Qed.

Lemma patch_last_snoc j l x : patch_last j (l ++ [x]) = l ++ [patch_item j x].
Proof.
  induction l as [|y r IH]; simpl; [done|].
  rewrite IH. destruct (r ++ [x]) eqn:E; [|done].
  destruct r; discriminate.
Qed.

Lemma patch_last_nil j : patch_last j [] = [].
Proof. done. Qed.

Lemma list_snoc_cases {A} (l : list A) : l = [] \/ exists l' x, l = l' ++ [x].
Proof.
  induction l as [|x l IH] using rev_ind; [by left|right; eauto].
Qed.

Lemma patch_last_length j l : length (patch_last j l) = length l.
Proof.
  destruct (list_snoc_cases l) as [->|(l' & x & ->)]; [done|].
  rewrite patch_last_snoc, !app_length. done.
Qed.

Lemma last_patch_last j l : last (patch_last j l) = patch_item j <$> last l.
Proof.
  destruct (list_snoc_cases l) as [->|(l' & x & ->)]; [done|].
  rewrite patch_last_snoc, !last_snoc. done.
Qed.

Lemma item_key_patch j it : item_key (patch_item j it) = item_key it.
Proof. destruct it as [|c t [f|]]; simpl; [done..|]. case_match; done. Qed.

Lemma map_key_patch_last j l : map item_key (patch_last j l) = map item_key l.
Proof.
  destruct (list_snoc_cases l) as [->|(l' & x & ->)]; [done|].
  rewrite patch_last_snoc, !map_app. simpl. by rewrite item_key_patch.
Qed.

Lemma lookup_patch_last j l k :
  patch_last j l !! k = (if decide (S k = length l) then patch_item j else id) <$> l !! k.
Proof.
  destruct (list_snoc_cases l) as [->|(l' & x & ->)]; [done|].
  rewrite patch_last_snoc, app_length. simpl.
  destruct (decide (k < length l')).
  - rewrite !lookup_app_l by done. case_decide; [lia|]. by destruct (l' !! k).
  - rewrite !lookup_app_r by lia. destruct (k - length l') eqn:E; simpl.
    + case_decide; [done|lia].
    + done.
Qed.

Lemma upd_ok site i f g :
  i < length g -> upd site i f g = Ok (alter f i g).
Proof.
  intros Hi. unfold upd. destruct (lookup_lt_is_Some_2 g i Hi) as [b ->]. done.
Qed.

Lemma upd_inv site i f g g' :
  upd site i f g = Ok g' -> i < length g /\ g' = alter f i g.
Proof.
  unfold upd. destruct (g !! i) eqn:E; [|done]. intros [= <-].
  split; [by eapply lookup_lt_Some|done].
Qed.

Lemma last_lookup' {A} (l : list A) : last l = l !! (length l - 1).
Proof.
  rewrite last_lookup. destruct l; simpl; [done|]. by rewrite Nat.sub_0_r.
Qed.

Lemma upd_last_ok f g : 0 < length g -> upd_last f g = Ok (alter f (length g - 1) g).
Proof. destruct g; [simpl; lia|done]. Qed.

Lemma upd_last_inv f g g' : upd_last f g = Ok g' -> g <> [] /\ g' = alter f (length g - 1) g.
Proof. destruct g; simpl; [done|]. intros [= <-]. done. Qed.

Lemma lookup_alter_case {A} (f : A -> A) (l : list A) i k :
  alter f i l !! k = if decide (i = k) then f <$> l !! k else l !! k.
Proof.
  case_decide as E.
  - subst. apply list_lookup_alter.
  - by apply list_lookup_alter_ne.
Qed.

Lemma bind_ext {A B} (m : outcome A) (f f' : A -> outcome B) :
  (forall a, f a = f' a) -> bind m f = bind m f'.
Proof. intros H. destruct m; simpl; auto. Qed.
