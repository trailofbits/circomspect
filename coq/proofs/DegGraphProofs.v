(* Graph-level soundness of degree claims (C07): on a graph accepted by
   DegJustify.djust_cfg (arrays included), in every state reachable by the step
   relation of Spec.DegSem, the upper end of every degree range attached to a
   node bounds the degree of the node's value - of EVERY element of it, for an
   array - as a function of the valuation.
   The proof is carried out for the WEAKER validator Model.DegJustifyLe.djust_cfg_le,
   which only asks that a claimed upper end be AT LEAST
   what the tables give for the claimed ranges of the operands: per node, the bound
   the tables give is established, and the claim follows by monotonicity
   ([claim_le_sound]).  Every graph the strict validator accepts is accepted by the
   weaker one ([djust_cfg_implies_le]), so the statements for DegJustify.djust_cfg
   are corollaries. *)
From Coq Require Import ZArith List Bool Lia.
Require Import Model.Base Model.Ir Model.Propagate Model.Justify Model.DegJustify Model.DegJustifyLe Gen.DegreeTable.
Require Import Spec.PolyDeg Spec.DegSem Proofs.IrInd Proofs.PolyDegProofs Proofs.DegreeProofs Proofs.ValueProofs.
Import ListNotations.
Local Open Scope Z_scope.

Lemma degree_eqb_eq a b : degree_eqb a b = true <-> a = b.
Proof. destruct a, b; cbn; split; congruence. Qed.

Lemma drange_eqb_eq a b : DegJustify.drange_eqb a b = true <-> a = b.
Proof.
  unfold DegJustify.drange_eqb. rewrite andb_true_iff, !degree_eqb_eq. destruct a, b; cbn. split; [intros [-> ->]; reflexivity|intros [= -> ->]; auto].
Qed.

Lemma opt_drange_eqb_eq o r : opt_drange_eqb o r = true <-> o = Some r.
Proof. destruct o; cbn; [rewrite drange_eqb_eq|]; split; congruence. Qed.

Lemma deg_leb_refl d : deg_leb d d = true. Proof. destruct d; reflexivity. Qed.
Lemma deg_leb_trans a b c : deg_leb a b = true -> deg_leb b c = true -> deg_leb a c = true.
Proof. destruct a, b, c; cbn; congruence. Qed.

Lemma deg_max_ub_l a b : deg_leb a (deg_max a b) = true.
Proof. unfold deg_max. rewrite degree_order_is_rank. destruct (deg_leb a b) eqn:E; [exact E|apply deg_leb_refl]. Qed.
Lemma deg_max_ub_r a b : deg_leb b (deg_max a b) = true.
Proof. unfold deg_max. rewrite degree_order_is_rank. destruct (deg_leb a b) eqn:E; [apply deg_leb_refl|]. destruct a, b; cbn in *; congruence. Qed.

Lemma iter_inf_upper rs : forall acc r, In r (acc :: rs) -> deg_leb (snd r) (snd (iter_inf acc rs)) = true.
Proof.
  induction rs as [|x tl IH]; intros acc r Hr; cbn [iter_inf].
  - destruct Hr as [<-|[]]. apply deg_leb_refl.
  - assert (Hacc : deg_leb (snd (range_inf acc x)) (snd (iter_inf (range_inf acc x) tl)) = true) by (apply IH; left; reflexivity).
    destruct Hr as [<-|[<-|Hr]]; [| |apply IH; right; exact Hr]; (eapply deg_leb_trans; [|exact Hacc]); cbn [range_inf snd].
    + apply deg_max_ub_l.
    + apply deg_max_ub_r.
Qed.

Lemma all_some_map {A} (l : list (option A)) : forall xs, all_some l = Some xs -> l = map Some xs.
Proof.
  induction l as [|[y|] tl IH]; intros xs; cbn [all_some]; [intros [= <-]; reflexivity| |discriminate].
  destruct (all_some tl) as [ys|]; [|discriminate]. intros [= <-]. cbn [map]. f_equal. apply IH. reflexivity.
Qed.

(* the infimum is defined only if every member is, and its upper end bounds theirs *)
Lemma iter_opt_all rs r o : iter_opt rs = Some r -> In o rs -> exists ra, o = Some ra /\ deg_leb (snd ra) (snd r) = true.
Proof.
  unfold iter_opt. destruct (all_some rs) as [[|x tl]|] eqn:E; try discriminate. intros [= <-] Ho.
  rewrite (all_some_map rs _ E) in Ho. apply in_map_iff in Ho as (ra & <- & Hin).
  exists ra. split; [reflexivity|]. apply iter_inf_upper. exact Hin.
Qed.

Lemma range_is_constant_snd r : range_is_constant r = true -> snd r = DConst.
Proof. unfold range_is_constant. rewrite degree_order_is_rank. destruct (snd r); cbn; congruence. Qed.

Lemma index_adjust_cases acc rb rg : index_adjust acc rb = Some rg ->
  (constant_indices acc = Some true /\ rg = rb) \/ snd rg = DNonQuad.
Proof.
  unfold index_adjust. destruct (constant_indices acc) as [[|]|]; try discriminate; intros [= <-]; [left; auto|right; reflexivity].
Qed.

Lemma phi_adjust_cases m o r : phi_adjust m o = Some r ->
  (m = MConst /\ o = Some r) \/ snd r = DNonQuad.
Proof. destruct m, o as [rg|]; cbn; try discriminate; intros [= <-]; [left; auto|right; reflexivity]. Qed.

Lemma ctl_const_cond cs cond : ctl_of_conds cs = MConst -> In cond cs ->
  exists rc, expr_deg cond = Some rc /\ range_is_constant rc = true.
Proof.
  unfold ctl_of_conds. intros Hm Hin.
  destruct (existsb cond_nonconst cs) eqn:En; [discriminate|]. destruct (existsb cond_unknown cs) eqn:Eu; [discriminate|].
  assert (Hf : forall f, existsb f cs = false -> f cond = false).
  { intros f E. destruct (f cond) eqn:E0; [|reflexivity]. rewrite <- E. symmetry. apply existsb_exists. eauto. }
  apply Hf in En. apply Hf in Eu. unfold cond_nonconst in En. unfold cond_unknown in Eu.
  destruct (expr_deg cond) as [rc|]; [|discriminate]. exists rc. split; [reflexivity|]. apply negb_false_iff. exact En.
Qed.

Lemma deg_claim_is_le k o : deg_claim_is k o = true -> deg_claim_le k o = true.
Proof.
  unfold deg_claim_is, deg_claim_le. destruct (kdeg k) as [r|]; [|auto]. intros H.
  apply opt_drange_eqb_eq in H. subst o. destruct (snd r) eqn:E; try reflexivity; unfold deg_le_m; cbn; rewrite E; reflexivity.
Qed.

Lemma forallb_impl {A} (f g : A -> bool) l :
  Forall (fun x => f x = true -> g x = true) l -> forallb f l = true -> forallb g l = true.
Proof. rewrite Forall_forall, !forallb_forall. auto. Qed.

Lemma djust_expr_is_le c : forall e, djust_expr c e = true -> djust_expr_le c e = true.
Proof.
  induction e as [z k|v k|op l r k IHl IHr|op e k IHe|cd t f k IHc IHt IHf|n args k IHargs|vs k IHvs
                  |v acc k IHacc|v acc rhe k IHacc IHrhe|args k] using expr_ind';
    cbn [djust_expr djust_expr_le]; intros H.
  - apply deg_claim_is_le. exact H.
  - apply deg_claim_is_le. exact H.
  - apply andb_true_iff in H as [H Hk]. apply andb_true_iff in H as [Hl Hr].
    rewrite (IHl Hl), (IHr Hr), (deg_claim_is_le _ _ Hk). reflexivity.
  - apply andb_true_iff in H as [He Hk]. rewrite (IHe He), (deg_claim_is_le _ _ Hk). reflexivity.
  - apply andb_true_iff in H as [H Hk]. apply andb_true_iff in H as [H Hf]. apply andb_true_iff in H as [Hc Ht].
    rewrite (IHc Hc), (IHt Ht), (IHf Hf), (deg_claim_is_le _ _ Hk). reflexivity.
  - apply andb_true_iff in H as [Hl Hk]. rewrite (deg_claim_is_le _ _ Hk), andb_true_r. exact (forallb_impl _ _ _ IHargs Hl).
  - apply andb_true_iff in H as [Hl Hk]. rewrite (deg_claim_is_le _ _ Hk), andb_true_r. exact (forallb_impl _ _ _ IHvs Hl).
  - apply andb_true_iff in H as [Ha Hk]. rewrite (acc_forallb (djust_expr c)) in Ha.
    rewrite (deg_claim_is_le _ _ Hk), (acc_forallb (djust_expr_le c)), andb_true_r. exact (forallb_impl _ _ _ IHacc Ha).
  - apply andb_true_iff in H as [H Hk]. apply andb_true_iff in H as [Ha Hr]. rewrite (acc_forallb (djust_expr c)) in Ha.
    rewrite (IHrhe Hr), (deg_claim_is_le _ _ Hk), (acc_forallb (djust_expr_le c)), !andb_true_r. exact (forallb_impl _ _ _ IHacc Ha).
  - exact H.
Qed.

Lemma djust_stmt_is_le c m s : djust_stmt c m s = true -> djust_stmt_le c m s = true.
Proof.
  destruct s; cbn [djust_stmt djust_stmt_le]; intros H.
  - rewrite forallb_forall in H |- *. intros e He. apply djust_expr_is_le. auto.
  - apply djust_expr_is_le. exact H.
  - apply djust_expr_is_le. exact H.
  - destruct rhe; try (apply djust_expr_is_le; exact H). apply deg_claim_is_le. exact H.
  - apply andb_true_iff in H as [H1 H2]. rewrite (djust_expr_is_le c _ H1), (djust_expr_is_le c _ H2). reflexivity.
  - rewrite forallb_forall in H |- *. intros a Ha. specialize (H a Ha). destruct a; [exact H|apply djust_expr_is_le; exact H].
  - apply djust_expr_is_le. exact H.
Qed.

Theorem djust_cfg_implies_le c idom : djust_cfg c idom = true -> djust_cfg_le c idom = true.
Proof.
  unfold djust_cfg, djust_cfg_le. intros H. apply andb_true_iff in H as [H1 H2]. rewrite H1. cbn [andb].
  rewrite forallb_forall in H2 |- *. intros b Hb. specialize (H2 b Hb).
  unfold djust_block, djust_block_le in *. rewrite forallb_forall in H2 |- *. intros s Hs. apply djust_stmt_is_le. auto.
Qed.

(* the analysis' walk finds every condition the semantics names *)
Section Shape.
Variable c : cfg.
Variable idom : list (option N).
Hypothesis Hshape : idom_shape c idom = true.

Lemma idom_shape_dec i d : nth_error idom i = Some (Some d) -> (N.to_nat d < i)%nat.
Proof.
  intros Hn. unfold idom_shape in Hshape. apply andb_true_iff in Hshape as [Hv _]. rewrite forallb_forall in Hv.
  pose proof (combine_seq_nth idom 0 i (Some d) Hn) as Hin. cbn [Nat.add] in Hin.
  specialize (Hv _ Hin). cbn in Hv. apply Nat.ltb_lt in Hv. exact Hv.
Qed.

Lemma idom_shape_pred b q : In b (c_blocks c) -> In q (b_preds b) -> (N.to_nat q < length (c_blocks c))%nat.
Proof.
  intros Hb Hq. unfold idom_shape in Hshape. apply andb_true_iff in Hshape as [_ Hv]. rewrite forallb_forall in Hv. specialize (Hv b Hb).
  rewrite forallb_forall in Hv. specialize (Hv q Hq). apply Nat.ltb_lt in Hv. exact Hv.
Qed.

Lemma above_in_chain stop : forall fuel pp q, above idom stop pp q -> (N.to_nat pp < fuel)%nat ->
  forall e, In e (cond_at (c_blocks c) q) -> In e (chain_conds fuel (c_blocks c) idom stop pp).
Proof.
  induction fuel as [|fuel IH]; intros pp q Hab Hlt e He; [lia|]. cbn [chain_conds].
  destruct Hab as [pp|pp d q Hns Hid Hab].
  - apply in_or_app. left. exact He.
  - apply in_or_app. right.
    destruct (opt_eqb N.eqb (Some pp) stop) eqn:Eq.
    + exfalso. apply Hns. destruct stop as [st|]; cbn in Eq; [|discriminate]. apply N.eqb_eq in Eq. congruence.
    + rewrite Hid. apply (IH d q Hab); [|exact He]. pose proof (idom_shape_dec _ _ Hid). lia.
Qed.

Lemma shape_decides_in_deciding b cond : In b (c_blocks c) -> decides c idom b cond ->
  forall cs, deciding (c_blocks c) idom b = Some cs -> In cond cs.
Proof.
  intros Hb (pp & q & bq & m & t & f & Hp & Hab & Hq & Hl) cs Hd.
  unfold deciding in Hd. destruct (length (b_preds b) <? 2)%nat; [discriminate|]. injection Hd as <-.
  apply in_flat_map. exists pp. split; [exact Hp|]. unfold idom_of.
  assert (Hlt : (N.to_nat pp < S (length (c_blocks c)))%nat) by (pose proof (idom_shape_pred b pp Hb Hp); lia).
  refine (above_in_chain _ (S (length (c_blocks c))) pp q Hab Hlt cond _).
  unfold cond_at. rewrite Hq. unfold last_cond.
  assert (Hne : b_stmts bq <> []) by (intros E; rewrite E in Hl; discriminate).
  rewrite (last_default _ _ (SLog m []) Hne), Hl. left. reflexivity.
Qed.
End Shape.

(* [den] (and [Spec.DegRun.cval]) recurse through argument lists and accesses by nested fixpoints;
   [omap f] and [oacc g ix cn] are the same recursions by name *)
Section Nested.
Context {A X Y : Type} (f : A -> option X) (g : expr -> option X) (ix : X -> Y) (cn : ident -> Y).

Fixpoint omap (es : list A) : option (list X) :=
  match es with
  | [] => Some []
  | x :: tl => match f x, omap tl with Some v, Some vs => Some (v :: vs) | _, _ => None end
  end.

Fixpoint oacc (acc : list (access expr)) : option (list Y) :=
  match acc with
  | [] => Some []
  | AIdx x :: tl => match g x, oacc tl with Some v, Some idx => Some (ix v :: idx) | _, _ => None end
  | AComp n :: tl => match oacc tl with Some idx => Some (cn n :: idx) | None => None end
  end.
End Nested.

Lemma omap_mono {A X} (f f' : A -> option X) es :
  Forall (fun e => forall v, f e = Some v -> f' e = Some v) es ->
  forall vs, omap f es = Some vs -> omap f' es = Some vs.
Proof.
  induction 1 as [|e tl He _ IH]; cbn [omap]; intros vs; [auto|].
  destruct (f e) as [v|]; [|discriminate]. rewrite (He v eq_refl).
  destruct (omap f tl) as [ws|]; [|discriminate]. rewrite (IH ws eq_refl). auto.
Qed.

Lemma oacc_mono {X Y} (g g' : expr -> option X) (ix : X -> Y) cn acc :
  Forall (fun e => forall v, g e = Some v -> g' e = Some v) (acc_exprs acc) ->
  forall idx, oacc g ix cn acc = Some idx -> oacc g' ix cn acc = Some idx.
Proof.
  induction acc as [|[e|n] tl IH]; cbn [acc_exprs flat_map app oacc]; intros Hall idx; [auto| |].
  - apply Forall_cons_iff in Hall as [He Ht].
    destruct (g e) as [v|]; [|discriminate]. rewrite (He v eq_refl).
    destruct (oacc g ix cn tl) as [ws|]; [|discriminate]. rewrite (IH Ht ws eq_refl). auto.
  - destruct (oacc g ix cn tl) as [ws|]; [|discriminate]. rewrite (IH Hall ws eq_refl). auto.
Qed.

Lemma omap_some {A X} (f : A -> option X) es vs : omap f es = Some vs -> Forall (fun e => f e <> None) es.
Proof.
  revert vs. induction es as [|e tl IH]; cbn [omap]; intros vs H; [constructor|].
  destruct (f e) eqn:E; [|discriminate]. destruct (omap f tl) as [ws|]; [|discriminate].
  constructor; [congruence|eauto].
Qed.

Lemma oacc_some {X Y} (g : expr -> option X) (ix : X -> Y) cn acc idx :
  oacc g ix cn acc = Some idx -> Forall (fun e => g e <> None) (acc_exprs acc).
Proof.
  revert idx. induction acc as [|[e|n] tl IH]; cbn [acc_exprs flat_map app oacc]; intros idx H; [constructor| |].
  - destruct (g e) eqn:E; [|discriminate]. destruct (oacc g ix cn tl) as [ws|]; [|discriminate].
    constructor; [congruence|eauto].
  - destruct (oacc g ix cn tl) as [ws|]; [|discriminate]. eauto.
Qed.

Lemma omap_in {A X} (f : A -> option X) es : forall vs, omap f es = Some vs ->
  forall v, In v vs -> exists e, In e es /\ f e = Some v.
Proof.
  induction es as [|x tl IH]; intros vs; cbn [omap]; [intros [= <-] v []|].
  destruct (f x) as [w|] eqn:Ex; [|discriminate]. destruct (omap f tl) as [ws|]; [|discriminate].
  intros [= <-] v [<-|Hv].
  - exists x. split; [left; reflexivity|exact Ex].
  - destruct (IH ws eq_refl v Hv) as (e & He & Hd). exists e. split; [right; exact He|exact Hd].
Qed.

Lemma omap_none {A X} (f : A -> option X) es : omap f es = None -> exists e, In e es /\ f e = None.
Proof.
  induction es as [|x tl IH]; cbn [omap]; [discriminate|].
  destruct (f x) as [w|] eqn:Ex; [|intros _; exists x; split; [left; reflexivity|exact Ex]].
  destruct (omap f tl) as [ws|]; [discriminate|]. intros _.
  destruct (IH eq_refl) as (e & He & Hd). exists e. split; [right; exact He|exact Hd].
Qed.

Lemma oacc_none {X Y} (g : expr -> option X) (ix : X -> Y) cn acc :
  oacc g ix cn acc = None -> exists e, In e (acc_exprs acc) /\ g e = None.
Proof.
  induction acc as [|[x|n] tl IH]; cbn [oacc acc_exprs flat_map app]; [discriminate| |].
  - destruct (g x) as [w|] eqn:Ex; [|intros _; exists x; split; [left; reflexivity|exact Ex]].
    destruct (oacc g ix cn tl) as [ws|]; [discriminate|]. intros _.
    destruct (IH eq_refl) as (e & He & Hd). exists e. split; [right; exact He|exact Hd].
  - destruct (oacc g ix cn tl) as [ws|]; [discriminate|]. intros _. exact (IH eq_refl).
Qed.

Section Den.
Variable V : Type.
Variable p : Z.
Variable sem2 : infix_op -> Z -> Z -> Z.
Variable sem1 : prefix_op -> Z -> Z.
Variable call_sem : ident -> list Z -> Z.
Variable name_code : ident -> Z.
Variable s : fstore V.
Notation den := (den V p sem2 sem1 call_sem name_code).
Notation den_acc := (oacc (den s) (fun F : fam V => F []) (fun n _ => name_code n)).

Lemma den_call n args k : den s (ECall n args k) =
  match omap (den s) args with
  | Some Fs => Some (fun _ rho => call_sem n (map (fun F : fam V => F [] rho) Fs))
  | None => None
  end.
Proof. reflexivity. Qed.

Lemma den_array vs k : den s (EArray vs k) =
  match omap (den s) vs with Some Fs => Some (array_fam V Fs) | None => None end.
Proof. reflexivity. Qed.

Lemma den_access v acc k : den s (EAccess v acc k) =
  match s v, den_acc acc with Some A, Some Is => Some (access_fam V A Is) | _, _ => None end.
Proof. reflexivity. Qed.

Lemma den_update v acc rhe k : den s (EUpdate v acc rhe k) =
  match s v, den_acc acc, den s rhe with Some A, Some Is, Some R => Some (update_fam V A Is R) | _, _, _ => None end.
Proof. reflexivity. Qed.
End Den.

Section Graph.
Variable V : Type.
Variable line : V -> V -> Z -> V.
Variable p : Z.
Variable sem2 : infix_op -> Z -> Z -> Z.
Variable sem1 : prefix_op -> Z -> Z.
Variable call_sem : ident -> list Z -> Z.
Variable name_code : ident -> Z.
Hypothesis Hsem2 : forall op, op_den p op (sem2 op).
Hypothesis Hsem1 : forall op, prefix_den p op (sem1 op).
Notation SemDeg := (SemDeg V line p).
Notation den := (den V p sem2 sem1 call_sem name_code).
Notation den_acc s := (oacc (den s) (fun F : fam V => F []) (fun n _ => name_code n)).
Variable c : cfg.
Variable idom : list (option N).

(* every element of the family *)
Definition SemDegF (d : degree) (F : fam V) : Prop := forall i, SemDeg d (F i).

Definition fstore_ok (s : fstore V) : Prop :=
  (forall x F, s x = Some F -> forall r, var_range c x = Some r -> SemDegF (snd r) F) /\
  (forall x F, unassigned c x = true -> s x = Some F -> forall i rho, F i rho = 0).

Lemma SemDeg_zero d (G : V -> Z) : (forall rho, G rho = 0) -> SemDeg d G.
Proof.
  intros H. apply (SemDeg_mono V line p DConst); [destruct d; reflexivity|].
  cbn. intros r r'. rewrite !H. reflexivity.
Qed.

(* a selection, by data that do not depend on the valuation, among functions
   that all obey the bound *)
Lemma select_general {X : Type} d (K : V -> X) (H : X -> V -> Z) :
  (forall r r', K r = K r') -> (forall r, SemDeg d (H (K r))) -> SemDeg d (fun rho => H (K rho) rho).
Proof.
  intros HK HH. destruct d; cbn [PolyDeg.SemDeg] in *.
  - intros r r'. rewrite (HK r r'). apply HH.
  - intros rho delta t.
    rewrite (Dn_ext 2 _ (fun u => H (K rho) (line rho delta u))) by (intros u; rewrite (HK _ rho); reflexivity).
    apply HH.
  - intros rho delta t.
    rewrite (Dn_ext 3 _ (fun u => H (K rho) (line rho delta u))) by (intros u; rewrite (HK _ rho); reflexivity).
    apply HH.
  - exact I.
Qed.

(* a claim accepted against the bound [o] of the tables holds as soon as [o] does *)
Lemma claim_le_sound k o r F : deg_claim_le k o = true -> kdeg k = Some r ->
  (forall t, o = Some t -> SemDegF (snd t) F) -> SemDegF (snd r) F.
Proof.
  unfold deg_claim_le. intros H Hk Ho i. rewrite Hk in H. destruct o as [t|].
  - apply (SemDeg_mono V line p (snd t)); [|apply (Ho t eq_refl)].
    destruct (snd r); try exact H. destruct (snd t); reflexivity.
  - destruct (snd r); try discriminate. exact I.
Qed.

(* the upper end of an infimum bounds whatever a member's upper end bounds *)
Lemma infimum_bound rs r o F : iter_opt rs = Some r -> In o rs ->
  (forall ra, o = Some ra -> SemDegF (snd ra) F) -> SemDegF (snd r) F.
Proof.
  intros Hi Ho H i. destruct (iter_opt_all rs r o Hi Ho) as (ra & -> & Hle).
  exact (SemDeg_mono V line p (snd ra) _ _ Hle (H ra eq_refl i)).
Qed.

Lemma SemDegF_constant F r : SemDegF (snd r) F -> range_is_constant r = true -> Constant V (F []).
Proof. intros H Hc. specialize (H []). rewrite (range_is_constant_snd r Hc) in H. exact H. Qed.

Local Notation sound_at s e :=
  (forall F, den s e = Some F -> djust_expr_le c e = true -> forall r, expr_deg e = Some r -> SemDegF (snd r) F).

Lemma den_list_sound s es Fs : Forall (fun e => sound_at s e) es -> omap (den s) es = Some Fs ->
  forallb (djust_expr_le c) es = true ->
  forall F, In F Fs -> exists e, In e es /\ forall r, expr_deg e = Some r -> SemDegF (snd r) F.
Proof.
  intros IH Hd Hj F HF. destruct (omap_in _ _ _ Hd F HF) as (e & He & HeF).
  exists e. split; [exact He|]. rewrite Forall_forall in IH. rewrite forallb_forall in Hj. exact (IH e He F HeF (Hj e He)).
Qed.

(* the index expressions of an access whose indices are all known constant *)
Lemma den_acc_const s acc : Forall (fun e => sound_at s e) (acc_exprs acc) ->
  forall Is, den_acc s acc = Some Is -> forallb (djust_expr_le c) (acc_exprs acc) = true ->
  constant_indices acc = Some true ->
  forall r r', map (fun Ix : V -> Z => Ix r) Is = map (fun Ix : V -> Z => Ix r') Is.
Proof.
  induction acc as [|[x|n] tl IH]; cbn [acc_exprs flat_map app oacc constant_indices forallb]; intros Hall Is.
  - intros [= <-] _ _ r r'. reflexivity.
  - destruct (den s x) as [Ix|] eqn:Ex; [|discriminate]. destruct (den_acc s tl) as [Is'|]; [|discriminate].
    intros [= <-] Hdj Hc r r'. apply andb_true_iff in Hdj as [Hd1 Hd2].
    destruct (expr_deg x) as [rx|] eqn:Erx; [|discriminate]. destruct (range_is_constant rx) eqn:Ecx; [|discriminate].
    apply Forall_cons_iff in Hall as [Hx Ht].
    cbn [map]. f_equal; [exact (SemDegF_constant Ix rx (Hx Ix Ex Hd1 rx Erx) Ecx r r')|exact (IH Ht Is' eq_refl Hd2 Hc r r')].
  - destruct (den_acc s tl) as [Is'|]; [|discriminate].
    intros [= <-] Hdj Hc r r'. cbn [map]. f_equal. exact (IH Hall Is' eq_refl Hdj Hc r r').
Qed.

(* indexing, by an access the analysis adjusts the bound [o] for, into families that obey [o] *)
Lemma acc_select s acc Is o t (H : list Z -> fam V) : Forall (fun e => sound_at s e) (acc_exprs acc) ->
  den_acc s acc = Some Is -> forallb (djust_expr_le c) (acc_exprs acc) = true -> opt_index_adjust acc o = Some t ->
  (forall rb, o = Some rb -> forall x, SemDegF (snd rb) (H x)) ->
  SemDegF (snd t) (fun i rho => H (map (fun Ix : V -> Z => Ix rho) Is) i rho).
Proof.
  intros IH Ea Hda Ht HH. destruct o as [rb|]; [|discriminate]. cbn [opt_index_adjust] in Ht.
  destruct (index_adjust_cases _ _ _ Ht) as [[Hci ->]|Hnq]; [|intros i; rewrite Hnq; exact I].
  intros i. apply (select_general (snd rb) (fun rho => map (fun Ix : V -> Z => Ix rho) Is) (fun x rho => H x i rho)).
  - exact (den_acc_const s acc IH Is Ea Hda Hci).
  - intros r0. apply (HH rb eq_refl).
Qed.

Lemma djust_expr_sound_le s : fstore_ok s -> forall e, sound_at s e.
Proof.
  intros [Hs Hz].
  induction e as [z k|v k|op l r k IHl IHr|op e k IHe|cd t f k IHc IHt IHf|n args k IHargs|vs k IHvs
                  |v acc k IHacc|v acc rhe k IHacc IHrhe|args k] using expr_ind';
    intros F Hden Hdj rg Hrg; cbn [djust_expr_le] in Hdj;
    unfold expr_deg in Hrg; cbn [expr_know] in Hrg.
  - injection Hden as <-. apply (claim_le_sound _ _ _ _ Hdj Hrg). intros t [= <-] i r r'. reflexivity.
  - cbn [DegSem.den] in Hden. apply (claim_le_sound _ _ _ _ Hdj Hrg). intros t Ht. exact (Hs v F Hden t Ht).
  - cbn [DegSem.den] in Hden.
    destruct (den s l) as [Fl|] eqn:El; [|discriminate]. destruct (den s r) as [Fr|] eqn:Er; [|discriminate].
    injection Hden as <-. apply andb_true_iff in Hdj as [Hdj Hk]. apply andb_true_iff in Hdj as [Hdl Hdr].
    apply (claim_le_sound _ _ _ _ Hk Hrg). intros t H. unfold opt_range_infix in H.
    destruct (expr_deg l) as [rl|] eqn:Edl; [|discriminate]. destruct (expr_deg r) as [rr|] eqn:Edr; [|discriminate].
    injection H as <-. cbn [range_infix snd]. intros i.
    apply (infix_bound_sound V line p op (snd rl) (snd rr) (Fl i) (Fr i) (sem2 op) (Hsem2 op)).
    + apply (IHl Fl eq_refl Hdl rl). reflexivity.
    + apply (IHr Fr eq_refl Hdr rr). reflexivity.
  - cbn [DegSem.den] in Hden. destruct (den s e) as [Fe|] eqn:Ee; [|discriminate]. injection Hden as <-.
    apply andb_true_iff in Hdj as [Hde Hk].
    apply (claim_le_sound _ _ _ _ Hk Hrg). intros t H. unfold opt_range_prefix in H.
    destruct (expr_deg e) as [re|] eqn:Ede; [|discriminate]. injection H as <-. cbn [range_prefix snd]. intros i.
    apply (prefix_bound_sound V line p op (snd re) (Fe i) (sem1 op) (Hsem1 op)).
    apply (IHe Fe eq_refl Hde re). reflexivity.
  - cbn [DegSem.den] in Hden.
    destruct (den s cd) as [C|] eqn:Ec; [|discriminate]. destruct (den s t) as [T|] eqn:Et; [|discriminate].
    destruct (den s f) as [Ff|] eqn:Ef; [|discriminate]. injection Hden as <-.
    apply andb_true_iff in Hdj as [Hdj Hk]. apply andb_true_iff in Hdj as [Hdj Hdf]. apply andb_true_iff in Hdj as [Hdc Hdt].
    apply (claim_le_sound _ _ _ _ Hk Hrg). intros rg' H.
    destruct (expr_deg cd) as [rc|] eqn:Edc; [|discriminate].
    destruct (range_is_constant rc) eqn:Erc; [|discriminate].
    intros i.
    apply (select_general (snd rg') (C []) (fun x rho => if x =? 0 then Ff i rho else T i rho)
             (SemDegF_constant C rc (IHc C eq_refl Hdc rc eq_refl) Erc)).
    intros r0. destruct (C [] r0 =? 0).
    + exact (infimum_bound _ _ _ Ff H (or_intror (or_introl eq_refl)) (IHf Ff eq_refl Hdf) i).
    + exact (infimum_bound _ _ _ T H (or_introl eq_refl) (IHt T eq_refl Hdt) i).
  - rewrite den_call in Hden. destruct (omap (den s) args) as [Fs|] eqn:El; [|discriminate].
    injection Hden as <-. apply andb_true_iff in Hdj as [Hdl Hk].
    apply (claim_le_sound _ _ _ _ Hk Hrg). intros t H.
    destruct (all_constant args) eqn:Eac; [|discriminate]. injection H as <-. intros i r r'. f_equal.
    apply map_ext_in. intros G HG. destruct (den_list_sound s args Fs IHargs El Hdl G HG) as (e & He & Hb).
    unfold all_constant in Eac. rewrite forallb_forall in Eac. specialize (Eac e He).
    destruct (expr_deg e) as [re|]; [|discriminate].
    exact (SemDegF_constant G re (Hb re eq_refl) Eac r r').
  - rewrite den_array in Hden. destruct (omap (den s) vs) as [Fs|] eqn:El; [|discriminate].
    injection Hden as <-. apply andb_true_iff in Hdj as [Hdl Hk].
    apply (claim_le_sound _ _ _ _ Hk Hrg). intros t H.
    intros i. unfold array_fam. destruct i as [|j rest]; [apply SemDeg_zero; reflexivity|].
    destruct (j <? 0); [apply SemDeg_zero; reflexivity|].
    destruct (nth_error Fs (Z.to_nat j)) as [G|] eqn:En; [|apply SemDeg_zero; reflexivity].
    destruct (den_list_sound s vs Fs IHvs El Hdl G (nth_error_In _ _ En)) as (e & He & Hb).
    exact (infimum_bound _ t _ G H (in_map expr_deg _ _ He) Hb rest).
  - rewrite den_access in Hden. destruct (s v) as [A|] eqn:Ev; [|discriminate].
    destruct (den_acc s acc) as [Is|] eqn:Ea; [|discriminate].
    injection Hden as <-. apply andb_true_iff in Hdj as [Hda Hk]. rewrite (acc_forallb (djust_expr_le c)) in Hda.
    apply (claim_le_sound _ _ _ _ Hk Hrg). intros t H.
    apply (acc_select s acc Is _ t (fun x i rho => A (x ++ i) rho) IHacc Ea Hda H).
    intros rv Erv x i. apply (Hs v A Ev rv Erv).
  - rewrite den_update in Hden. destruct (s v) as [A|] eqn:Ev; [|discriminate].
    destruct (den_acc s acc) as [Is|] eqn:Ea; [|discriminate].
    destruct (den s rhe) as [R|] eqn:Er; [|discriminate].
    injection Hden as <-. apply andb_true_iff in Hdj as [Hdj Hk]. apply andb_true_iff in Hdj as [Hda Hdr].
    rewrite (acc_forallb (djust_expr_le c)) in Hda.
    apply (claim_le_sound _ _ _ _ Hk Hrg). intros t H.
    apply (acc_select s acc Is _ t (fun x i rho => match prefix_of x i with Some rest => R rest rho | None => A i rho end)
             IHacc Ea Hda H).
    intros rb Erb x.
    (* both the old elements and the new one obey the bound *)
    assert (HAR : SemDegF (snd rb) A /\ SemDegF (snd rb) R).
    { unfold update_base_range in Erb. destruct (var_range c v) as [rv|] eqn:Erv.
      - rewrite <- Erv in Erb. split.
        + exact (infimum_bound _ rb _ A Erb (or_introl eq_refl) (Hs v A Ev)).
        + exact (infimum_bound _ rb _ R Erb (or_intror (or_introl eq_refl)) (IHrhe R eq_refl Hdr)).
      - destruct (unassigned c v) eqn:Eu; [|discriminate]. split; intros i.
        + apply SemDeg_zero. intros rho. apply (Hz v A Eu Ev).
        + apply (IHrhe R eq_refl Hdr rb Erb). }
    intros i. destruct (prefix_of x i); apply HAR.
  - discriminate.
Qed.

Lemma stmt_djust_block_le b s0 : djust_cfg_le c idom = true -> In b (c_blocks c) -> In s0 (b_stmts b) ->
  djust_stmt_le c (block_ctl (c_blocks c) idom b) s0 = true.
Proof.
  intros Hv Hb Hs. apply andb_true_iff in Hv as [_ Hv].
  rewrite forallb_forall in Hv. specialize (Hv b Hb).
  unfold djust_block_le in Hv. rewrite forallb_forall in Hv. auto.
Qed.

Lemma djust_stmt_nophi_le m mm x op rhe sv st : is_phi_e rhe = false ->
  djust_stmt_le c m (SSubst mm x op rhe sv st) = true -> djust_expr_le c rhe = true.
Proof. intros Hp. cbn [djust_stmt_le]. destruct rhe; try discriminate; auto. Qed.

(* the range a read of an assigned local must carry is the claim on the right-hand
   side of each of its assignments *)
Lemma var_range_def x r m op e sv st : decl_of c x = Some TLocal -> is_param c x = false ->
  var_range c x = Some r -> In (SSubst m x op e sv st) (all_stmts (c_blocks c)) -> expr_deg e = Some r.
Proof.
  unfold var_range, local_def_range. intros -> -> Hr Hin.
  destruct (filter (defines x) (all_stmts (c_blocks c))) as [|[| | |? ? ? rhe ? ?| | |] tl]; try discriminate.
  destruct (expr_deg rhe) as [r0|]; [|discriminate].
  destruct (forallb (ddef_ok x r0) (all_stmts (c_blocks c))) eqn:E; [|discriminate].
  injection Hr as <-. rewrite forallb_forall in E. specialize (E _ Hin). cbn [ddef_ok] in E.
  rewrite vname_eqb_refl in E. apply andb_true_iff in E as [_ E]. apply opt_drange_eqb_eq. exact E.
Qed.

Lemma assigned_not_unassigned m x op rhe sv st :
  In (SSubst m x op rhe sv st) (all_stmts (c_blocks c)) -> unassigned c x = false.
Proof.
  intros Hin. unfold unassigned.
  assert (E : existsb (defines x) (all_stmts (c_blocks c)) = true).
  { apply existsb_exists. eexists. split; [exact Hin|]. cbn [defines]. apply vname_eqb_refl. }
  rewrite E. reflexivity.
Qed.

Lemma fupd_ok s x F m op rhe sv st : fstore_ok s -> In (SSubst m x op rhe sv st) (all_stmts (c_blocks c)) ->
  (forall r, var_range c x = Some r -> SemDegF (snd r) F) -> fstore_ok (fupd V s x (Some F)).
Proof.
  intros [Hs Hz] Hin HF. split; intros y G; unfold fupd; destruct (vname_eqb x y) eqn:E; try apply vname_eqb_eq in E as <-.
  - intros [= <-]. exact HF.
  - apply Hs.
  - intros Hu. rewrite (assigned_not_unassigned _ _ _ _ _ _ Hin) in Hu. discriminate.
  - apply Hz.
Qed.

(* if the analysis found every deciding condition of a block known constant, none varies *)
Lemma const_ctl_fixed s b : djust_cfg_le c idom = true -> fstore_ok s -> In b (c_blocks c) ->
  block_ctl (c_blocks c) idom b = MConst ->
  (length (b_preds b) < 2)%nat \/ forall cond, decides c idom b cond -> cond_fixed V p sem2 sem1 call_sem name_code s cond.
Proof.
  intros Hv Hok Hb Hm. unfold block_ctl in Hm. destruct (deciding (c_blocks c) idom b) as [cs|] eqn:Edec.
  - right. intros cond Hdc. apply andb_true_iff in Hv as Hsh. destruct Hsh as [Hsh _].
    destruct (ctl_const_cond cs cond Hm (shape_decides_in_deciding c idom Hsh b cond Hb Hdc cs Edec)) as (rc & Erc & Hn).
    unfold cond_fixed. destruct (den s cond) as [C|] eqn:EC; [|exact I].
    (* the condition is a statement of the graph, hence validated *)
    destruct Hdc as (p0 & q & bq & mm & tt & ff & _ & _ & Hq & Hl).
    assert (Hinl : In (SIf mm cond tt ff) (b_stmts bq)).
    { rewrite <- Hl. apply last_in. intros Hnil. rewrite Hnil in Hl. discriminate. }
    pose proof (stmt_djust_block_le bq _ Hv (nth_error_In _ _ Hq) Hinl) as Hjc.
    exact (SemDegF_constant C rc (djust_expr_sound_le s Hok cond C EC Hjc rc Erc) Hn).
  - left. unfold deciding in Edec. destruct (length (b_preds b) <? 2)%nat eqn:El; [|discriminate].
    apply Nat.ltb_lt. exact El.
Qed.

Lemma fstep_preserves_le s s' : djust_cfg_le c idom = true ->
  fstore_ok s -> fstep V p sem2 sem1 call_sem name_code c idom s s' -> fstore_ok s'.
Proof.
  intros Hv Hok Hst. destruct Hst as
    [m x op rhe sv st F s Hin Hloc Hnp Hphi Hden | m x op args k sv st pick s Hin Hloc Hnp Hpa Hps Hpick];
    apply (fupd_ok _ _ _ _ _ _ _ _ Hok Hin); intros r Hr;
    pose proof (var_range_def _ _ _ _ _ _ _ Hloc Hnp Hr Hin) as Hd;
    apply in_flat_map in Hin as (b & Hb & Hsb); pose proof (stmt_djust_block_le b _ Hv Hb Hsb) as Hj.
  - exact (djust_expr_sound_le s Hok rhe F Hden (djust_stmt_nophi_le _ _ _ _ _ _ _ Hphi Hj) r Hd).
  - cbn [djust_stmt_le] in Hj. apply (claim_le_sound _ _ _ _ Hj Hd). intros t Hi.
    destruct (phi_adjust_cases _ _ _ Hi) as [[Hm Hio]|Hnq]; [|intros i; rewrite Hnq; exact I].
    (* every deciding condition is known constant: the same argument for every valuation *)
    assert (Hconst : forall r1 r2, pick r1 = pick r2).
    { apply (Hpick b); [split; [exact Hb|]; eauto 10|]. exact (const_ctl_fixed s b Hv Hok Hb Hm). }
    intros i. unfold phi_fam.
    apply (select_general (snd t) pick (fun a rho => match s a with Some G0 => G0 i rho | None => 0 end) Hconst).
    intros r0. destruct (s (pick r0)) as [G0|] eqn:Ea; [|exfalso; exact (Hps r0 Ea)].
    exact (infimum_bound _ t _ G0 Hio (in_map _ _ _ (Hpa r0)) (proj1 Hok (pick r0) G0 Ea) i).
Qed.

Hypothesis Hvalid : djust_cfg c idom = true.

Lemma decides_in_deciding b cond : In b (c_blocks c) -> decides c idom b cond ->
  forall cs, deciding (c_blocks c) idom b = Some cs -> In cond cs.
Proof. apply shape_decides_in_deciding. apply andb_true_iff in Hvalid. apply Hvalid. Qed.

Lemma fstep_preserves s s' : fstore_ok s -> fstep V p sem2 sem1 call_sem name_code c idom s s' -> fstore_ok s'.
Proof. exact (fstep_preserves_le s s' (djust_cfg_implies_le c idom Hvalid)). Qed.

(* initial stores: parameters (constants for templates, indeterminates for
   functions), signals and component ports (every element an indeterminate),
   never-assigned locals (zeros) *)
Definition finit_ok (s0 : fstore V) : Prop :=
  forall x F, s0 x = Some F ->
    (is_param c x = true /\ forall i, match c_kind c with KFunction => Deg V line p 1 (F i) | _ => Constant V (F i) end) \/
    (is_param c x = false /\ (exists t, decl_of c x = Some t /\ t <> TLocal) /\ forall i, Deg V line p 1 (F i)) \/
    (unassigned c x = true /\ forall i rho, F i rho = 0).

Lemma finit_store_ok s0 : finit_ok s0 -> fstore_ok s0.
Proof.
  intros Hi. split.
  - intros x F Hx r Hr. destruct (Hi x F Hx) as [[Hp HF]|[(Hp & (t & Ht & Hnl) & HF)|[Hu HF]]].
    + unfold var_range in Hr. rewrite Hp in Hr.
      destruct (existsb (defines x) (all_stmts (c_blocks c))); [discriminate|]. injection Hr as <-.
      intros i. specialize (HF i). destruct (c_kind c); cbn [snd PolyDeg.SemDeg]; exact HF.
    + unfold var_range in Hr. rewrite Hp, Ht in Hr. intros i. destruct t; try congruence; injection Hr as <-; apply HF.
    + intros i. apply SemDeg_zero. intros rho. apply HF.
  - intros x F Hu Hx. destruct (Hi x F Hx) as [[Hp HF]|[(Hp & (t & Ht & Hnl) & HF)|[_ HF]]].
    + unfold unassigned in Hu. rewrite Hp in Hu. rewrite andb_false_r in Hu. discriminate.
    + unfold unassigned in Hu. rewrite Ht in Hu. destruct t; try congruence; rewrite andb_false_r in Hu; discriminate.
    + exact HF.
Qed.

Lemma freachable_ok s0 s : djust_cfg_le c idom = true ->
  finit_ok s0 -> freachable V p sem2 sem1 call_sem name_code c idom s0 s -> fstore_ok s.
Proof.
  intros Hv Hi Hr. induction Hr as [|s1 s2 Hr IH Hst].
  - apply finit_store_ok. exact Hi.
  - exact (fstep_preserves_le s1 s2 Hv IH Hst).
Qed.

Theorem justified_degrees_true_le : djust_cfg_le c idom = true -> forall s0 s e F r,
  finit_ok s0 -> freachable V p sem2 sem1 call_sem name_code c idom s0 s ->
  djust_expr_le c e = true -> den s e = Some F -> expr_deg e = Some r -> forall i, SemDeg (snd r) (F i).
Proof.
  intros Hv s0 s e F r Hi Hr Hj Hden Hd.
  exact (djust_expr_sound_le s (freachable_ok s0 s Hv Hi Hr) e F Hden Hj r Hd).
Qed.

Theorem justified_degrees_true s0 s e F r :
  finit_ok s0 -> freachable V p sem2 sem1 call_sem name_code c idom s0 s ->
  djust_expr c e = true -> den s e = Some F -> expr_deg e = Some r -> forall i, SemDeg (snd r) (F i).
Proof.
  intros Hi Hr Hj.
  exact (justified_degrees_true_le (djust_cfg_implies_le c idom Hvalid) s0 s e F r Hi Hr (djust_expr_is_le c e Hj)).
Qed.
End Graph.
