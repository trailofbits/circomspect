(* Facts about [Model.Base.bind] and the list library that proofs of several
   properties need; standard library only. *)
From Coq Require Import List.
Require Import Model.Base.
Import ListNotations.

Lemma bind_ok {A B} (m : outcome A) (f : A -> outcome B) r :
  bind m f = Ok r -> exists a, m = Ok a /\ f a = Ok r.
Proof. destruct m; simpl; try discriminate. eauto. Qed.

Lemma NoDup_app_iff {A} (l r : list A) :
  NoDup (l ++ r) <-> NoDup l /\ NoDup r /\ forall x, In x l -> ~ In x r.
Proof.
  induction l as [|a l IH]; cbn [app].
  - split; [intros H; repeat split; [constructor|exact H|intros x []]|intros (_ & H & _); exact H].
  - rewrite !NoDup_cons_iff, IH, in_app_iff. split.
    + intros (Ha & Hl & Hr & Hd). repeat split; auto. intros x [<-|Hx]; auto.
    + intros ((Ha & Hl) & Hr & Hd). repeat split; auto.
      * intros [H|H]; [exact (Ha H)|exact (Hd a (or_introl eq_refl) H)].
      * intros x Hx. apply Hd. right. exact Hx.
Qed.

Lemma NoDup_app_intro {A} (l r : list A) :
  NoDup l -> NoDup r -> (forall x, In x l -> ~ In x r) -> NoDup (l ++ r).
Proof. intros Hl Hr Hd. apply NoDup_app_iff. auto. Qed.
Lemma NoDup_app_disjoint {A} (l r : list A) : NoDup (l ++ r) -> forall x, In x l -> ~ In x r.
Proof. intros H. apply NoDup_app_iff in H. apply H. Qed.
Lemma NoDup_app_l {A} (l r : list A) : NoDup (l ++ r) -> NoDup l.
Proof. intros H. apply NoDup_app_iff in H. apply H. Qed.
Lemma NoDup_app_r {A} (l r : list A) : NoDup (l ++ r) -> NoDup r.
Proof. intros H. apply NoDup_app_iff in H. apply H. Qed.

Lemma Forall2_len {A B} (R : A -> B -> Prop) l l' : Forall2 R l l' -> length l = length l'.
Proof. induction 1; simpl; congruence. Qed.

Lemma forall2_refl {A} (R : A -> A -> Prop) : (forall x, R x x) -> forall l, Forall2 R l l.
Proof. intros Hr l. induction l; constructor; auto. Qed.

Lemma forall2_impl {A B} (R S : A -> B -> Prop) : (forall a b, R a b -> S a b) ->
  forall l0 l, Forall2 R l0 l -> Forall2 S l0 l.
Proof. intros Hi l0 l H. induction H; constructor; auto. Qed.

Lemma filter_map_comm {A B} (f : A -> B) (p : B -> bool) (q : A -> bool) l :
  (forall a, p (f a) = q a) -> filter p (map f l) = map f (filter q l).
Proof.
  intros H. induction l as [|a l IH]; [reflexivity|]. simpl. rewrite H. destruct (q a); simpl; rewrite IH; reflexivity.
Qed.
