(* the skeleton graph of Proofs.CtlChainExample, and what holds of it on paths *)
From Coq Require Import Lia.
From stdpp Require Import list list_numbers sets.
Require Model.Lift Spec.CfgSpec Spec.CtlSpec Proofs.CtlStructure.

Definition cc_g_lit : list Lift.block :=
  [Lift.Block 0 0 [Lift.ILeaf 1; Lift.ILeaf 5; Lift.IBranch 12 1 (Some 2)] [] [1; 2];
   Lift.Block 1 0 [Lift.ILeaf 25] [0] [3]; Lift.Block 2 0 [Lift.ILeaf 43] [0] [3];
   Lift.Block 3 0 [Lift.ILeaf 62] [1; 2] []].

Lemma cc_g_lit_facts : CtlSpec.can_split cc_g_lit 0 3 ∧ CtlSpec.is_join cc_g_lit 3.
Proof.
  split.
  - apply (CtlStructure.diamond_split _ 0 1 2 3);
      [CtlStructure.ex_edge|CtlStructure.ex_edge|CtlStructure.ex_edge|CtlStructure.ex_edge|..]; simpl; lia.
  - eexists. split; [reflexivity|simpl; lia].
Qed.
