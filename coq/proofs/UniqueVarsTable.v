(* C10: the `Declarations` table of the CFG header (control_flow_graph/
   lifting.rs, intermediate_representation/declarations.rs) built from the
   output of the renaming pass: Model.UniqueVars.build_table.

   Result: on the output of ensure_unique_variables (source names without `.`)
   the table is built without hitting `assert!(insert(..).is_none())` and
   without InvalidVariableNameError, has exactly one row per parameter and per
   Declaration statement, pairwise different keys, and get_declaration answers
   for the (lifted) name of every declaration with the location and kind of
   THAT declaration, for a parameter with the parameter list and `Local`. *)
From Coq Require Import List NArith ZArith Arith Bool.
Require Import Model.Base Model.Ir Model.UniqueVars Spec.ScopeSpec Proofs.ScopeStack Proofs.UniqueVarsProofs Proofs.IrFacts.
Import ListNotations.

Lemma tab_find_none : forall v (t : dtable), ~ In v (map fst t) -> tab_find v t = None.
Proof.
  induction t as [|[w d] r IH]; intros H; [reflexivity|].
  cbn [tab_find]. destruct (vname_eqb v w) eqn:E.
  - apply vname_eqb_eq in E. subst. exfalso. apply H. left. reflexivity.
  - apply IH. intro Hin. apply H. right. exact Hin.
Qed.

Lemma tab_find_app_new : forall v d (t : dtable), ~ In v (map fst t) -> tab_find v (t ++ [(v, d)]) = Some d.
Proof.
  induction t as [|[w e] r IH]; intros H; cbn [app tab_find].
  - assert (E : vname_eqb v v = true) by (apply vname_eqb_eq; reflexivity). rewrite E. reflexivity.
  - destruct (vname_eqb v w) eqn:E.
    + apply vname_eqb_eq in E. subst. exfalso. apply H. left. reflexivity.
    + apply IH. intro Hin. apply H. right. exact Hin.
Qed.

Lemma tab_find_app_old : forall v (t : dtable) x, tab_find v t <> None -> tab_find v (t ++ x) = tab_find v t.
Proof.
  induction t as [|[w e] r IH]; intros x H; cbn [app tab_find] in *; [congruence|].
  destruct (vname_eqb v w); [reflexivity|]. apply IH. exact H.
Qed.

Definition lifted_rows (es : list (name * (loc * dkind))) : list (option vname * (loc * dkind)) :=
  map (fun e => (lift_name (fst e), snd e)) es.

Lemma tab_add_all_ok : forall es (t : dtable),
  Forall (fun n => lift_name n <> None) (map fst es) ->
  NoDup (map Some (map fst t) ++ map lift_name (map fst es)) ->
  exists t', tab_add_all es t = Ok (Some t') /\
             map (fun r => (Some (fst r), snd r)) t' = map (fun r => (Some (fst r), snd r)) t ++ lifted_rows es /\
             (forall v, tab_find v t <> None -> tab_find v t' = tab_find v t) /\
             (forall n d v, In (n, d) es -> lift_name n = Some v -> tab_find v t' = Some d).
Proof.
  induction es as [|[n d] r IH]; intros t Hl Hn.
  - exists t. cbn [tab_add_all lifted_rows map]. rewrite app_nil_r. repeat split; auto. intros ? ? ? [].
  - cbn [map fst] in Hl, Hn. inversion Hl as [|? ? Hln Hlr]; subst.
    cbn [tab_add_all]. destruct (lift_name n) as [v|] eqn:Ev; [|congruence].
    assert (Hv : ~ In v (map fst t)).
    { intro Hin. apply NoDup_remove_2 in Hn. apply Hn. apply in_or_app. left. apply in_map. exact Hin. }
    unfold tab_add. rewrite (tab_find_none _ _ Hv).
    destruct (IH (t ++ [(v, d)])) as [t' [Ht' [Hrows [Hold Hnew]]]].
    + exact Hlr.
    + rewrite map_app, map_app. cbn [map fst]. rewrite <- app_assoc. cbn [app].
      exact Hn.
    + exists t'. split; [exact Ht'|]. split; [|split].
      * rewrite Hrows. rewrite map_app. cbn [map fst snd lifted_rows]. rewrite <- app_assoc. cbn [app]. rewrite Ev. reflexivity.
      * intros w Hw. rewrite Hold.
        -- apply tab_find_app_old. exact Hw.
        -- rewrite tab_find_app_old by exact Hw. exact Hw.
      * intros n' d' w [E|Hin] Hw.
        -- inversion E; subst n' d'. rewrite Ev in Hw. inversion Hw; subst w.
           rewrite Hold; rewrite (tab_find_app_new _ _ _ Hv); [reflexivity|discriminate].
        -- eapply Hnew; eassumption.
Qed.

Lemma lift_plain : forall p, nodot p -> lift_name p = Some (vname_plain p).
Proof. intros p H. unfold lift_name. rewrite split_dot_nodot by exact H. reflexivity. Qed.

(* the parameters are entered like declarations of kind Local at the parameter list *)
Definition param_entries (ps : list name) (ploc : loc) : list (name * (loc * dkind)) :=
  map (fun p => (p, (ploc, KVar))) ps.

Lemma build_table_all : forall params ploc body', Forall nodot params ->
  build_table params ploc body' = tab_add_all (param_entries params ploc ++ decl_entries body') [].
Proof.
  intros params ploc body' H. unfold build_table. generalize (@nil (vname * (loc * dkind))).
  induction H as [|p r Hp _ IH]; intro t; [reflexivity|].
  cbn [tab_add_params param_entries map app tab_add_all]. rewrite (lift_plain p Hp).
  destruct (tab_add (vname_plain p) (ploc, KVar) t); [apply IH|reflexivity..].
Qed.

(* the Declaration statements of a body are its declaration occurrences *)
Lemma decl_entries_names : forall s, map fst (decl_entries s) = decl_names (occs s).
Proof.
  assert (Huses : forall l, decl_names (map (pair OUse) l) = []).
  { induction l; [reflexivity|]. unfold decl_names in *. cbn [map flat_map]. exact IHl. }
  assert (Happ : forall a b, decl_names (a ++ b) = decl_names a ++ decl_names b).
  { intros. unfold decl_names. apply flat_map_app. }
  induction s using ustmt_ind_nested; cbn [decl_entries occs flat_map] in *.
  - reflexivity.
  - rewrite map_app, Happ, IHs, IHs0. reflexivity.
  - assumption.
  - rewrite Happ, Huses. reflexivity.
  - unfold decl_names at 1. cbn [flat_map]. fold (decl_names (map (pair OUse) uses)). rewrite Huses. reflexivity.
  - rewrite Huses. reflexivity.
  - rewrite Happ, Huses. exact IHs.
  - rewrite Happ, Huses, Happ. cbn [app]. change (decl_names []) with (@nil name). rewrite !app_nil_r. exact IHs.
  - rewrite Happ, Huses, Happ, map_app, IHs1, IHs2. reflexivity.
Qed.

Theorem declaration_table_keyed_by_declaration : forall params ploc body body' reports,
  ensure_unique_variables params ploc body = Renamed body' reports ->
  Forall nodot (params ++ declared body) ->
  exists t,
    build_table params ploc body' = Ok (Some t) /\
    length t = length params + length (decl_entries body') /\
    NoDup (map fst t) /\
    (forall p, In p params -> get_declaration_of (vname_plain p) t = Some (ploc, KVar)) /\
    (forall n d v, In (n, d) (decl_entries body') -> lift_name n = Some v -> get_declaration_of v t = Some d).
Proof.
  intros params ploc body body' reports R Hd.
  destruct (renaming_injective_on_declarations _ _ _ _ _ R Hd) as [Hnd Hl].
  assert (Hdp : Forall nodot params) by (apply Forall_app in Hd; tauto).
  assert (Hfst : map fst (param_entries params ploc ++ decl_entries body') = params ++ decl_names (occs body')).
  { unfold param_entries. rewrite map_app, map_map, map_id, decl_entries_names. reflexivity. }
  rewrite (build_table_all params ploc body' Hdp).
  destruct (tab_add_all_ok (param_entries params ploc ++ decl_entries body') []) as [t [Ht [Hrows [_ Hnew]]]].
  - rewrite Hfst. exact Hl.
  - rewrite Hfst. exact Hnd.
  - exists t. split; [exact Ht|]. cbn [map app] in Hrows.
    assert (Hkeys : map Some (map fst t) = map lift_name (params ++ decl_names (occs body'))).
    { rewrite <- Hfst, !map_map. apply (f_equal (map fst)) in Hrows. unfold lifted_rows in Hrows.
      rewrite !map_map in Hrows. exact Hrows. }
    split; [|split; [|split]].
    + rewrite <- (map_length (fun r => (Some (fst r), snd r))), Hrows. unfold lifted_rows, param_entries.
      now rewrite map_length, app_length, map_length.
    + apply (NoDup_map_inv Some). rewrite Hkeys. exact Hnd.
    + intros p Hp. apply (Hnew p (ploc, KVar)).
      * apply in_or_app. left. apply in_map_iff. now exists p.
      * apply lift_plain. rewrite Forall_forall in Hdp. now apply Hdp.
    + intros n d v Hin Hv. unfold get_declaration_of.
      assert (Ev : without_version v = v).
      { unfold lift_name in Hv. destruct (split_dot n) as [|a [|b [|c r]]]; try discriminate; inversion Hv; reflexivity. }
      rewrite Ev. apply (Hnew n d v); [apply in_or_app; now right|assumption].
Qed.
