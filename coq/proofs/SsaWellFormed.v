(* C12, "after into_ssa".  For ALL frontier tables, ALL children tables and every
   input graph without phi expressions (SsaPre.phi_free, decidable, evaluated per
   definition; IR lifting never builds one: Proofs.SsaLiftedWf.lifted_phi_free):

     into_ssa_shape       every block of the output keeps its frame (index, loop depth,
                          predecessors, successors) and its statements are phi
                          assignments followed by the statements of the input block, one
                          for one and of the same kind (Spec.IrCfgSpec.ssa_shape_of)
     ssa_shape_keeps_wf   every well-formedness clause of C12 (Spec.IrCfgSpec.cfg_wf) is
                          carried from c to any c' with ssa_shape_of c c' - a statement
                          about the two graphs only
     into_ssa_keeps_wf    the two together

   The shape comes from Proofs.SsaConstruction.into_ssa_renamed_inv (the erasure
   invariant, before the declarations are re-issued: no hypothesis on declarations is
   needed for the KIND of a statement) and [into_ssa_frames]: the construction touches
   nothing of a block but its statement list. *)
From Coq Require Import ZArith NArith List Bool Lia Arith.
Require Import Model.Base Model.Ir Model.SsaCheck Model.SsaErase Model.Ssa Model.SsaPre.
Require Import Proofs.IrFacts Proofs.SsaNoPanic Proofs.SsaConstruction.
Require Import Spec.IrCfgSpec.
Import ListNotations.

(* a relation between an original block and its current version that is closed under set_stmts
   on the right is an invariant of the whole construction *)
Lemma stages_keep (R : block -> block -> Prop) (R_set : forall b0 b ss, R b0 b -> R b0 (set_stmts b ss))
      frontier children c c' :
  into_ssa frontier children c = SOk c' ->
  Forall2 R (c_blocks c) (c_blocks c) -> Forall2 R (c_blocks c) (c_blocks c').
Proof. apply (into_ssa_keeps (fun _ => True) R frontier children c c'); auto. Qed.

Theorem into_ssa_frames : forall frontier children c c',
  into_ssa frontier children c = SOk c' -> Forall2 same_frame (c_blocks c) (c_blocks c').
Proof.
  intros frontier children c c' H. apply (stages_keep same_frame (fun _ _ _ H => H) _ _ _ _ H).
  apply forall2_refl. intros b. repeat split.
Qed.

Lemma forall2_nth_both {A B} (R : A -> B -> Prop) : forall l0 l i x0 x, Forall2 R l0 l ->
  nth_error l0 i = Some x0 -> nth_error l i = Some x -> R x0 x.
Proof.
  intros l0 l i x0 x H H0 H1. destruct (forall2_nth _ _ _ _ _ H H1) as (y & Hy & Hr). congruence.
Qed.

Theorem into_ssa_blocks_kept : forall frontier children c c',
  into_ssa frontier children c = SOk c' ->
  length (c_blocks c') = length (c_blocks c) /\
  forall i b b', nth_error (c_blocks c) i = Some b -> nth_error (c_blocks c') i = Some b' ->
    b_index b' = b_index b /\ b_depth b' = b_depth b /\ b_preds b' = b_preds b /\ b_succs b' = b_succs b.
Proof.
  intros frontier children c c' H. pose proof (into_ssa_frames _ _ _ _ H) as F. split.
  - eapply forall2_length. exact F.
  - intros i b b' Hb Hb'. exact (forall2_nth_both _ _ _ _ _ _ F Hb Hb').
Qed.

Lemma is_phi_iff s : is_phi s <-> is_phi_stmt s = true.
Proof.
  split.
  - intros (m & x & op & args & k & sv & st & ->). reflexivity.
  - destruct s as [| | |m v op rhe sval stype| | |]; try discriminate. destruct rhe; try discriminate.
    intros _. do 7 eexists. reflexivity.
Qed.

Lemma not_phi_iff s : ~ is_phi s <-> is_phi_stmt s = false.
Proof. rewrite is_phi_iff. destruct (is_phi_stmt s); split; congruence. Qed.

Lemma stmt_sim_same_kind a s : stmt_sim a s = true -> same_kind a s.
Proof.
  destruct a, s; cbn [stmt_sim same_kind]; try discriminate; rewrite ?andb_true_iff; intros H.
  - destruct H as [[[H1 _] H2] _]. split; [apply meta_eqb_eq|apply vtype_eqb_eq]; assumption.
  - destruct H as [[[H1 _] H2] H3]. split; [apply meta_eqb_eq; assumption|].
    split; [apply N.eqb_eq|apply optN_eqb_eq]; assumption.
  - destruct H as [H1 _]. apply meta_eqb_eq. assumption.
  - destruct H as [[[H1 _] H2] _]. split; [apply meta_eqb_eq|apply assign_eqb_eq]; assumption.
  - destruct H as [[H1 _] _]. apply meta_eqb_eq. assumption.
  - destruct H as [H1 _]. apply meta_eqb_eq. assumption.
  - destruct H as [H1 _]. apply meta_eqb_eq. assumption.
Qed.

Lemma same_kind_update_decl env a s : same_kind a s -> same_kind a (update_decl_stmt env s).
Proof.
  destruct s as [m names t dims| | | | | |]; try (intros H; exact H).
  destruct names as [|n tl]; [intros H; exact H|]. destruct t; intros H; exact H.
Qed.

Lemma stmts_sim_same_kind env : forall xs B, stmts_sim xs B = true ->
  Forall2 same_kind xs (map (update_decl_stmt env) B).
Proof.
  induction xs as [|x tx IH]; intros [|y ty] H; cbn [stmts_sim] in H; try discriminate; simpl; constructor.
  - apply andb_true_iff in H as [H _]. apply same_kind_update_decl. apply stmt_sim_same_kind. exact H.
  - apply andb_true_iff in H as [_ H]. apply IH. exact H.
Qed.

Lemma forall2_map_r {A B C} (R : A -> C -> Prop) (f : B -> C) : forall l0 l,
  Forall2 (fun a b => R a (f b)) l0 l -> Forall2 R l0 (map f l).
Proof. intros l0 l H. induction H; simpl; constructor; auto. Qed.

Lemma forall2_conj {A B} (R S : A -> B -> Prop) : forall l0 l,
  Forall2 R l0 l -> Forall2 S l0 l -> Forall2 (fun a b => R a b /\ S a b) l0 l.
Proof.
  intros l0 l H. induction H as [|a b t0 t Hab Ht IH]; intros H2; inversion H2; subst; constructor; auto.
Qed.

Lemma erases_to_image env b0 b : erases_to b0 b ->
  phis_then_image b0 (set_stmts b (map (update_decl_stmt env) (b_stmts b))).
Proof.
  intros (_ & _ & P & B & Hb & HP & Hs).
  exists (map (update_decl_stmt env) P), (map (update_decl_stmt env) B). cbn [set_stmts b_stmts].
  split; [rewrite Hb; apply map_app|]. split; [|split].
  - unfold all_phis in HP. rewrite Forall_forall in *. intros y Hy. apply in_map_iff in Hy as (z & <- & Hz).
    apply is_phi_iff. rewrite update_decl_stmt_phi. apply HP. exact Hz.
  - pose proof (stmts_sim_no_phi _ _ Hs) as HB. rewrite Forall_forall in *. intros y Hy.
    apply in_map_iff in Hy as (z & <- & Hz). apply not_phi_iff. rewrite update_decl_stmt_phi. apply HB. exact Hz.
  - apply stmts_sim_same_kind. exact Hs.
Qed.

Theorem into_ssa_shape : forall frontier children c c',
  phi_free c = true -> into_ssa frontier children c = SOk c' -> ssa_shape_of c c'.
Proof.
  intros frontier children c c' Hpf H. unfold ssa_shape_of.
  apply forall2_conj; [exact (into_ssa_frames _ _ _ _ H)|].
  destruct (into_ssa_renamed_inv _ _ _ _ Hpf H) as (bs2 & env & Hi & ->).
  apply forall2_map_r. revert Hi. apply forall2_impl. intros b0 b. apply erases_to_image.
Qed.

(* paths, reachability and dominance need the frames only: no hypothesis on the input *)
Section Frames.
Variables c c' : cfg.
Hypothesis F : Forall2 same_frame (c_blocks c) (c_blocks c').

Lemma frames_nblocks : nblocks c' = nblocks c.
Proof. unfold nblocks. eapply forall2_length. exact F. Qed.

Lemma frames_edge i j : edge c' i j <-> edge c i j.
Proof.
  split; intros (b & Hb & Hin).
  - destruct (forall2_nth _ _ _ _ _ F Hb) as (b0 & Hb0 & (_ & _ & _ & Hs)). exists b0. rewrite <- Hs. auto.
  - destruct (forall2_nth_fwd _ _ _ _ _ F Hb) as (b1 & Hb1 & (_ & _ & _ & Hs)). exists b1. rewrite Hs. auto.
Qed.

Lemma frames_path i l j : path c' i l j <-> path c i l j.
Proof.
  split; intros H; induction H as [i Hi|i k l j He _ IH].
  - constructor. rewrite <- frames_nblocks. exact Hi.
  - econstructor; [apply frames_edge; exact He|exact IH].
  - constructor. rewrite frames_nblocks. exact Hi.
  - econstructor; [apply frames_edge; exact He|exact IH].
Qed.
End Frames.

Lemma shape_frames c c' : ssa_shape_of c c' -> Forall2 same_frame (c_blocks c) (c_blocks c').
Proof. apply forall2_impl. intros b b' H. apply H. Qed.

Lemma shape_blk_bwd c c' (Sh : ssa_shape_of c c') i b' : blk c' i = Some b' ->
  exists b, blk c i = Some b /\ same_frame b b' /\ phis_then_image b b'.
Proof. exact (forall2_nth _ _ _ _ _ Sh). Qed.

Lemma shape_blk_fwd c c' (Sh : ssa_shape_of c c') i b : blk c i = Some b ->
  exists b', blk c' i = Some b' /\ same_frame b b' /\ phis_then_image b b'.
Proof. exact (forall2_nth_fwd _ _ _ _ _ Sh). Qed.

Theorem into_ssa_same_paths : forall frontier children c c',
  into_ssa frontier children c = SOk c' ->
  (forall i l j, path c' i l j <-> path c i l j) /\
  (forall j, reachable c' j <-> reachable c j) /\
  (forall i j, dominates c' i j <-> dominates c i j).
Proof.
  intros frontier children c c' H. pose proof (into_ssa_frames _ _ _ _ H) as F.
  pose proof (frames_path _ _ F) as P. split; [exact P|]. split.
  - intros j. split; intros (l & Hl); exists l; apply P; exact Hl.
  - intros i j. split; intros Hd l Hl; apply Hd; apply P; exact Hl.
Qed.

(* a branch of the image stands where it stood *)
Lemma same_kind_branch a s : same_kind a s -> (is_branch a <-> is_branch s).
Proof.
  intros H. split; intros (m & e & t & f & ->).
  - destruct s; try contradiction. do 4 eexists. reflexivity.
  - destruct a; try contradiction. do 4 eexists. reflexivity.
Qed.

Lemma phi_not_branch s : is_phi s -> ~ is_branch s.
Proof. intros (m & x & op & args & k & sv & st & ->) (m' & e & t & f & H). discriminate H. Qed.

(* the last statement of the image: a branch iff the last statement of the source is one,
   and then the same condition location and targets *)
Lemma image_last_branch b b' m e t f : phis_then_image b b' -> last_stmt b' = Some (SIf m e t f) ->
  exists e0, last_stmt b = Some (SIf m e0 t f).
Proof.
  intros (P & B & Hs & HP & _ & HB). unfold last_stmt. rewrite Hs, app_length.
  pose proof (forall2_length _ _ _ HB) as HL.
  destruct B as [|y ty].
  - rewrite app_nil_r, Nat.add_0_r. intros H. exfalso.
    apply nth_error_In in H. rewrite Forall_forall in HP. apply (phi_not_branch _ (HP _ H)).
    do 4 eexists. reflexivity.
  - simpl length in *. rewrite nth_error_app2 by lia.
    replace (pred (length P + S (length ty)) - length P) with (length ty) by lia. intros H.
    destruct (forall2_nth _ _ _ _ _ HB H) as (a & Ha & Hk). rewrite <- HL. simpl pred.
    destruct a; try contradiction. destruct Hk as (-> & -> & ->). eauto.
Qed.

Lemma image_last_branch_fwd b b' m e0 t f : phis_then_image b b' -> last_stmt b = Some (SIf m e0 t f) ->
  exists e, last_stmt b' = Some (SIf m e t f).
Proof.
  intros (P & B & Hst & _ & _ & HB) Hsl. pose proof (forall2_length _ _ _ HB) as HL.
  unfold last_stmt in Hsl. destruct (forall2_nth_fwd _ _ _ _ _ HB Hsl) as (y & Hy & Hk).
  destruct y; try contradiction. destruct Hk as (<- & <- & <-). eexists.
  unfold last_stmt. rewrite Hst, app_length.
  assert (length B <> 0) by (intros E; apply nth_error_In in Hy; destruct B; [contradiction|discriminate]).
  rewrite nth_error_app2 by lia. replace (pred (length P + length B) - length P) with (pred (length B)) by lia.
  rewrite HL. exact Hy.
Qed.

Lemma image_ends_in_branch b b' : phis_then_image b b' -> ends_in_branch b' -> ends_in_branch b.
Proof.
  intros Hi (s & Hs & (m & e & t & f & ->)). destruct (image_last_branch _ _ _ _ _ _ Hi Hs) as (e0 & H0).
  eexists. split; [exact H0|]. do 4 eexists. reflexivity.
Qed.

Lemma image_ends_in_branch_fwd b b' : phis_then_image b b' -> ends_in_branch b -> ends_in_branch b'.
Proof.
  intros Hi (s & Hs & (m & e & t & f & ->)). destruct (image_last_branch_fwd _ _ _ _ _ _ Hi Hs) as (e' & H').
  eexists. split; [exact H'|]. do 4 eexists. reflexivity.
Qed.

Lemma image_branch_only_last b b' : phis_then_image b b' ->
  (forall k s, nth_error (b_stmts b) k = Some s -> is_branch s -> S k = length (b_stmts b)) ->
  forall k s, nth_error (b_stmts b') k = Some s -> is_branch s -> S k = length (b_stmts b').
Proof.
  intros (P & B & Hs & HP & _ & HB) H0 k s Hk Hbr. rewrite Hs in *. rewrite app_length.
  pose proof (forall2_length _ _ _ HB) as HL.
  destruct (lt_dec k (length P)) as [Hlt|Hge].
  - rewrite nth_error_app1 in Hk by exact Hlt. exfalso. apply nth_error_In in Hk.
    rewrite Forall_forall in HP. exact (phi_not_branch _ (HP _ Hk) Hbr).
  - rewrite nth_error_app2 in Hk by lia.
    destruct (forall2_nth _ _ _ _ _ HB Hk) as (a & Ha & Hkind).
    apply (same_kind_branch _ _ Hkind) in Hbr. pose proof (H0 _ _ Ha Hbr). lia.
Qed.

Theorem ssa_shape_keeps_wf : forall c c', ssa_shape_of c c' -> cfg_wf c -> cfg_wf c'.
Proof.
  intros c c' Sh [W1 W2 W3 W4 W5 W6 W7 W8 W9 W10].
  pose proof (shape_frames _ _ Sh) as F. pose proof (frames_nblocks _ _ F) as HN.
  constructor.
  - intros i b' Hb'. destruct (shape_blk_bwd _ _ Sh _ _ Hb') as (b & Hb & (Hi & _) & _). rewrite Hi. eapply W1. exact Hb.
  - destruct W2 as (b0 & Hb0 & Hp). destruct (shape_blk_fwd _ _ Sh _ _ Hb0) as (b1 & Hb1 & (_ & _ & Hpp & _) & _).
    exists b1. split; [exact Hb1|]. rewrite Hpp. exact Hp.
  - intros i b' x Hb' Hx. destruct (shape_blk_bwd _ _ Sh _ _ Hb') as (b & Hb & (_ & _ & Hp & Hs) & _).
    rewrite HN. rewrite Hp, Hs in Hx. eapply W3; eassumption.
  - intros i j. split.
    + intros (bi & Hbi & Hin). destruct (shape_blk_bwd _ _ Sh _ _ Hbi) as (b & Hb & (_ & _ & _ & Hs) & _).
      rewrite Hs in Hin. destruct (proj1 (W4 i j) (ex_intro _ b (conj Hb Hin))) as (bj & Hbj & Hin').
      destruct (shape_blk_fwd _ _ Sh _ _ Hbj) as (bj' & Hbj' & (_ & _ & Hp & _) & _).
      exists bj'. rewrite Hp. auto.
    + intros (bj & Hbj & Hin). destruct (shape_blk_bwd _ _ Sh _ _ Hbj) as (b & Hb & (_ & _ & Hp & _) & _).
      rewrite Hp in Hin. destruct (proj2 (W4 i j) (ex_intro _ b (conj Hb Hin))) as (bi & Hbi & Hin').
      destruct (shape_blk_fwd _ _ Sh _ _ Hbi) as (bi' & Hbi' & (_ & _ & _ & Hs) & _).
      exists bi'. rewrite Hs. auto.
  - intros i b' k s Hb'. destruct (shape_blk_bwd _ _ Sh _ _ Hb') as (b & Hb & _ & Him).
    apply (image_branch_only_last _ _ Him). intros k0 s0. eapply W5. exact Hb.
  - intros i b' m e t f Hb' Hl. destruct (shape_blk_bwd _ _ Sh _ _ Hb') as (b & Hb & (_ & _ & _ & Hs) & Him).
    destruct (image_last_branch _ _ _ _ _ _ Him Hl) as (e0 & Hl0). rewrite HN, Hs. eapply W6; eassumption.
  - intros i b' Hb'. destruct (shape_blk_bwd _ _ Sh _ _ Hb') as (b & Hb & (_ & _ & _ & Hs) & Him).
    rewrite Hs. destruct (W7 _ _ Hb) as (A1 & A2 & A3). split; [exact A1|]. split; [exact A2|].
    intros Hn. apply A3. intros He. apply Hn. exact (image_ends_in_branch_fwd _ _ Him He).
  - intros j Hj. rewrite HN in Hj. destruct (W8 j Hj) as (l & Hl). exists l. apply (frames_path _ _ F). exact Hl.
  - intros i j Hj Hd. rewrite HN in Hj. apply (W9 i j Hj). intros l Hl. apply Hd. apply (frames_path _ _ F). exact Hl.
  - intros j Hj. rewrite HN in Hj. destruct (W10 j Hj) as (l & Hl & Hle). exists l. split; [|exact Hle].
    apply (frames_path _ _ F). exact Hl.
Qed.

Theorem into_ssa_keeps_wf : forall frontier children c c',
  phi_free c = true -> into_ssa frontier children c = SOk c' -> cfg_wf c -> cfg_wf c'.
Proof.
  intros frontier children c c' Hpf H. apply ssa_shape_keeps_wf. eapply into_ssa_shape; eassumption.
Qed.

(* a block of the output ends in a branch
   exactly when the block of the input does, with the same location and targets *)
Theorem into_ssa_last_branch : forall frontier children c c',
  phi_free c = true -> into_ssa frontier children c = SOk c' ->
  forall i b b', nth_error (c_blocks c) i = Some b -> nth_error (c_blocks c') i = Some b' ->
  forall m t f, (exists e, last_stmt b' = Some (SIf m e t f)) <-> (exists e, last_stmt b = Some (SIf m e t f)).
Proof.
  intros frontier children c c' Hpf H i b b' Hb Hb' m t f.
  pose proof (into_ssa_shape _ _ _ _ Hpf H) as Sh.
  destruct (forall2_nth_both _ _ _ _ _ _ Sh Hb Hb') as [_ Him]. split; intros (e & He).
  - eapply image_last_branch; eassumption.
  - eapply image_last_branch_fwd; eassumption.
Qed.

(* the loop depths are those of the input, block by block *)
Lemma shape_loop_depths c c' : ssa_shape_of c c' -> loop_depths c' = loop_depths c.
Proof.
  unfold ssa_shape_of, loop_depths. intros H. induction H as [|b b' t t' ((_ & Hd & _) & _) _ IH]; [reflexivity|].
  simpl. rewrite Hd, IH. reflexivity.
Qed.

(* the hypothesis of into_ssa_shape cannot simply be dropped: the mirror
   copies a phi assignment that already stands behind another statement, so
   the output is not "phis, then statements that are no phis" *)
Module Needed.
Definition k0 : know := {| kval := None; kdeg := None |}.
Definition m0 : meta := {| m_start := 0%N; m_end := 0%N; m_file := None |}.
Definition xu : vname := {| vn_name := [120%N]; vn_suffix := None; vn_version := None |}.
Definition c_phi : cfg :=
  {| c_kind := KFunction; c_params := []; c_decls := [(xu, TLocal)];
     c_blocks := [ {| b_index := 0%N; b_depth := 0%N;
                      b_stmts := [ SCeq m0 (ENum 0 k0) (ENum 0 k0);
                                   SSubst m0 xu OpVar (EPhi [] k0) None (Some TLocal) ];
                      b_preds := []; b_succs := [] |} ] |}.

Lemma phi_free_needed :
  phi_free c_phi = false /\
  exists c', into_ssa [[]] [[]] c_phi = SOk c' /\ ~ ssa_shape_of c_phi c'.
Proof.
  split; [reflexivity|]. eexists. split; [vm_compute; reflexivity|].
  intros Sh. inversion Sh as [|b b' t t' [_ (P & B & Hs & HP & HB & _)] _]; subst. cbn [b_stmts] in Hs.
  destruct P as [|p P'].
  - simpl in Hs. subst B. inversion HB as [|? ? _ HB2]; subst. inversion HB2 as [|? ? Hn _]; subst.
    apply Hn. do 7 eexists. reflexivity.
  - simpl in Hs. injection Hs as Hp _. subst p. inversion HP as [|? ? Hphi _]; subst.
    destruct Hphi as (m & x & op & args & k & sv & st & Habs). discriminate Habs.
Qed.
End Needed.
