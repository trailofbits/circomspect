(* C18: the specified expansion does not depend on the scheme that names the
   introduced components and counters, up to renaming.

   [expand_spec] is parametric in [comp_name] and [counter_name].  For every
   renaming [f] that leaves the body itself unchanged, composing both naming
   functions with [f] gives the [f]-renamed expansion:

     expand_spec sig (f o comp_name) (f o counter_name) body
       = option_map (ren_s f) (expand_spec sig comp_name counter_name body).

   With Proofs.DesugarRefine.desugar_is_expand this turns "the desugarer's output
   EQUALS expand_spec under the implementation's own naming function" into "the
   desugarer's output, renamed by f, IS expand_spec under the naming scheme
   f o (implementation's scheme)" for every such f: the statement no longer
   depends on which names were plugged in. *)
From Coq Require Import ZArith NArith List Bool String Lia.
Require Import Model.Ast Model.Desugar Spec.ExpandSpec Spec.RenameSpec Proofs.DesugarProofs Proofs.DesugarRefine.
Import ListNotations.
Local Open Scope list_scope.

Lemma map_fix_Forall : forall {A} (g : A -> A) l, map g l = l -> Forall (fun x => g x = x) l.
Proof.
  induction l as [|x l IH]; intros H; [constructor|].
  simpl in H. injection H as H1 H2. constructor; auto.
Qed.

Lemma Forall_map_fix : forall {A} (g : A -> A) l, Forall (fun x => g x = x) l -> map g l = l.
Proof. induction 1; simpl; congruence. Qed.

Lemma map_fix_list : forall {A} (g : A -> A) (P : A -> Prop) l,
  Forall (fun x => P x -> g x = x) l -> Forall P l -> map g l = l.
Proof. intros A g P l H Hp. apply Forall_map_fix. rewrite Forall_forall in *. auto. Qed.

Lemma all_some_map_map : forall {A B} (g : A -> B) (l : list (option A)),
  all_some (map (option_map g) l) = option_map (map g) (all_some l).
Proof.
  induction l as [|[a|] l IH]; simpl; [reflexivity| |reflexivity].
  rewrite IH. destruct (all_some l); reflexivity.
Qed.

Lemma flat_map_map : forall {A B C} (g : A -> B) (h : B -> list C) l,
  flat_map h (map g l) = flat_map (fun x => h (g x)) l.
Proof. induction l; simpl; congruence. Qed.

Lemma map_flat_map : forall {A B C} (g : B -> C) (h : A -> list B) l,
  map g (flat_map h l) = flat_map (fun x => map g (h x)) l.
Proof. induction l; simpl; [reflexivity|]. rewrite map_app. congruence. Qed.

Lemma flat_map_ext_all : forall {A B} (g h : A -> list B) l, (forall x, g x = h x) -> flat_map g l = flat_map h l.
Proof. intros. induction l; simpl; congruence. Qed.

Lemma filter_map_commute : forall {A} (p : A -> bool) (g : A -> A) l,
  (forall x, p (g x) = p x) -> filter p (map g l) = map g (filter p l).
Proof.
  induction l as [|x l IH]; intros H; simpl; [reflexivity|].
  rewrite H. destruct (p x); simpl; rewrite IH; auto.
Qed.

Section Fixed.
  Variable f : string -> string.

  (* a renaming that moves none of the body's own names leaves the body unchanged *)
  Notation fixed := (Forall (fun x => f x = x)).

  (* [fixed] of a list of names built with ++, :: and flat_map, taken apart *)
  Ltac split_fixed :=
    repeat match goal with
           | H : fixed (_ ++ _) |- _ => apply Forall_app in H; destruct H
           | H : fixed (_ :: _) |- _ => apply Forall_cons_iff in H; destruct H
           | H : fixed (flat_map _ _) |- _ => apply Forall_flat_map in H
           end.

  Lemma ren_e_fix : forall e, fixed (expr_names e) -> ren_e f e = e.
  Proof.
    induction e using expression_ind'; cbn [ren_e expr_names]; intros Hn; split_fixed;
      f_equal; auto; try (apply (map_fix_list _ _ _ H); assumption).
    - revert H1. apply map_fix_list.
      eapply Forall_impl; [|exact H]. intros [s|i] Hi Hx; [reflexivity | f_equal; auto].
    - apply (map_fix_list _ _ _ H0); assumption.
  Qed.

  Lemma ren_s_fix : forall s, fixed (stmt_names s) -> ren_s f s = s.
  Proof.
    pose proof ren_e_fix as HE.
    assert (HL : forall vs, Forall (fun e => fixed (expr_names e)) vs -> map (ren_e f) vs = vs).
    { intros vs. apply map_fix_list. apply Forall_forall. intros x _. apply HE. }
    induction s using statement_ind'; cbn [ren_s stmt_names]; unfold access_names; intros Hn; split_fixed;
      f_equal; auto; try (apply (map_fix_list _ _ _ H); assumption).
    - destruct e as [e'|]; [|reflexivity]. f_equal. apply (H e' eq_refl). assumption.
    - apply (map_fix_list _ (fun a => fixed match a with ArrayAccess i => expr_names i | ComponentAccess _ => [] end));
        [|assumption]. apply Forall_forall. intros [?|i] _ Hi; [reflexivity | cbn [ren_a]; f_equal; auto].
    - apply (map_fix_list _ (fun a => fixed match a with LogExp e => expr_names e | LogStr _ => [] end));
        [|assumption]. apply Forall_forall. intros [?|e] _ He; [reflexivity | cbn [ren_log]; f_equal; auto].
  Qed.
End Fixed.

Section Alpha.
  Variable f : string -> string.
  Variable sig_of : string -> option (list string * list string).
  Variable cn : string -> meta -> option string.
  Variable kn : meta -> option string.

  (* fix f58b98e: whether a loop has a counter is decided by the NAME of the counter occurring as a
     dimension among the declarations of its body.  A renaming that sends another name onto the image of
     a loop counter changes that decision, so the renaming theorems need: no other name is identified
     with a loop counter. *)
  Hypothesis Hsep : forall m k x, kn m = Some k -> f x = f k -> x = k.

  Definition cn' (id : string) (m : meta) : option string := option_map f (cn id m).
  Definition kn' (m : meta) : option string := option_map f (kn m).

  Notation RE := (ren_e f).
  Notation RS := (ren_s f).
  Notation RA := (map (ren_a f)).

  Notation xres := (option (list statement * list statement * list expression)).

  Definition ren3 (t : list statement * list statement * list expression) :=
    (map RS (fst (fst t)), map RS (snd (fst t)), map RE (snd t)).
  Definition ren_xres (r : xres) : xres := option_map ren3 r.

  Definition ren2 (t : list statement * list statement) := (map RS (fst t), map RS (snd t)).
  Definition ren1 (t : list statement * list statement * expression) :=
    (map RS (fst (fst t)), map RS (snd (fst t)), RE (snd t)).

  Lemma is_single_ren : forall e r, is_single e (ren_xres r) = option_map ren1 (is_single e r).
  Proof.
    intros e r. destruct r as [[[pre dec] vs]|]; destruct e; simpl; try reflexivity;
      destruct vs as [|v0 [|? ?]]; reflexivity.
  Qed.

  Lemma xconcat_ren : forall l, xconcat (map ren_xres l) = ren_xres (xconcat l).
  Proof.
    intros l. unfold xconcat, ren_xres. rewrite all_some_map_map.
    destruct (all_some l) as [rs|]; [|reflexivity].
    unfold ren3. cbn [option_map fst snd]. rewrite !flat_map_map, !map_flat_map. reflexivity.
  Qed.

  (* the anonymous component, given that its arguments commute *)
  Lemma xanon_ren : forall ix m id par ps args names argres,
    map RE ps = ps ->
    xanon sig_of cn' (RA ix) m id par ps args names (map ren_xres argres) =
    ren_xres (xanon sig_of cn ix m id par ps args names argres).
  Proof.
    intros ix m id par ps args names argres Hps.
    unfold xanon, cn'. destruct (sig_of id) as [[ins outs]|]; [|reflexivity].
    destruct (cn id m) as [c|]; cbn [option_map]; [|reflexivity].
    destruct (forallb plain ps && (List.length ins =? List.length args)%nat &&
              match names with Some nm => (List.length nm =? List.length args)%nat | None => true end); [|reflexivity].
    match goal with
    | |- match all_some (map ?F ?L) with _ => _ end = ren_xres (match all_some (map ?G ?L) with _ => _ end) =>
        assert (E : forall p, F p = option_map ren2 (G p));
        [| replace (map F L) with (map (option_map ren2) (map G L))
             by (rewrite map_map; apply map_ext; intros p; symmetry; apply E);
           rewrite all_some_map_map; destruct (all_some (map G L)) as [fed|]; cbn [option_map]; [|reflexivity] ]
    end.
    { intros [k input]. destruct (argument_of names k input) as [[j o]|]; [|reflexivity].
      rewrite nth_error_map. destruct (nth_error args j) as [a|]; [|reflexivity].
      destruct (nth_error argres j) as [r|]; cbn [option_map]; [|reflexivity].
      rewrite is_single_ren. destruct (is_single a r) as [[[pre dec] v]|]; cbn [option_map]; [|reflexivity].
      unfold ren1, ren2. cbn [fst snd]. rewrite map_app. cbn [map ren_s]. rewrite map_app. reflexivity. }
    unfold ren_xres, ren3. cbn [option_map fst snd map ren_s]. rewrite !flat_map_map, !map_flat_map, map_map.
    assert (Ecall : RE (if par then ParallelOp m (Call m id ps) else Call m id ps)
                    = (if par then ParallelOp m (Call m id ps) else Call m id ps))
      by (destruct par; cbn [ren_e]; rewrite Hps; reflexivity).
    rewrite Ecall. do 2 f_equal.
    - destruct ix as [|[s|v] ix']; reflexivity.
    - apply map_ext. intros o. cbn [ren_e]. fold (ren_a f). rewrite map_app. reflexivity.
  Qed.

  Definition X (ix : list access) (e : expression) : Prop :=
    xvals sig_of cn' (RA ix) e = ren_xres (xvals sig_of cn ix e).

  Lemma X_plain_case : forall ix e, RE e = e ->
    (forall sg c i, xvals sg c i e = if plain e then Some ([], [], [e]) else None) -> X ix e.
  Proof.
    intros ix e Hfix Hx. unfold X. rewrite !Hx. destruct (plain e); [|reflexivity].
    unfold ren_xres, ren3. cbn [option_map fst snd map]. rewrite Hfix. reflexivity.
  Qed.

  Lemma X_anon : forall ix m id par ps ss names,
    map RE ps = ps -> Forall (X ix) ss -> X ix (AnonymousComponent m id par ps ss names).
  Proof.
    intros ix m id par ps ss names Hps Hss. unfold X. cbn [xvals].
    replace (map (xvals sig_of cn' (RA ix)) ss) with (map ren_xres (map (xvals sig_of cn ix) ss)).
    - apply xanon_ren. assumption.
    - rewrite map_map. apply map_ext_Forall. eapply Forall_impl; [|exact Hss]. intros a Ha. symmetry. exact Ha.
  Qed.

  Lemma xvals_ren : forall e ix, RE e = e ->
    xvals sig_of cn' (RA ix) e = ren_xres (xvals sig_of cn ix e).
  Proof.
    induction e using expression_ind_par; intros ix Hfix; try (apply X_plain_case; auto; fail).
    - (* ParallelOp: of an anonymous component it is that component, made parallel *)
      destruct e; try (apply X_plain_case; auto; fail).
      apply IHe0. cbn [ren_e make_anonymous_parallel] in *. congruence.
    - (* Anon *)
      cbn [ren_e] in Hfix. injection Hfix as Hps Hss. apply X_anon; [exact Hps|].
      apply map_fix_Forall in Hss. rewrite Forall_forall in *. intros a Ha. apply H0; auto.
    - (* Tuple *)
      cbn [ren_e] in Hfix. injection Hfix as Hvs. apply map_fix_Forall in Hvs. cbn [xvals].
      replace (map (xvals sig_of cn' (RA ix)) vs) with (map ren_xres (map (xvals sig_of cn ix) vs)).
      + apply xconcat_ren.
      + rewrite map_map. apply map_ext_Forall. rewrite Forall_forall in *. intros a Ha. symmetry. apply H; auto.
  Qed.

  (* destinations and log arguments are sub-terms of the body *)

  Lemma lvalues_fix : forall e, RE e = e -> forall ls, lvalues e = Some ls -> Forall (fun l => RE l = l) ls.
  Proof.
    induction e using expression_ind'; intros Hfix ls Hl; cbn [lvalues] in Hl; try discriminate.
    - destruct (plain _); [|discriminate]. inversion Hl; subst. constructor; [assumption | constructor].
    - cbn [ren_e] in Hfix. injection Hfix as Hvs. apply map_fix_Forall in Hvs.
      destruct (all_some (map lvalues vs)) as [ll|] eqn:El; [|discriminate]. inversion Hl; subst.
      apply Forall_concat. apply (mapO_Forall _ _ _ _ El). rewrite Forall_forall in *. intros v Hv. apply H; auto.
  Qed.

  Lemma log_values_fix : forall e, RE e = e -> forall l, log_values e = Some l -> Forall (fun a => ren_log f a = a) l.
  Proof.
    induction e using expression_ind'; intros Hfix l Hl; cbn [log_values] in Hl;
      try (destruct (plain _); [|discriminate]; injection Hl as <-;
           constructor; [cbn [ren_log]; rewrite Hfix; reflexivity | constructor]).
    cbn [ren_e] in Hfix. injection Hfix as Hvs. apply map_fix_Forall in Hvs.
    destruct (all_some (map log_values vs)) as [ll|] eqn:El; [|discriminate]. inversion Hl; subst.
    constructor; [reflexivity|]. apply Forall_app. split; [|constructor; [reflexivity | constructor]].
    apply Forall_concat. apply (mapO_Forall _ _ _ _ El). rewrite Forall_forall in *. intros v Hv. apply H; auto.
  Qed.

  Lemma assignments_ren : forall o ls rs, Forall (fun l => RE l = l) ls ->
    assignments o ls (map RE rs) = map RS (assignments o ls rs).
  Proof.
    intros o ls. induction ls as [|l ls IH]; intros rs HF; [reflexivity|].
    destruct rs as [|r rs]; [reflexivity|]. inversion HF as [|? ? Hl HF']; subst.
    unfold assignments in *. cbn [map combine flat_map]. rewrite IH by assumption. rewrite map_app. f_equal.
    destruct l; try reflexivity.
    cbn [ren_e] in Hl. injection Hl as Hn Hacc.
    destruct (String.eqb name "_"); [reflexivity|]. cbn [map ren_s].
    change (fun a : access => match a with ArrayAccess i => ArrayAccess (ren_e f i) | ComponentAccess s => ComponentAccess s end)
      with (ren_a f) in Hacc.
    rewrite Hn, Hacc. reflexivity.
  Qed.

  Lemma seq_block_ren : forall m pre st, RS (seq_block m pre st) = seq_block m (map RS pre) (RS st).
  Proof. intros m [|p pre] st; [reflexivity|]. cbn [seq_block map ren_s]. rewrite map_app. reflexivity. Qed.

  Definition ren_sd (t : statement * list statement) := (RS (fst t), map RS (snd t)).

  Definition XSt (ix : list access) (s : statement) : Prop :=
    xstmt sig_of cn' kn' (RA ix) s = option_map ren_sd (xstmt sig_of cn kn ix s).

  Lemma XSt_leaf : forall ix s (g : bool), RS s = s ->
    (forall cx kx i, xstmt sig_of cx kx i s = if g then Some (s, []) else None) -> XSt ix s.
  Proof.
    intros ix s g Hfix Hx. unfold XSt. rewrite !Hx. destruct g; [|reflexivity].
    unfold ren_sd. cbn [option_map fst snd map]. rewrite Hfix. reflexivity.
  Qed.

  Lemma XSt_list : forall (mk : list statement -> statement) ix l,
    (forall l, RS (mk l) = mk (map RS l)) -> map RS l = l ->
    Forall (fun s => RS s = s -> forall ix, XSt ix s) l ->
    option_map (fun rs => (mk (map fst rs), flat_map snd rs)) (mapO (xstmt sig_of cn' kn' (RA ix)) l) =
    option_map ren_sd (option_map (fun rs => (mk (map fst rs), flat_map snd rs)) (mapO (xstmt sig_of cn kn ix) l)).
  Proof.
    intros mk ix l Hmk Hl IH. apply map_fix_Forall in Hl.
    rewrite (mapO_ext _ (fun s => option_map ren_sd (xstmt sig_of cn kn ix s))), mapO_option_map
      by (rewrite Forall_forall in *; intros x Hx; apply IH; auto).
    destruct (mapO (xstmt sig_of cn kn ix) l) as [rs|]; cbn [option_map]; [|reflexivity].
    unfold ren_sd. cbn [fst snd]. rewrite Hmk, !map_map, flat_map_map, map_flat_map. reflexivity.
  Qed.

  Lemma counted_ren : forall m k, kn m = Some k -> forall s, counted_by (f k) (RS s) = counted_by k s.
  Proof.
    intros m k Ek s. destruct s as [| | | |dm dt dn dims dc| | | | | |]; cbn [ren_s counted_by]; try reflexivity.
    induction dims as [|e l IH]; cbn [map existsb]; [reflexivity|]. rewrite IH. f_equal.
    destruct e as [| | | |vm vn vacc| | | | |]; cbn [ren_e]; try reflexivity.
    destruct (String.eqb_spec vn k) as [->|Hne]; [apply String.eqb_refl|].
    apply String.eqb_neq. intros E. apply Hne. eapply Hsep; eauto.
  Qed.

  Lemma existsb_counted_ren : forall m k, kn m = Some k -> forall d,
    existsb (counted_by (f k)) (map RS d) = existsb (counted_by k) d.
  Proof.
    intros m k Ek d. induction d as [|s d IH]; cbn [map existsb]; [reflexivity|].
    rewrite IH, (counted_ren m k Ek). reflexivity.
  Qed.

  Lemma xstmt_ren_all : forall s, RS s = s -> forall ix, XSt ix s.
  Proof.
    induction s using statement_ind'; intros Hfix ix.
    (* the statements with parts first, then Return, ConstraintEquality, Assert *)
    1,2,4-7,9,10: cbn [ren_s] in Hfix.
    - (* IfThenElse *)
      injection Hfix as Hc Hi He. unfold XSt. cbn [xstmt]. destruct (plain c); [|reflexivity].
      rewrite (IHs Hi ix). destruct (xstmt sig_of cn kn ix s) as [[i' d]|]; cbn [option_map ren_sd fst snd]; [|reflexivity].
      destruct e as [e'|].
      + injection He as He. rewrite (H e' eq_refl He ix).
        destruct (xstmt sig_of cn kn ix e') as [[e2 d2]|]; cbn [option_map ren_sd fst snd]; [|reflexivity].
        unfold ren_sd. cbn [fst snd ren_s]. rewrite Hc, map_app. reflexivity.
      + cbn [option_map]. unfold ren_sd. cbn [fst snd ren_s]. rewrite Hc. reflexivity.
    - (* While *)
      injection Hfix as Hc Hb. unfold XSt. cbn [xstmt]. destruct (plain c); [|reflexivity].
      change (kn' m) with (option_map f (kn m)). destruct (kn m) as [k|] eqn:Ek; cbn [option_map]; [|reflexivity].
      pose proof (IHs Hb [ArrayAccess (Variable_ m k [])]) as Hbody. unfold XSt in Hbody.
      cbn [map ren_a ren_e] in Hbody. rewrite Hbody.
      destruct (xstmt sig_of cn kn [ArrayAccess (Variable_ m k [])] s) as [[b' d]|]; cbn [option_map ren_sd fst snd]; [|reflexivity].
      rewrite (existsb_counted_ren m k Ek d).
      destruct (existsb (counted_by k) d); cbn [map option_map]; unfold ren_sd; cbn [fst snd ren_s ren_e map app];
        rewrite ?map_app; cbn [map ren_s ren_e]; rewrite Hc; reflexivity.
    - (* InitializationBlock *)
      injection Hfix as Hl. unfold XSt. rewrite !xstmt_init_gen.
      apply (XSt_list (InitializationBlock m t)); [reflexivity | exact Hl | exact H].
    - (* Declaration *)
      injection Hfix as Hn Hd. unfold XSt. cbn [xstmt]. destruct (forallb plain d); [|reflexivity].
      unfold ren_sd. cbn [option_map fst snd map ren_s]. rewrite Hn, Hd. reflexivity.
    - (* Substitution *)
      injection Hfix as Hv Ha Hr. unfold XSt. cbn [xstmt]. destruct (acc_plain a); [|reflexivity].
      rewrite (xvals_ren r ix Hr), is_single_ren.
      destruct (is_single r (xvals sig_of cn ix r)) as [[[pre dec] value]|]; cbn [option_map]; [|reflexivity].
      unfold ren1, ren_sd. cbn [fst snd]. rewrite seq_block_ren. do 3 f_equal.
      destruct (String.eqb v "_"); [reflexivity|]. cbn [ren_s]. rewrite Hv, Ha. reflexivity.
    - (* MultiSubstitution *)
      injection Hfix as Hl Hr. unfold XSt. cbn [xstmt]. rewrite (xvals_ren r ix Hr).
      destruct l; try reflexivity.
      destruct (lvalues (Tuple m0 values)) as [ls|] eqn:Els; [|reflexivity].
      destruct (tuple_valued sig_of r); [|reflexivity].
      destruct (xvals sig_of cn ix r) as [[[pre dec] rs]|]; cbn [ren_xres option_map ren3 fst snd]; [|reflexivity].
      rewrite map_length. destruct (List.length ls =? List.length rs)%nat; [|reflexivity].
      cbn [option_map]. unfold ren_sd. cbn [fst snd]. rewrite seq_block_ren. cbn [ren_s].
      rewrite (assignments_ren o ls rs (lvalues_fix _ Hl _ Els)). reflexivity.
    - (* LogCall *)
      injection Hfix as Ha. apply map_fix_Forall in Ha. unfold XSt. cbn [xstmt].
      destruct (all_some (map (xlog) a)) as [ll|] eqn:El; cbn [option_map]; [|reflexivity].
      unfold ren_sd. cbn [fst snd map ren_s]. do 3 f_equal. symmetry. apply Forall_map_fix.
      apply Forall_concat. apply (mapO_Forall _ _ _ _ El).
      rewrite Forall_forall in *. intros x Hx ls Hls. specialize (Ha x Hx).
      destruct x as [str|e]; cbn [xlog] in Hls.
      + inversion Hls; subst. destruct (String.eqb str ""); repeat constructor.
      + cbn [ren_log] in Ha. injection Ha as He. eapply log_values_fix; eauto.
    - (* Block *)
      injection Hfix as Hl. unfold XSt. rewrite !xstmt_block_gen.
      apply (XSt_list (Block m)); [reflexivity | exact Hl | exact H].
    - apply (XSt_leaf ix _ (plain v) Hfix). reflexivity.
    - apply (XSt_leaf ix _ (plain l && plain r) Hfix). reflexivity.
    - apply (XSt_leaf ix _ (plain a) Hfix). reflexivity.
  Qed.

  Lemma is_decl_of_ren : forall p s, is_decl_of p (RS s) = is_decl_of p s.
  Proof. intros p s. destruct s; reflexivity. Qed.

  Lemma expand_spec_ren_fix : forall body, RS body = body ->
    expand_spec sig_of cn' kn' body = option_map RS (expand_spec sig_of cn kn body).
  Proof.
    intros body Hfix. unfold expand_spec.
    pose proof (xstmt_ren_all body Hfix []) as H. unfold XSt in H. cbn [map] in H. rewrite H.
    destruct (xstmt sig_of cn kn [] body) as [[b d]|]; cbn [option_map ren_sd fst snd]; [|reflexivity].
    destruct b; try reflexivity. cbn [ren_s option_map]. f_equal. f_equal.
    rewrite !map_app. cbn [map ren_s].
    rewrite !filter_map_commute; try reflexivity; intros x; destruct x; reflexivity.
  Qed.

End Alpha.

(* THE THEOREM: for every renaming [f] that moves none of the names the body itself
   uses, the expansion under the naming scheme "f after (comp_name, counter_name)"
   is the [f]-renamed expansion under (comp_name, counter_name); defined for the
   same bodies. *)
Definition counters_separate (f : string -> string) (counter_name : meta -> option string) : Prop :=
  forall m k x, counter_name m = Some k -> f x = f k -> x = k.

Theorem expand_spec_naming_independent :
  forall (f : string -> string) sig_of comp_name counter_name body,
    fixes_names f body ->
    counters_separate f counter_name ->
    expand_spec sig_of (fun id m => option_map f (comp_name id m)) (fun m => option_map f (counter_name m)) body =
    option_map (ren_s f) (expand_spec sig_of comp_name counter_name body).
Proof.
  intros f sig_of cn kn body Hfix Hsep.
  exact (expand_spec_ren_fix f sig_of cn kn Hsep body (ren_s_fix f body (proj2 (Forall_forall _ _) Hfix))).
Qed.

(* with C18_desugar_is_expand: the desugarer's output, renamed, is the specified
   expansion under ANY naming scheme obtained from the implementation's by such a
   renaming -- "equals the hand expansion up to the choice of the new names" *)
Theorem desugar_is_expand_up_to_names :
  forall (f : string -> string) (lib : file_library) ts m l,
    Forall wf_node (stmt_exprs (Block m l)) ->
    Forall short_node (sub_stmts (Block m l)) ->
    fixes_names f (Block m l) ->
    counters_separate f (name_opt lib "anon_var") ->
    option_map (ren_s f) (to_opt (desugar_template (env_of ts) lib (Block m l))) =
    expand_spec (sig_table ts) (fun id mm => option_map f (name_opt lib id mm))
                (fun mm => option_map f (name_opt lib "anon_var" mm)) (Block m l).
Proof.
  intros f lib ts m l Hwf Hshort Hfix Hsep.
  rewrite (desugar_is_expand lib ts m l Hwf Hshort).
  symmetry. apply expand_spec_naming_independent; assumption.
Qed.
