(* NoSilentProofs — C02: the error report of a failure the mirrors can express
   is derived (not assumed) to be in the project handed to the runner, located
   so that it passes the file filter; with the runner theorems of
   Proofs.RunnerProofs it is displayed and the exit status is 1. *)
From Coq Require Import ZArith NArith Lia Permutation.
Require Coq.Strings.String.
Require Import Gen.Category Model.Runner Spec.RunnerSpec Proofs.RunnerProofs.
From stdpp Require Import list.
Require Import Model.Includes Model.Front Spec.IncludesSpec Model.FrontStages Spec.NoSilentSpec Proofs.IncludesProofs.
Require Model.Ast Model.Desugar Model.LiftFull Model.PipelineMirrors Spec.ExpandSpec.
Require Import Proofs.NoSilentStages.
Require Proofs.IncludesRunnerProofs.

(* an error-level report that is produced and not located solely in included
   files is displayed *)
Lemma error_report_displayed : forall p o order r,
  wf_project p -> analysis_order p order ->
  In r (produced p) -> r_level r = Error -> ~ located_only_in_included (p_user p) r ->
  ~ In (r_id r) (o_allow o) ->
  In r (res_shown (run_keys p o order)) /\ r_level r = Error /\ res_exit (run_keys p o order) = 1%Z.
Proof.
  intros p o order r Hwf Hord Hin He Hloc Hal.
  assert (Hs : In r (res_shown (run_keys p o order))).
  { apply displayed_iff_kept; auto. split; auto. split; [apply error_passes_level; auto|]. split; auto. }
  split; auto. split; auto. rewrite exit_by_count. by destruct (res_shown (run_keys p o order)).
Qed.

Lemma clean_run_allows p o order r :
  wf_project p -> analysis_order p order -> res_exit (run_keys p o order) = 0%Z ->
  In r (produced p) -> r_level r = Error -> ~ located_only_in_included (p_user p) r ->
  In (r_id r) (o_allow o).
Proof.
  intros Hwf Hord Hex Hin He Hloc. destruct (in_dec Z.eq_dec (r_id r) (o_allow o)) as [|Hn]; [done|].
  destruct (error_report_displayed p o order r Hwf Hord Hin He Hloc Hn) as (_ & _ & H1). congruence.
Qed.

Lemma user_def_logged p o order d :
  wf_project p -> analysis_order p order -> In d (user_defs p) ->
  In (MAnalyzing (d_key d)) (res_log (run_keys p o order)).
Proof.
  intros Hwf Hord Hd.
  destruct (run_keys_spec p o order (analysis_order_ok p order Hwf Hord)) as (_ & _ & _ & _ & E).
  rewrite E. apply in_or_app. left. apply in_map.
  eapply Permutation_in; [apply Permutation_sym; exact Hord|]. by apply in_map.
Qed.

Lemma def_error_produced p d e : In d (user_defs p) -> d_err d = Some e -> In e (produced p).
Proof.
  intros Hd He. apply in_or_app. right. apply in_flat_map. exists d. split; [done|].
  unfold produced_def. rewrite He. apply in_or_app. right. by left.
Qed.

(* exit status 0: nothing produced is to be kept; every definition of a user
   file was taken up by the runner (its `analyzing` line was written); with an
   empty allow list every error of the parse stage and every lift error of a
   user definition is located solely in included files *)
Theorem clean_only_if_all_analysed : forall p o order,
  wf_project p -> analysis_order p order ->
  res_exit (run_keys p o order) = 0%Z ->
  (forall r, In r (produced p) -> ~ keep o (p_user p) r) /\
  (forall d, In d (user_defs p) -> In (MAnalyzing (d_key d)) (res_log (run_keys p o order))) /\
  (o_allow o = [] ->
     (forall r, In r (p_parse p) -> r_level r = Error -> located_only_in_included (p_user p) r) /\
     (forall d e, In d (user_defs p) -> d_err d = Some e -> r_level e = Error -> located_only_in_included (p_user p) e)).
Proof.
  intros p o order Hwf Hord Hex.
  assert (H1 : forall r, In r (produced p) -> ~ keep o (p_user p) r).
  { intros r Hin Hk. assert (H : In r (res_shown (run_keys p o order))) by (by apply displayed_iff_kept).
    apply (exit_zero_iff_nothing_displayed p o order Hwf Hord) in Hex. by rewrite Hex in H. }
  split; [done|]. split; [intros d; by apply user_def_logged|]. intros Hal.
  assert (Hgen : forall r, In r (produced p) -> r_level r = Error -> located_only_in_included (p_user p) r).
  { intros r Hin He. specialize (H1 r Hin). unfold keep in H1. rewrite Hal in H1.
    pose proof (error_passes_level r (o_level o) He) as Hlv.
    split.
    - intros Ef. apply H1. repeat split; [done|intros []|]. intros [Hne _]. done.
    - intros x Hx Hu. apply H1. repeat split; [done|intros []|]. intros [_ Hall]. exact (Hall x Hx Hu). }
  split.
  - intros r Hin. apply Hgen. apply in_or_app. by left.
  - intros d e Hd Herr. apply Hgen. by eapply def_error_produced.
Qed.

Section NoSilentProofs.
  Context {path : Type} `{EqDecision path}.
  Variable canon : path -> option path.
  Variable is_dir : path -> bool.
  Variable is_file : path -> bool.
  Variable read_dir : path -> option (list path).
  Variable join : path -> path -> path.
  Variable parent : path -> path.
  Variable file_name : path -> option path.
  Variable ext_circom : path -> bool.
  Variable starts_dot : path -> bool.
  Variable has_sep : path -> bool.
  Variable content : path -> file_content path.

  Notation add_libraries := (add_libraries canon is_dir ext_circom).
  Notation add_files := (add_files canon is_dir read_dir join ext_circom).
  Notation new := (new canon is_dir read_dir join ext_circom).
  Notation dirs_revisited := (dirs_revisited canon is_dir read_dir join ext_circom).
  Notation parse_file := (parse_file canon is_file join file_name starts_dot has_sep content).
  Notation parse_files :=
    (parse_files canon is_dir is_file read_dir join parent file_name ext_circom starts_dot has_sep content).
  Notation named := (named canon is_dir read_dir join ext_circom).
  Notation resolves := (resolves canon is_file join parent file_name starts_dot has_sep).
  Notation reachable := (reachable canon is_file join parent file_name starts_dot has_sep content).
  Notation fails_to_open := (fails_to_open canon is_dir read_dir join ext_circom).
  Notation the_libraries := (the_libraries canon is_dir ext_circom).

  Lemma fails_to_open_iff nm p q :
    fails_to_open nm p q <->
    if is_dir p then exists names n, read_dir p = Some names /\ n ∈ names /\ fails_to_open false (join p n) q
    else q = p /\ nm || ext_circom p = true /\ canon p = None.
  Proof.
    split.
    - intros [nm' p' H1 H2 H3|nm' p' names n q' H1 H2 H3 H4]; rewrite H1; eauto.
    - destruct (is_dir p) eqn:Ed; [intros (names & n & H1 & H2 & H3); by eapply fto_dir|].
      intros (-> & H1 & H2). by apply fto_file.
  Qed.

  (* add_files: every path that cannot be canonicalised is reported *)
  Lemma add_files_reports fuel : forall nm paths acc r,
    add_files fuel nm paths acc = Ok r ->
    (forall x, x ∈ acc.2 -> x ∈ r.2) /\
    (forall p q, p ∈ paths -> fails_to_open nm p q -> FileOsError q ∈ r.2).
  Proof.
    induction fuel as [|fuel IHf]; intros nm; [discriminate|].
    induction paths as [|p rest IH]; intros acc r Hr.
    - injection Hr as <-. split; [auto|]. intros p q Hp. by apply elem_of_nil in Hp.
    - rewrite add_files_cons in Hr. apply bind_ok in Hr as (acc' & Ha & [Hr1 Hr2]%IH).
      enough ((forall x, x ∈ acc.2 -> x ∈ acc'.2) /\
              forall q, fails_to_open nm p q -> FileOsError q ∈ acc'.2) as [S1 S2].
      { split; [auto|]. intros p0 q [->|Hp]%elem_of_cons Hf; [by apply Hr1, S2|by eapply Hr2]. }
      destruct (is_dir p) eqn:Ed; [destruct (read_dir p) as [names|] eqn:Er|].
      + apply IHf in Ha as (A1 & A2). split; [done|]. intros q Hf%fails_to_open_iff. rewrite Ed, Er in Hf.
        destruct Hf as (names' & n & [= <-] & Hn & Hf). eapply A2; [|done]. apply elem_of_list_fmap. eauto.
      + injection Ha as <-. split; [done|]. intros q Hf%fails_to_open_iff. rewrite Ed, Er in Hf.
        by destruct Hf as (names & n & ? & _).
      + injection Ha as <-. unfold add_file. split.
        * intros x Hx. destruct (nm || ext_circom p); [destruct (canon p)|]; simpl; [done| |done].
          apply elem_of_app. by left.
        * intros q Hf%fails_to_open_iff. rewrite Ed in Hf. destruct Hf as (-> & -> & ->). simpl.
          apply elem_of_app. right. left.
  Qed.

  (* FileStack::new after 517e7a0 skips a directory it has met before: when none was met twice
     ([dirs_revisited] = false, evaluated on every run) it computes what the code before the fix computes *)
  Lemma new_reports fuel paths libs st reps :
    new fuel paths libs [] = Ok (st, reps) ->
    dirs_revisited fuel paths libs = false ->
    forall p q, p ∈ paths -> fails_to_open true p q -> FileOsError q ∈ reps.
  Proof.
    intros Hnew Hrev. apply (new_is_new_all canon is_dir read_dir join ext_circom) in Hnew; [|exact Hrev].
    revert Hnew. unfold Includes.new_all. destruct (add_libraries libs []) as [ls r0] eqn:El.
    intros Hn. apply bind_ok in Hn as (r & Ha & Hn). inversion Hn; subst.
    apply add_files_reports in Ha as (_ & A2). exact A2.
  Qed.

  Lemma parse_file_grows p s s' :
    parse_file false p s = Ok s' ->
    ps_read s' = ps_read s ++ [p] /\
    exists fs rs,
      ps_files s' = ps_files s ++ fs /\ ps_reports s' = ps_reports s ++ rs /\
      (content p = Unreadable -> fs = [] /\ FileOsError p ∈ rs) /\
      (content p <> Unreadable -> exists u, fs = [(p, u)]) /\
      (content p = Unparsable -> ParsingError (length (ps_files s)) ∈ rs).
  Proof.
    unfold Includes.parse_file. destruct (content p) as [| |incs] eqn:Ec.
    - intros [= <-]. split; [done|]. exists [], [FileOsError p]. simpl.
      rewrite app_nil_r. repeat split; try done. left.
    - intros [= <-]. split; [done|]. eexists _, [ParsingError _].
      repeat split; try done; [by eexists|]. intros _. left.
    - intros ([st' ws] & Ha & [= <-])%bind_ok. split; [done|]. eexists _, ws.
      repeat split; try done. by eexists.
  Qed.

  Hypothesis canon_idem : forall p c, canon p = Some c -> canon c = Some c.

  Variable pf_id pf_name : Z.
  Variable payload : Includes.report (path:=path) -> Z.
  (* the parameters of Model.FrontStages *)
  Variable pragma : path -> option version.
  Variable has_main : path -> bool.
  Variable cv : version.
  Variable cs : codes.
  Variable spay : stage_item path -> Z.
  Variable ord : nat -> list nat -> list nat.
  Variable horder : list nat -> list nat.
  Variable prime : Z.
  Variable kv kd : nat.
  Variable err_file : PM.definition -> option N.
  Variable name_id : String.string -> Z.
  Variable after : PM.definition -> def.

  Notation report_of := (report_of pf_id pf_name payload).
  Notation front_project := (front_project pf_id pf_name payload).
  Notation item_report := (item_report pf_id pf_name cs spay).
  Notation lift_outcome := (lift_outcome ord horder prime kv kd).
  Notation stage_def := (stage_def pf_id pf_name cs spay ord horder prime kv kd err_file name_id after).
  Notation stage_others := (stage_others content pragma has_main cv pf_id pf_name cs spay).
  Notation stage_defs := (stage_defs pf_id pf_name cs spay ord horder prime kv kd err_file name_id after).
  Notation stage_project :=
    (stage_project content pragma has_main cv pf_id pf_name cs spay ord horder prime kv kd err_file name_id after payload).
  Notation failure_event :=
    (failure_event canon is_dir is_file read_dir join parent file_name ext_circom starts_dot has_sep content
                   pf_id pf_name payload pragma has_main cv cs spay ord horder prime kv kd err_file).
  Notation file_is_named := (file_is_named canon is_dir read_dir join ext_circom).
  Notation not_in_included_only := (not_in_included_only canon is_dir read_dir join ext_circom).
  Notation def_in_named_file := (def_in_named_file canon is_dir read_dir join ext_circom).
  Notation all_named_read :=
    (all_named_read canon is_dir is_file read_dir join parent file_name ext_circom starts_dot has_sep content).
  Notation all_stages_passed :=
    (all_stages_passed canon is_dir is_file read_dir join parent file_name ext_circom starts_dot has_sep content
                       pragma has_main cv).

  (* the ids of the error codes of the stages of Model.FrontStages *)
  Definition stage_ids : list Z :=
    [ c_id (c_version_error cs); c_id (c_multiple_main cs); c_id (c_tuple cs); c_id (c_anonymous cs);
      c_id (c_param_collision cs) ].

  (* [class_shape] is the form in which [failure_event] states the report of a
     class (the table lib/props/C02.py reads through the extracted driver) *)
  Lemma failure_event_shape argv libs s pr sd rest c r :
    failure_event argv libs s pr sd rest c r ->
    match class_shape c with
    | ShOsError => exists q, r = report_of (FileOsError q)
    | ShParseError => exists i, r = report_of (ParsingError i)
    | ShIncludeError => exists p i a b, r = report_of (IncludeError p (Some i) a b)
    | ShVersionError => exists f v, r = item_report (SIVersionError f v)
    | ShMultipleMain => r = item_report SIMultipleMain
    | ShSugarError => exists r0, r = item_report (SISugar r0)
    | ShParamCollision => exists dd, r = item_report (SILiftError dd LEParamCollision (PM.d_pfile dd))
    | ShLiftError => exists dd e, e <> LEParamCollision /\ r = item_report (SILiftError dd e (err_file dd))
    | ShOtherInNamedFile | ShDuplicate =>
        r_level r = Error /\ In r rest /\ exists z, In z (r_pfiles r) /\ file_is_named argv s z
    end.
  Proof.
    destruct c; simpl; intros H; decompose [ex and] H; eauto 6.
  Qed.

  (* the code of the report is a function of the class *)
  Lemma includes_event_id argv libs s pr sd rest c r :
    class_producer c = ByIncludes -> failure_event argv libs s pr sd rest c r -> r_id r = pf_id.
  Proof.
    intros Hc Hev. apply failure_event_shape in Hev.
    destruct c; try discriminate Hc; simpl in Hev; decompose [ex] Hev; by subst.
  Qed.

  Lemma sugar_event_id argv libs s pr sd rest r :
    failure_event argv libs s pr sd rest InvalidTupleOrAnonymous r -> In (r_id r) stage_ids.
  Proof.
    intros Hev. apply failure_event_shape in Hev as (r0 & ->). simpl.
    destruct (Desugar.r_code r0); [do 2 right; by left|do 3 right; by left].
  Qed.

  Arguments FrontStages.item_report : simpl never.

  Section Run.
    Variable dfuel fuel : nat.
    Variable argv libs : list path.
    Variable s : parse_state (path:=path).
    Hypothesis Hrun : parse_files false dfuel fuel argv libs = Ok s.
    (* no directory was met twice while the command line was expanded (Model.Includes.dirs_revisited, evaluated on
       every run): FileStack::new then reads what the specification's [named] says *)
    Hypothesis Hrev : dirs_revisited dfuel argv libs = false.

    (* the file ids of the user-input set are those of the named files *)
    Lemma user_id_iff_named z : In z (user_ids s) <-> file_is_named argv s z.
    Proof.
      pose proof Hrun as [_ HU]%included_only_files_are_not_user_inputs; [|done|done].
      etrans; [apply (IncludesRunnerProofs.file_library_user_inputs_spec (ps_files s) z)|].
      unfold NoSilentSpec.file_is_named. split.
      - intros (i & f & -> & Hi). exists i, f, true. repeat split; try done. by apply (HU i f true Hi).
      - intros (i & f & u & -> & Hi & Hn). exists i, f. split; [done|].
        destruct (HU i f u Hi) as [_ Hu]. apply Hu in Hn. by subst u.
    Qed.

    Lemma reachable_is_read f : reachable (named argv) (the_libraries libs) f -> f ∈ ps_read s.
    Proof.
      intros Hre. by eapply reads_exactly_reachable.
    Qed.

    Lemma named_is_read f : named argv f -> f ∈ ps_read s.
    Proof. intros Hn. by apply reachable_is_read, reach_named. Qed.

    Lemma not_included_only r : not_in_included_only argv s r -> ~ located_only_in_included (user_ids s) r.
    Proof.
      intros [Hnil|(z & Hz & Hn)] [Hne Hall]; [done|].
      apply (Hall z Hz). by apply user_id_iff_named.
    Qed.

    (* the reports of the Includes mirror are in the project, whatever the rest *)
    Lemma front_report_produced others defs r :
      r ∈ ps_reports s -> In (report_of r) (produced (front_project s others defs)).
    Proof.
      intros Hr. apply in_or_app. left. apply in_or_app. left. apply in_map. by apply elem_of_list_In.
    Qed.

    Lemma other_report_produced others defs r :
      In r others -> In r (produced (front_project s others defs)).
    Proof. intros Hx. apply in_or_app. left. apply in_or_app. by right. Qed.

    Lemma named_user_def others defs d :
      In d defs -> file_is_named argv s (d_file d) -> In d (user_defs (front_project s others defs)).
    Proof.
      intros Hd Hfile. apply filter_In. split; [done|]. apply existsb_exists.
      exists (d_file d). split; [by apply user_id_iff_named|apply Z.eqb_refl].
    Qed.

    (* a file has one entry in the file library *)
    Lemma files_unique i j f u u' :
      ps_files s !! i = Some (f, u) -> ps_files s !! j = Some (f, u') -> i = j.
    Proof.
      by eapply IncludesProofs.files_unique.
    Qed.

    (* a file that was reached and could be read has an entry in the file library *)
    Lemma reachable_has_entry f :
      reachable (named argv) (the_libraries libs) f -> content f <> Unreadable ->
      exists i u, ps_files s !! i = Some (f, u).
    Proof.
      intros Hre Hc. destruct (elem_of_list_lookup_1 (ps_files s) (f, is_user_input (ps_stack s) f)) as [i Hi]; [|eauto].
      eapply elem_of_files; [done|done|]. split; [by apply reachable_is_read|done].
    Qed.

    Lemma parses_readable f : parses content f = true -> content f <> Unreadable.
    Proof. unfold parses. by destruct (content f). Qed.

    Section Stage.
      Variable pr : PM.program.
      Variable sd : Desugar.desugared.
      Variable rest : list Runner.report.
      Hypothesis Hsugar : sugar_input pr = Desugar.DOk sd.

      Notation others := (stage_others s sd rest).
      Notation defs := (stage_defs pr sd).

      Lemma stage_project_is : stage_project s pr sd rest = front_project s others defs.
      Proof. reflexivity. Qed.

      Lemma stage_item_produced it :
        In it (stage_items content pragma has_main cv (ps_files s) ++ sugar_items sd) ->
        In (item_report it) (produced (front_project s others defs)).
      Proof.
        intros [Hin|Hin]%in_app_or; apply other_report_produced, in_or_app.
        - left. by apply in_map.
        - right. apply in_or_app. right. by apply in_map.
      Qed.

      (* a definition of a named file that is handed to the runner is a user definition *)
      Lemma handed_on_user_def dd :
        In dd (handed_on pr sd) -> def_in_named_file argv s dd ->
        In (stage_def dd) (user_defs (front_project s others defs)).
      Proof.
        intros Hin (fid & Hpf & Hnamed). apply named_user_def; [by apply in_map|].
        simpl. unfold def_file. by rewrite Hpf.
      Qed.

      (* the error report of a definition of a named file that is handed to the runner *)
      Lemma lift_error_produced dd e :
        In dd (handed_on pr sd) -> def_in_named_file argv s dd -> lift_outcome dd = Some e ->
        In (item_report (SILiftError dd e (lift_error_file err_file dd e)))
           (produced (front_project s others defs)).
      Proof.
        intros Hin Hnamed Hout. eapply def_error_produced; [by apply handed_on_user_def|]. by apply stage_def_err.
      Qed.

      (* every failure event yields a report that is in the project, is error
         level and is not located solely in included files *)
      Lemma failure_event_produced c r :
        failure_event argv libs s pr sd rest c r ->
        In r (produced (front_project s others defs)) /\ r_level r = Error /\
        not_in_included_only argv s r.
      Proof.
        pose proof Hrun as (SN & SU & SP)%read_files_reported; [|done].
        destruct c; simpl.
        - intros (p & q & Hp & Hf & ->). split; [|split; [done|by left]].
          pose proof Hrun as Hn. apply bind_ok in Hn as ([st0 reps0] & Hn & _).
          apply front_report_produced. eapply SN; [exact Hn|]. by eapply new_reports.
        - intros (f & Hre & Hc & ->). split; [|split; [done|by left]].
          apply front_report_produced. apply SU; [|done]. by apply reachable_is_read.
        - intros (f & i & u & Hn & Hc & Hi & ->).
          split; [apply front_report_produced; by eapply SP|]. split; [done|]. right.
          exists (Z.of_nat i). split; [by left|]. by exists i, f, u.
        - intros (f & incs & p & a & b & i & u & Hn & Hc & Hx & Hres & Hi & ->).
          pose proof Hrun as [_ HE]%unresolved_include_error_located; [|done].
          destruct (HE f incs p a b (named_is_read f Hn) Hc Hx Hres) as (j & u' & Hj & Hrep).
          assert (j = i) as -> by (eapply files_unique; eauto).
          split; [by apply front_report_produced|]. split; [done|]. right.
          exists (Z.of_nat i). split; [by left|]. by exists i, f, u.
        - intros (dd & Hin & Hnamed & Hb & Hnd & ->).
          pose proof (repeated_parameter_outcome ord horder prime kv kd dd Hb Hnd) as Hout.
          split; [exact (lift_error_produced dd LEParamCollision Hin Hnamed Hout)|]. split; [done|].
          destruct Hnamed as (fid & Hpf & Hnamed). right. exists (Z.of_N fid). split; [|done].
          rewrite item_report_pfiles, Hpf. by left.
        - intros (dd & e & Hin & Hnamed & Hout & Hne & Hloc & ->).
          pose proof (lift_error_produced dd e Hin Hnamed Hout) as Hp.
          replace (lift_error_file err_file dd e) with (err_file dd) in Hp by (by destruct e).
          split; [exact Hp|]. split; [apply item_report_level|].
          unfold NoSilentSpec.not_in_included_only. rewrite item_report_pfiles.
          destruct Hnamed as (fid & Hpf & Hnamed). destruct Hloc as [->| ->]; [by left|].
          right. exists (Z.of_N fid). rewrite Hpf. split; [by left|done].
        - intros (f & incs & v & Hre & Hc & Hp & Hv & ->).
          destruct (reachable_has_entry f Hre) as (i & u & Hi); [congruence|].
          split; [|split; [done|by left]]. apply (stage_item_produced (SIVersionError f v)). unfold stage_items.
          apply in_or_app. left. apply in_or_app. left. by eapply version_item_in.
        - intros (f & g & Hne & Hrf & Hrg & Pf & Pg & Mf & Mg & ->).
          destruct (reachable_has_entry f Hrf (parses_readable f Pf)) as (i & u & Hi).
          destruct (reachable_has_entry g Hrg (parses_readable g Pg)) as (j & u' & Hj).
          assert (Hij : i <> j) by (intros ->; rewrite Hi in Hj; congruence).
          split; [|split; [done|by left]]. apply (stage_item_produced SIMultipleMain). unfold stage_items.
          rewrite (two_mains_reported content has_main _ i j f g u u' Hi Hj Hij Pf Pg Mf Mg).
          apply in_or_app. left. apply in_or_app. right. by left.
        - intros (n & body & fid & r0 & Hrej & Hbody & Hnamed & ->).
          destruct (sugar_rejection_reported (path:=path) pr sd n body fid r0 Hsugar Hrej Hbody) as [Hin Hloc].
          split; [|split; [done|]].
          + apply (stage_item_produced (SISugar r0)), in_or_app. by right.
          + right. exists (Z.of_N fid). split; [|done]. rewrite item_report_pfiles, Hloc. by left.
        - intros (He & Hin & Hz). split; [|split; [done|by right]].
          apply other_report_produced. unfold FrontStages.stage_others. apply in_or_app. right. apply in_or_app. by left.
      Qed.

      (* C02: every failure class — the report is displayed, exit status 1 *)
      Theorem failure_classes_reported o order c r :
        wf_project (stage_project s pr sd rest) ->
        analysis_order (stage_project s pr sd rest) order ->
        failure_event argv libs s pr sd rest c r ->
        ~ In (r_id r) (o_allow o) ->
        In r (res_shown (run_keys (stage_project s pr sd rest) o order)) /\ r_level r = Error /\
        res_exit (run_keys (stage_project s pr sd rest) o order) = 1%Z.
      Proof.
        intros Hwf Hord Hev Hal. destruct (failure_event_produced _ _ Hev) as (Hin & He & Hloc).
        apply error_report_displayed; try done. by apply not_included_only.
      Qed.

      (* [failure_classes_reported] again: the first premise holds of every class
         ([no_class_assumed]).  For DuplicateDefinition the general event contains
         the report, its level and its location; props/C02.v instantiates it with
         the report of the Merger mirror. *)
      Theorem derived_classes_reported o order c r :
        class_derivation c <> Assumed ->
        wf_project (stage_project s pr sd rest) ->
        analysis_order (stage_project s pr sd rest) order ->
        failure_event argv libs s pr sd rest c r ->
        ~ In (r_id r) (o_allow o) ->
        In r (res_shown (run_keys (stage_project s pr sd rest) o order)) /\ r_level r = Error /\
        res_exit (run_keys (stage_project s pr sd rest) o order) = 1%Z.
      Proof. intros _. apply failure_classes_reported. Qed.

      (* on a clean run the code of the report of every failure event is allow-listed *)
      Lemma clean_event_allowed o order c r :
        wf_project (stage_project s pr sd rest) ->
        analysis_order (stage_project s pr sd rest) order ->
        res_exit (run_keys (stage_project s pr sd rest) o order) = 0%Z ->
        failure_event argv libs s pr sd rest c r ->
        In (r_id r) (o_allow o).
      Proof.
        intros Hwf Hord Hex Hev. destruct (failure_event_produced _ _ Hev) as (Hin & He & Hloc).
        eapply clean_run_allows; try done. by apply not_included_only.
      Qed.

      (* the events are not hypothetical: whenever the input has the defect,
         the report exists *)
      Theorem front_failures_have_reports :
        (forall f, named argv f -> content f = Unparsable ->
           exists r, failure_event argv libs s pr sd rest SyntaxError r) /\
        (forall f incs p a b, named argv f -> content f = Parsed incs -> (p, a, b) ∈ incs ->
           resolves f (the_libraries libs) p None ->
           exists r, failure_event argv libs s pr sd rest UnresolvedInclude r) /\
        (* a template / function of a named file that the desugarer does not hand on *)
        (forall n body fid,
           In (n, body) (PM.named_bodies (PM.pr_templates pr)) -> body_in_file fid body ->
           file_is_named argv s (Z.of_N fid) -> ~ In n (map fst (Desugar.d_templates sd)) ->
           exists r, failure_event argv libs s pr sd rest InvalidTupleOrAnonymous r) /\
        (forall n body fid,
           In (n, body) (PM.named_bodies (PM.pr_functions pr)) -> body_in_file fid body ->
           file_is_named argv s (Z.of_N fid) -> ~ In n (map fst (Desugar.d_functions sd)) ->
           exists r, failure_event argv libs s pr sd rest InvalidTupleOrAnonymous r).
      Proof.
        destruct (DesugarErrLoc.remove_syntactic_sugar_drop_reported _ _ _ _ Hsugar) as (DT & DF & _).
        split; [|split; [|split]].
        - intros f Hn Hc. destruct (reachable_has_entry f) as (i & u & Hi); [by apply reach_named|congruence|].
          eexists. simpl. exists f, i, u. done.
        - intros f incs p a b Hn Hc Hx Hres.
          destruct (reachable_has_entry f) as (i & u & Hi); [by apply reach_named|congruence|].
          eexists. simpl. exists f, incs, p, a, b, i, u. done.
        - intros n body fid Hin Hb Hnamed Hno. destruct (DT n body Hin Hno) as (r0 & Hr0 & _).
          eexists. simpl. exists n, body, fid, r0. split; [left; done|done].
        - intros n body fid Hin Hb Hnamed Hno. destruct (DF n body Hin Hno) as (rs & r0 & Hc & Hr0 & _).
          eexists. simpl. exists n, body, fid, r0. split; [right; split; [done|by exists rs]|done].
      Qed.

      (* C02: exit status 0 only if every named file was opened, read, parsed and
         had its includes served, and every definition in a named file that is
         handed to the runner was taken up (its `analyzing` line is in the log)
         and lifted *)
      Theorem clean_only_if_all_read_and_analysed o order :
        wf_project (stage_project s pr sd rest) ->
        analysis_order (stage_project s pr sd rest) order ->
        res_exit (run_keys (stage_project s pr sd rest) o order) = 0%Z ->
        ~ In pf_id (o_allow o) ->
        all_named_read argv libs s /\
        (forall d, In d defs -> file_is_named argv s (d_file d) ->
           In (MAnalyzing (d_key d)) (res_log (run_keys (stage_project s pr sd rest) o order)) /\
           (forall e, d_err d = Some e -> r_level e = Error -> not_in_included_only argv s e ->
                      In (r_id e) (o_allow o))).
      Proof.
        intros Hwf Hord Hex Hal.
        assert (Hno : forall c r, class_producer c = ByIncludes -> ~ failure_event argv libs s pr sd rest c r).
        { intros c r Hc Hev. apply Hal. rewrite <- (includes_event_id _ _ _ _ _ _ c r Hc Hev).
          by eapply clean_event_allowed. }
        pose proof front_failures_have_reports as (FS & FI & _ & _).
        split; [split; [|split]|].
        - intros p q Hp Hf. apply (Hno MissingFile (report_of (FileOsError q))); [done|]. simpl. eauto.
        - intros f Hre Hc. apply (Hno UnreadableFile (report_of (FileOsError f))); [done|]. simpl. eauto.
        - intros f Hn. destruct (content f) as [| |incs] eqn:Hc.
          + destruct (Hno UnreadableFile (report_of (FileOsError f))); [done|]. simpl.
            exists f. split; [by apply reach_named|done].
          + destruct (FS f Hn Hc) as (r & Hev). by destruct (Hno SyntaxError r).
          + exists incs. split; [done|]. intros p a b Hx.
            pose proof (named_is_read f Hn) as Hr.
            eapply every_include_served in Hr as [Hok|[Hres _]]; [done| |done..].
            destruct (FI f incs p a b Hn Hc Hx Hres) as (r & Hev). by destruct (Hno UnresolvedInclude r).
        - intros d Hd Hfile. pose proof (named_user_def others defs d Hd Hfile) as Hu. split.
          + by apply user_def_logged.
          + intros e Herr He Hloc. apply (clean_run_allows _ o order e Hwf Hord Hex); [|done|by apply not_included_only].
            by eapply def_error_produced.
      Qed.

      (* C02: exit status 0 (with none of the error codes of the stages
         allow-listed) only if, besides, every file that was reached asks for
         a supported compiler version or none, at most one of them has a main
         component, the desugarer handed on every template and every function
         of the named files, no definition of a named file handed to the
         runner repeats a parameter name, and the lifting / SSA mirrors
         answered with no error for it (unless that error's id is allow-listed
         or its file id points into another file) *)
      Theorem clean_only_if_stages_passed o order :
        wf_project (stage_project s pr sd rest) ->
        analysis_order (stage_project s pr sd rest) order ->
        res_exit (run_keys (stage_project s pr sd rest) o order) = 0%Z ->
        (forall z, In z stage_ids -> ~ In z (o_allow o)) ->
        all_stages_passed argv libs s pr sd /\
        (forall dd, In dd (handed_on pr sd) -> def_in_named_file argv s dd ->
           In (MAnalyzing (runner_kind (PM.d_kind dd), name_id (PM.d_name dd)))
              (res_log (run_keys (stage_project s pr sd rest) o order)) /\
           (LiftFull.is_block (PM.d_body dd) = true -> List.NoDup (PM.d_params dd)) /\
           (forall e, lift_outcome dd = Some e -> e <> LEParamCollision ->
                      err_file dd = None \/ err_file dd = PM.d_pfile dd ->
                      In (r_id (item_report (SILiftError dd e (err_file dd)))) (o_allow o))).
      Proof.
        intros Hwf Hord Hex Hal.
        pose proof (fun c r => clean_event_allowed o order c r Hwf Hord Hex) as Hok.
        assert (Hno : forall c r, In (r_id r) stage_ids -> ~ failure_event argv libs s pr sd rest c r).
        { intros c r Hid Hev. apply (Hal _ Hid). by eapply Hok. }
        pose proof front_failures_have_reports as (_ & _ & FT & FF).
        split; [split; [|split; [|split]]|].
        - intros f incs v Hre Hc Hp. destruct (version_supported v cv) eqn:Hv; [done|].
          destruct (Hno BadPragma (item_report (SIVersionError f v))); [by left|]. simpl. exists f, incs, v. done.
        - intros f g Hrf Hrg Pf Pg Mf Mg. destruct (decide (f = g)) as [|Hne]; [done|].
          destruct (Hno SeveralMains (item_report SIMultipleMain)); [right; by left|]. simpl. by exists f, g.
        - intros n body fid Hin Hb Hnamed.
          destruct (in_dec String.string_dec n (map fst (Desugar.d_templates sd))) as [|Hno']; [done|].
          destruct (FT n body fid Hin Hb Hnamed Hno') as (r & Hev).
          destruct (Hno _ r (sugar_event_id _ _ _ _ _ _ r Hev) Hev).
        - intros n body fid Hin Hb Hnamed.
          destruct (in_dec String.string_dec n (map fst (Desugar.d_functions sd))) as [|Hno']; [done|].
          destruct (FF n body fid Hin Hb Hnamed Hno') as (r & Hev).
          destruct (Hno _ r (sugar_event_id _ _ _ _ _ _ r Hev) Hev).
        - intros dd Hin Hnamed. split; [|split].
          + apply (user_def_logged _ o order (stage_def dd)); [done|done|]. by apply handed_on_user_def.
          + intros Hb. destruct (ListDec.NoDup_dec String.string_dec (PM.d_params dd)) as [|Hnd]; [done|].
            destruct (Hno DuplicateParameter (item_report (SILiftError dd LEParamCollision (PM.d_pfile dd))));
              [do 4 right; by left|].
            simpl. exists dd. done.
          + intros e Hout Hne Hloc.
            apply (Hok LiftFailure (item_report (SILiftError dd e (err_file dd)))). simpl. exists dd, e. done.
      Qed.
    End Stage.
  End Run.
End NoSilentProofs.

Lemma all_classes_complete : forall c, In c all_classes.
Proof. intros []; simpl; tauto. Qed.

Lemma derived_classes_are : forall c, class_derivation c = Derived <-> c <> LiftFailure.
Proof. intros []; simpl; split; intros H; try done; try discriminate. Qed.

Lemma no_class_assumed : forall c, class_derivation c <> Assumed.
Proof. intros []; discriminate. Qed.
