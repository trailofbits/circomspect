(* Proofs for C09: the instance of ni_generic for the mirror of the
   taint / side-effect analysis over the SSA execution semantics of Spec.SsaEffects. *)
From Coq Require Import ZArith NArith List Bool Relations Lia.
Require Import Model.Base Model.Ir Model.VarUse Model.Taint Model.SideEffect
  Spec.NiSpec Spec.SsaEffects Spec.CtlDep Proofs.TaintProofs Proofs.IrInd.
Require Export Proofs.BaseFacts.
Import ListNotations.

Lemma fold_left_inv {A B} (f : A -> B -> A) (P : A -> Prop) :
  (forall a b, P a -> P (f a b)) -> forall l a, P a -> P (fold_left f l a).
Proof. intros H l. induction l as [|x l IH]; intros a Ha; cbn; [assumption | apply IH, H, Ha]. Qed.

Lemma fold_left_establish {A B} (f : A -> B -> A) (P : A -> Prop) (x : B) :
  (forall a b, P a -> P (f a b)) -> (forall a, P (f a x)) ->
  forall l a, In x l -> P (fold_left f l a).
Proof.
  intros Hm Hx l. induction l as [|y l IH]; intros a Hin; [destruct Hin|].
  cbn. destruct Hin as [->|Hin]; [apply fold_left_inv; [assumption | apply Hx] | apply IH; assumption].
Qed.

Lemma mapM_Ok_In {A B} (f : A -> outcome B) l ys :
  mapM f l = Ok ys -> forall x, In x l -> exists y, f x = Ok y /\ In y ys.
Proof.
  revert ys. induction l as [|a l IH]; intros ys H x Hx; [destruct Hx|].
  cbn in H. apply bind_ok in H. destruct H as [y [Hy H]]. apply bind_ok in H. destruct H as [ys' [Hys H]].
  injection H as <-. destruct Hx as [->|Hx].
  - exists y. split; [assumption | left; reflexivity].
  - destruct (IH ys' Hys x Hx) as [y' [Hy' Hin]]. exists y'. split; [assumption | right; assumption].
Qed.

Lemma mapM_Ok_In_rev {A B} (f : A -> outcome B) l ys :
  mapM f l = Ok ys -> forall y, In y ys -> exists x, In x l /\ f x = Ok y.
Proof.
  revert ys. induction l as [|a l IH]; intros ys H y Hy.
  - cbn in H. injection H as <-. destruct Hy.
  - cbn in H. apply bind_ok in H. destruct H as [y0 [Hy0 H]]. apply bind_ok in H. destruct H as [ys' [Hys H]].
    injection H as <-. destruct Hy as [<-|Hy].
    + exists a. split; [left; reflexivity | assumption].
    + destruct (IH ys' Hys y Hy) as [x [Hx Hf]]. exists x. split; [right; assumption | assumption].
Qed.

Lemma In_somes {A} (l : list (option A)) x : In x (somes l) <-> In (Some x) l.
Proof.
  induction l as [|[a|] l IH]; cbn; [tauto| |].
  - rewrite IH. split; [intros [->|H]; tauto | intros [H|H]; [injection H; tauto | tauto]].
  - rewrite IH. split; [tauto | intros [H|H]; [discriminate | assumption]].
Qed.

Lemma vmem_In x l : vmem x l = true <-> In x l.
Proof. apply (mem_In vname vname_eqb vname_eqb_eq). Qed.

Lemma clos_rt_mono {A} (R R' : A -> A -> Prop) :
  (forall a b, R a b -> R' a b) -> forall a b, clos_refl_trans A R a b -> clos_refl_trans A R' a b.
Proof.
  intros H a b Hr. induction Hr; [apply rt_step, H; assumption | apply rt_refl | eapply rt_trans; eassumption].
Qed.

Lemma In_uses_app a b r :
  In r (uses_names (u_app a b)) <-> In r (uses_names a) \/ In r (uses_names b).
Proof. unfold uses_names, u_app; cbn. rewrite !in_app_iff. tauto. Qed.

(* the nested helper functions of expr_uses, as top-level functions *)
Fixpoint acc_uses (D : decls) (acc : list (access expr)) : uses :=
  match acc with
  | [] => u0
  | AIdx i :: r => u_app (expr_uses D i) (acc_uses D r)
  | AComp _ :: r => acc_uses D r
  end.

Lemma expr_uses_call D n args k : expr_uses D (ECall n args k) = exprs_uses D args.
Proof. cbn. induction args as [|a args IH]; [reflexivity|]. cbn. f_equal. exact IH. Qed.
Lemma expr_uses_array D vs k : expr_uses D (EArray vs k) = exprs_uses D vs.
Proof. exact (expr_uses_call D [] vs k). Qed.
Lemma expr_uses_access D v acc k : expr_uses D (EAccess v acc k) = u_app (acc_uses D acc) (u_var D v).
Proof. cbn. f_equal. induction acc as [|[i|n] acc IH]; [reflexivity| |]; cbn; [f_equal|]; exact IH. Qed.
Lemma expr_uses_update D v acc rhe k :
  expr_uses D (EUpdate v acc rhe k) = u_app (expr_uses D rhe) (u_app (acc_uses D acc) (u_var D v)).
Proof. exact (f_equal (u_app (expr_uses D rhe)) (expr_uses_access D v acc k)). Qed.

Section Instance.
  Variable V : Type.
  Variable sem_num : Z -> V.
  Variable sem_infix : infix_op -> V -> V -> V.
  Variable sem_prefix : prefix_op -> V -> V.
  Variable sem_switch : V -> V -> V -> V.
  Variable sem_call : ident -> list V -> V.
  Variable sem_array : list V -> V.
  Variable sem_access : V -> list (access V) -> V.
  Variable sem_update : V -> list (access V) -> V -> V.
  Variable sem_phi : list pcT -> list (vname * V) -> V.
  Variable sem_undef : V.
  Variable truthy : V -> bool.
  Variable g : cfg.
  Variable ment : stmt -> bool.

  Notation D := (c_decls g).
  Notation evalg := (eval V sem_num sem_infix sem_prefix sem_switch sem_call sem_array sem_access sem_update sem_phi sem_undef g).
  Notation prg := (ssa_prog V sem_num sem_infix sem_prefix sem_switch sem_call sem_array sem_access sem_update sem_phi sem_undef truthy g ment).
  Notation rdg := (rd V sem_undef g).

  Lemma rd_agree (s s' : vname -> V) v :
    (forall r, In r (uses_names (u_var D v)) -> s r = s' r) -> rdg s v = rdg s' v.
  Proof.
    unfold rd, u_var. destruct (type_of D v) as [t|]; [|reflexivity].
    intro H. apply H. destruct t; cbn; left; reflexivity.
  Qed.

  Definition eval_acc_top h (s : vname -> V) (acc : list (access expr)) : list (access V) :=
    map (fun a => match a with AIdx i => AIdx (evalg h s i) | AComp n => AComp n end) acc.

  Lemma eval_list_map h s es :
    (fix eval_list (es : list expr) : list V :=
       match es with [] => [] | x :: r => evalg h s x :: eval_list r end) es = map (evalg h s) es.
  Proof. induction es as [|a es IH]; simpl; [reflexivity | apply f_equal; exact IH]. Qed.

  Lemma eval_acc_map h s acc :
    (fix eval_acc (acc : list (access expr)) : list (access V) :=
       match acc with
       | [] => []
       | AIdx i :: r => AIdx (evalg h s i) :: eval_acc r
       | AComp n :: r => AComp n :: eval_acc r
       end) acc = eval_acc_top h s acc.
  Proof. induction acc as [|[i|n] acc IH]; simpl; [reflexivity| |]; apply f_equal; exact IH. Qed.

  Lemma eval_call h s n args k : evalg h s (ECall n args k) = sem_call n (map (evalg h s) args).
  Proof. exact (f_equal (sem_call n) (eval_list_map h s args)). Qed.
  Lemma eval_array h s vs k : evalg h s (EArray vs k) = sem_array (map (evalg h s) vs).
  Proof. exact (f_equal sem_array (eval_list_map h s vs)). Qed.
  Lemma eval_access h s v acc k : evalg h s (EAccess v acc k) = sem_access (rdg s v) (eval_acc_top h s acc).
  Proof. exact (f_equal (sem_access (rdg s v)) (eval_acc_map h s acc)). Qed.
  Lemma eval_update h s v acc rhe k :
    evalg h s (EUpdate v acc rhe k) = sem_update (rdg s v) (eval_acc_top h s acc) (evalg h s rhe).
  Proof. exact (f_equal (fun l => sem_update (rdg s v) l (evalg h s rhe)) (eval_acc_map h s acc)). Qed.

  Definition reads_ok (e : expr) : Prop :=
    forall h (s s' : vname -> V),
      (forall r, In r (uses_names (expr_uses D e)) -> s r = s' r) -> evalg h s e = evalg h s' e.

  Lemma exprs_reads_ok es h (s s' : vname -> V) : Forall reads_ok es ->
    (forall r, In r (uses_names (exprs_uses D es)) -> s r = s' r) -> map (evalg h s) es = map (evalg h s') es.
  Proof.
    induction 1 as [|a es Ha Hes IH]; intro Hag; [reflexivity|]. cbn.
    f_equal; [apply Ha | apply IH]; intros q Hq; apply Hag; cbn; apply In_uses_app; tauto.
  Qed.

  Lemma acc_reads_ok acc h (s s' : vname -> V) : Forall reads_ok (acc_exprs acc) ->
    (forall r, In r (uses_names (acc_uses D acc)) -> s r = s' r) -> eval_acc_top h s acc = eval_acc_top h s' acc.
  Proof.
    induction acc as [|[i|n] acc IH]; cbn; intros H Hag; [reflexivity| |].
    - inversion H as [|? ? Ha Hacc]; subst.
      f_equal; [f_equal; apply Ha | apply IH; [assumption|]]; intros q Hq; apply Hag, In_uses_app; tauto.
    - f_equal. apply IH; assumption.
  Qed.

  Lemma eval_reads : forall e, reads_ok e.
  Proof.
    induction e using expr_ind'; intros h s s' Hag.
    - reflexivity.
    - cbn. apply rd_agree. exact Hag.
    - change (expr_uses D (EInfix op e1 e2 k)) with (u_app (expr_uses D e1) (expr_uses D e2)) in Hag.
      change (sem_infix op (evalg h s e1) (evalg h s e2) = sem_infix op (evalg h s' e1) (evalg h s' e2)).
      f_equal; [apply IHe1 | apply IHe2]; intros q Hq; apply Hag, In_uses_app; tauto.
    - change (sem_prefix op (evalg h s e) = sem_prefix op (evalg h s' e)). f_equal. apply IHe. exact Hag.
    - change (expr_uses D (ESwitch e1 e2 e3 k)) with (u_app (expr_uses D e1) (u_app (expr_uses D e2) (expr_uses D e3))) in Hag.
      change (sem_switch (evalg h s e1) (evalg h s e2) (evalg h s e3) = sem_switch (evalg h s' e1) (evalg h s' e2) (evalg h s' e3)).
      f_equal; [apply IHe1 | apply IHe2 | apply IHe3]; intros q Hq; apply Hag; rewrite !In_uses_app; tauto.
    - rewrite !eval_call. rewrite expr_uses_call in Hag. f_equal. apply exprs_reads_ok; assumption.
    - rewrite !eval_array. rewrite expr_uses_array in Hag. f_equal. apply exprs_reads_ok; assumption.
    - rewrite !eval_access. rewrite expr_uses_access in Hag. f_equal.
      + apply rd_agree. intros q Hq. apply Hag, In_uses_app. tauto.
      + apply acc_reads_ok; [assumption|]. intros q Hq. apply Hag, In_uses_app. tauto.
    - rewrite !eval_update. rewrite expr_uses_update in Hag. f_equal.
      + apply rd_agree. intros q Hq. apply Hag. rewrite !In_uses_app. tauto.
      + apply acc_reads_ok; [assumption|]. intros q Hq. apply Hag. rewrite !In_uses_app. tauto.
      + apply IHe. intros q Hq. apply Hag. rewrite !In_uses_app. tauto.
    - cbn. f_equal. apply map_ext_in. intros a Ha. f_equal. apply Hag.
      unfold uses_names. cbn. rewrite app_nil_r. exact Ha.
  Qed.

  Lemma prog_wf : wf vname V pcT prg.
  Proof.
    intros [[i k]|]; cbn; [|exact I].
    destruct (find_block g i) as [blk|]; [|exact I].
    destruct (nth_error (b_stmts blk) k) as [s|].
    - destruct s as [m names t dims|m c t f|m e|m v op rhe sv [st|]|m l r|m args|m e]; cbn; try exact I.
      + intros h s s' Hag. f_equal. apply eval_reads. intros q Hq. apply Hag.
        unfold stmt_reads. cbn. exact Hq.
      + intros h s s' Hag. apply eval_reads. intros q Hq. apply Hag.
        unfold stmt_reads. destruct st, op; cbn [stmt_uses s_reads]; first [exact Hq | apply In_uses_app; left; exact Hq].
    - destruct (b_succs blk) as [|x [|y l]]; exact I.
  Qed.

  Lemma prg_stmt pc ins : prg pc = ins -> ins <> IHalt ->
    (exists i k blk s, pc = Some (i, k) /\ In blk (c_blocks g) /\ In s (b_stmts blk) /\
        ins = stmt_instr V sem_num sem_infix sem_prefix sem_switch sem_call sem_array sem_access sem_update sem_phi
                sem_undef truthy g ment blk k s)
    \/ (exists x, ins = IEmit [] false (Some (x, O))).
  Proof.
    intros H Hne. destruct pc as [[i k]|]; cbn in H; [|congruence].
    unfold find_block in H. destruct (find _ (c_blocks g)) as [blk|] eqn:Hf; [|congruence].
    apply find_some in Hf. destruct Hf as [Hblk _].
    destruct (nth_error (b_stmts blk) k) as [s|] eqn:Hn.
    - left. exists i, k, blk, s. repeat split; try assumption; [eapply nth_error_In; eassumption | congruence].
    - destruct (b_succs blk) as [|x [|y l]]; try congruence. right. exists x. congruence.
  Qed.

  Lemma is_constraint_like s : constraint_like s = is_constraint_stmt s.
  Proof. destruct s as [| | |? ? [] ? ? ?| | |]; reflexivity. Qed.

  (* A name the program is required to treat as a sink is read by a statement whose
     reads are observed (a sink statement, or a constraint the oracle says mentions an
     exported signal), or is the target of an observable assignment. *)
  Lemma required_sink_stmt n : required_sink vname V pcT prg n ->
    exists blk s, In blk (c_blocks g) /\ In s (b_stmts blk) /\
      ((In n (stmt_reads D s) /\
        (is_sink_stmt s = true \/ (is_constraint_stmt s = true /\ ment s = true))) \/
       (exists m op rhe sv st, s = SSubst m n op rhe sv (Some st) /\
          (is_exported_type (type_of D n) = true \/ (is_constraint_stmt s = true /\ ment s = true)))).
  Proof.
    intros Hreq.
    assert (Hpc : exists pc ins, prg pc = ins /\ ins <> IHalt /\
              match ins with
              | IBranch rs _ _ _ | IEmit rs true _ => In n rs
              | IAssign x _ _ true _ => x = n
              | _ => False
              end).
    { destruct Hreq as [(pc & rs & c & pt & pf & Hi & Hn) | [(pc & rs & nx & Hi & Hn) | (pc & rs & f & nx & Hi)]];
        exists pc; eexists; (split; [exact Hi|]); (split; [discriminate|]); auto. }
    destruct Hpc as (pc & ins & Hi & Hne & Hk).
    destruct (prg_stmt pc ins Hi Hne) as [(i & k & blk & s & -> & Hblk & Hs & ->)|[y ->]]; [|contradiction].
    exists blk, s. split; [assumption|]. split; [assumption|].
    destruct s as [m names t dims|m c0 t f0|m e|m v op rhe sv [st|]|m l r0|m args|m e]; cbn [stmt_instr] in Hk;
      try contradiction; try (left; split; [exact Hk|left; reflexivity]).
    - right. exists m, op, rhe, sv, st. destruct (is_exported_type _ || _) eqn:Hobs; [subst v|contradiction].
      split; [reflexivity|]. apply orb_true_iff in Hobs. rewrite andb_true_iff, is_constraint_like in Hobs. exact Hobs.
    - left. destruct (ment (SCeq m l r0)) eqn:Hm; [|contradiction]. split; [exact Hk|right; split; reflexivity].
  Qed.


  Lemma add_steps_In r sink srcs es : In r srcs -> In (r, sink) (add_steps srcs sink es).
  Proof. intro H. unfold add_steps. apply in_or_app. left. apply in_map_iff. exists r. split; [reflexivity | assumption]. Qed.

  Lemma add_steps_mono e srcs sink es : In e es -> In e (add_steps srcs sink es).
  Proof. intro H. unfold add_steps. apply in_or_app. right. assumption. Qed.

  Variable br : branches.

  Lemma taint_stmt_mono e bi st s :
    In e (t_edges st) -> In e (t_edges (taint_stmt D (c_blocks g) br bi st s)).
  Proof.
    intro H. destruct s as [m names t dims|m c t f|m e0|m v op rhe sv sty|m l r|m args|m e0]; cbn [taint_stmt]; try assumption.
    - apply fold_left_inv with (P := fun st' => In e (t_edges st')); [|assumption].
      intros a b Ha. cbn. apply add_steps_mono. assumption.
    - destruct (expr_val c); [assumption|].
      apply fold_left_inv with (P := fun st' => In e (t_edges st')); [|assumption].
      intros a b Ha. destruct (get_block (c_blocks g) b); [|assumption].
      apply fold_left_inv with (P := fun st' => In e (t_edges st')); [|assumption].
      intros a' b' Ha'. cbn. apply add_steps_mono. assumption.
    - apply fold_left_inv with (P := fun st' => In e (t_edges st')); [|assumption].
      intros a b Ha. cbn. apply add_steps_mono. assumption.
  Qed.

  Lemma stmt_writes_w_subst m x op rhe sv st :
    stmt_writes_w D (SSubst m x op rhe sv (Some st)) = [mkW m x (rhe_has_access rhe)].
  Proof. unfold stmt_writes_w. destruct st, op; reflexivity. Qed.

  Lemma taint_stmt_subst r bi st0 m x op rhe sv st :
    In r (stmt_reads D (SSubst m x op rhe sv (Some st))) ->
    In (r, x) (t_edges (taint_stmt D (c_blocks g) br bi st0 (SSubst m x op rhe sv (Some st)))).
  Proof.
    intro H. cbn [taint_stmt]. rewrite stmt_writes_w_subst. cbn [fold_left t_edges w_name].
    apply add_steps_In. assumption.
  Qed.

  Lemma ddep_taint r x : ddep g r x -> In (r, x) (t_edges (run_taint_analysis g br)).
  Proof.
    intros (blk & s & m & op & rhe & sv & st & Hblk & Hs & -> & Hr).
    unfold run_taint_analysis.
    apply fold_left_establish with (P := fun st' => In (r, x) (t_edges st')) (x := blk); [| |assumption].
    - intros a b Ha. unfold taint_block.
      apply fold_left_inv with (P := fun st' => In (r, x) (t_edges st')); [|assumption].
      intros a' b' Ha'. apply taint_stmt_mono. assumption.
    - intro a. unfold taint_block.
      apply fold_left_establish with (P := fun st' => In (r, x) (t_edges st')) (x := SSubst m x op rhe sv (Some st)); [| |assumption].
      + intros a' b' Ha'. apply taint_stmt_mono. assumption.
      + intro a'. apply taint_stmt_subst. assumption.
  Qed.

  Lemma data_edge_ddep r x : data_edge vname V pcT prg r x -> ddep g r x.
  Proof.
    intros (pc & rs & f & obs & nx & Hi & Hr).
    destruct (prg_stmt pc _ Hi ltac:(discriminate)) as [(i & k & blk & s & -> & Hblk & Hs & Hins)|[y Hy]]; [|discriminate].
    destruct s as [m names t dims|m c t f0|m e|m v op rhe sv [st|]|m l r0|m args|m e]; cbn in Hins; try discriminate.
    injection Hins as -> -> _ _ _.
    exists blk, (SSubst m v op rhe sv (Some st)), m, op, rhe, sv, st. repeat split; assumption.
  Qed.

  Theorem model_taint_has_data_edges r x :
    data_edge vname V pcT prg r x -> tedge (t_edges (run_taint_analysis g br)) r x.
  Proof. intro H. apply ddep_taint, data_edge_ddep, H. Qed.

  (* the names tainted by an input/output signal are closed under data dependence *)
  Lemma ddep_closed es : exported_sinks g (t_edges (run_taint_analysis g br)) = Ok es ->
    forall a b, In a es -> ddep g a b -> In b es.
  Proof.
    intros Hes a b Ha Hab. unfold exported_sinks in Hes. apply bind_ok in Hes. destruct Hes as [l [Hl H]]. injection H as <-.
    apply in_concat in Ha. destruct Ha as [r [Hr Ha]].
    destruct (mapM_Ok_In_rev _ _ _ Hl _ Hr) as [sig [_ Hsig]].
    apply in_concat. exists r. split; [assumption|].
    apply (taint_closure_exact _ _ _ Hsig). eapply rt_trans; [apply (taint_closure_exact _ _ _ Hsig); exact Ha|].
    apply rt_step. apply ddep_taint. assumption.
  Qed.

  (* [dep]: the notion of dependence by which a constraint "mentions" an input/output signal. All that is
     needed of it: the set of names the analysis finds tainted by an input/output signal is closed under it.
     Instances: data dependence (ddep_closed, no condition on the branch regions) and information flow
     = data + control dependence (Spec.CtlDep.idep, under the decidable hypothesis ctl_closed_b). *)
  Variable dep : vname -> vname -> Prop.
  Hypothesis Hdep : forall es, exported_sinks g (t_edges (run_taint_analysis g br)) = Ok es ->
                    forall a b, In a es -> dep a b -> In b es.
  Hypothesis Hment : ment_sound_by g dep ment.
  Hypothesis Hwf : exported_targets_declared g = true.

  Variable snk : list vname.
  Hypothesis Hsnk : sinks g (t_edges (run_taint_analysis g br)) (run_constraint_analysis g) = Ok snk.

  Notation tm := (t_edges (run_taint_analysis g br)).
  Notation cm := (run_constraint_analysis g).

  Lemma sinks_parts : exists es parts,
    exported_sinks g tm = Ok es /\
    mapM (fun source => r <- multi_step_constraint cm source ;;
                        Ok (match r with [] => [] | _ => source :: r end)) es = Ok parts /\
    snk = concat parts ++ exported_signals g ++ stmt_sinks g ++ constraint_stmt_sinks g es.
  Proof.
    unfold sinks, sinks_with in Hsnk. apply bind_ok in Hsnk. destruct Hsnk as [es [Hes H]].
    apply bind_ok in H. destruct H as [parts [Hparts H]]. injection H as <-.
    exists es, parts. repeat split; assumption.
  Qed.

  Lemma stmt_sinks_In blk s n :
    In blk (c_blocks g) -> In s (b_stmts blk) -> is_sink_stmt s = true -> In n (stmt_reads D s) -> In n snk.
  Proof.
    intros Hblk Hs Hk Hn. destruct sinks_parts as (es & parts & _ & _ & ->).
    apply in_or_app; right. apply in_or_app; right. apply in_or_app; left.
    unfold stmt_sinks. apply in_flat_map. exists blk. split; [assumption|].
    apply in_flat_map. exists s. split; [assumption|]. rewrite Hk. assumption.
  Qed.

  Lemma constraint_edge blk s a b :
    In blk (c_blocks g) -> In s (b_stmts blk) -> is_constraint_stmt s = true ->
    In a (stmt_used D s) -> In b (stmt_used D s) -> a <> b -> In (a, b) cm.
  Proof.
    intros Hblk Hs Hk Ha Hb Hne. unfold run_constraint_analysis.
    assert (Hmono : forall es s0, In (a, b) es -> In (a, b) (constraint_stmt D es s0)).
    { intros es s0 H. unfold constraint_stmt. destruct (is_constraint_stmt s0); [apply in_or_app; right|]; assumption. }
    apply fold_left_establish with (P := fun es => In (a, b) es) (x := blk); [| |assumption].
    - intros es b0 H. apply fold_left_inv with (P := fun es => In (a, b) es); assumption.
    - intro es. apply fold_left_establish with (P := fun es => In (a, b) es) (x := s); [assumption| |assumption].
      intro es'. unfold constraint_stmt. rewrite Hk. apply in_or_app; left.
      apply in_flat_map. exists a. split; [assumption|]. apply in_flat_map. exists b. split; [assumption|].
      destruct (vname_eqb a b) eqn:E; [apply vname_eqb_eq in E; contradiction | left; reflexivity].
  Qed.

  Lemma exported_In sig : exported g sig -> In sig (exported_signals g).
  Proof.
    intros [t [Hin Ht]]. unfold exported_signals. apply in_map_iff. exists (sig, t). split; [reflexivity|].
    apply filter_In. split; [assumption|]. destruct Ht as [-> | ->]; reflexivity.
  Qed.

  Lemma constraint_stmt_all_sinks blk s :
    In blk (c_blocks g) -> In s (b_stmts blk) -> is_constraint_stmt s = true -> mentions_by g dep s ->
    forall n, In n (stmt_used D s) -> In n snk.
  Proof.
    intros Hblk Hs Hk (n0 & sig & Hn0 & Hsig & Hreach) n Hn.
    destruct sinks_parts as (es & parts & Hes & Hparts & ->).
    (* n0 is tainted by an exported signal *)
    assert (Hn0es : In n0 es).
    { assert (Hsig_es : In sig es).
      { unfold exported_sinks in Hes. apply bind_ok in Hes. destruct Hes as [l [Hl H]]. injection H as <-.
        destruct (mapM_Ok_In _ _ _ Hl sig (exported_In sig Hsig)) as [r [Hr Hin]].
        apply in_concat. exists r. split; [assumption|].
        apply (taint_closure_exact _ _ _ Hr). apply rt_refl. }
      assert (Hcl : forall a z, clos_refl_trans_1n vname dep a z -> In a es -> In z es).
      { intros a z H. induction H as [|a b c Hab _ IH]; intro Ha; [assumption|]. apply IH. eapply Hdep; eassumption. }
      eapply Hcl; [apply clos_rt_rt1n; exact Hreach | exact Hsig_es]. }
    destruct (vname_eq_dec n n0) as [->|Hne].
    - (* the name itself: the clause constraint_stmt_sinks *)
      apply in_or_app; right. apply in_or_app; right. apply in_or_app; right.
      unfold constraint_stmt_sinks. apply in_flat_map. exists blk. split; [assumption|].
      apply in_flat_map. exists s. split; [assumption|]. rewrite Hk.
      apply filter_In. split; [assumption | apply vmem_In; assumption].
    - (* a partner in the constraint *)
      apply in_or_app; left.
      destruct (mapM_Ok_In _ _ _ Hparts n0 Hn0es) as [part [Hpart Hin]].
      apply bind_ok in Hpart. destruct Hpart as [r [Hr Hp]]. injection Hp as <-.
      apply in_concat. eexists. split; [exact Hin|].
      assert (Hnr : In n r).
      { apply (constraint_closure_exact _ _ _ Hr). apply t_step.
        eapply constraint_edge; try eassumption. congruence. }
      destruct r; [destruct Hnr | right; assumption].
  Qed.

  Lemma wf_target blk m x op rhe sv st :
    In blk (c_blocks g) -> In (SSubst m x op rhe sv (Some st)) (b_stmts blk) ->
    is_exported_type (type_of D x) = true -> In x (exported_signals g).
  Proof.
    intros Hblk Hs Ht. unfold exported_targets_declared in Hwf.
    rewrite forallb_forall in Hwf. specialize (Hwf blk Hblk). rewrite forallb_forall in Hwf.
    specialize (Hwf _ Hs). cbn beta iota in Hwf.
    destruct (type_of D x) as [[]|]; cbn in Ht, Hwf; try discriminate; apply vmem_In; assumption.
  Qed.

  Lemma exported_in_sinks x : In x (exported_signals g) -> In x snk.
  Proof.
    intro H. destruct sinks_parts as (es & parts & _ & _ & ->).
    apply in_or_app; right. apply in_or_app; left. assumption.
  Qed.

  Theorem model_sinks_cover_required n :
    required_sink vname V pcT prg n -> In n snk.
  Proof.
    intro H. destruct (required_sink_stmt n H)
      as (blk & s & Hblk & Hs & [[Hn [Hk|[Hc Hm]]]|(m & op & rhe & sv & st & -> & [Hex|[Hc Hm]])]).
    - eapply stmt_sinks_In; eassumption.
    - apply (constraint_stmt_all_sinks blk s Hblk Hs Hc (Hment _ Hm)).
      unfold stmt_used. apply in_or_app. left. assumption.
    - apply exported_in_sinks. eapply wf_target; eassumption.
    - apply (constraint_stmt_all_sinks blk _ Hblk Hs Hc (Hment _ Hm)).
      unfold stmt_used, stmt_writes. rewrite stmt_writes_w_subst. apply in_or_app. right. left. reflexivity.
  Qed.
End Instance.

Lemma signal_finding_kind g tm cm read reported kt f :
  signal_finding g tm cm read reported kt = Ok (Some f) ->
  f_kind f = FUnusedSignal \/ f_kind f = FUnconstrainedSignal.
Proof.
  unfold signal_finding.
  destruct (displays_underscore (fst kt) false); [discriminate|].
  destruct (existsb _ reported); [discriminate|].
  destruct (negb (vmem (fst kt) read)); [intro H; injection H as <-; left; reflexivity|].
  destruct (is_template g); [|discriminate].
  intro H. apply bind_ok in H. destruct H as [t [_ H]]. destruct t; [discriminate|].
  injection H as <-. right. reflexivity.
Qed.

(* what a finding of the loop over the definitions says: it is about that definition, and
   the name is either never read or taints no sink *)
Lemma definition_finding_some g tm read snk d f :
  definition_finding g tm read snk d = Ok (Some f) ->
  f_var f = d_name d /\ f_meta f = d_meta d /\
  ((~ In (d_name d) read /\ (f_kind f = FUnusedParam \/ f_kind f = FUnusedVar)) \/
   (taints_any tm (d_name d) snk = Ok false /\ (f_kind f = FParamNoSideEffect \/ f_kind f = FVarNoSideEffect))).
Proof.
  unfold definition_finding.
  destruct (displays_underscore (d_name d) (d_acc d)); [discriminate|].
  destruct (negb (vmem (d_name d) read)) eqn:E.
  - intros [= <-]. cbn. repeat split. left. split; [|destruct (is_param g (d_name d)); auto].
    intro Hin. apply vmem_In in Hin. rewrite Hin in E. discriminate.
  - intro H. apply bind_ok in H. destruct H as [[|] [Ht H]]; [discriminate|].
    injection H as <-. cbn. repeat split. right. split; [assumption|destruct (is_param g (d_name d)); auto].
Qed.

Lemma no_taint_no_rel tm x snk :
  taints_any tm x snk = Ok false ->
  ~ Rel vname (tedge tm) (fun n => In n snk) x.
Proof.
  unfold taints_any. intro H. apply bind_ok in H. destruct H as [r [Hr H]]. injection H as H.
  intros [s [Hs Hreach]]. apply (taint_closure_exact _ _ _ Hr) in Hreach.
  assert (existsb (fun s0 => vmem s0 snk) r = true); [|congruence].
  apply existsb_exists. exists s. split; [assumption | apply vmem_In; assumption].
Qed.

(* a finding comes from the loop over the definitions, or is about a signal *)
Lemma finding_origin g br res f :
  run_side_effect_analysis g br = Ok res -> In f (r_findings res) ->
  (exists snk d,
     sinks g (t_edges (run_taint_analysis g br)) (run_constraint_analysis g) = Ok snk /\
     In d (t_defs (run_taint_analysis g br)) /\
     definition_finding g (t_edges (run_taint_analysis g br)) (variables_read g) snk d = Ok (Some f))
  \/ f_kind f = FUnusedSignal \/ f_kind f = FUnconstrainedSignal.
Proof.
  intros Hrun Hf. unfold run_side_effect_analysis, run_side_effect_analysis_with in Hrun.
  apply bind_ok in Hrun. destruct Hrun as [snk [Hsnk Hrun]].
  apply bind_ok in Hrun. destruct Hrun as [fs1 [Hfs1 Hrun]].
  apply bind_ok in Hrun. destruct Hrun as [fs2 [Hfs2 Hrun]].
  injection Hrun as <-. cbn [r_findings] in Hf. apply in_app_or in Hf. destruct Hf as [Hf|Hf]; apply In_somes in Hf.
  - destruct (mapM_Ok_In_rev _ _ _ Hfs1 _ Hf) as [d [Hd Hdf]]. left. exists snk, d. auto.
  - destruct (mapM_Ok_In_rev _ _ _ Hfs2 _ Hf) as [kt [_ Hk]]. right. exact (signal_finding_kind _ _ _ _ _ _ _ Hk).
Qed.

Theorem noninterference_of_claims_by
  (V : Type) (sem_num : Z -> V) (sem_infix : infix_op -> V -> V -> V) (sem_prefix : prefix_op -> V -> V)
  (sem_switch : V -> V -> V -> V) (sem_call : ident -> list V -> V) (sem_array : list V -> V)
  (sem_access : V -> list (access V) -> V) (sem_update : V -> list (access V) -> V -> V)
  (sem_phi : list pcT -> list (vname * V) -> V) (sem_undef : V) (truthy : V -> bool)
  (g : cfg) (br : branches) (ment : stmt -> bool) (res : result) (f : finding)
  (dep : vname -> vname -> Prop) :
  (forall es, exported_sinks g (t_edges (run_taint_analysis g br)) = Ok es ->
              forall a b, In a es -> dep a b -> In b es) ->
  ment_sound_by g dep ment ->
  exported_targets_declared g = true ->
  run_side_effect_analysis g br = Ok res ->
  In f (r_findings res) ->
  f_kind f = FVarNoSideEffect \/ f_kind f = FParamNoSideEffect ->
  noninterference vname V pcT vname_eq_dec
    (ssa_prog V sem_num sem_infix sem_prefix sem_switch sem_call sem_array sem_access sem_update sem_phi
              sem_undef truthy g ment) (f_var f).
Proof.
  intros Hdep Hment Hwf Hrun Hf Hkind.
  destruct (finding_origin _ _ _ _ Hrun Hf) as [(snk & d & Hsnk & _ & Hd)|Hk];
    [|destruct Hkind as [H|H], Hk as [H'|H']; congruence].
  destruct (definition_finding_some _ _ _ _ _ _ Hd) as (-> & _ & [[_ Hk]|[Hno _]]);
    [destruct Hkind as [H|H], Hk as [H'|H']; congruence|].
  eapply ni_generic with (T := tedge (t_edges (run_taint_analysis g br))) (S := fun n => In n snk).
  - apply prog_wf.
  - intros r y. apply model_taint_has_data_edges.
  - intros s. apply model_sinks_cover_required with (br := br) (dep := dep); assumption.
  - apply no_taint_no_rel. assumption.
Qed.

Lemma read_in_variables_read g blk s x :
  In blk (c_blocks g) -> In s (b_stmts blk) -> In x (stmt_reads (c_decls g) s) -> In x (variables_read g).
Proof.
  intros Hblk Hs Hx. unfold variables_read. apply in_flat_map. exists blk. split; [assumption|].
  unfold block_reads. apply in_flat_map. exists s. split; assumption.
Qed.

Section Claims.
  Variables (V : Type) (sem_num : Z -> V) (sem_infix : infix_op -> V -> V -> V) (sem_prefix : prefix_op -> V -> V)
    (sem_switch : V -> V -> V -> V) (sem_call : ident -> list V -> V) (sem_array : list V -> V)
    (sem_access : V -> list (access V) -> V) (sem_update : V -> list (access V) -> V -> V)
    (sem_phi : list pcT -> list (vname * V) -> V) (sem_undef : V) (truthy : V -> bool)
    (g : cfg) (br : branches) (ment : stmt -> bool).

(* data dependence only: no condition on the branch regions *)
Theorem noninterference_of_claims (res : result) (f : finding) :
  ment_sound g ment ->
  exported_targets_declared g = true ->
  run_side_effect_analysis g br = Ok res ->
  In f (r_findings res) ->
  f_kind f = FVarNoSideEffect \/ f_kind f = FParamNoSideEffect ->
  noninterference vname V pcT vname_eq_dec
    (ssa_prog V sem_num sem_infix sem_prefix sem_switch sem_call sem_array sem_access sem_update sem_phi
              sem_undef truthy g ment) (f_var f).
Proof.
  intros Hment. apply noninterference_of_claims_by with (dep := ddep g).
  - intros es Hes. eapply ddep_closed. exact Hes.
  - exact Hment.
Qed.

Theorem noninterference_of_unused_claims (res : result) (f : finding) :
  exported_targets_declared g = true ->
  csig_on_signals g = true ->
  run_side_effect_analysis g br = Ok res ->
  In f (r_findings res) ->
  f_kind f = FUnusedVar \/ f_kind f = FUnusedParam ->
  ~ In (f_var f) (exported_signals g) ->
  noninterference vname V pcT vname_eq_dec
    (ssa_prog V sem_num sem_infix sem_prefix sem_switch sem_call sem_array sem_access sem_update sem_phi
              sem_undef truthy g ment) (f_var f).
Proof.
  intros Hwf Hcs Hrun Hf Hkind Hnexp.
  set (prg := ssa_prog V sem_num sem_infix sem_prefix sem_switch sem_call sem_array sem_access sem_update sem_phi
              sem_undef truthy g ment).
  destruct (finding_origin _ _ _ _ Hrun Hf) as [(snk & d & _ & _ & Hd)|Hk];
    [|destruct Hkind as [H|H], Hk as [H'|H']; congruence].
  destruct (definition_finding_some _ _ _ _ _ _ Hd) as (Hv & _ & [[Hunread _]|[_ Hk]]);
    [|destruct Hkind as [H|H], Hk as [H'|H']; congruence].
  rewrite Hv in *.
  set (x := d_name d) in *.
  (* x is read by no instruction *)
  assert (Hnoread : forall blk s, In blk (c_blocks g) -> In s (b_stmts blk) ->
            ~ In x (stmt_reads (c_decls g) s)).
  { intros blk s Hblk Hs Hx. apply Hunread. eapply read_in_variables_read; eassumption. }
  eapply ni_generic with (T := data_edge vname V pcT prg) (S := required_sink vname V pcT prg).
  - apply prog_wf.
  - auto.
  - auto.
  - intros [s [Hs Hreach]].
    assert (s = x) as ->.
    { apply clos_rt_rt1n in Hreach. destruct Hreach as [|y z Hxy _]; [reflexivity|]. exfalso.
      apply data_edge_ddep in Hxy. destruct Hxy as (blk & s0 & m & op & rhe & sv & st & Hblk & Hs0 & -> & Hr).
      eapply Hnoread; eassumption. }
    apply required_sink_stmt in Hs.
    destruct Hs as (blk & s & Hblk & Hs & [[Hn _]|(m & op & rhe & sv & st & -> & [Hex|[Hc _]])]).
    + eapply Hnoread; eassumption.
    + apply Hnexp. eapply wf_target; eassumption.
    + unfold csig_on_signals in Hcs. rewrite forallb_forall in Hcs. specialize (Hcs blk Hblk).
      rewrite forallb_forall in Hcs. specialize (Hcs _ Hs). cbn beta iota in Hcs.
      destruct op; try discriminate Hc.
      apply vmem_In in Hcs. eapply Hnoread; eassumption.
Qed.
End Claims.
