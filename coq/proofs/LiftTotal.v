(* C12: lifting never panics on parser-shaped skeletons (the two assert!s of
   lifting.rs and every NonEmptyVec indexing are panic sites of the model);
   [parser_shaped] is contained in the shape for which Proofs.LiftTotalFlat
   proves it. *)
From stdpp Require Import list.
Require Import Model.Lift Spec.CfgSpec Proofs.LiftTotalFlat.
Import Base(outcome, Ok, Err, Panic, OutOfFuel, bind).

Lemma bind_ok_intro {A B} (m : outcome A) (f : A -> outcome B) a :
  m = Ok a -> bind m f = f a.
Proof. by intros ->. Qed.

Theorem lift_never_panics body : parser_shaped body -> exists g, lift body = Ok g.
Proof. intros H. by apply lift_never_panics_desugared, parser_shaped_desugared_shape. Qed.
