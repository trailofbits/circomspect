(* Panic freedom of the desugarer (C18 / C01): on well-formed parser output
   remove_syntactic_sugar returns templates, functions and reports -- no `unwrap`,
   `unreachable!`, `get_file_id` or indexing site fires and the one fuelled loop
   terminates. *)
From Coq Require Import ZArith NArith List Bool String Lia.
Require Import Model.Ast Model.Desugar Spec.ExpandSpec Proofs.DesugarProofs Proofs.DesugarMetas.
Import ListNotations.
Local Open Scope list_scope.


Definition no_crash {A} (r : dres A) : Prop :=
  match r with DPanic _ | DOutOfFuel => False | _ => True end.

(* a panic, if any, at a site satisfying P; [no_crash] is [crash_only (fun _ => False)] *)
Definition crash_only (P : Z -> Prop) {A} (r : dres A) : Prop :=
  match r with DPanic s => P s | DOutOfFuel => False | _ => True end.

Lemma dbind_crash : forall P {A B} (m : dres A) (f : A -> dres B),
  crash_only P m -> (forall a, m = DOk a -> crash_only P (f a)) -> crash_only P (dbind m f).
Proof. intros P A B [a|r|s|] f H1 H2; simpl in *; auto. Qed.

Lemma dbind_nc : forall {A B} (m : dres A) (f : A -> dres B),
  no_crash m -> (forall a, m = DOk a -> no_crash (f a)) -> no_crash (dbind m f).
Proof. intros A B. exact (dbind_crash (fun _ => False)). Qed.

Lemma nc_crash : forall P {A} (r : dres A), no_crash r -> crash_only P r.
Proof. intros P A [a|r|s|] H; simpl in *; tauto. Qed.

Lemma nc_ok : forall {A} (a : A), no_crash (DOk a).
Proof. intros; exact I. Qed.

(* log strings are at most 230 bytes (the parser has split them) *)
Fixpoint LS (s : statement) : Prop :=
  match s with
  | IfThenElse _ _ i e => LS i /\ match e with Some e => LS e | None => True end
  | While _ _ b => LS b
  | InitializationBlock _ _ l => allP LS l
  | Block _ l => allP LS l
  | LogCall _ args => allP short_arg args
  | _ => True
  end.

Definition WA (e : expression) : Prop := Forall wf_node (sub_exprs e).
Definition WAs (s : statement) : Prop := Forall wf_node (stmt_exprs s).

Lemma WA_tuple : forall m vs, WA (Tuple m vs) -> Forall WA vs.
Proof. intros m vs H. apply (AllE_tuple wf_node) in H. tauto. Qed.
Lemma WA_par : forall m e, WA (ParallelOp m e) -> WA e.
Proof. intros m e H. apply (AllE_par wf_node) in H. tauto. Qed.
Lemma WA_anon : forall m id p ps ss nm, WA (AnonymousComponent m id p ps ss nm) ->
  Forall WA ss /\ match nm with Some n => List.length n = List.length ss | None => True end.
Proof. intros m id p ps ss nm H. apply (AllE_anon wf_node) in H. destruct H as (H & _ & Hss). split; [exact Hss | destruct nm; auto]. Qed.

Lemma WAs_block : forall m l, WAs (Block m l) -> Forall WAs l.
Proof. unfold WAs. simpl. intros. apply Forall_flat_map. auto. Qed.
Lemma WAs_init : forall m t l, WAs (InitializationBlock m t l) -> Forall WAs l.
Proof. unfold WAs. simpl. intros. apply Forall_flat_map. auto. Qed.
Lemma WAs_if : forall m c i e, WAs (IfThenElse m c i e) -> WAs i /\ (forall e', e = Some e' -> WAs e').
Proof.
  unfold WAs. simpl. intros m c i e H. rewrite !Forall_app in H. destruct H as (_ & Hi & He).
  split; auto. intros e' ->. auto.
Qed.
Lemma WAs_while : forall m c b, WAs (While m c b) -> WAs b.
Proof. unfold WAs. simpl. intros m c b H. rewrite Forall_app in H. tauto. Qed.
Lemma WAs_sub : forall m v a o r, WAs (Substitution m v a o r) -> WA r.
Proof. unfold WAs, WA. simpl. intros m v a o r H. rewrite Forall_app in H. tauto. Qed.
Lemma WAs_msub : forall m l o r, WAs (MultiSubstitution m l o r) -> WA r.
Proof. unfold WAs, WA. simpl. intros m l o r H. rewrite Forall_app in H. tauto. Qed.

Lemma LS_of_nodes : forall s, Forall short_node (sub_stmts s) -> LS s.
Proof.
  induction s using statement_ind'; simpl; intros Hn; inversion Hn; subst; auto.
  - rewrite Forall_app in H3. destruct H3 as [Hi He]. split; auto. destruct e as [e'|]; auto; apply (H e' eq_refl); auto.
  - apply allP_Forall. apply Forall_flat_map in H3. rewrite Forall_forall in *. intros x Hx. apply H; auto.
  - apply allP_Forall. simpl in H1. auto.
  - apply allP_Forall. apply Forall_flat_map in H3. rewrite Forall_forall in *. intros x Hx. apply H; auto.
Qed.

(* the declarations pass 1 returns *)
Definition dshape (d : statement) : Prop :=
  match d with
  | Declaration _ t _ _ _ => variable_type_is_component t = true \/ variable_type_is_var t = true
  | Substitution _ _ _ _ _ => True
  | _ => False
  end.

Lemma separate_declarations_nc : forall decls c v s,
  Forall dshape decls -> no_crash (separate_declarations decls c v s).
Proof.
  induction decls as [|d rest IH]; intros c v s H; simpl; [exact I|].
  inversion H; subst. destruct d; simpl in H2; try contradiction.
  - destruct (variable_type_is_component xtype); [apply IH; auto|].
    destruct (variable_type_is_var xtype); [apply IH; auto|]. destruct H2; discriminate.
  - apply IH; auto.
Qed.

Lemma drop_bytes_all : forall s, drop_bytes (String.length s) s = EmptyString.
Proof. induction s; simpl; auto. Qed.
Lemma take_bytes_all : forall s, take_bytes (String.length s) s = s.
Proof. induction s; simpl; congruence. Qed.

Lemma split_string_short : forall s fuel, String.length s <= 230 ->
  split_string (S fuel) s = DOk (match s with EmptyString => [] | _ => [LogStr s] end).
Proof.
  intros s fuel Hlen. destruct s as [|c s']; [apply split_string_nil|].
  rewrite split_string_S. cbv zeta.
  assert (Hmin : Nat.min sub_len (String.length (String c s')) = String.length (String c s')).
  { unfold sub_len. apply Nat.min_r. exact Hlen. }
  rewrite Hmin.
  assert (Hb : back_off (String c s') (String.length (String c s')) = String.length (String c s')).
  { remember (String c s') as cur. destruct (String.length cur) eqn:El; [subst; discriminate|].
    cbn [back_off]. unfold is_char_boundary. rewrite <- El, Nat.leb_refl, drop_bytes_all. reflexivity. }
  rewrite Hb, drop_bytes_all, take_bytes_all, split_string_nil. reflexivity.
Qed.

Lemma build_log_args_nc : forall args, Forall short_arg args -> no_crash (build_log_args args).
Proof.
  induction args as [|a rest IH]; intros H; simpl; [exact I|].
  inversion H; subst. destruct a as [s|e].
  - simpl in H2. rewrite (split_string_short s (String.length s) H2). simpl.
    apply dbind_nc; [auto | intros; exact I].
  - apply dbind_nc; [auto | intros; exact I].
Qed.

Lemma position_lt : forall name names p, position name names = Some p -> p < List.length names.
Proof.
  induction names as [|n names IH]; intros p H; simpl in H; [discriminate|].
  destruct (String.eqb n name).
  - inversion H; subst. simpl. lia.
  - destruct (position name names) eqn:E; [|discriminate]. inversion H; subst. simpl. specialize (IH _ eq_refl). lia.
Qed.

Lemma access_first_such_in : forall p acc i,
  access_first_such p acc = Some i -> In (ArrayAccess i) acc.
Proof.
  intros p acc i H. unfold access_first_such in H.
  destruct (find _ acc) as [a|] eqn:Hf; [|discriminate].
  apply find_some in Hf. destruct Hf as [Hin _]. destruct a; [discriminate|]. inversion H; subst. auto.
Qed.

Section Total.
  Variable lib : file_library.
  Notation K := (meta_known lib).
  Notation ME := (ME K).
  Notation MS := (MS K).
  Notation va_M := (va_M K).
  Notation rae_M := (rae_M K).

  Lemma mk_report_nc : forall c m msg l, K m -> no_crash (mk_report c m msg l).
  Proof. intros c m msg l (f & Hf & _). unfold mk_report. rewrite Hf. exact I. Qed.

  Lemma fail_nc : forall {A} c m msg, K m -> no_crash (@fail A c m msg).
  Proof. intros A c m msg H. apply dbind_nc; [apply mk_report_nc; exact H | intros; exact I]. Qed.

  Lemma if_fail_nc : forall {A} (b : bool) c m msg (r : dres A),
    K m -> no_crash r -> no_crash (if b then fail c m msg else r).
  Proof. intros A [|] c m msg r Hm Hr; [apply fail_nc; exact Hm | exact Hr]. Qed.

  Lemma gen_name_nc : forall prefix m, K m -> no_crash (gen_name lib prefix m).
  Proof.
    intros prefix m (f & Hf & Hl). unfold gen_name, get_line. rewrite Hf.
    destruct (nth_error lib (N.to_nat f)); [exact I | congruence].
  Qed.

  Lemma MS_meta : forall s, MS s -> K (stmt_meta s).
  Proof. intros s H. destruct s; simpl in H; tauto. Qed.

  Variable env : tenv.

  Lemma select_named_nc : forall m inputs names operators n sel,
    K m -> List.length operators = List.length names -> List.length names = n ->
    Forall (fun po => fst po < n) sel ->
    no_crash (select_named m inputs names operators n sel) /\
    forall sel', select_named m inputs names operators n sel = DOk sel' -> Forall (fun po => fst po < n) sel'.
  Proof.
    intros m inputs names operators n. induction inputs as [|inp rest IH]; intros sel Hm Hop Hn Hsel; simpl.
    - split; [exact I|]. intros sel' E. inv_ok. exact Hsel.
    - destruct (position (fst inp) names) as [pos|] eqn:Hp.
      + apply position_lt in Hp.
        assert (Hlt : (pos <? n)%nat = true) by (apply Nat.ltb_lt; lia). rewrite Hlt.
        destruct (nth_error operators pos) as [o|] eqn:Ho; [|apply nth_error_None in Ho; lia].
        apply IH; auto. apply Forall_app. split; [exact Hsel|]. repeat constructor. simpl. lia.
      + split; [apply fail_nc; exact Hm | intros sel' E; inv_ok].
  Qed.

  Lemma assign_inputs_nc : forall va m id results sel inputs i ss ds,
    Forall (fun r => no_crash r) results -> Forall rae_M results ->
    Forall (fun po => fst po < List.length results) sel -> i + List.length inputs <= List.length sel ->
    no_crash (assign_inputs va m id results sel inputs i ss ds).
  Proof.
    intros va m id results sel inputs. induction inputs as [|inp rest IH];
      intros i ss ds Hnc HM Hsel Hlen; simpl; [exact I|]. simpl in Hlen.
    destruct (nth_error sel i) as [[pos o]|] eqn:Hi; [|apply nth_error_None in Hi; lia].
    apply nth_error_In in Hi. pose proof (proj1 (Forall_forall _ _) Hsel _ Hi) as Hpos. simpl in Hpos.
    destruct (nth_error results pos) as [r|] eqn:Hr; [|apply nth_error_None in Hr; lia].
    apply nth_error_In in Hr. rewrite Forall_forall in Hnc, HM.
    apply dbind_nc; [exact (Hnc _ Hr)|]. intros [[st nd] ne] ->. destruct (HM _ Hr _ _ _ eq_refl) as (M1 & _).
    apply if_fail_nc; [exact (ME_meta _ _ M1)|]. apply IH; auto; try lia; apply Forall_forall; assumption.
  Qed.

  Lemma anon_component_nc : forall va m id par ps ss names results,
    K m -> Forall (fun r => no_crash r) results -> Forall rae_M results ->
    List.length results = List.length ss ->
    match names with Some nm => List.length nm = List.length ss | None => True end ->
    no_crash (anon_component env lib va m id par ps ss names results).
  Proof.
    intros va m id par ps ss names results Hm Hnc HM Hlen Hnm. unfold anon_component.
    destruct (lookup_template id env) as [template|];
      [|apply dbind_nc; [apply mk_report_nc; exact Hm | intros; exact I]].
    apply dbind_nc; [apply gen_name_nc; exact Hm|]. intros name _.
    apply if_fail_nc; [exact Hm|].
    apply dbind_nc.
    - destruct names as [nm|]; [|exact I].
      apply select_named_nc; auto; rewrite ?map_length; auto.
    - intros sel Hsel.
      assert (Hb : Forall (fun po => fst po < List.length results) sel).
      { rewrite Hlen. destruct names as [nm|].
        - eapply select_named_nc; [exact Hm| | | |exact Hsel]; rewrite ?map_length; auto.
        - inv_ok. apply Forall_map. apply Forall_forall. intros k Hk. apply in_seq in Hk. simpl. lia. }
      match goal with |- no_crash (if ?b then _ else _) => destruct b eqn:Hchk end; [apply fail_nc; exact Hm|].
      apply orb_false_iff in Hchk. destruct Hchk as [Hc1 _]. apply negb_false_iff, Nat.eqb_eq in Hc1.
      apply dbind_nc; [apply assign_inputs_nc; auto; lia|].
      intros [s2 d2] _. destruct (ti_outputs template) as [|o [|o2 outs]]; exact I.
  Qed.

  Lemma collect_tuple_nc : forall results ss ds vs,
    Forall (fun r => no_crash r) results -> no_crash (collect_tuple results ss ds vs).
  Proof.
    induction results as [|r rest IH]; intros ss ds vs H; simpl; [exact I|].
    inversion H; subst. apply dbind_nc; [assumption|]. intros [[a b] c] _. apply IH. assumption.
  Qed.

  Lemma make_parallel_M : forall e, ME e -> WA e -> ME (make_anonymous_parallel e) /\ WA (make_anonymous_parallel e).
  Proof. intros e H1 H2. destruct e; auto. split; [exact H1|]. inversion H2. constructor; assumption. Qed.

  Lemma rae_nc : forall va e, va_M va -> ME e -> WA e ->
    no_crash (remove_anonymous_from_expression env lib va e).
  Proof.
    intros va e Hva. induction e using expression_ind_par; intros Hme Hwa;
      try (simpl; apply if_fail_nc; [exact (ME_meta _ _ Hme) | exact I]).
    - rewrite rae_parallel. pose proof (ME_meta _ _ Hme) as Hm.
      apply if_fail_nc; [exact Hm|]. apply if_fail_nc; [exact Hm|].
      destruct (is_anonymous_component e); [|exact I].
      destruct Hme as [_ Hme]. apply WA_par in Hwa. apply IHe0; apply make_parallel_M; assumption.
    - exact I.
    - simpl. destruct (first_such contains_anon args); [apply fail_nc; exact (ME_meta _ _ Hme) | exact I].
    - destruct (WA_anon _ _ _ _ _ _ Hwa) as [Hwss Hnm].
      simpl in Hme. destruct Hme as (Hm & Hps & Hss). apply allP_Forall in Hss.
      apply anon_component_nc; auto; [| |apply map_length]; apply Forall_map;
        rewrite Forall_forall in *; intros x Hx; [apply H0 | apply rae_M_ok]; auto.
    - simpl. unfold first_such. destruct (find contains_anon vs) eqn:Hf; [|exact I].
      apply fail_nc. apply find_some in Hf. destruct Hme as [_ Hvs]. apply allP_Forall in Hvs.
      rewrite Forall_forall in Hvs. apply ME_meta. apply Hvs. tauto.
    - destruct Hme as [_ Hvs]. apply allP_Forall in Hvs. apply WA_tuple in Hwa.
      apply dbind_nc; [|intros [[a b] c] _; exact I].
      apply collect_tuple_nc. apply Forall_map. rewrite Forall_forall in *. intros x Hx. apply H; auto.
  Qed.

  Lemma ras_list_nc : forall (f : statement -> dres (statement * list statement)) l ns ds,
    Forall (fun s => no_crash (f s)) l -> no_crash (ras_list f l ns ds).
  Proof.
    intros f. induction l as [|s rest IH]; intros ns ds H; simpl; [exact I|].
    inversion H; subst. apply dbind_nc; [assumption|]. intros [a b] _. apply IH. assumption.
  Qed.

  (* the Block and InitializationBlock cases *)
  Lemma ras_list_case_nc : forall (mk : list statement -> statement) l va,
    Forall (fun s => forall va, va_M va -> MS s -> LS s -> WAs s ->
                     no_crash (remove_anonymous_from_statement env lib va s)) l ->
    va_M va -> Forall MS l -> Forall LS l -> Forall WAs l ->
    no_crash ('(new, decls) <- ras_list (remove_anonymous_from_statement env lib va) l [] [] ;;
              DOk (mk new, decls)).
  Proof.
    intros mk l va IH Hva Hl Hls Hwa. apply dbind_nc; [|intros [a b] _; exact I].
    apply ras_list_nc. rewrite Forall_forall in *. intros x Hx. apply IH; auto.
  Qed.

  Lemma ras_nc : forall s va, va_M va -> MS s -> LS s -> WAs s ->
    no_crash (remove_anonymous_from_statement env lib va s).
  Proof.
    induction s using statement_ind'; intros va Hva Hms Hls Hwa;
      cbn [remove_anonymous_from_statement]; simpl in Hms, Hls.
    - destruct Hms as (Hm & Hc & Hi & He). destruct Hls as [Li Le]. apply WAs_if in Hwa. destruct Hwa as [Wi We].
      apply if_fail_nc; [exact Hm|]. apply dbind_nc; [auto|]. intros [s1 d1] _.
      destruct e as [e'|]; [|exact I].
      apply dbind_nc; [apply (H e' eq_refl); auto | intros [s2 d2] _; exact I].
    - destruct Hms as (Hm & Hc & Hb). apply WAs_while in Hwa.
      apply if_fail_nc; [exact (ME_meta _ _ Hc)|]. apply dbind_nc; [apply gen_name_nc; exact Hm|]. intros name _.
      apply dbind_nc; [apply IHs; simpl; auto|]. intros [s1 d1] _.
      destruct (existsb (decl_uses_counter name) d1); exact I.
    - apply if_fail_nc; [tauto | exact I].
    - destruct Hms as (Hm & Hl). apply allP_Forall in Hl, Hls. apply WAs_init in Hwa.
      apply (ras_list_case_nc (InitializationBlock m t)); assumption.
    - unfold first_such. destruct (find contains_anon d) eqn:Hf; [|exact I].
      apply fail_nc. apply find_some in Hf. destruct Hms as [_ Hd]. apply allP_Forall in Hd.
      rewrite Forall_forall in Hd. apply ME_meta. apply Hd. tauto.
    - destruct Hms as (Hm & Hacc & Hrhe). apply WAs_sub in Hwa.
      destruct (access_first_such contains_anon a) eqn:Hf.
      + apply fail_nc. apply access_first_such_in in Hf. apply allP_Forall in Hacc.
        rewrite Forall_forall in Hacc. exact (ME_meta _ _ (Hacc _ Hf)).
      + apply dbind_nc; [apply rae_nc; assumption|]. intros [[st nd] ne] _. destruct (is_nil st); exact I.
    - destruct Hms as (Hm & Hlhe & Hrhe). apply WAs_msub in Hwa.
      apply if_fail_nc; [exact (ME_meta _ _ Hlhe)|].
      apply dbind_nc; [apply rae_nc; assumption|]. intros [[st nd] ne] _. destruct (is_nil st); exact I.
    - apply if_fail_nc; [tauto | exact I].
    - apply allP_Forall in Hls. apply if_fail_nc; [tauto|]. unfold build_log_call.
      apply dbind_nc; [|intros; exact I]. apply dbind_nc; [apply build_log_args_nc; exact Hls | intros; exact I].
    - destruct Hms as (Hm & Hl). apply allP_Forall in Hl, Hls. apply WAs_block in Hwa.
      apply (ras_list_case_nc (Block m)); assumption.
    - apply if_fail_nc; [tauto | exact I].
  Qed.
End Total.

(* pass 2 crashes only in a report on a meta without file id *)
Section Pass2Crash.
  Variable P : Z -> Prop.
  Notation R := (fun m => m_file m = None -> P site_report_file_id).
  Notation pn := (fun x => is_anonymous_component x = false /\ R (expr_meta x)).
  Notation qn := (fun t => R (stmt_meta t) /\ short_node t).

  Lemma fail_crash : forall {A} c m msg, R m -> crash_only P (@fail A c m msg).
  Proof. intros A c m msg. unfold fail, mk_report. destruct (m_file m); simpl; auto. Qed.

  Lemma if_fail_crash : forall {A} (b : bool) c m msg (r : dres A),
    R m -> crash_only P r -> crash_only P (if b then fail c m msg else r).
  Proof. intros A [|] c m msg r Hm Hr; [apply fail_crash; exact Hm | exact Hr]. Qed.

  Lemma unfold_values_crash : forall results acc,
    Forall (fun r => crash_only P r) results -> crash_only P (unfold_values results acc).
  Proof.
    induction results as [|r rest IH]; intros acc H; simpl; [exact I|].
    inversion H; subst. apply dbind_crash; [assumption|]. intros v _. destruct v; apply IH; assumption.
  Qed.

  Lemma rte_crash : forall e, AllE pn e -> crash_only P (remove_tuple_from_expression e).
  Proof.
    induction e using expression_ind'; intros Hp; cbn [remove_tuple_from_expression];
      try (apply if_fail_crash; [apply (AllE_node _ _ Hp) | exact I]).
    - exact I.
    - apply AllE_node in Hp. destruct Hp. discriminate.
    - apply dbind_crash; [|intros; exact I]. apply unfold_values_crash. apply Forall_map.
      apply AllE_tuple in Hp. destruct Hp as [_ Hvs]. rewrite Forall_forall in *. intros x Hx. apply H; auto.
  Qed.

  Lemma tuple_substs_crash : forall m o ls rs acc, R m ->
    List.length ls = List.length rs -> crash_only P (tuple_substs m o ls rs acc).
  Proof.
    intros m o. induction ls as [|l ls IH]; intros rs acc Hm Hlen; simpl; [exact I|].
    destruct l; try (apply fail_crash; exact Hm). destruct rs as [|r rs]; [discriminate Hlen|]. apply IH; auto.
  Qed.

  Lemma check_log_args_crash : forall args,
    Forall pn (log_exprs args) -> crash_only P (check_log_args args).
  Proof.
    unfold log_exprs. induction args as [|a rest IH]; intros H; simpl; [exact I|].
    simpl in H. apply Forall_app in H. destruct H as [Ha Hrest]. destruct a as [s|x]; [apply IH; exact Hrest|].
    apply dbind_crash; [apply rte_crash; exact Ha | intros; apply IH; exact Hrest].
  Qed.

  Lemma sep_log_short : forall e, Forall short_arg (sep_log e).
  Proof.
    induction e using expression_ind'; simpl; try (repeat constructor; fail).
    constructor; [simpl; lia|]. apply Forall_app. split; [apply Forall_flat_map; exact H | repeat constructor].
  Qed.

  Lemma log_new_args_crash : forall args acc,
    Forall pn (log_exprs args) -> Forall short_arg args -> Forall short_arg acc ->
    crash_only P (log_new_args args acc) /\
    forall acc', log_new_args args acc = DOk acc' -> Forall short_arg acc'.
  Proof.
    unfold log_exprs. induction args as [|a rest IH]; intros acc Hp Hsh Hacc; simpl.
    - split; [exact I|]. intros ? E. inv_ok. exact Hacc.
    - simpl in Hp. apply Forall_app in Hp. destruct Hp as [Ha Hrest]. inversion Hsh; subst.
      destruct a as [s|x]; [apply IH; auto; apply Forall_app; auto|].
      unfold separate_tuple_for_log_call. simpl flat_map. rewrite app_nil_r.
      destruct (IH (acc ++ sep_log x) Hrest H2) as [I1 I2]; [apply Forall_app; split; [exact Hacc | apply sep_log_short]|].
      split; [|intros acc' E; inv_ok; eauto].
      apply dbind_crash; [|intros; exact I1]. apply check_log_args_crash. apply sep_log_exprs. exact Ha.
  Qed.

  Lemma rts_list_crash : forall (f : statement -> dres statement) l acc,
    Forall (fun s => crash_only P (f s)) l -> crash_only P (rts_list f l acc).
  Proof.
    intros f. induction l as [|s rest IH]; intros acc H; simpl; [exact I|].
    inversion H; subst. apply dbind_crash; auto.
  Qed.

  (* the Block and InitializationBlock cases *)
  Lemma rts_list_case_crash : forall (mk : list statement -> statement) l,
    Forall (fun s => AllS pn qn s -> crash_only P (remove_tuples_from_statement s)) l ->
    Forall (AllS pn qn) l ->
    crash_only P (new <- rts_list remove_tuples_from_statement l [] ;; DOk (mk new)).
  Proof.
    intros mk l IH Hl. apply dbind_crash; [|intros; exact I].
    apply rts_list_crash. rewrite Forall_forall in *. intros x Hx. apply IH; auto.
  Qed.

  Theorem rts_crash : forall s, AllS pn qn s -> crash_only P (remove_tuples_from_statement s).
  Proof.
    induction s using statement_ind'; intros Hp; cbn [remove_tuples_from_statement].
    - apply AllS_if in Hp. destruct Hp as ([Hm _] & Hc & Hi & He).
      apply if_fail_crash; [exact Hm|]. apply dbind_crash; [auto|]. intros a _. destruct e as [e'|]; [|exact I].
      apply dbind_crash; [apply (H e' eq_refl); exact He | intros; exact I].
    - apply AllS_while in Hp. destruct Hp as ([Hm _] & Hc & Hb).
      apply if_fail_crash; [exact Hm|]. apply dbind_crash; [auto | intros; exact I].
    - apply AllS_leaf in Hp; [|reflexivity]. apply if_fail_crash; [apply Hp | exact I].
    - apply AllS_init in Hp. apply (rts_list_case_crash (InitializationBlock m t)); [exact H | apply Hp].
    - apply AllS_decl in Hp. apply if_fail_crash; [apply Hp | exact I].
    - apply AllS_sub in Hp. destruct Hp as ([Hm _] & Hacc & Hr).
      apply dbind_crash; [apply rte_crash; exact Hr|]. intros e' _.
      apply if_fail_crash; [exact Hm|].
      destruct (access_first_such contains_tuple a) eqn:Hf; [|destruct (negb (String.eqb v "_")); exact I].
      apply fail_crash. apply access_first_such_in in Hf. rewrite Forall_forall in Hacc. apply (Hacc e).
      unfold access_exprs. apply in_flat_map. exists (ArrayAccess e). split; [exact Hf | destruct e; left; reflexivity].
    - apply AllS_msub in Hp. destruct Hp as ([Hm _] & Hl & Hr).
      apply dbind_crash; [apply rte_crash; exact Hl|]. intros l' Hl'.
      apply dbind_crash; [apply rte_crash; exact Hr|]. intros r' Hr'.
      pose proof (AllE_node _ _ (rte_all pn (fun _ _ _ H => H) _ _ Hl Hl')) as [_ Kl].
      pose proof (AllE_node _ _ (rte_all pn (fun _ _ _ H => H) _ _ Hr Hr')) as [_ Kr].
      destruct l' as [| | | | | | | | |ml lvals];
        try solve [match goal with |- crash_only P (if ?c then _ else _) => destruct c end; apply fail_crash; assumption].
      destruct r' as [| | | | | | | | |mr rvals];
        try solve [match goal with |- crash_only P (if ?c then _ else _) => destruct c end; apply fail_crash; assumption].
      destruct (Nat.eqb (List.length lvals) (List.length rvals)) eqn:El.
      + apply dbind_crash; [|intros; exact I]. apply tuple_substs_crash; auto. apply Nat.eqb_eq; auto.
      + destruct (negb (is_nil lvals)); apply fail_crash; exact Hm.
    - apply AllS_leaf in Hp; [|reflexivity]. apply if_fail_crash; [apply Hp | exact I].
    - apply AllS_log in Hp. destruct Hp as ([_ Hsh] & Hargs).
      destruct (log_new_args_crash a [] Hargs Hsh (Forall_nil _)) as [L1 L2].
      apply dbind_crash; [exact L1|]. intros v Hv. unfold build_log_call.
      apply dbind_crash; [|intros; exact I]. apply nc_crash, build_log_args_nc. apply L2; auto.
    - apply AllS_block in Hp. apply (rts_list_case_crash (Block m)); [exact H | apply Hp].
    - apply AllS_leaf in Hp; [|reflexivity]. apply if_fail_crash; [apply Hp | exact I].
  Qed.

  (* what pass 1 returns, as pass 2 needs it *)
  Lemma preds_crash : forall Q : meta -> Prop, (forall m, Q m -> R m) -> pass1_preds Q pn qn dshape.
  Proof.
    intros Q HQ. split.
    - intros x H1 H2. split; [exact H2 | exact (HQ _ H1)].
    - intros t H1 H2. split; [exact (HQ _ H1) | exact H2].
    - intros m t x dims H. apply orb_true_iff. exact H.
    - intros. exact I.
  Qed.

  (* pass 2 on the output of pass 1, as desugar_template runs it *)
  Lemma pass2_crash : forall m stmts decls c v su,
    AllS pn qn (Block m stmts) -> Forall (fun d => AllS pn qn d /\ dshape d) decls ->
    separate_declarations decls [] [] [] = DOk (c, v, su) ->
    crash_only P (remove_tuples_from_statement
      (Block m ([InitializationBlock m VVar v] ++ su ++ [InitializationBlock m VComponent c] ++ stmts))).
  Proof.
    intros m stmts decls c v su Hs Hd H2.
    apply rts_crash. apply (init_block_all _ _ m stmts decls c v su); auto.
    - intros [Hm _] t <- Hsh. split; assumption.
    - eapply Forall_impl; [|exact Hd]. intros a Ha. apply Ha.
  Qed.
End Pass2Crash.

Theorem pass2_unreachable_never_fires : forall env lib body m stmts decls c v su s,
  remove_anonymous_from_statement env lib None body = DOk (Block m stmts, decls) ->
  separate_declarations decls [] [] [] = DOk (c, v, su) ->
  remove_tuples_from_statement
    (Block m ([InitializationBlock m VVar v] ++ su ++ [InitializationBlock m VComponent c] ++ stmts)) = DPanic s ->
  s = site_report_file_id.
Proof.
  intros env lib body m stmts decls c v su s H1 H2 H3.
  destruct (ras_nodes env lib _ _ _ _
              (preds_crash (fun s => s = site_report_file_id) (fun _ => True) (fun _ _ _ => eq_refl))
              body None I (AllS_trivial _ _ _ (fun _ => I) (fun _ => I)) _ _ H1) as [Hs Hd].
  pose proof (pass2_crash (fun s => s = site_report_file_id) m stmts decls c v su Hs Hd H2) as H.
  rewrite H3 in H. exact H.
Qed.

Lemma ras_block : forall env lib va m l s1 d1,
  remove_anonymous_from_statement env lib va (Block m l) = DOk (s1, d1) -> exists l', s1 = Block m l'.
Proof. intros env lib va m l s1 d1 H. cbn [remove_anonymous_from_statement] in H. inv_ok. eauto. Qed.

Section Whole.
  Variable lib : file_library.
  Notation K := (meta_known lib).

  Theorem desugar_template_total : forall env body,
    wf_template lib body -> no_crash (desugar_template env lib body).
  Proof.
    intros env body (Hk & Hs & Hw & (m & l & ->)).
    unfold desugar_template.
    apply dbind_nc.
    { apply MS_iff in Hk. apply (ras_nc lib env); [exact I | exact Hk | apply LS_of_nodes; exact Hs | exact Hw]. }
    intros [s1 d1] Er. destruct (ras_block _ _ _ _ _ _ _ Er) as [l' ->].
    assert (HK : forall m0, K m0 -> m_file m0 = None -> False) by (intros m0 (f & Hf & _) E; congruence).
    destruct (ras_nodes env lib _ _ _ _ (preds_crash (fun _ => False) K HK) (Block m l) None I
                (proj1 (MS_all _ _) (proj2 (MS_iff _ _) Hk)) _ _ Er) as [Hs1 Hd].
    apply dbind_nc.
    { apply separate_declarations_nc. eapply Forall_impl; [|exact Hd]. intros a Ha. apply Ha. }
    intros [[c v] su] Es. exact (pass2_crash (fun _ => False) m l' d1 c v su Hs1 Hd Es).
  Qed.

  Theorem desugar_template_total_expanded : forall env body,
    Forall K (stmt_metas body) ->
    Forall short_node (sub_stmts body) ->
    Forall wf_node (stmt_exprs body) ->
    (exists m l, body = Block m l) ->
    match desugar_template env lib body with DOk _ | DErr _ => True | DPanic _ | DOutOfFuel => False end.
  Proof. intros env body H1 H2 H3 H4. exact (desugar_template_total env body (conj H1 (conj H2 (conj H3 H4)))). Qed.

  Lemma reports_at_nc : forall msg label metas, Forall K metas -> no_crash (reports_at msg label metas).
  Proof.
    induction metas as [|m rest IH]; intros H; simpl; [exact I|]. inversion H; subst.
    apply dbind_nc; [apply (mk_report_nc lib); auto|]. intros r _. apply dbind_nc; [auto | intros; exact I].
  Qed.

  Lemma check_function_total : forall body, Forall K (stmt_metas body) -> no_crash (check_function body).
  Proof.
    intros body Hk. apply MS_iff in Hk. unfold check_function.
    destruct (contains_expr_stmt is_tuple body).
    { apply dbind_nc; [apply reports_at_nc; apply matching_metas_stmt_M; auto | intros; exact I]. }
    destruct (contains_expr_stmt is_anonymous_component body).
    { apply dbind_nc; [apply reports_at_nc; apply matching_metas_stmt_M; auto | intros; exact I]. }
    destruct (find_multi_substitution body) eqn:Hf; [|exact I].
    apply dbind_nc; [apply (mk_report_nc lib); eapply find_multi_substitution_M; eauto | intros; exact I].
  Qed.

  Lemma reports_at_not_err : forall msg l ms r, reports_at msg l ms <> DErr r.
  Proof.
    induction ms as [|m ms IH]; intros r; simpl; [discriminate|].
    unfold mk_report. destruct (m_file m); simpl; [|discriminate].
    destruct (reports_at msg l ms) eqn:E; simpl; try discriminate. exfalso. eapply IH; eauto.
  Qed.

  Lemma check_function_not_err : forall body r, check_function body <> DErr r.
  Proof.
    intros body r. unfold check_function.
    destruct (contains_expr_stmt is_tuple body).
    { destruct (reports_at MFunTuple LTupleHere _) eqn:E; simpl; try discriminate. exfalso; eapply reports_at_not_err; eauto. }
    destruct (contains_expr_stmt is_anonymous_component body).
    { destruct (reports_at MFunAnon LAnonHere _) eqn:E; simpl; try discriminate. exfalso; eapply reports_at_not_err; eauto. }
    destruct (find_multi_substitution body); [|discriminate].
    unfold mk_report. destruct (m_file m); simpl; discriminate.
  Qed.

  (* remove_syntactic_sugar never panics and never runs out of fuel on parser
     output: it always returns templates, functions and reports *)
  Theorem remove_syntactic_sugar_total : forall ts fs,
    Forall (fun t => wf_template lib (snd t)) ts ->
    Forall (fun f => Forall K (stmt_metas (snd f))) fs ->
    exists d, remove_syntactic_sugar lib ts fs = DOk d.
  Proof.
    intros ts fs Ht Hf. pose proof (remove_syntactic_sugar_spec lib ts fs) as S.
    assert (E1 : existsb (t_stuck (env_of ts) lib) ts = false).
    { apply existsb_false_Forall. eapply Forall_impl; [|exact Ht]. intros [n b] H. unfold t_stuck. simpl in *.
      generalize (desugar_template_total (env_of ts) _ H).
      destruct (desugar_template (env_of ts) lib b); simpl; intros; try contradiction; reflexivity. }
    assert (E2 : existsb f_stuck fs = false).
    { apply existsb_false_Forall. eapply Forall_impl; [|exact Hf]. intros [n b] H. unfold f_stuck. simpl in *.
      generalize (check_function_total _ H) (check_function_not_err b).
      destruct (check_function b); simpl; intros Hnc Hne; try contradiction; [reflexivity | elim (Hne _ eq_refl)]. }
    rewrite E1, E2 in S. simpl in S. eauto.
  Qed.
End Whole.
