(* The defects D12, D13, D14 (DESIGN §1.3) as machine-checked facts about the
   mirror of `preprocess` BEFORE the repair (Model.PreprocessOld, which agreed
   with the unrepaired Rust function on every string of up to 8 symbols over
   slash, star, newline, a, double quote, e-acute; see design.d/C05.md).  Each witness was replayed on the real
   function through harness/src/bin/preprocess.rs before the fix: commit; the
   witnesses are in corpus/C05/ and pass on the repaired function. *)
Require Import Model.Base Model.Preprocess Model.PreprocessOld Spec.LexSpec.
From Coq Require Import NArith.
Local Open Scope N_scope.

(* D12  `/***/x`: `**/` does not close the comment, the code after it is
   blanked, no error.  The reference lexer keeps the x. *)
Example D12_old_swallows_code :
  preprocess_old [47; 42; 42; 42; 47; 120] = Ok [32; 32; 32; 32; 32; 32] /\
  lex_spec [47; 42; 42; 42; 47; 120] = Ok [32; 32; 32; 32; 32; 120].
Proof. vm_compute. split; reflexivity. Qed.

(* D12, doc-comment shape  `/** d **/ a` *)
Example D12_old_doc_comment :
  preprocess_old [47; 42; 42; 32; 100; 32; 42; 42; 47; 32; 97] = Ok (repeat 32 11) /\
  lex_spec [47; 42; 42; 32; 100; 32; 42; 42; 47; 32; 97] = Ok (repeat 32 10 ++ [97]).
Proof. vm_compute. split; reflexivity. Qed.

(* D13  `/* abc` at end of file: accepted silently *)
Example D13_old_unclosed_not_reported :
  preprocess_old [47; 42; 32; 97; 98; 99] = Ok (repeat 32 6) /\
  lex_spec [47; 42; 32; 97; 98; 99] = Err (UnclosedAt 0).
Proof. vm_compute. split; reflexivity. Qed.

Example D13_old_bare_opener :
  preprocess_old [47; 42] = Ok [32; 32] /\ lex_spec [47; 42] = Err (UnclosedAt 0).
Proof. vm_compute. split; reflexivity. Qed.

(* D14  `ééé/**`: the opener is at byte offset 6; the old code reports 5
   (scalars counted, and the count taken after the opener), which is not even
   a scalar boundary of the file *)
Example D14_old_location_in_scalars :
  preprocess_old [233; 233; 233; 47; 42; 42] = Err (unclosed 5) /\
  lex_spec [233; 233; 233; 47; 42; 42] = Err (UnclosedAt 6).
Proof. vm_compute. split; reflexivity. Qed.

(* D14 on plain ASCII  `ab/**`: reported at 4 (after the opener), opener at 2 *)
Example D14_old_location_after_opener :
  preprocess_old [97; 98; 47; 42; 42] = Err (unclosed 4) /\
  lex_spec [97; 98; 47; 42; 42] = Err (UnclosedAt 2).
Proof. vm_compute. split; reflexivity. Qed.

(* hence the refinement statement of C05 is false for the old code *)
Lemma preprocess_old_refines_lexer_refuted :
  exists s, preprocess_old s <> lex_spec s.
Proof. exists [47; 42]. vm_compute. discriminate. Qed.

(* the repaired mirror on the same witnesses *)
Example repaired_on_witnesses :
  preprocess [47; 42; 42; 42; 47; 120] = Ok [32; 32; 32; 32; 32; 120] /\
  preprocess [47; 42; 32; 97; 98; 99] = Err (unclosed 0) /\
  preprocess [233; 233; 233; 47; 42; 42] = Err (unclosed 6) /\
  preprocess [97; 98; 47; 42; 42] = Err (unclosed 2).
Proof. vm_compute. repeat split; reflexivity. Qed.
