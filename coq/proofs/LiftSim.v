(* C13: the walk of the lifted graph simulates the structured semantics.
   The simulation is stated against ANY final graph G that extends the
   intermediate graph (gext) and is well formed: closed blocks keep their exit
   in G, pending blocks are left through whatever exit G gives them. *)
From stdpp Require Import list sets.
Require Import Model.Lift Spec.CfgSpec Proofs.LiftBasics Proofs.LiftInv Proofs.LiftSteps Proofs.LiftProofs.
Import Base(outcome, Ok, Err, Panic, OutOfFuel, bind).

Lemma walks_trans g p ds tr1 p1 ds1 tr2 p2 ds2 :
  walks g p ds tr1 p1 ds1 -> walks g p1 ds1 tr2 p2 ds2 -> walks g p ds (tr1 ++ tr2) p2 ds2.
Proof.
  induction 1 as [|p ds o p1' ds1' tr p2' ds2' Hs Hw IH]; simpl; [done|].
  intros H2. rewrite <- app_assoc. econstructor; [done|by apply IH].
Qed.

Lemma walks_one g p ds o p1 ds1 : step g p ds = Some (o, p1, ds1) -> walks g p ds (okey o) p1 ds1.
Proof. intros H. rewrite <- (app_nil_r (okey o)). econstructor; [done|constructor]. Qed.

Lemma step_at_leaf G i k B id ds :
  G !! i = Some B -> b_items B !! k = Some (ILeaf id) ->
  step G (i, k) ds = Some (Some (KLeaf id), (i, S k), ds).
Proof. intros H1 H2. unfold step. by rewrite H1, H2. Qed.

Lemma step_at_branch G i k B c t f ds :
  G !! i = Some B -> b_items B !! k = Some (IBranch c t f) ->
  step G (i, k) ds =
    match ds with
    | [] => Some (Some (KCond c), (i, S k), [])
    | true :: ds1 => Some (Some (KCond c), (t, 0), ds1)
    | false :: ds1 =>
        Some (Some (KCond c),
              match false_target (b_succs B) t f with Some x => (x, 0) | None => (i, S k) end, ds1)
    end.
Proof.
  intros H1 H2. unfold step. rewrite H1, H2. destruct ds as [|[] ?]; try done.
  by destruct (false_target _ _ _).
Qed.

Lemma step_silent G i B x ds :
  G !! i = Some B -> ends_plain B -> b_succs B = [x] ->
  step G (i, length (b_items B)) ds = Some (None, (x, 0), ds).
Proof.
  intros H1 H2 H3. unfold step. rewrite H1.
  rewrite (lookup_ge_None_2 (b_items B)) by lia. rewrite decide_True by done. rewrite H3.
  destruct (last (b_items B)) as [[|c t f]|] eqn:E; try done. by destruct (H2 c t f).
Qed.

Lemma nodup_singleton_ext (l : list nat) x : NoDup l -> (forall y, y ∈ l <-> y = x) -> l = [x].
Proof.
  intros Hnd H. destruct l as [|a [|b r]].
  - specialize (H x). set_solver.
  - f_equal. apply H. set_solver.
  - exfalso. apply NoDup_cons in Hnd as [Hn _]. rewrite (proj1 (H a)), (proj1 (H b)) in Hn; set_solver.
Qed.

Lemma filter_other (l : list nat) a b :
  NoDup l -> (forall y, y ∈ l <-> y = a \/ y = b) -> b <> a -> filter (fun x => x ≠ a) l = [b].
Proof.
  intros Hnd H Hne. apply nodup_singleton_ext; [by apply NoDup_filter|].
  intros y. rewrite elem_of_list_filter, H. naive_solver.
Qed.

Lemma G_plain_exit G PG i B x :
  wf G PG -> G !! i = Some B -> ends_plain B -> x ∈ b_succs B -> b_succs B = [x].
Proof.
  intros Hwf HB Hpl Hx. pose proof (wf_blk _ _ Hwf _ _ HB) as Hok.
  pose proof (ok_shape _ _ _ _ Hok) as Hs. apply (shape_plain _ _ _ _ Hpl) in Hs.
  destruct Hs as [[_ E]|(_ & x' & Hx')]; [rewrite E in Hx; set_solver|].
  assert (x = x') as -> by (by apply Hx').
  apply nodup_singleton_ext; [apply ssorted_NoDup, (ok_ss _ _ _ _ Hok)|done].
Qed.

Lemma G_branch_exit G PG i B c t f x :
  wf G PG -> G !! i = Some B -> last (b_items B) = Some (IBranch c t f) ->
  x ∈ b_succs B -> x <> S i -> false_target (b_succs B) t f = Some x.
Proof.
  intros Hwf HB Hl Hx Hne. pose proof (wf_blk _ _ Hwf _ _ HB) as Hok.
  pose proof (ok_shape _ _ _ _ Hok) as Hs. unfold shape in Hs. rewrite Hl in Hs.
  destruct Hs as (-> & _ & [(_ & _ & Hs)|(_ & x' & Hx' & Hf & Hs)]).
  - apply Hs in Hx. done.
  - assert (x = x') as -> by (apply Hs in Hx; naive_solver).
    unfold false_target. destruct Hf as [->| ->]; [|done].
    rewrite (filter_other _ (S i) x'); [done|apply ssorted_NoDup, (ok_ss _ _ _ _ Hok)|done|done].
Qed.

Lemma iext_last b B : bext b B -> length (b_items B) = length (b_items b) ->
  match last (b_items b) with
  | Some it => exists it', last (b_items B) = Some it' /\ iext it it'
  | None => last (b_items B) = None
  end.
Proof.
  intros (_ & Hit & _) Hlen. rewrite !last_lookup', Hlen.
  destruct (b_items b !! (length (b_items b) - 1)) eqn:E; [by apply Hit|].
  apply lookup_ge_None in E. apply lookup_ge_None. by rewrite Hlen.
Qed.

Lemma gext_item g G i b k it :
  gext g G -> g !! i = Some b -> b_items b !! k = Some it ->
  exists B it', G !! i = Some B /\ b_items B !! k = Some it' /\ iext it it'.
Proof.
  intros He Hb Hk. destruct (He _ _ Hb) as (B & HB & (_ & Hit & _)).
  destruct (Hit _ _ Hk) as (it' & Hk' & Hi). eauto.
Qed.

Definition start_pos (g : graph) : pos :=
  (length g - 1, match g !! (length g - 1) with Some b => length (b_items b) | None => 0 end).

Definition pend (g : graph) (ps : list nat) : list nat :=
  if is_nil ps then [length g - 1] else ps.

(* where the walk is when it has left pending block i of the intermediate graph g' *)
Definition exit_pos (g' G : graph) (i : nat) (q : pos) : Prop :=
  exists b, g' !! i = Some b /\
  match last (b_items b) with
  | Some (IBranch _ _ _) =>
      exists B c t f, G !! i = Some B /\ last (b_items B) = Some (IBranch c t f) /\
        q = match false_target (b_succs B) t f with Some x => (x, 0) | None => (i, length (b_items B)) end
  | _ => q = (i, length (b_items b))
  end.

Lemma exit_resolve g1 G PG i q b1 b2 x ds :
  exit_pos g1 G i q -> g1 !! i = Some b1 -> bext b1 b2 -> length (b_items b2) = length (b_items b1) ->
  x ∈ b_succs b2 -> (x <> S i \/ ends_plain b1) -> (exists B, G !! i = Some B /\ bext b2 B) -> wf G PG ->
  walks G q ds [] (x, 0) ds.
Proof.
  intros (b & Hb & Hq) Hb1 He12 Hlen Hx Hor (B & HB & He2B) HwfG.
  rewrite Hb1 in Hb. injection Hb as <-.
  assert (Hne : b_succs b2 <> []) by (intros E; rewrite E in Hx; set_solver).
  assert (HlenB : length (b_items B) = length (b_items b2)) by (by apply He2B).
  assert (HxB : x ∈ b_succs B) by (by apply He2B).
  pose proof (iext_last b1 b2 He12 Hlen) as L12. pose proof (iext_last b2 B He2B HlenB) as L2B.
  assert (Hplain : ends_plain B -> q = (i, length (b_items b1)) -> walks G q ds [] (x, 0) ds).
  { intros HplB ->. rewrite <- Hlen, <- HlenB.
    apply (walks_one G _ ds None). apply step_silent; [done|done|]. by eapply G_plain_exit. }
  destruct (last (b_items b1)) as [[id|c t f]|] eqn:E1.
  - destruct L12 as (it2 & E2 & I12). destruct it2; [|done]. rewrite E2 in L2B.
    destruct L2B as (itB & EB & I2B). destruct itB; [|done].
    apply Hplain; [|done]. intros c t f. by rewrite EB.
  - destruct Hq as (B' & c' & t' & f' & HB' & EB' & ->). rewrite HB in HB'. injection HB' as <-.
    assert (x <> S i) by (destruct Hor as [?|Hp]; [done|by destruct (Hp c t f)]).
    rewrite (G_branch_exit G PG i B c' t' f' x) by done. constructor.
  - rewrite L12 in L2B. apply Hplain; [|done]. intros c t f. by rewrite L2B.
Qed.

Fixpoint run_seq (ss : list sk) (ds : list bool) : result :=
  match ss with
  | [] => ([], ds, Running)
  | s :: r =>
      let '(tr1, ds1, st1) := run s ds in
      match st1 with
      | Running => let '(tr2, ds2, st2) := run_seq r ds1 in (tr1 ++ tr2, ds2, st2)
      | _ => (tr1, ds1, st1)
      end
  end.

Lemma run_block ss ds : run (SBlock ss) ds = run_seq ss ds.
Proof.
  simpl. revert ds. induction ss as [|s r IH]; intros ds; [done|]. simpl.
  destruct (run s ds) as [[tr1 ds1] st1]. destruct st1; try done; by rewrite IH.
Qed.

Lemma run_init ss ds : run (SInit ss) ds = run_seq ss ds.
Proof. exact (run_block ss ds). Qed.

Lemma run_while c body ds : run (SWhile c body) ds = run_loop c (run body) (S (length ds)) ds.
Proof. reflexivity. Qed.

Definition sim_ok (s : sk) : Prop :=
  forall d g P0 g' ps G PG ds tr ds' st,
    pre g d P0 -> visit s d g = Ok (g', ps) -> gext g' G -> wf G PG ->
    run s ds = (tr, ds', st) ->
    match st with
    | Running => exists i q, i ∈ pend g' ps /\ exit_pos g' G i q /\ walks G (start_pos g) ds tr q ds'
    | _ => exists q, walks G (start_pos g) ds tr q ds'
    end.

(* from p the walk observes the trace of r and consumes its decisions; if r is
   still running, it stops at a position in Q *)
Definition lands (G : graph) (Q : pos -> Prop) (p : pos) (ds : list bool) (r : result) : Prop :=
  let '(tr, ds', st) := r in exists q, walks G p ds tr q ds' /\ (st = Running -> Q q).

(* how the semantics composes results *)
Definition then_ (r : result) (k : list bool -> result) : result :=
  let '(tr1, ds1, st1) := r in
  match st1 with
  | Running => let '(tr2, ds2, st2) := k ds1 in (tr1 ++ tr2, ds2, st2)
  | _ => (tr1, ds1, st1)
  end.

Definition obs (o : key) (r : result) : result := let '(tr, ds, st) := r in (o :: tr, ds, st).

(* a condition: out of decisions, or one decision and the chosen continuation *)
Definition branch_res (c : nat) (rt rf : list bool -> result) (ds : list bool) : result :=
  match ds with
  | [] => ([KCond c], [], Exhausted)
  | true :: ds1 => obs (KCond c) (rt ds1)
  | false :: ds1 => obs (KCond c) (rf ds1)
  end.

Lemma run_loop_S c rb fuel ds :
  run_loop c rb (S fuel) ds =
  branch_res c (fun ds1 => then_ (rb ds1) (run_loop c rb fuel)) (fun ds1 => ([], ds1, Running)) ds.
Proof.
  destruct ds as [|[] ds]; try done. simpl. destruct (rb ds) as [[tr1 ds1] []]; simpl; try done.
  by destruct (run_loop c rb fuel ds1) as [[tr2 ds2] st2].
Qed.

Lemma lands_here G (Q : pos -> Prop) p ds : Q p -> lands G Q p ds ([], ds, Running).
Proof. intros Hp. exists p. split; [constructor|done]. Qed.

Lemma lands_mono G (Q Q' : pos -> Prop) p ds r :
  (forall q, Q q -> Q' q) -> lands G Q p ds r -> lands G Q' p ds r.
Proof. destruct r as [[tr ds'] st]. intros HQ (q & Hw & Hq). exists q. split; [done|auto]. Qed.

Lemma lands_silent G Q p ds p1 r : walks G p ds [] p1 ds -> lands G Q p1 ds r -> lands G Q p ds r.
Proof.
  destruct r as [[tr ds'] st]. intros Hw (q & Hw' & Hq). exists q. split; [|done].
  change tr with ([] ++ tr). by eapply walks_trans.
Qed.

Lemma lands_obs G Q p ds o p1 ds1 r :
  step G p ds = Some (Some o, p1, ds1) -> lands G Q p1 ds1 r -> lands G Q p ds (obs o r).
Proof.
  destruct r as [[tr ds'] st]. intros Hs (q & Hw & Hq). exists q. split; [|done].
  by apply (walks_step G p ds (Some o) p1 ds1).
Qed.

Lemma lands_then G (Q1 Q2 : pos -> Prop) p ds r k :
  lands G Q1 p ds r -> (forall q ds1, Q1 q -> lands G Q2 q ds1 (k ds1)) -> lands G Q2 p ds (then_ r k).
Proof.
  destruct r as [[tr1 ds1] st1]. intros (q & Hw & Hq) Hk.
  destruct st1; simpl; try (exists q; split; [done|discriminate]).
  specialize (Hk q ds1 (Hq eq_refl)). destruct (k ds1) as [[tr2 ds2] st2].
  destruct Hk as (q2 & Hw2 & Hq2). exists q2. split; [by eapply walks_trans|done].
Qed.

Lemma lands_branch G Q i k B c t f rt rf ds :
  G !! i = Some B -> b_items B !! k = Some (IBranch c t f) ->
  (forall ds1, lands G Q (t, 0) ds1 (rt ds1)) ->
  (forall ds1, lands G Q (match false_target (b_succs B) t f with Some x => (x, 0) | None => (i, S k) end)
                 ds1 (rf ds1)) ->
  lands G Q (i, k) ds (branch_res c rt rf ds).
Proof.
  intros HB Hk Ht Hf. pose proof (step_at_branch G i k B c t f ds HB Hk) as Hs.
  destruct ds as [|[] ds1]; simpl.
  - exists (i, S k). split; [|done]. by apply (walks_one G _ [] (Some (KCond c))).
  - eapply lands_obs; [exact Hs|apply Ht].
  - eapply lands_obs; [exact Hs|apply Hf].
Qed.

(* the positions at which the walk waits for the exit of a pending block *)
Definition exits (g' : graph) (ps : list nat) (G : graph) (q : pos) : Prop :=
  exists i, i ∈ pend g' ps /\ exit_pos g' G i q.

Definition sim_lands (s : sk) : Prop :=
  forall d g P0 g' ps G PG ds,
    pre g d P0 -> visit s d g = Ok (g', ps) -> gext g' G -> wf G PG ->
    lands G (exits g' ps G) (start_pos g) ds (run s ds).

Lemma sim_lands_ok s : sim_lands s -> sim_ok s.
Proof.
  intros H d g P0 g' ps G PG ds tr ds' st Hpre Hv HeG HG Hrun.
  specialize (H d g P0 g' ps G PG ds Hpre Hv HeG HG). rewrite Hrun in H.
  destruct H as (q & Hw & Hq). destruct st; try by exists q.
  destruct (Hq eq_refl) as (i & Hi & Hex). by exists i, q.
Qed.

Lemma start_pos_pre g d P0 : pre g d P0 ->
  exists bl, g !! (length g - 1) = Some bl /\ ends_plain bl /\ start_pos g = (length g - 1, length (b_items bl)).
Proof.
  intros [_ _ (bl & Hbl & Hpl & _)]. exists bl. unfold start_pos. rewrite Hbl. done.
Qed.

Lemma start_pos_new g n nb : length g = S n -> g !! n = Some nb -> b_items nb = [] -> start_pos g = (n, 0).
Proof.
  intros Hl Hn Hi. unfold start_pos. rewrite Hl. simpl. rewrite Nat.sub_0_r, Hn, Hi. done.
Qed.

Lemma exit_pos_open g d P0 G q : pre g d P0 -> exit_pos g G (length g - 1) q <-> q = start_pos g.
Proof.
  intros Hpre. destruct (start_pos_pre _ _ _ Hpre) as (bl & Hbl & Hpl & ->).
  assert (Hl : match last (b_items bl) with Some (IBranch _ _ _) => False | _ => True end).
  { destruct (last (b_items bl)) as [[|c t f]|] eqn:E; try done. by destruct (Hpl c t f). }
  split.
  - intros (b & Hb & Hq). rewrite Hbl in Hb. injection Hb as <-. by destruct (last (b_items bl)) as [[|]|].
  - intros ->. exists bl. split; [done|]. by destruct (last (b_items bl)) as [[|]|].
Qed.

Lemma exit_pos_same g g' G i q : g' !! i = g !! i -> exit_pos g G i q -> exit_pos g' G i q.
Proof. intros E (b & Hb & Hq). exists b. by rewrite E. Qed.

Lemma last_of_length {A} (l : list A) k x : length l = S k -> l !! k = Some x -> last l = Some x.
Proof. intros Hl Hk. rewrite last_lookup', Hl. simpl. by rewrite Nat.sub_0_r. Qed.

(* a block that ends in a branch and has a successor keeps both in every extension *)
Lemma gext_branch g G i b k c t f :
  gext g G -> g !! i = Some b -> b_items b !! k = Some (IBranch c t f) -> length (b_items b) = S k ->
  b_succs b <> [] ->
  exists B f', G !! i = Some B /\ b_items B !! k = Some (IBranch c t f') /\ length (b_items B) = S k.
Proof.
  intros He Hb Hk Hlen Hs. destruct (He _ _ Hb) as (B & HB & (_ & Hit & Hl)).
  destruct (Hit _ _ Hk) as ([|c' t' f'] & Hk' & Hi); [done|]. destruct Hi as (<- & <- & _).
  exists B, f'. by rewrite Hl.
Qed.

(* hence what the final graph holds there, and where the walk leaves the block on false *)
Lemma branch_in_final g0 g' G i b k c t f :
  gext g0 g' -> gext g' G -> g0 !! i = Some b -> b_items b !! k = Some (IBranch c t f) ->
  length (b_items b) = S k -> b_succs b <> [] ->
  exists B f', G !! i = Some B /\ b_items B !! k = Some (IBranch c t f') /\ length (b_items B) = S k /\
    exit_pos g' G i (match false_target (b_succs B) t f' with Some x => (x, 0) | None => (i, S k) end).
Proof.
  intros He0 HeG Hb Hk Hlen Hs.
  destruct (gext_branch _ _ _ _ _ _ _ _ He0 Hb Hk Hlen Hs) as (b' & f1 & Hb' & Hk' & Hlen').
  destruct (gext_branch _ _ _ _ _ _ _ _ (gext_trans _ _ _ He0 HeG) Hb Hk Hlen Hs) as (B & f' & HB & HBk & HBlen).
  exists B, f'. do 3 (split; [done|]). exists b'. split; [done|].
  rewrite (last_of_length _ _ _ Hlen' Hk'). exists B, c, t, f'. split; [done|].
  by rewrite (last_of_length _ _ _ HBlen HBk), HBlen.
Qed.

(* a block that is pending in a well-formed graph: a branch has its true target below the length *)
Lemma pending_exit_side g P i b j :
  wf g P -> g !! i = Some b -> length g <= j -> j <> S i \/ ends_plain b.
Proof.
  intros Hwf Hb Hj. pose proof (ok_shape _ _ _ _ (wf_blk _ _ Hwf _ _ Hb)) as Hs. unfold shape in Hs.
  destruct (last (b_items b)) as [[|c t f]|] eqn:E.
  - right. intros c t f. by rewrite E.
  - left. destruct Hs as (_ & Hlt & _). lia.
  - right. intros c t f. by rewrite E.
Qed.

(* once a pending block i1 has been closed towards block j, the walk that left it is at block j *)
Lemma resolve_close g1 G PG P i1 q1 b1 j ds :
  wf g1 P -> wf G PG -> exit_pos g1 G i1 q1 -> g1 !! i1 = Some b1 -> length g1 <= j ->
  (exists B, G !! i1 = Some B /\ bext (close j b1) B) -> walks G q1 ds [] (j, 0) ds.
Proof.
  intros Hwf HG Hex Hb1 Hj HB.
  eapply (exit_resolve g1 G PG i1 q1 b1 (close j b1)); try done.
  - apply bext_close.
  - simpl. apply patch_last_length.
  - simpl. apply elem_of_ins. by left.
  - eapply pending_exit_side; [exact Hwf|exact Hb1|done].
Qed.

Lemma closes_start_pos g ps d g' : closes g ps d g' -> start_pos g' = (length g, 0).
Proof.
  intros Hc. apply (start_pos_new g' _ _ (closes_length _ _ _ _ Hc) (closes_new _ _ _ _ Hc)).
  by rewrite add_preds_eq.
Qed.

Lemma resolve_closes g1 ps1 d g2 G PG i1 q1 P ds :
  wf g1 P -> closes g1 ps1 d g2 -> gext g2 G -> wf G PG -> i1 ∈ ps1 -> exit_pos g1 G i1 q1 ->
  walks G q1 ds [] (start_pos g2) ds.
Proof.
  intros Hwf Hc He HG Hi1 Hex. rewrite (closes_start_pos _ _ _ _ Hc). pose proof Hex as (b1 & Hb1 & _).
  apply (resolve_close g1 G PG P i1 q1 b1); [done..|]. apply He.
  by rewrite (closes_lookup _ _ _ _ _ _ Hc Hb1), decide_True.
Qed.

Lemma sim_leaf id r : sim_lands (SLeaf id r).
Proof.
  intros d g P0 g' ps G PG ds Hpre Hv HeG HG.
  rewrite (visit_leaf _ _ _ _ _ Hpre) in Hv. injection Hv as <- <-.
  destruct (start_pos_pre _ _ _ Hpre) as (bl & Hbl & Hpl & ->).
  set (l := length g - 1) in *.
  assert (Hb1 : alter (push_item (ILeaf id)) l g !! l = Some (push_item (ILeaf id) bl))
    by (by rewrite list_lookup_alter, Hbl).
  destruct (gext_item _ G l _ (length (b_items bl)) (ILeaf id) HeG Hb1) as (B & [id'|] & HB & Hk & Hi);
    [by apply list_lookup_middle| |done].
  simpl in Hi. subst id'. exists (l, S (length (b_items bl))). split.
  - apply (walks_one G _ ds (Some (KLeaf id))). by eapply step_at_leaf.
  - intros _. exists l. split; [unfold pend; simpl; rewrite alter_length; apply elem_of_list_here|].
    eexists. split; [exact Hb1|]. simpl. rewrite last_snoc, app_length. simpl. by rewrite Nat.add_1_r.
Qed.

Lemma sim_seq ss : Forall sim_lands ss ->
  forall ss0 d g0 (P0 : nat -> Prop) g1 ps1 g' ps G PG ds q1,
  (forall i, P0 i -> i < length g0 - 1) -> post (SBlock ss0) g0 d P0 g1 ps1 ->
  visit_seq d ss ps1 g1 = Ok (g', ps) -> gext g' G -> wf G PG -> exits g1 ps1 G q1 ->
  lands G (exits g' ps G) q1 ds (run_seq ss ds).
Proof.
  induction 1 as [|s r Hs _ IH]; intros ss0 d g0 P0 g1 ps1 g' ps G PG ds q1 HP0 Hq Hv HeG HG Hq1;
    simpl in Hv.
  - injection Hv as <- <-. by apply lands_here.
  - destruct (step_join _ _ _ _ _ _ HP0 Hq) as (g2 & E2 & Hq2 & Hc). rewrite E2 in Hv. simpl in Hv.
    inv_bind Hv. destruct a as [g3 ps3]. simpl in Hv.
    pose proof (post_state _ _ _ _ _ _ Hq2) as Hp2. simpl in Hp2.
    pose proof (visit_post s d g2 P0 g3 ps3 Hp2 E) as Hq3.
    pose proof (post_snoc _ _ _ _ _ _ _ _ Hq2 Hq3) as Hq3'.
    destruct (visit_seq_post r (Forall_true _ _ visit_post) _ _ _ _ _ _ _ _ HP0 Hq3' Hv) as [_ He3].
    assert (He3G : gext g3 G) by (by eapply gext_trans).
    assert (He2G : gext g2 G) by (eapply gext_trans; [apply (post_ext _ _ _ _ _ _ Hq3)|done]).
    change (run_seq (s :: r) ds) with (then_ (run s ds) (run_seq r)).
    eapply lands_silent; [|eapply lands_then; [by eapply Hs|]].
    + (* the optional complete_basic_block *)
      destruct Hq1 as (i1 & Hi1 & Hex). unfold pend in Hi1. pose proof (post_state _ _ _ _ _ _ Hq) as Hst.
      destruct (is_nil ps1).
      * subst g2. apply elem_of_list_singleton in Hi1 as ->.
        apply (exit_pos_open _ _ _ G q1 Hst) in Hex as ->. constructor.
      * by eapply resolve_closes.
    + intros q ds1 Hq'. by eapply (IH (ss0 ++ [s])).
Qed.

Lemma sim_block ss d g P0 g' ps G PG ds :
  Forall sim_lands ss -> pre g d P0 -> visit_seq d ss [] g = Ok (g', ps) -> gext g' G -> wf G PG ->
  lands G (exits g' ps G) (start_pos g) ds (run_seq ss ds).
Proof.
  intros IH Hpre Hv HeG HG. eapply (sim_seq ss IH [] d g P0 g []); try done.
  - apply (pre_P0 _ _ _ Hpre).
  - apply post_nil; [apply grow_refl|done].
  - exists (length g - 1). split; [apply elem_of_list_here|]. by apply (exit_pos_open g d P0).
Qed.

(* the iterations of a loop whose header is block h of the final graph *)
Lemma sim_loop G (Qb Q : pos -> Prop) h Bh c t f rb :
  G !! h = Some Bh -> b_items Bh !! 0 = Some (IBranch c t f) ->
  (forall ds, lands G Qb (t, 0) ds (rb ds)) ->
  (forall q ds, Qb q -> walks G q ds [] (h, 0) ds) ->
  Q (match false_target (b_succs Bh) t f with Some x => (x, 0) | None => (h, 1) end) ->
  forall fuel ds, lands G Q (h, 0) ds (run_loop c rb fuel ds).
Proof.
  intros HB HB0 Hbody Hback Hexit. induction fuel as [|fuel IHf]; intros ds.
  - exists (h, 0). split; [constructor|done].
  - rewrite run_loop_S. apply (lands_branch G Q h 0 Bh c t f); [done|done| |].
    + intros ds1. eapply lands_then; [apply Hbody|]. intros q ds2 Hq.
      eapply lands_silent; [by apply Hback|apply IHf].
    + intros ds1. by apply lands_here.
Qed.

Lemma sim_while c body : sim_lands body -> sim_lands (SWhile c body).
Proof.
  intros IH d g P0 g' ps G PG ds Hpre Hv HeG HG.
  destruct (step_while_head g d P0 c Hpre)
    as (g3 & Heq & Hp3 & Hl3 & Hg3 & (bl & Hbl & Hbl3) & (bh & Hbh & Hbhi & Hbhs) & (nb & Hnb & Hnbi)).
  rewrite Heq in Hv.
  inv_bind Hv. destruct a as [g4 ps4]. simpl in Hv.
  pose proof (visit_post body _ _ _ _ _ Hp3 E) as Hq.
  destruct (step_while_tail _ _ _ _ _ _ _ _ Hpre Hl3 Hq) as (ps' & g5 & Eo & Eps & Eb & _ & Hb & Hr).
  rewrite Eo in Hv. simpl in Hv. rewrite Eb in Hv. injection Hv as <- <-.
  assert (He5 : gext g3 g5).
  { eapply gext_trans; [apply (post_ext _ _ _ _ _ _ Hq)|by eapply backs_gext]. }
  assert (He4G : gext g4 G) by (eapply gext_trans; [by eapply backs_gext|done]).
  assert (He3G : gext g3 G) by (by eapply gext_trans).
  destruct (branch_in_final g3 g5 G (length g) bh 0 c (S (length g)) None He5 HeG Hbh) as (Bh & f' & HBh & HBh0 & _ & Hexit);
    [by rewrite Hbhi..|by rewrite Hbhs|].
  (* from the end of the block before the loop to the header *)
  eapply lands_silent.
  { eapply (resolve_close g G PG _ (length g - 1) _ bl); [apply (pre_wf _ _ _ Hpre)|done| |done|done|by apply He3G].
    by apply (exit_pos_open g d P0). }
  apply (sim_loop G (exits g4 ps4 G) _ (length g) Bh c (S (length g)) f'); try done.
  - intros ds1. rewrite <- (start_pos_new g3 (S (length g)) nb Hl3 Hnb Hnbi). by eapply IH.
  - intros q ds1 (i & Hi & Hex). unfold pend in Hi. rewrite <- Eps in Hi.
    pose proof Hex as (b4 & Hb4 & _). specialize (Hr _ Hi).
    eapply (exit_resolve g4 G PG i q b4 (add_succ (length g) b4)); try done.
    + apply bext_add_succ.
    + simpl. apply elem_of_ins. by left.
    + left. lia.
    + apply HeG. apply (backs_lookup _ _ _ _ _ _ Hb Hb4 Hi). lia.
  - exists (length g). split; [apply elem_of_list_here|done].
Qed.

Lemma sim_if c t e : sim_lands t -> (forall e', e = Some e' -> sim_lands e') -> sim_lands (SIf c t e).
Proof.
  intros IHt IHe d g P0 g' ps G PG ds Hpre Hv HeG HG.
  destruct (step_branch g d d P0 c Hpre)
    as (g1 & g2 & E1 & E2 & _ & Hp2 & Hl2 & Hg2 & (bo & bh & Hbo & Hbh & Hbhi & Hbhs) & (nb & Hnb & Hnbi)).
  rewrite (visit_if c t e d g P0 g1 g2 Hpre E1 E2) in Hv.
  inv_bind Hv. destruct a as [g3 ps3]. simpl in Hv.
  pose proof (pre_length _ _ _ Hpre). pose proof (visit_post t _ _ _ _ _ Hp2 E) as Hq3.
  destruct (or_last_post t g2 d _ g3 ps3 (pre_length _ _ _ Hp2) Hq3) as (psi & Eo & Epsi & Hne & _ & Hwf & Hr).
  rewrite Eo in Hv. simpl in Hv.
  destruct (start_pos_pre _ _ _ Hpre) as (bl & Hbl & _ & ->). rewrite Hbl in Hbo. injection Hbo as <-.
  set (l := length g - 1) in *. set (k := length (b_items bl)) in *.
  (* the walk through the branch of block l, given what follows its false exit *)
  assert (Hfin : gext g3 G -> forall (Q : pos -> Prop) rf,
            (forall q i, i ∈ psi -> exit_pos g3 G i q -> Q q) ->
            (forall q ds1, exit_pos g3 G l q -> lands G Q q ds1 (rf ds1)) ->
            lands G Q (l, k) ds (branch_res c (run t) rf ds)).
  { intros He3G Q rf HQ Hrf.
    destruct (branch_in_final g2 g3 G l bh k c (length g) None (post_ext _ _ _ _ _ _ Hq3) He3G Hbh)
      as (Bh & f' & HBh & HBhk & _ & Hexit).
    { rewrite Hbhi. by apply list_lookup_middle. }
    { rewrite Hbhi, app_length. simpl. lia. }
    { by rewrite Hbhs. }
    apply (lands_branch G Q l k Bh c (length g) f'); [done|done| |intros ds1; by apply Hrf].
    intros ds1. rewrite <- (start_pos_new g2 _ nb Hl2 Hnb Hnbi).
    eapply lands_mono; [|by eapply IHt]. intros q (i & Hi & Hex). unfold pend in Hi. rewrite <- Epsi in Hi.
    by eapply HQ. }
  destruct e as [e|].
  - destruct (step_else g d P0 g3 psi Hpre Hwf) as (g4 & E4 & Hp4 & Hc4).
    { intros i Hi. apply Hr in Hi. lia. }
    fold l in E4, Hc4. rewrite E4 in Hv. simpl in Hv. inv_bind Hv. destruct a as [g5 ps5]. simpl in Hv.
    pose proof (visit_post e _ _ _ _ _ Hp4 E0) as Hq5. pose proof (closes_length _ _ _ _ Hc4) as Hl4.
    destruct (or_last_post e g4 d _ g5 ps5 (pre_length _ _ _ Hp4) Hq5) as (pse & Eo' & Epse & _). rewrite Eo' in Hv.
    injection Hv as <- <-.
    assert (He4G : gext g4 G) by (eapply gext_trans; [apply (post_ext _ _ _ _ _ _ Hq5)|done]).
    assert (Hpend : pend g5 (iunion psi pse) = iunion psi pse).
    { unfold pend. by rewrite (proj2 (is_nil_false _) (iunion_not_nil _ pse Hne)). }
    change (run (SIf c t (Some e)) ds) with (branch_res c (run t) (run e) ds).
    apply Hfin; [eapply gext_trans; [by eapply closes_gext|done]| |].
    + intros q i Hi Hex. exists i. rewrite Hpend. split; [apply elem_of_iunion; by left|].
      (* block i is not touched while the else branch is lifted *)
      apply Hr in Hi. eapply exit_pos_same; [|done].
      rewrite (post_frame _ _ _ _ _ _ Hq5) by lia. eapply closes_frame; [done| |lia].
      intros ->%elem_of_list_singleton. lia.
    + intros q ds1 Hex. eapply lands_silent.
      { eapply (resolve_closes g3 [l] d g4 G PG l q _ ds1 Hwf); [done..|apply elem_of_list_here|done]. }
      eapply lands_mono; [|by eapply (IHe e eq_refl)]. intros q' (i & Hi & Hex'). exists i. rewrite Hpend.
      split; [|done]. unfold pend in Hi. rewrite <- Epse in Hi. apply elem_of_iunion. by right.
  - injection Hv as <- <-.
    assert (Hpend : pend g3 (ins l psi) = ins l psi).
    { unfold pend. by rewrite (proj2 (is_nil_false _) (ins_not_nil _ _)). }
    change (run (SIf c t None) ds) with (branch_res c (run t) (fun ds1 => ([], ds1, Running)) ds).
    apply Hfin; [done| |].
    + intros q i Hi Hex. exists i. rewrite Hpend. split; [apply elem_of_ins; by right|done].
    + intros q ds1 Hex. apply lands_here. exists l. rewrite Hpend. split; [apply elem_of_ins; by left|done].
Qed.

Theorem sim_lands_all s : sim_lands s.
Proof.
  induction s as [id r|ss IH|ss IH|c body IH|c t e IHt IHe] using sk_ind'.
  - apply sim_leaf.
  - intros d g P0 g' ps G PG ds Hpre Hv. rewrite visit_init_eq in Hv. inv_bind Hv.
    apply visit_init_seq in Hv. rewrite run_init. by eapply sim_block.
  - intros d g P0 g' ps G PG ds Hpre Hv. rewrite visit_block_eq in Hv. inv_bind Hv.
    rewrite run_block. by eapply sim_block.
  - by apply sim_while.
  - by apply sim_if.
Qed.

Theorem sim_all s : sim_ok s.
Proof. apply sim_lands_ok, sim_lands_all. Qed.
