(* RunnerC03 — C03 for runs that are not well formed, and as multiplicities:

   * the exit status and the summary number are functions of the number of
     displayed diagnostics on EVERY run of the mirror: no hypothesis on the
     project (duplicate keys allowed) or on the analysis order (any list of
     keys, repeated, unknown, incomplete), hence for every count (0, 1, 255,
     256, 257, 512, ...): [exit_status_all_runs];
   * "exactly once" as a statement about multiplicities: [each_finding_counted],
     [each_finding_exactly_once];
   * what the mirror displays when the analysis order is NOT an enumeration of
     the user keys: only the findings of the definitions that are in the order
     ([only_analysed_definitions_displayed]).  A definition the binary skips is
     skipped by the mirror fed with the binary's own order, so the hypothesis
     [analysis_order] has to be established independently of the binary; that
     is what lib/props/C03.py does on every run. *)
From Coq Require Import ZArith List Bool Arith Permutation Lia.
Require Import Model.Base Gen.Category Model.Runner Spec.RunnerSpec Proofs.RunnerProofs.
Import ListNotations.

(* main: the summary number is the number of displayed diagnostics and the
   exit status is 0 exactly when that number is 0 — whatever the project, the
   options and the order *)
Theorem exit_status_all_runs : forall p o order,
  res_summary (run_keys p o order) = length (res_shown (run_keys p o order)) /\
  (res_exit (run_keys p o order) = 0%Z <-> res_shown (run_keys p o order) = []) /\
  (res_exit (run_keys p o order) = 0%Z \/ res_exit (run_keys p o order) = 1%Z) /\
  (forall n, length (res_shown (run_keys p o order)) = S n -> res_exit (run_keys p o order) = 1%Z).
Proof.
  intros p o order. destruct (run_keys_any p o order) as (A & B & _). rewrite exit_by_count, B, <- A.
  destruct (res_shown (run_keys p o order)); simpl; repeat split; auto; discriminate.
Qed.

Definition level_eq_dec : forall a b : level, {a = b} + {a <> b}.
Proof. decide equality. Defined.

Definition report_eq_dec : forall a b : report, {a = b} + {a <> b}.
Proof.
  decide equality; try apply Z.eq_dec; try apply level_eq_dec.
  apply list_eq_dec. apply Z.eq_dec.
Defined.

Lemma count_occ_filter : forall (f : report -> bool) l x,
  count_occ report_eq_dec (filter f l) x = if f x then count_occ report_eq_dec l x else 0.
Proof.
  intros f l x. induction l as [|a l IH]; simpl.
  - destruct (f x); reflexivity.
  - destruct (f a) eqn:Ea; simpl; destruct (report_eq_dec a x) as [E|E].
    + subst a. rewrite IH, Ea. reflexivity.
    + exact IH.
    + subst a. rewrite IH, Ea. reflexivity.
    + exact IH.
Qed.

(* every finding is displayed as often as it was produced if it is to be
   kept, and never otherwise *)
Theorem each_finding_counted : forall p o order x, wf_project p -> analysis_order p order ->
  count_occ report_eq_dec (res_shown (run_keys p o order)) x =
  if keep_b o (p_user p) x then count_occ report_eq_dec (produced p) x else 0.
Proof.
  intros p o order x Hwf Hord.
  pose proof (conservation p o order Hwf Hord) as H.
  rewrite (proj1 (Permutation_count_occ report_eq_dec _ _) H x).
  apply count_occ_filter.
Qed.

(* distinct findings (the reports of the real stages are distinct values:
   position, message) are displayed exactly once *)
Theorem each_finding_exactly_once : forall p o order, wf_project p -> analysis_order p order ->
  NoDup (produced p) ->
  NoDup (res_shown (run_keys p o order)) /\
  forall x, In x (produced p) -> keep o (p_user p) x ->
            count_occ report_eq_dec (res_shown (run_keys p o order)) x = 1.
Proof.
  intros p o order Hwf Hord Hnd. split.
  - eapply Permutation_NoDup. apply Permutation_sym. apply conservation; assumption.
    apply NoDup_filter. exact Hnd.
  - intros x Hin Hk. rewrite each_finding_counted by assumption.
    apply keep_b_keep in Hk. rewrite Hk.
    apply NoDup_count_occ' with (decA := report_eq_dec) in Hin; [exact Hin | exact Hnd].
Qed.

(* whatever duplicate-free list of known keys is analysed, only the parser's
   reports and the findings of the definitions in that list are displayed:
   the mirror skips what its [order] argument skips *)
Theorem only_analysed_definitions_displayed : forall p o order x,
  NoDup order -> (forall k, In k order -> exists d, find_def (p_defs p) k = Some d) ->
  In x (res_shown (run_keys p o order)) ->
  In x (p_parse p) \/
  exists d, In d (p_defs p) /\ In (d_key d) order /\ In x (produced_def d).
Proof.
  intros p o order x Hnd Hdef Hin.
  destruct (run_keys_spec p o order (conj Hnd Hdef)) as [A _]. rewrite A in Hin.
  apply filter_In in Hin. destruct Hin as [Hin _]. unfold all_reports in Hin.
  apply in_app_or in Hin. destruct Hin as [Hin|Hin]; [left; exact Hin|right].
  apply in_flat_map in Hin. destruct Hin as [k [Hk Hx]].
  unfold produced_of_key in Hx. destruct (find_def (p_defs p) k) as [d|] eqn:E.
  - apply find_def_In in E. destruct E as [Hd Hkey]. exists d. subst k. auto.
  - destruct Hx.
Qed.

(* so a kept finding of a user definition that the order leaves out, and that
   no other stage produced, is not displayed: with an order that is not a
   permutation of the user keys conservation fails in the mirror itself *)
Theorem skipped_definition_not_displayed : forall p o order d x,
  NoDup order -> (forall k, In k order -> exists d, find_def (p_defs p) k = Some d) ->
  In d (p_defs p) -> ~ In (d_key d) order ->
  In x (produced_def d) -> ~ In x (p_parse p) ->
  (forall d', In d' (p_defs p) -> d' <> d -> ~ In x (produced_def d')) ->
  ~ In x (res_shown (run_keys p o order)).
Proof.
  intros p o order d x Hnd Hdef Hd Hskip Hx Hpar Hother Hin.
  destruct (only_analysed_definitions_displayed p o order x Hnd Hdef Hin) as [H|[d' [Hd' [Hk Hx']]]].
  - contradiction.
  - destruct (key_eq_dec (d_key d') (d_key d)) as [E|E].
    + rewrite E in Hk. contradiction.
    + apply (Hother d' Hd'); [|exact Hx']. intro; subst d'. apply E. reflexivity.
Qed.
