From Coq Require Import ZArith Zpow_facts Lia Bool Znumtheory.
Require Import Model.Base Model.Field Spec.FieldSpec.
Local Open Scope Z_scope.

Lemma modulus_spec a p : 0 < p -> modulus a p = a mod p.
Proof.
  intros Hp. unfold modulus.
  pose proof (Z.rem_bound_abs a p). pose proof (Z.quot_rem' a p).
  rewrite Z.rem_mod_nonneg by lia.
  replace (Z.rem a p + p) with (a + (1 - Z.quot a p) * p) by lia.
  apply Z_mod_plus_full.
Qed.

Lemma modulus_id a p : 0 <= a < p -> modulus a p = a.
Proof. intros H. rewrite modulus_spec by lia. apply Z.mod_small; lia. Qed.

Lemma modulus_range a p : 0 < p -> 0 <= modulus a p < p.
Proof. intros H. rewrite modulus_spec by lia. apply Z.mod_pos_bound; lia. Qed.

Lemma div_range a d : 0 <= a -> 0 <= d -> 0 <= a / d <= a.
Proof.
  intros Ha Hd. destruct (Z.eq_dec d 0) as [->|Hn]; [rewrite Zdiv_0_r; lia|].
  split; [apply Z.div_pos; lia|apply Z.div_le_upper_bound; nia].
Qed.

Lemma div_unique a b p v1 v2 :
  prime p -> 0 <= b < p -> b <> 0 -> 0 <= v1 < p -> 0 <= v2 < p ->
  (v1 * b) mod p = a -> (v2 * b) mod p = a -> v1 = v2.
Proof.
  intros Hp Hb Hb0 H1 H2 E1 E2.
  rewrite <- (Z.mod_small v1 p H1). apply Zdivide_mod_minus; [exact H2|].
  apply Gauss with b; [|apply rel_prime_sym, rel_prime_le_prime; [exact Hp|lia]].
  rewrite Z.mul_comm, Z.mul_sub_distr_r. apply Z.mod_divide; [lia|].
  rewrite Zminus_mod, E1, E2, Z.sub_diag. apply Zmod_0_l.
Qed.

Lemma radix_len_pos p : 0 < p -> radix_len p = nbits p.
Proof.
  intros H. unfold radix_len, nbits.
  destruct (Z.eqb_spec p 0); [lia|]. rewrite Z.abs_eq by lia. reflexivity.
Qed.

Lemma bits_spec x : 0 <= x -> bits x = if x =? 0 then 0 else Z.log2 x + 1.
Proof. intros H. unfold bits. rewrite Z.abs_eq by lia. reflexivity. Qed.

Lemma lt_pow2_log2 a : 0 <= a -> a < 2 ^ (Z.log2 a + 1).
Proof.
  intros H. destruct (Z.eqb_spec a 0) as [->|]; [reflexivity|].
  pose proof (Z.log2_spec a ltac:(lia)). lia.
Qed.

Lemma lt_pow2_nbits p : 0 < p -> p < 2 ^ nbits p.
Proof. intros H. apply lt_pow2_log2. lia. Qed.

Lemma lt_pow2_bits x : 0 <= x -> x < 2 ^ bits x.
Proof.
  intros H. rewrite bits_spec by lia. destruct (Z.eqb_spec x 0) as [->|]; [reflexivity|].
  apply lt_pow2_log2. lia.
Qed.

Lemma shr_doc_small x n k : 0 <= x < 2 ^ n -> n <= k -> shr_doc x k = 0.
Proof. intros Hx Hk. apply Z.div_small. pose proof (Z.pow_le_mono_r 2 n k). lia. Qed.

Lemma land_mask x n : 0 <= n -> Z.land x (2 ^ n - 1) = x mod 2 ^ n.
Proof. intros Hn. rewrite <- Z.land_ones by lia. rewrite Z.ones_equiv. reflexivity. Qed.

Lemma shl_doc_big x k p : 0 < p -> nbits p <= k -> shl_doc x k p = 0.
Proof.
  intros Hp Hk. unfold shl_doc, nbits in *. pose proof (Z.log2_nonneg p).
  rewrite land_mask by lia.
  replace k with (k - (Z.log2 p + 1) + (Z.log2 p + 1)) by lia.
  rewrite Z.pow_add_r, Z.mul_assoc, Z_mod_mult by lia. apply Zmod_0_l.
Qed.

Lemma val_spec x p : 2 < p -> 0 <= x < p -> val x p = sval x p.
Proof.
  intros Hp Hx. unfold val, sval. rewrite Z.quot_div_nonneg by lia.
  destruct (Z.leb_spec (p / 2 + 1) x), (Z.ltb_spec x p); reflexivity || lia.
Qed.

Lemma comparable_spec x p : 2 < p -> 0 <= x < p -> comparable_element x p = sval x p.
Proof. intros. unfold comparable_element. rewrite modulus_id by lia. apply val_spec; lia. Qed.

Lemma sval_inj x y p : 2 < p -> 0 <= x < p -> 0 <= y < p -> sval x p = sval y p -> x = y.
Proof.
  intros Hp Hx Hy. unfold sval.
  destruct (Z.leb_spec (p / 2 + 1) x); destruct (Z.leb_spec (p / 2 + 1) y); lia.
Qed.

Lemma sval_eqb x y p : 0 <= x < p -> 0 <= y < p -> (sval x p =? sval y p) = (x =? y).
Proof.
  intros Hx Hy. unfold sval.
  destruct (Z.leb_spec (p / 2 + 1) x); destruct (Z.leb_spec (p / 2 + 1) y); lia.
Qed.

Lemma sval_range x p : 2 < p -> 0 <= x < p -> - (p / 2) <= sval x p <= p / 2.
Proof. intros Hp Hx. unfold sval. destruct (Z.leb_spec (p / 2 + 1) x); Z.div_mod_to_equations; lia. Qed.

Lemma normalize_spec x p : 2 < p -> 0 <= x < p -> normalize x p = b2z (truthy x).
Proof.
  intros Hp Hx. unfold normalize, truthy. rewrite comparable_spec by lia.
  replace (sval x p =? 0) with (x =? 0); [destruct (x =? 0); reflexivity|].
  unfold sval. destruct (Z.leb_spec (p / 2 + 1) x); [Z.div_mod_to_equations|]; lia.
Qed.

(* Every integer has the truth value [as_bool x p], on which the Boolean operators act;
   for a field element it is [truthy]. *)
Lemma normalize_truth x p : normalize x p = b2z (as_bool x p).
Proof. unfold as_bool, normalize. destruct (comparable_element x p =? 0); reflexivity. Qed.

Lemma not_truth x p : not x p = b2z (negb (as_bool x p)).
Proof. unfold not. rewrite normalize_truth. destruct (as_bool x p); reflexivity. Qed.

Lemma bool_and_truth x y p : bool_and x y p = b2z (as_bool x p && as_bool y p).
Proof. unfold bool_and. rewrite !normalize_truth. destruct (as_bool x p), (as_bool y p); reflexivity. Qed.

Lemma bool_or_truth x y p : bool_or x y p = b2z (as_bool x p || as_bool y p).
Proof.
  unfold bool_or. rewrite bool_and_truth, !normalize_truth. destruct (as_bool x p), (as_bool y p); reflexivity.
Qed.

Lemma as_bool_spec x p : 2 < p -> 0 <= x < p -> as_bool x p = truthy x.
Proof. intros Hp Hx. unfold as_bool. rewrite normalize_spec by lia. destruct (truthy x); reflexivity. Qed.

Lemma b2z_range (x : bool) p : 2 < p -> 0 <= b2z x < p.
Proof. destruct x; cbn; lia. Qed.

Lemma truthy_b2z (x : bool) : truthy (b2z x) = x.
Proof. destruct x; reflexivity. Qed.

Lemma as_bool_b2z (x : bool) p : 2 < p -> as_bool (b2z x) p = x.
Proof. intros Hp. rewrite as_bool_spec by auto using b2z_range. apply truthy_b2z. Qed.

Lemma not_b2z (b : bool) p : 2 < p -> not (b2z b) p = b2z (negb b).
Proof. intros. rewrite not_truth, as_bool_b2z by lia. reflexivity. Qed.

Lemma bool_or_b2z (x y : bool) p : 2 < p -> bool_or (b2z x) (b2z y) p = b2z (x || y).
Proof. intros. rewrite bool_or_truth, !as_bool_b2z by lia. reflexivity. Qed.

Lemma lesser_spec a b p : 2 < p -> 0 <= a < p -> 0 <= b < p ->
  lesser a b p = b2z (sval a p <? sval b p).
Proof. intros. unfold lesser. rewrite !comparable_spec by lia. reflexivity. Qed.

Lemma eq_spec a b p : 2 < p -> 0 <= a < p -> 0 <= b < p -> eq a b p = b2z (a =? b).
Proof. intros. unfold eq. rewrite !modulus_id by lia. reflexivity. Qed.

Lemma lesser_eq_spec a b p : 2 < p -> 0 <= a < p -> 0 <= b < p ->
  lesser_eq a b p = b2z (sval a p <=? sval b p).
Proof.
  intros. unfold lesser_eq. rewrite lesser_spec, eq_spec, bool_or_b2z by lia.
  rewrite <- (sval_eqb a b p) by lia. f_equal. lia.
Qed.

Lemma greater_spec a b p : 2 < p -> 0 <= a < p -> 0 <= b < p ->
  greater a b p = b2z (sval b p <? sval a p).
Proof. intros. unfold greater. rewrite lesser_eq_spec, not_b2z by lia. f_equal. lia. Qed.

Lemma greater_eq_spec a b p : 2 < p -> 0 <= a < p -> 0 <= b < p ->
  greater_eq a b p = b2z (sval b p <=? sval a p).
Proof.
  intros. unfold greater_eq. rewrite greater_spec, eq_spec, bool_or_b2z by lia.
  rewrite <- (sval_eqb a b p) by lia. f_equal. lia.
Qed.

Lemma to_usize_spec k : 0 <= k -> to_usize k = if 2 ^ 64 <=? k then None else Some k.
Proof.
  intros H. unfold to_usize. rewrite (Z.leb_antisym k (2 ^ 64)), (proj2 (Z.leb_le 0 k) H).
  destruct (k <? 2 ^ 64); reflexivity.
Qed.

Lemma shr_direct_spec l k p : 0 <= l -> 0 <= k ->
  shr_direct l k p = if 2 ^ 64 <=? k then Err EDivisionByZero else Ok (shr_doc l k).
Proof.
  intros Hl Hk. unfold shr_direct. rewrite to_usize_spec by lia.
  destruct (2 ^ 64 <=? k); [reflexivity|]. destruct (Z.leb_spec (bits l) k).
  - rewrite (shr_doc_small l (bits l)) by (pose proof (lt_pow2_bits l); lia). reflexivity.
  - rewrite Z.quot_div_nonneg; [reflexivity|lia|apply Z.pow_pos_nonneg; lia].
Qed.

Lemma shl_direct_spec l k p : 0 < p -> 0 <= k ->
  shl_direct l k p = if 2 ^ 64 <=? k then Err EDivisionByZero else Ok (shl_doc l k p).
Proof.
  intros Hp Hk. unfold shl_direct, mask. rewrite to_usize_spec, radix_len_pos by lia.
  destruct (2 ^ 64 <=? k); [reflexivity|]. destruct (Z.leb_spec (nbits p) k).
  - rewrite shl_doc_big by lia. reflexivity.
  - rewrite modulus_spec by lia. reflexivity.
Qed.

(* a count above p/2 is mirrored to one at most p/2: shift_l and shift_r call each other at most once *)
Lemma mirror_count p r : 0 < p -> Z.quot p 2 < r -> p - r <=? Z.quot p 2 = true.
Proof. intros Hp Hr. apply Z.leb_le. Z.quot_rem_to_equations. lia. Qed.

Lemma shift_l_unfold l r p : 0 < p ->
  shift_l l r p = if r <=? Z.quot p 2 then shl_direct l r p else shr_direct l (p - r) p.
Proof.
  intros Hp. unfold shift_l. destruct (Z.leb_spec r (Z.quot p 2)) as [|Hr]; [reflexivity|].
  rewrite (mirror_count p r Hp Hr). reflexivity.
Qed.

Lemma shift_r_unfold l r p : 0 < p ->
  shift_r l r p = if r <=? Z.quot p 2 then shr_direct l r p else shl_direct l (p - r) p.
Proof.
  intros Hp. unfold shift_r. destruct (Z.leb_spec r (Z.quot p 2)) as [|Hr]; [reflexivity|].
  rewrite (mirror_count p r Hp Hr). reflexivity.
Qed.

Definition is_shift (o : fop) : bool := match o with OShl | OShr => true | _ => false end.

(* The implementation may answer an over-large shift count (one that does not
   fit a machine word) with an error instead of the defined value 0. *)
Definition refines (o : fop) (m s : outcome Z) : Prop :=
  m = s \/ (is_shift o = true /\ m = Err EDivisionByZero /\ s = Ok 0).

Lemma Zpow_mod_spec a b p : 0 < p -> Zpow_mod a b p = a ^ b mod p.
Proof. intros. apply Zpow_mod_correct. lia. Qed.

(* The mirror computes the documented value, except that a shift whose effective count
   min(b, p - b) does not fit a machine word is answered by an error. *)
Theorem eval_spec o a b p :
  2 < p -> 0 <= a < p -> 0 <= b < p -> o <> ODiv ->
  eval o a b p =
  if is_shift o && (2 ^ 64 <=? Z.min b (p - b)) then Err EDivisionByZero else spec o a b p.
Proof.
  intros Hp Ha Hb Hdiv.
  destruct o; try congruence; cbn [eval spec is_shift andb];
    try (f_equal; apply modulus_spec; lia).
  - unfold idiv. cbv zeta. rewrite (modulus_id a p), (modulus_id b p) by lia.
    destruct (Z.eqb_spec b 0); [reflexivity|].
    rewrite Z.quot_div_nonneg by lia. reflexivity.
  - unfold mod_op. cbv zeta. rewrite (modulus_id a p), (modulus_id b p) by lia.
    destruct (Z.eqb_spec b 0); [reflexivity|].
    rewrite modulus_spec by lia. reflexivity.
  - f_equal. apply Zpow_mod_spec. lia.
  - unfold prefix_sub, mul. rewrite modulus_spec by lia. f_equal. f_equal. lia.
  - unfold complement_256.
    destruct (Z.ltb_spec a 0); [lia|]. rewrite Z.abs_eq, modulus_spec by lia. reflexivity.
  - rewrite shift_l_unfold, Z.quot_div_nonneg by lia. destruct (Z.leb_spec b (p / 2)).
    + rewrite shl_direct_spec, Z.min_l by (Z.div_mod_to_equations; lia). reflexivity.
    + rewrite shr_direct_spec, Z.min_r by (Z.div_mod_to_equations; lia). reflexivity.
  - rewrite shift_r_unfold, Z.quot_div_nonneg by lia. destruct (Z.leb_spec b (p / 2)).
    + rewrite shr_direct_spec, Z.min_l by (Z.div_mod_to_equations; lia). reflexivity.
    + rewrite shl_direct_spec, Z.min_r by (Z.div_mod_to_equations; lia). reflexivity.
  - rewrite as_bool_spec by lia. reflexivity.
  - rewrite not_truth, as_bool_spec by lia. reflexivity.
  - rewrite bool_or_truth, !as_bool_spec by lia. reflexivity.
  - rewrite bool_and_truth, !as_bool_spec by lia. reflexivity.
  - rewrite eq_spec by lia. reflexivity.
  - rewrite lesser_spec by lia. reflexivity.
  - unfold not_eq. rewrite eq_spec, not_b2z by lia. reflexivity.
  - rewrite lesser_eq_spec by lia. reflexivity.
  - rewrite greater_spec by lia. reflexivity.
  - rewrite greater_eq_spec by lia. reflexivity.
Qed.

Lemma spec_shift_big o a b p :
  2 < p -> Z.log2 p < 2 ^ 64 -> 0 <= a < p -> is_shift o = true ->
  2 ^ 64 <= Z.min b (p - b) -> spec o a b p = Ok 0.
Proof.
  intros Hp Hlog Ha Ho Hb. pose proof (lt_pow2_nbits p).
  assert (Hshr : forall k, 2 ^ 64 <= k -> shr_doc a k = 0)
    by (intros; apply shr_doc_small with (nbits p); unfold nbits in *; lia).
  assert (Hshl : forall k, 2 ^ 64 <= k -> shl_doc a k p = 0)
    by (intros; apply shl_doc_big; unfold nbits; lia).
  destruct o; try discriminate; cbn [spec]; destruct (b <=? p / 2); f_equal; auto with zarith.
Qed.

Theorem field_refines_spec o a b p :
  2 < p -> Z.log2 p < 2 ^ 64 -> 0 <= a < p -> 0 <= b < p -> o <> ODiv ->
  refines o (eval o a b p) (spec o a b p).
Proof.
  intros Hp Hlog Ha Hb Hdiv. unfold refines. rewrite eval_spec by assumption.
  destruct (is_shift o) eqn:Ho; [|left; reflexivity].
  destruct (Z.leb_spec (2 ^ 64) (Z.min b (p - b))); [right|left; reflexivity].
  split; [reflexivity|]. split; [reflexivity|]. apply spec_shift_big; assumption.
Qed.

Lemma egcd_spec n : forall a b g x y, 0 <= a -> 0 <= b ->
  egcd n a b = Some (g, x, y) -> a * x + b * y = g /\ g = Z.gcd a b.
Proof.
  induction n as [|n IH]; intros a b g x y Ha Hb; cbn [egcd];
    destruct (Z.eqb_spec b 0) as [->|Hb0]; try discriminate;
    try (intros [= <- <- <-]; rewrite Z.gcd_0_r, Z.abs_eq by lia; lia).
  destruct (egcd n b (a mod b)) as [[[g' x'] y']|] eqn:E; [|discriminate]. intros [= <- <- <-].
  pose proof (Z.mod_pos_bound a b ltac:(lia)). apply IH in E as [Hbez Hg]; [|lia|lia].
  split; [pose proof (Z.div_mod a b ltac:(lia)); nia|].
  rewrite Hg, Z.gcd_comm, Z.gcd_mod by lia. apply Z.gcd_comm.
Qed.

Lemma egcd_fuel_le n : forall a b, 0 <= b <= a -> a * b < 2 ^ Z.of_nat n -> egcd n a b <> None.
Proof.
  induction n as [|n IH]; intros a b Hab Hlt; cbn [egcd].
  - destruct (Z.eqb_spec b 0); [discriminate|]. exfalso. cbn in Hlt. nia.
  - destruct (Z.eqb_spec b 0); [discriminate|].
    assert (Hr := Z.mod_pos_bound a b ltac:(lia)).
    assert (Hd := Z.div_mod a b ltac:(lia)).
    assert (1 <= a / b) by (apply Z.div_le_lower_bound; lia).
    specialize (IH b (a mod b) ltac:(lia)).
    destruct (egcd n b (a mod b)) as [[[g' x'] y']|]; [discriminate|].
    exfalso. apply IH; [|reflexivity].
    rewrite Nat2Z.inj_succ, Z.pow_succ_r in Hlt by lia. nia.
Qed.

Lemma egcd_total a b : 0 <= a -> 0 <= b -> egcd (egcd_fuel a b) a b <> None.
Proof.
  intros Ha Hb. unfold egcd_fuel. rewrite !Z.abs_eq by lia.
  pose proof (Z.log2_nonneg a). pose proof (Z.log2_nonneg b).
  pose proof (lt_pow2_log2 a Ha). pose proof (lt_pow2_log2 b Hb).
  assert (Hab : a * b < 2 ^ (Z.log2 a + Z.log2 b + 2)).
  { replace (Z.log2 a + Z.log2 b + 2) with ((Z.log2 a + 1) + (Z.log2 b + 1)) by lia.
    rewrite Z.pow_add_r by lia. nia. }
  destruct (Z.leb_spec b a).
  - apply egcd_fuel_le; [lia|]. rewrite Z2Nat.id by lia.
    eapply Z.lt_le_trans; [exact Hab|]. apply Z.pow_le_mono_r; lia.
  - replace (Z.to_nat (Z.log2 a + Z.log2 b + 4)) with (S (Z.to_nat (Z.log2 a + Z.log2 b + 3))) by lia.
    cbn [egcd]. destruct (Z.eqb_spec b 0); [discriminate|].
    rewrite Z.mod_small by lia.
    pose proof (egcd_fuel_le (Z.to_nat (Z.log2 a + Z.log2 b + 3)) b a ltac:(lia)) as Hf.
    destruct (egcd _ b a) as [[[g x] y]|]; [discriminate|].
    exfalso. apply Hf; [|reflexivity]. rewrite Z2Nat.id by lia.
    eapply Z.lt_le_trans with (2 ^ (Z.log2 a + Z.log2 b + 2)); [lia|].
    apply Z.pow_le_mono_r; lia.
Qed.

Theorem div_refines_spec a b p :
  prime p -> 2 < p -> 0 <= a < p -> 0 <= b < p -> div_spec a b p (div a b p).
Proof.
  intros Hprime Hp Ha Hb. unfold div, mod_inverse.
  pose proof (egcd_total b p ltac:(lia) ltac:(lia)) as Htot.
  destruct (egcd (egcd_fuel b p) b p) as [[[g x] y]|] eqn:E; [|congruence]. clear Htot.
  destruct (egcd_spec _ b p g x y ltac:(lia) ltac:(lia) E) as [Hbez Hg].
  destruct (Z.eqb_spec b 0) as [->|Hb0].
  - rewrite Z.gcd_0_l, Z.abs_eq in Hg by lia. rewrite Hg in *.
    destruct (Z.eqb_spec p 1); [lia|]. cbn. reflexivity.
  - assert (Hrel : Z.gcd b p = 1).
    { apply Zgcd_1_rel_prime. apply rel_prime_le_prime; [assumption|lia]. }
    rewrite Hrel in Hg. rewrite Hg in *. cbn [Z.eqb bind Pos.eqb].
    set (ri := if x <? 0 then x + p else x).
    assert (Hri : exists k, ri * b = 1 + k * p).
    { unfold ri. destruct (Z.ltb_spec x 0); [exists (b - y)|exists (- y)]; lia. }
    destruct Hri as [k Hk]. cbn. split; [assumption|]. split.
    + unfold mul. apply modulus_range; lia.
    + unfold mul. rewrite modulus_spec by lia.
      rewrite Z.mul_mod_idemp_l by lia.
      replace (a * ri * b) with (a + (a * k) * p) by nia.
      rewrite Z_mod_plus_full. apply Z.mod_small; lia.
Qed.

Lemma spec_canonical o a b p c :
  2 < p -> 0 <= a < p -> 0 <= b < p -> o <> ODiv -> spec o a b p = Ok c -> 0 <= c < p.
Proof.
  intros Hp Ha Hb Hd He.
  assert (Hmod : forall x, 0 <= x mod p < p) by (intros; apply Z.mod_pos_bound; lia).
  assert (Hb2z : forall x, 0 <= b2z x < p) by (intros; apply b2z_range; lia).
  assert (Hdiv : forall d, 0 <= d -> 0 <= a / d < p) by (intros d Hd0; pose proof (div_range a d); lia).
  assert (Hshr : forall k, 0 <= shr_doc a k < p) by (intros; apply Hdiv, Z.pow_nonneg; lia).
  enough (H : match spec o a b p with Ok c => 0 <= c < p | _ => True end) by (rewrite He in H; exact H).
  destruct o; try congruence; cbn [spec]; auto.
  - destruct (Z.eqb_spec b 0); [exact I|]. apply Hdiv. lia.
  - destruct (Z.eqb_spec b 0); [exact I|]. pose proof (Z.mod_pos_bound a b). lia.
  - destruct (b <=? p / 2); [apply Hmod|apply Hshr].
  - destruct (b <=? p / 2); [apply Hshr|apply Hmod].
Qed.

(* the documented value of an operator, division included: the quotient is the
   canonical c with c * b = a (mod p), everything else is Spec.FieldSpec.spec *)
Definition documented (o : fop) (a b p v : Z) : Prop :=
  match o with
  | ODiv => b <> 0 /\ 0 <= v < p /\ (v * b) mod p = a
  | _ => spec o a b p = Ok v
  end.

Lemma fop_div_dec o : {o = ODiv} + {o <> ODiv}.
Proof. destruct o; (left; reflexivity) || (right; discriminate). Qed.

Lemma documented_spec o a b p v : o <> ODiv -> documented o a b p v = (spec o a b p = Ok v).
Proof. destruct o; congruence || reflexivity. Qed.

Lemma eval_Ok_spec o a b p v :
  2 < p -> 0 <= a < p -> 0 <= b < p -> o <> ODiv -> eval o a b p = Ok v -> spec o a b p = Ok v.
Proof.
  intros Hp Ha Hb Hd He. rewrite eval_spec in He by assumption.
  destruct (is_shift o && (2 ^ 64 <=? Z.min b (p - b))); [discriminate|exact He].
Qed.

Theorem eval_documented o a b p v :
  prime p -> 2 < p -> 0 <= a < p -> 0 <= b < p -> eval o a b p = Ok v -> documented o a b p v.
Proof.
  intros Hprime Hp Ha Hb He. destruct (fop_div_dec o) as [->|Hd].
  - pose proof (div_refines_spec a b p Hprime Hp Ha Hb) as Hs. cbn [eval] in He. rewrite He in Hs. exact Hs.
  - rewrite documented_spec by assumption. apply eval_Ok_spec; assumption.
Qed.

Lemma documented_canonical o a b p v :
  2 < p -> 0 <= a < p -> 0 <= b < p -> documented o a b p v -> 0 <= v < p.
Proof.
  intros Hp Ha Hb. destruct (fop_div_dec o) as [->|Hd]; [cbn; tauto|].
  rewrite documented_spec by assumption. apply spec_canonical; assumption.
Qed.

Lemma documented_functional o a b p v1 v2 :
  prime p -> 0 <= b < p -> documented o a b p v1 -> documented o a b p v2 -> v1 = v2.
Proof.
  intros Hprime Hb. destruct (fop_div_dec o) as [->|Hd].
  - intros (Hb0 & R1 & E1) (_ & R2 & E2). exact (div_unique a b p v1 v2 Hprime Hb Hb0 R1 R2 E1 E2).
  - rewrite !documented_spec by assumption. congruence.
Qed.

Theorem field_canonical o a b p c :
  prime p -> 2 < p -> Z.log2 p < 2 ^ 64 -> 0 <= a < p -> 0 <= b < p ->
  eval o a b p = Ok c -> 0 <= c < p.
Proof.
  intros Hprime Hp _ Ha Hb He.
  exact (documented_canonical o a b p c Hp Ha Hb (eval_documented o a b p c Hprime Hp Ha Hb He)).
Qed.

(* the bound Z.log2 p < 2^64 of C16's statement is not needed for this *)
Theorem eval_never_panics o a b p :
  prime p -> 2 < p -> 0 <= a < p -> 0 <= b < p ->
  (exists c, eval o a b p = Ok c) \/
  (eval o a b p = Err EDivisionByZero /\
   (((o = ODiv \/ o = OIDiv \/ o = OMod) /\ b = 0) \/
    (o = OShl \/ o = OShr) /\ 2 ^ 64 <= b /\ 2 ^ 64 <= p - b)).
Proof.
  intros Hprime Hp Ha Hb. destruct (fop_div_dec o) as [->|Hd].
  - cbn [eval]. pose proof (div_refines_spec a b p Hprime Hp Ha Hb) as Hs.
    destruct (div a b p) as [c|[]| |]; cbn in Hs; try contradiction; eauto.
    right. split; [reflexivity|]. left. tauto.
  - rewrite eval_spec by assumption.
    destruct (is_shift o) eqn:Hs; cbn [andb].
    + destruct (Z.leb_spec (2 ^ 64) (Z.min b (p - b))).
      * right. split; [reflexivity|]. right. split; [destruct o; try discriminate; tauto|lia].
      * left. destruct o; try discriminate; cbn [spec]; destruct (b <=? p / 2); eauto.
    + destruct o; try discriminate; try congruence; cbn [spec]; eauto.
      * destruct (Z.eqb_spec b 0); eauto. right. split; [reflexivity|]. left. tauto.
      * destruct (Z.eqb_spec b 0); eauto. right. split; [reflexivity|]. left. tauto.
Qed.

Theorem field_never_panics o a b p :
  prime p -> 2 < p -> Z.log2 p < 2 ^ 64 -> 0 <= a < p -> 0 <= b < p ->
  (exists c, eval o a b p = Ok c) \/
  (eval o a b p = Err EDivisionByZero /\
   (((o = ODiv \/ o = OIDiv \/ o = OMod) /\ b = 0) \/
    (o = OShl \/ o = OShr) /\ 2 ^ 64 <= b /\ 2 ^ 64 <= p - b)).
Proof. intros Hprime Hp _. exact (eval_never_panics o a b p Hprime Hp). Qed.

Lemma bits_ge0 x : 0 <= bits x.
Proof. unfold bits. destruct (x =? 0); [lia|]. pose proof (Z.log2_nonneg (Z.abs x)). lia. Qed.

Lemma radix_len_ge1 x : 1 <= radix_len x.
Proof. unfold radix_len. destruct (x =? 0); [lia|]. pose proof (Z.log2_nonneg (Z.abs x)). lia. Qed.

Lemma bits_mul_pow2 l k : 0 <= k -> bits (l * 2 ^ k) = if l =? 0 then 0 else bits l + k.
Proof.
  intros Hk. unfold bits. assert (H2 : 0 < 2 ^ k) by (apply Z.pow_pos_nonneg; lia).
  destruct (Z.eqb_spec l 0) as [->|Hl]; [reflexivity|].
  destruct (Z.eqb_spec (l * 2 ^ k) 0) as [E|_]; [nia|].
  rewrite Z.abs_mul, (Z.abs_eq (2 ^ k)) by lia. rewrite Z.log2_mul_pow2 by lia. lia.
Qed.

Lemma bits_pow2 k : 0 <= k -> bits (2 ^ k) = k + 1.
Proof. intros Hk. rewrite <- (Z.mul_1_l (2 ^ k)), bits_mul_pow2 by lia. exact (Z.add_comm 1 k). Qed.

(* one direct call.  Value and work come from one definition (shl_direct_w / shr_direct_w); the value
   part is the shl_direct / shr_direct of the refinement theorems *)
Lemma shl_direct_w_value l r p : fst (shl_direct_w l r p) = shl_direct l r p.
Proof.
  unfold shl_direct_w, shl_direct, mask, pow2_tick, sized.
  destruct (to_usize r) as [k|]; [|reflexivity]. destruct (radix_len p <=? k); reflexivity.
Qed.

Lemma shr_direct_w_value l r p : fst (shr_direct_w l r p) = shr_direct l r p.
Proof.
  unfold shr_direct_w, shr_direct, pow2_tick.
  destruct (to_usize r) as [k|]; [|reflexivity]. destruct (bits l <=? k); reflexivity.
Qed.

Definition direct_w (left : bool) (l r p : Z) : outcome Z * shift_work :=
  if left then shl_direct_w l r p else shr_direct_w l r p.

(* the record says `2^k was built` exactly when the value is the one formed from 2^k, and then k is
   the count, below the mask width (left) or the operand's bit size (right); when it says that no
   power was built, the value is 0 or the error; the sizes recorded are bounded by the bit sizes *)
Lemma direct_w_work left l r p :
  (sw_calls (snd (direct_w left l r p)) = 1)%nat /\
  (forall k, sw_built (snd (direct_w left l r p)) = Some k ->
     0 <= k < 2 ^ 64 /\ r = k /\
     ((k < radix_len p /\ fst (direct_w left l r p) = Ok (modulus (Z.land (l * 2 ^ k) (mask p)) p)) \/
      (k < bits l /\ fst (direct_w left l r p) = Ok (Z.quot l (2 ^ k))))) /\
  (sw_built (snd (direct_w left l r p)) = None ->
     sw_bits (snd (direct_w left l r p)) = 0 /\
     (fst (direct_w left l r p) = Ok 0 \/ fst (direct_w left l r p) = Err EDivisionByZero)) /\
  0 <= sw_bits (snd (direct_w left l r p)) <= bits l + radix_len p + 1.
Proof.
  pose proof (bits_ge0 l) as Hb. pose proof (radix_len_ge1 p) as Hr.
  pattern (direct_w left l r p). set (P := fun x => _).
  assert (Hno : forall v, v = Ok 0 \/ v = Err EDivisionByZero -> P (v, no_work)).
  { intros v Hv. subst P. cbn. split; [reflexivity|]. split; [discriminate|]. split; [auto|lia]. }
  unfold direct_w, shl_direct_w, shr_direct_w, to_usize.
  destruct (Z.leb_spec 0 r), (Z.ltb_spec r (2 ^ 64)); cbn [andb]; try (destruct left; apply Hno; auto).
  destruct left.
  - destruct (Z.leb_spec (radix_len p) r); [apply Hno; auto|].
    subst P. cbn [pow2_tick sized no_work fst snd sw_calls sw_built sw_bits]. fold (mask p).
    split; [reflexivity|]. split; [intros k [= <-]; auto 6|]. split; [discriminate|].
    rewrite bits_pow2, bits_mul_pow2, bits_pow2 by lia. destruct (l =? 0); lia.
  - destruct (Z.leb_spec (bits l) r); [apply Hno; auto|].
    subst P. cbn [pow2_tick no_work fst snd sw_calls sw_built sw_bits].
    split; [reflexivity|]. split; [intros k [= <-]; auto 6|]. split; [discriminate|].
    rewrite bits_pow2 by lia. lia.
Qed.

Lemma direct_w_value left l r p :
  fst (direct_w left l r p) = if left then shl_direct l r p else shr_direct l r p.
Proof. destruct left; [apply shl_direct_w_value|apply shr_direct_w_value]. Qed.

Lemma direct_not_outoffuel (left : bool) (l r p : Z) :
  fst (direct_w left l r p) <> OutOfFuel.
Proof.
  rewrite direct_w_value. unfold shl_direct, shr_direct.
  destruct left, (to_usize r) as [k|]; try discriminate;
    [destruct (radix_len p <=? k)|destruct (bits l <=? k)]; discriminate.
Qed.

Lemma shift_w_unfold n left l r p : 0 < p ->
  shift_w (S (S n)) left l r p =
  if r <=? Z.quot p 2 then direct_w left l r p
  else (fst (direct_w (negb left) l (p - r) p),
        {| sw_calls := S (sw_calls (snd (direct_w (negb left) l (p - r) p)));
           sw_built := sw_built (snd (direct_w (negb left) l (p - r) p));
           sw_bits := sw_bits (snd (direct_w (negb left) l (p - r) p)) |}).
Proof.
  intros Hp. cbn [shift_w]. cbv zeta. unfold direct_w.
  destruct (Z.leb_spec r (Z.quot p 2)) as [|Hr]; [reflexivity|]. rewrite (mirror_count p r Hp Hr).
  destruct (if negb left then _ else _). reflexivity.
Qed.

Lemma shift_w_value fuel left l r p :
  0 < p -> (2 <= fuel)%nat ->
  fst (shift_w fuel left l r p) = if left then shift_l l r p else shift_r l r p.
Proof.
  intros Hp Hf. destruct fuel as [|[|n]]; try lia. rewrite shift_w_unfold by lia.
  destruct left; [rewrite shift_l_unfold by lia|rewrite shift_r_unfold by lia];
    destruct (r <=? Z.quot p 2); apply direct_w_value.
Qed.

Theorem shift_bounded_work fuel left l r p :
  0 < p -> (2 <= fuel)%nat ->
  fst (shift_w fuel left l r p) = (if left then shift_l l r p else shift_r l r p) /\
  fst (shift_w fuel left l r p) <> OutOfFuel /\
  (1 <= sw_calls (snd (shift_w fuel left l r p)) <= 2)%nat /\
  (forall k, sw_built (snd (shift_w fuel left l r p)) = Some k ->
     0 <= k < 2 ^ 64 /\ (r = k \/ r = p - k) /\
     ((k < radix_len p /\ fst (shift_w fuel left l r p) = Ok (modulus (Z.land (l * 2 ^ k) (mask p)) p)) \/
      (k < bits l /\ fst (shift_w fuel left l r p) = Ok (Z.quot l (2 ^ k))))) /\
  (sw_built (snd (shift_w fuel left l r p)) = None ->
     sw_bits (snd (shift_w fuel left l r p)) = 0 /\
     (fst (shift_w fuel left l r p) = Ok 0 \/ fst (shift_w fuel left l r p) = Err EDivisionByZero)) /\
  0 <= sw_bits (snd (shift_w fuel left l r p)) <= bits l + radix_len p + 1.
Proof.
  intros Hp Hf. split; [apply shift_w_value; assumption|].
  destruct fuel as [|[|n]]; try lia. rewrite shift_w_unfold by lia.
  destruct (r <=? Z.quot p 2).
  - destruct (direct_w_work left l r p) as (Hc & Hk & Hn & Hs).
    split; [apply direct_not_outoffuel|]. split; [lia|]. split; [|split; assumption].
    intros k E. destruct (Hk k E) as (H1 & H2 & H3). auto.
  - cbn [fst snd sw_calls sw_built sw_bits].
    destruct (direct_w_work (negb left) l (p - r) p) as (Hc & Hk & Hn & Hs).
    split; [apply direct_not_outoffuel|]. split; [lia|]. split; [|split; assumption].
    intros k E. destruct (Hk k E) as (H1 & H2 & H3). split; [assumption|]. split; [right; lia|assumption].
Qed.

(* every function except `**` and the shifts answers canonically WHATEVER integers it is given
   (the value itself is fixed by the property only for field elements) *)
Theorem eval_canonical_any_integers o a b p c :
  1 < p -> o <> OPow -> o <> OShl -> o <> OShr ->
  eval o a b p = Ok c -> 0 <= c < p.
Proof.
  intros Hp Hpow Hshl Hshr.
  assert (H01 : forall x : bool, 0 <= b2z x < p) by (intros []; cbn; lia).
  assert (Hm : forall x, 0 <= modulus x p < p) by (intros; apply modulus_range; lia).
  destruct o; try congruence; cbn [eval]; unfold not_eq, lesser_eq, greater, greater_eq;
    rewrite ?not_truth, ?bool_or_truth, ?bool_and_truth; try (intros [= <-]; apply Hm || apply H01).
  - unfold div, bind. destruct (mod_inverse b p) as [[ri|]| | |]; try discriminate.
    intros [= <-]. apply Hm.
  - unfold idiv. cbv zeta. destruct (Z.eqb_spec (modulus b p) 0); [discriminate|]. intros [= <-].
    pose proof (Hm a). pose proof (Hm b).
    rewrite Z.quot_div_nonneg by lia. pose proof (div_range (modulus a p) (modulus b p)). lia.
  - unfold mod_op. cbv zeta. destruct (Z.eqb_spec (modulus b p) 0); [discriminate|]. intros [= <-].
    pose proof (Hm b). pose proof (modulus_range (modulus a p) (modulus b p)). lia.
Qed.

Lemma spec_exec_correct o a b p :
  2 < p -> 0 <= a < p -> 0 <= b < p -> spec_exec o a b p = spec o a b p.
Proof.
  intros Hp Ha Hb.
  assert (Hshr : forall k, shr_exec a k = shr_doc a k).
  { intros k. unfold shr_exec. destruct (Z.leb_spec (Z.log2 a + 1) k); [|reflexivity].
    symmetry. apply shr_doc_small with (Z.log2 a + 1); [|assumption]. pose proof (lt_pow2_log2 a). lia. }
  assert (Hshl : forall k, shl_exec a k p = shl_doc a k p).
  { intros k. unfold shl_exec. destruct (Z.leb_spec (nbits p) k); [|reflexivity].
    symmetry. apply shl_doc_big; lia. }
  destruct o; cbn [spec_exec spec]; rewrite ?Hshr, ?Hshl; try reflexivity.
  rewrite Zpow_mod_spec by lia. reflexivity.
Qed.
