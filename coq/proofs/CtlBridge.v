(* C07: the control-dependence fact of lifted graphs (Proofs.CtlStructure, stated on the
   skeleton graphs of Model.Lift with the path notions of Spec.CfgSpec) carried over to an
   Ir.cfg with its immediate-dominator TABLE, i.e. to Spec.DegSem.decides.

   Hypothesis that links the two graphs: the IR graph c has, block by block, the same
   predecessor and successor lists as the lifted skeleton graph g
   (Model.DegGraph.dom_graph_of c = Proofs.MirrorsDom.to_dom g).  Proofs.LiftFullIr.lifted_dom
   proves it for the graph Model.LiftFull.lift_to_ir returns; SSA conversion and
   propagation rewrite statements only (C14_construction_is_erasure compares the lists;
   Propagate uses set_stmts).

   Then, with the consistent graph and the true table (Model.DegGraph), EVERY block b whose
   decision can change the edge along which the join j is entered (CtlSpec.can_split) is
   visited by the table walk of Spec.DegSem: [above idom (idom j) p b] for a predecessor p
   of j; if b ends with a condition, [decides] names it. *)
From Coq Require Import ZArith Lia.
From stdpp Require Import list list_numbers sets.
Require Model.Base Model.Ir Model.Lift Model.Dom Model.DegGraph Model.DegJustify.
Require Spec.DomSpec Spec.SsaDomSpec Spec.CfgSpec Spec.CtlSpec Spec.DegSem.
Require Proofs.MirrorsDom Proofs.SsaDomBridge Proofs.SsaDomTheory Proofs.CtlStructure Proofs.DegGraphRooted Proofs.DegGraphIdom.

Section Bridge.
Context (c : Ir.cfg) (idom : list (option N)) (g : list Lift.block).
Context (Hsame : DegGraph.dom_graph_of c = MirrorsDom.to_dom g).
Context (Hgc : DegGraph.graph_consistent c = true).
Context (Htab : DegGraph.idom_is_dominator_table c idom = true).
Context (Hshape : DegJustify.idom_shape c idom = true).

Lemma same_graph : SsaDomBridge.graph_of c = MirrorsDom.to_dom g.
Proof. exact Hsame. Qed.

Lemma cdom_iff i j : SsaDomSpec.cdom c i j ↔ CfgSpec.dominates g i j.
Proof.
  rewrite SsaDomBridge.dom_iff, same_graph. apply MirrorsDom.dom_to_dominates.
Qed.

Lemma cedge_iff i j : SsaDomSpec.cedge c i j ↔ CfgSpec.edge g i j.
Proof.
  rewrite SsaDomBridge.edge_iff, same_graph. symmetry. apply MirrorsDom.edge_to_dom.
Qed.

Lemma cidom_iff d j : SsaDomSpec.cidom c d j ↔ CtlSpec.idom_of g d j.
Proof.
  unfold SsaDomSpec.cidom, SsaDomSpec.csdom, CtlSpec.idom_of, CtlSpec.sdominates.
  by setoid_rewrite cdom_iff.
Qed.

Theorem on_dom_chain_above j bj b : nth_error (Ir.c_blocks c) j = Some bj →
  CtlSpec.on_dom_chain g j b →
  ∃ p, In p (Ir.b_preds bj) ∧
       DegSem.above idom (match nth_error idom (N.to_nat (Ir.b_index bj)) with Some o => o | None => None end)
                    p (N.of_nat b).
Proof.
  intros Hj (p & d & He & Hbp & Hid & Hdb).
  apply cedge_iff in He. apply cdom_iff in Hbp. apply cidom_iff in Hid. apply cdom_iff in Hdb.
  assert (Hjn : j < length (Ir.c_blocks c)) by (apply nth_error_Some; congruence).
  exists (N.of_nat p). split; [exact (DegGraphRooted.edge_is_pred c Hgc j bj p Hj He)|].
  rewrite (DegGraphRooted.consistent_index c Hgc j bj Hj), Nat2N.id.
  rewrite (DegGraphIdom.tab_of_cidom c idom Hgc Htab j d Hjn Hid).
  apply (DegGraphIdom.above_iff c idom Hgc Htab Hshape d (N.of_nat p) (N.of_nat b)); rewrite ?Nat2N.id.
  - exact (SsaDomTheory.cedge_lt c _ _ He).
  - exact (SsaDomTheory.cidom_dom_pred c _ _ _ Hid He Hjn).
  - split; assumption.
Qed.

Theorem lifted_split_decides (body : Lift.sk) : Lift.lift body = Base.Ok g →
  ∀ j bj b bb m cond t f,
  nth_error (Ir.c_blocks c) j = Some bj → nth_error (Ir.c_blocks c) b = Some bb →
  CtlSpec.can_split g b j → CtlSpec.is_join g j →
  List.last (Ir.b_stmts bb) (Ir.SLog m []) = Ir.SIf m cond t f →
  DegSem.decides c idom bj cond.
Proof.
  intros Hl j bj b bb m cond t f Hj Hb Hsp Hjoin Hlast.
  pose proof (CtlStructure.lifted_control_dependence body g Hl b j Hsp Hjoin) as Hch.
  destruct (on_dom_chain_above j bj b Hj Hch) as (p & Hp & Hab).
  exists p, (N.of_nat b), bb, m, t, f. split; [exact Hp|]. split; [exact Hab|].
  rewrite Nat2N.id. split; [exact Hb|exact Hlast].
Qed.
End Bridge.
