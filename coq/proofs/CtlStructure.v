(* C07: in the graph Model.Lift.lift returns, a block b that can split a join j
   (Spec.CtlSpec) dominates a predecessor of j and is dominated by the immediate
   dominator of j: it lies on the dominator-tree path that Spec.DegSem.above walks
   ([lifted_control_dependence]).  Every block with two successors heads a region
   - the blocks b+1..hi, entered through b only and left towards one block only -
   which lifting builds statement by statement ([visit_reg_all]); in any graph a
   block that heads a region and splits j dominates a predecessor of j
   ([region_split]). *)
From stdpp Require Import list sets.
Require Import Model.Lift Spec.CfgSpec Spec.CtlSpec.
Require Import Proofs.LiftBasics Proofs.LiftInv Proofs.LiftSteps Proofs.LiftProofs Proofs.LiftTheorems.
Require Model.Dom Spec.DomSpec Proofs.DomProofs Proofs.DomOracle Proofs.MirrorsDom.
Import Base(outcome, Ok, Err, Panic, OutOfFuel, bind).

Section paths.
  Context (g : graph).

  Lemma path_app a l b l' c : path g a l b -> path g b l' c -> path g a (l ++ l') c.
  Proof. induction 1; simpl; [done|]. intros. eapply path_cons; eauto. Qed.

  Lemma path_start_lt a l b : path g a l b -> a < length g.
  Proof. destruct 1 as [|i k l j (bi & Hb & _) _]; [done|]. by eapply lookup_lt_Some. Qed.

  Lemma path_end_in a l b : path g a l b -> b ∈ a :: l.
  Proof. induction 1; set_solver. Qed.

  Lemma dominates_refl b : dominates g b b.
  Proof. intros l H. by eapply path_end_in. Qed.

  Lemma path_app_inv a l1 l2 c : path g a (l1 ++ l2) c -> exists b, path g a l1 b /\ path g b l2 c.
  Proof.
    revert a. induction l1 as [|k l1 IH]; intros a H; simpl in H.
    - exists a. split; [|done]. apply path_nil. by eapply path_start_lt.
    - inversion H as [|? ? ? ? He Hp]; subst. destruct (IH _ Hp) as (b & H1 & H2).
      exists b. split; [|done]. by eapply path_cons.
  Qed.

  Lemma dominates_preds d j :
    j <> 0 -> (forall p, edge g p j -> dominates g d p) -> dominates g d j.
  Proof.
    intros Hj H l Hp. destruct (list_snoc_cases l) as [->|(l' & z & ->)]; [by inversion Hp|].
    apply path_app_inv in Hp as (p & H1 & H2). inversion H2 as [|? ? ? ? He Hn]; subst. inversion Hn; subst.
    rewrite app_comm_cons. apply elem_of_app. left. by apply (H p).
  Qed.

  Lemma last_cons_last_of (a : nat) l : last (a :: l) = Some (last_of a l).
  Proof.
    unfold last_of. revert a. induction l as [|x l IH]; intros a; [done|].
    rewrite last_cons_cons, IH. done.
  Qed.

  Lemma path_last_of a l b : path g a l b -> b = last_of a l.
  Proof.
    intros H. assert (last (a :: l) = Some b) as E.
    { induction H as [|i k l j He Hp IH]; [done|]. by rewrite last_cons_cons. }
    rewrite last_cons_last_of in E. by injection E.
  Qed.

  Lemma last_of_in a l : l = [] /\ last_of a l = a \/ last_of a l ∈ l.
  Proof.
    unfold last_of. destruct (last l) as [x|] eqn:E; simpl.
    - right. apply last_Some in E as (l' & ->). set_solver.
    - left. by apply last_None in E.
  Qed.

  Lemma route_last_edge b m j : path g b (m ++ [j]) j -> edge g (last_of b m) j.
  Proof.
    intros H. apply path_app_inv in H as (x & H1 & H2).
    rewrite <- (path_last_of _ _ _ H1). by inversion H2.
  Qed.

  Lemma split_dom_above b j m1 m2 d :
    route g b m1 j -> route g b m2 j -> (forall x, x ∈ m1 -> x ∉ m2) ->
    dominates g d j -> d <> j -> dominates g d b.
  Proof.
    intros (P1 & _ & _) (P2 & _ & _) Hdis Hd Hne l Hl.
    destruct (decide (d ∈ 0 :: l)) as [|Hnot]; [done|exfalso].
    destruct (decide (d ∈ m1)) as [H1|H1].
    - specialize (Hd _ (path_app _ _ _ _ _ Hl P2)). rewrite app_comm_cons, !elem_of_app in Hd.
      destruct Hd as [?|[?|?%elem_of_list_singleton]]; [done|by eapply Hdis|done].
    - specialize (Hd _ (path_app _ _ _ _ _ Hl P1)). rewrite app_comm_cons, !elem_of_app in Hd.
      destruct Hd as [?|[?|?%elem_of_list_singleton]]; done.
  Qed.

  (* the blocks b+1 .. hi are entered from b only and left towards t only; b
     itself leaves towards t' *)
  Record region (b hi t t' : nat) : Prop := {
    rg_in : forall i x, b < i <= hi -> edge g x i -> b <= x <= hi;
    rg_out : forall x y, b < x <= hi -> edge g x y -> b < y <= hi \/ y = t;
    rg_top : forall y, edge g b y -> b < y <= hi \/ y = t';
    rg_tt : t' = t \/ t = b;
  }.

  Section region.
    Context (b hi t t' : nat) (Hr : region b hi t t').
    Let inr (x : nat) : Prop := b < x <= hi.

    Lemma region_dom_aux x l i : path g x l i -> inr i -> ~ inr x -> b ∈ x :: l.
    Proof.
      induction 1 as [|x k l i He Hp IH]; intros Hi Hx; [done|].
      destruct (decide (inr k)) as [Hk|Hk].
      - pose proof (rg_in _ _ _ _ Hr _ _ Hk He). assert (x = b) as -> by (unfold inr in *; lia). set_solver.
      - specialize (IH Hi Hk). set_solver.
    Qed.

    Lemma region_dom i : inr i -> dominates g b i.
    Proof. intros Hi l Hl. eapply region_dom_aux; [done|done|]. unfold inr. lia. Qed.

    Lemma exits x l y : path g x l y -> b ∉ l -> ~ (y = b \/ inr y) ->
      (x = b -> t' ∈ l) /\ (inr x -> t ∈ l).
    Proof.
      induction 1 as [|x k l y He Hp IH]; intros Hb Hy; [split; intros Hx; destruct Hy; auto|].
      apply not_elem_of_cons in Hb as [Hk Hb]. destruct (IH Hb Hy) as [_ IHk]. split.
      - intros ->. destruct (rg_top _ _ _ _ Hr _ He) as [Hin| ->]; [|apply elem_of_list_here].
        apply elem_of_list_further. destruct (rg_tt _ _ _ _ Hr) as [->|Ht]; [auto|].
        destruct Hb. rewrite <- Ht. auto.
      - intros Hx. destruct (rg_out _ _ _ _ Hr _ _ Hx He) as [Hin| ->]; [|apply elem_of_list_here].
        apply elem_of_list_further. auto.
    Qed.

    Lemma route_good m j : route g b m j ->
      (exists p, edge g p j /\ dominates g b p) \/ t' ∈ m.
    Proof.
      intros (P & Hb & _). pose proof (route_last_edge _ _ _ P) as He.
      apply path_app_inv in P as (p & P & _). rewrite <- (path_last_of _ _ _ P) in He.
      destruct (decide (p = b \/ inr p)) as [Hp|Hp]; [left|right; by apply (exits _ _ _ P Hb Hp)].
      exists p. split; [done|]. destruct Hp as [->|Hp]; [apply dominates_refl|by apply region_dom].
    Qed.

    Lemma region_split j m1 m2 :
      route g b m1 j -> route g b m2 j -> (forall x, x ∈ m1 -> x ∉ m2) ->
      exists p, edge g p j /\ dominates g b p.
    Proof.
      intros R1 R2 Hdis. destruct (route_good m1 j R1) as [?|H1]; [done|].
      destruct (route_good m2 j R2) as [?|H2]; [done|]. by destruct (Hdis t').
    Qed.
  End region.
End paths.

Lemma path_suffix g d a x r c : path g d (a ++ x :: r) c -> path g x r c.
Proof.
  revert d. induction a as [|k a IH]; intros d H; simpl in H; inversion H; subst; [done|]. by eapply IH.
Qed.

Lemma last_of_app d a x r : last_of d (a ++ x :: r) = last_of x r.
Proof.
  unfold last_of at 1. rewrite last_app, (last_cons_last_of x r). done.
Qed.

Lemma last_such (P : nat -> Prop) `{!forall x, Decision (P x)} L :
  Exists P L -> exists pre x m, L = pre ++ x :: m /\ P x /\ Forall (not ∘ P) m.
Proof.
  induction L as [|y L IH]; intros Hex; [by apply Exists_nil in Hex|].
  destruct (decide (Exists P L)) as [HL|HL].
  - destruct (IH HL) as (pre & x & m & -> & Hx & Hm). by exists (y :: pre), x, m.
  - apply Exists_cons in Hex as [Hy|?]; [|done].
    exists [], y, L. split; [done|]. split; [done|]. by apply not_Exists_Forall.
Qed.

Lemma walk_rest g d l j pre x r :
  path g d (l ++ [j]) j -> d :: l = pre ++ x :: r ->
  path g x (r ++ [j]) j /\ last_of d l = last_of x r /\ (forall y, y ∈ r -> y ∈ l) /\ x ∈ d :: l.
Proof.
  intros P E. destruct pre as [|d' pre]; injection E as -> ->.
  - split; [done|]. split; [done|]. split; [done|]. apply elem_of_list_here.
  - split; [|split; [apply last_of_app|split]].
    + rewrite <- app_assoc in P. by apply path_suffix in P.
    + intros y Hy. apply elem_of_app. right. by apply elem_of_list_further.
    + apply elem_of_list_further, elem_of_app. right. apply elem_of_list_here.
Qed.

(* b: the last block of the first walk that the second walk visits too; the
   second walk is taken from its last visit of b *)
Theorem split_exists g d l1 l2 j :
  path g d (l1 ++ [j]) j -> path g d (l2 ++ [j]) j -> j ∉ l1 -> j ∉ l2 ->
  last_of d l1 <> last_of d l2 ->
  exists b, b ∈ d :: l1 /\ b ∈ d :: l2 /\ can_split g b j.
Proof.
  intros P1 P2 Hj1 Hj2 Hlast.
  destruct (last_such (fun x => x ∈ d :: l2) (d :: l1)) as (pre1 & b & m1 & E1 & Hb & Hm1).
  { left. apply elem_of_list_here. }
  destruct (last_such (eq b) (d :: l2)) as (pre2 & ? & m2 & E2 & <- & Hm2).
  { apply Exists_exists. by exists b. }
  destruct (walk_rest g d l1 j pre1 b m1 P1 E1) as (Q1 & L1 & I1 & Hb1).
  destruct (walk_rest g d l2 j pre2 b m2 P2 E2) as (Q2 & L2 & I2 & _).
  rewrite Forall_forall in Hm1, Hm2.
  exists b. split; [done|]. split; [done|]. exists m1, m2. split; [|split; [|split]].
  - split; [done|]. split; [intros H; by apply (Hm1 b H)|intros H; by apply Hj1, I1].
  - split; [done|]. split; [intros H; by apply (Hm2 b H)|intros H; by apply Hj2, I2].
  - intros y Hy Hy'. apply (Hm1 y Hy). by apply elem_of_list_further, I2.
  - destruct m1 as [|? ?]; [|by left]. destruct m2 as [|? ?]; [|by right]. by rewrite L1, L2 in Hlast.
Qed.

Definition succs_of (g : graph) (i : nat) : list nat :=
  match g !! i with Some b => b_succs b | None => [] end.
Definition preds_of (g : graph) (i : nat) : list nat :=
  match g !! i with Some b => b_preds b | None => [] end.

Lemma edge_succs_of g i j : edge g i j <-> j ∈ succs_of g i.
Proof.
  unfold edge, succs_of. split.
  - intros (b & -> & H). done.
  - destruct (g !! i) as [b|]; [|set_solver]. intros H. by exists b.
Qed.

Lemma succs_of_ge g i : length g <= i -> succs_of g i = [].
Proof. intros H. unfold succs_of. by rewrite (proj2 (lookup_ge_None g i)). Qed.
Lemma preds_of_ge g i : length g <= i -> preds_of g i = [].
Proof. intros H. unfold preds_of. by rewrite (proj2 (lookup_ge_None g i)). Qed.

Lemma pedge_preds_of g i j : pedge g i j <-> i ∈ preds_of g j.
Proof.
  unfold pedge, preds_of. split.
  - intros (b & -> & H). done.
  - destruct (g !! j) as [b|]; [|by intros ?%elem_of_nil]. intros H. by exists b.
Qed.

Record linked (g g' : graph) (ps : list nat) (t : nat) : Prop := {
  lk_len : length g <= length g';
  lk_t : t < length g';
  lk_new : forall i, length g <= i < length g' -> i = t;
  lk_succs : forall i y, y ∈ succs_of g' i <-> y ∈ succs_of g i \/ (i ∈ ps /\ y = t);
  lk_preds : forall i x, i <> t -> (x ∈ preds_of g' i <-> x ∈ preds_of g i);
  lk_tpreds : forall x, x ∈ preds_of g' t <-> x ∈ preds_of g t \/ x ∈ ps;
}.

Lemma linked_of_edges g g' ps t :
  length g <= length g' -> t < length g' -> (forall i, length g <= i < length g' -> i = t) ->
  (forall i j, edge g' i j <-> edge g i j \/ (i ∈ ps /\ j = t)) ->
  (forall i j, pedge g' i j <-> pedge g i j \/ (i ∈ ps /\ j = t)) -> linked g g' ps t.
Proof.
  intros H1 H2 H3 He Hp. split; [done|done|done|..].
  - intros i y. rewrite <- !edge_succs_of. apply He.
  - intros i x Hne. rewrite <- !pedge_preds_of, Hp. split; [intros [?|[_ ?]]; done|by left].
  - intros x. rewrite <- !pedge_preds_of, Hp. split; [intros [?|[? _]]; auto|intros [?|?]; auto].
Qed.

Lemma closes_linked g ps d g' :
  closes g ps d g' -> (forall i, i ∈ ps -> i < length g) -> linked g g' ps (length g).
Proof.
  intros Hc Hps. destruct (closes_edges _ _ _ _ Hc Hps) as [He Hp]. pose proof (closes_length _ _ _ _ Hc) as Hl.
  apply linked_of_edges; [lia|lia| |done|done]. intros i Hi. lia.
Qed.

Lemma backs_linked g h ps g' :
  backs g h ps g' -> h < length g -> (forall i, i ∈ ps -> i < length g /\ i <> h) -> linked g g' ps h.
Proof.
  intros Hb Hh Hps. destruct (backs_edges _ _ _ _ Hb Hh Hps) as [He Hp]. pose proof (backs_length _ _ _ _ Hb) as Hl.
  apply linked_of_edges; [lia|lia| |done|done]. intros i Hi. lia.
Qed.

Lemma push_same g it l i :
  succs_of (alter (push_item it) l g) i = succs_of g i /\
  preds_of (alter (push_item it) l g) i = preds_of g i.
Proof.
  unfold succs_of, preds_of. rewrite lookup_alter_case. case_decide; destruct (g !! i); done.
Qed.

Definition preds_in (g : graph) (lo hi : nat) : Prop :=
  forall i x, lo < i <= hi -> x ∈ preds_of g i -> lo <= x <= hi.
Definition oreg (g : graph) (lo hi : nat) : Prop :=
  preds_in g lo hi /\ forall i y, lo <= i <= hi -> y ∈ succs_of g i -> lo < y <= hi.
Definition creg (g : graph) (lo hi t : nat) : Prop :=
  preds_in g lo hi /\ forall i y, lo <= i <= hi -> y ∈ succs_of g i -> lo < y <= hi \/ y = t.
Definition lreg (g : graph) (h hi : nat) : Prop :=
  preds_in g h hi /\ S h ∈ succs_of g h /\
  forall i y, h < i <= hi -> y ∈ succs_of g i -> h < y <= hi \/ y = h.

(* b heads a region b+1..hi below n: a loop body, left towards its header b only
   (lreg); blocks that nothing leaves yet (oreg); or blocks left towards one block
   t only (creg).  Q holds of the blocks that wait for their exit edge, which they
   will get together: a region that is closed contains none of them. *)
Definition R (g : graph) (n : nat) (Q : nat -> Prop) (b : nat) : Prop :=
  exists hi, b < hi < n /\
    ((lreg g b hi /\ forall x, b < x <= hi -> ~ Q x) \/
     oreg g b hi \/
     exists t, creg g b hi t /\ forall x, b <= x <= hi -> ~ Q x).

(* b has two successors, or will have once its exit edge is added *)
Definition cand (g : graph) (Q : nat -> Prop) (b : nat) : Prop :=
  (exists y1 y2, y1 <> y2 /\ y1 ∈ succs_of g b /\ y2 ∈ succs_of g b) \/
  (Q b /\ exists y, y ∈ succs_of g b).

Definition regs (g : graph) (l n : nat) (Q : nat -> Prop) : Prop :=
  forall b, l <= b < n -> cand g Q b -> R g n Q b.

Lemma R_same g g' n n' (Q Q' : nat -> Prop) b :
  (forall i y, b <= i < n -> (y ∈ succs_of g' i <-> y ∈ succs_of g i)) ->
  (forall i x, b < i < n -> (x ∈ preds_of g' i <-> x ∈ preds_of g i)) ->
  (forall x, b <= x < n -> Q' x -> Q x) -> n <= n' -> R g n Q b -> R g' n' Q' b.
Proof.
  intros Hs Hp HQ Hn (hi & Hhi & H). exists hi. split; [lia|].
  assert (Hpi : preds_in g b hi -> preds_in g' b hi).
  { intros H0 i x Hi Hx. apply (H0 i x Hi). apply Hp; [lia|done]. }
  destruct H as [((Hpr & HS & Hsu) & HnQ)|[(Hpr & Hsu)|(t & (Hpr & Hsu) & HnQ)]].
  - left. split; [split; [auto|split]|].
    + apply Hs; [lia|done].
    + intros i y Hi Hy. apply (Hsu i y Hi). apply Hs; [lia|done].
    + intros x Hx HQ'. apply (HnQ x Hx). apply HQ; [lia|done].
  - right. left. split; [auto|]. intros i y Hi Hy. apply (Hsu i y Hi). apply Hs; [lia|done].
  - right. right. exists t. split; [split; [auto|]|].
    + intros i y Hi Hy. apply (Hsu i y Hi). apply Hs; [lia|done].
    + intros x Hx HQ'. apply (HnQ x Hx). apply HQ; [lia|done].
Qed.

Lemma R_link g g' ps t n (Q Q' : nat -> Prop) b :
  linked g g' ps t -> (t < b \/ n <= t) ->
  (forall x, x ∈ ps -> Q x) -> (forall x, b <= x < n -> ~ Q' x) ->
  R g n Q b -> R g' n Q' b.
Proof.
  intros Hl Ht Hps HQ' (hi & Hhi & H). exists hi. split; [done|].
  assert (Hpi : preds_in g b hi -> preds_in g' b hi).
  { intros H0 i x Hi Hx. apply (H0 i x Hi). apply (lk_preds _ _ _ _ Hl); [lia|done]. }
  assert (Hnew : forall i y, y ∈ succs_of g' i -> y ∈ succs_of g i \/ Q i /\ y = t).
  { intros i y [?|[?%Hps ?]]%(lk_succs _ _ _ _ Hl); auto. }
  assert (HnQ' : forall x, b <= x <= hi -> ~ Q' x) by (intros x Hx; apply HQ'; lia).
  (* blocks of which none is in Q keep their successors *)
  assert (Hkeep : forall lo, (forall x, lo <= x <= hi -> ~ Q x) ->
            forall i y, lo <= i <= hi -> y ∈ succs_of g' i -> y ∈ succs_of g i).
  { intros lo HnQ i y Hi Hy. destruct (Hnew i y Hy) as [?|[HQi _]]; [done|by destruct (HnQ i)]. }
  destruct H as [[(Hpr & HS & Hsu) HnQ]|[(Hpr & Hsu)|(t0 & (Hpr & Hsu) & HnQ)]].
  - left. split; [split; [auto|split]|].
    + apply (lk_succs _ _ _ _ Hl). by left.
    + intros i y Hi Hy. apply (Hsu i y Hi), (Hkeep (S b)); [|lia|done]. intros x Hx. apply HnQ. lia.
    + intros x Hx. apply HnQ'. lia.
  - right. right. exists t. split; [split; [auto|]|done].
    intros i y Hi Hy. destruct (Hnew i y Hy) as [?|[_ ->]]; [left; by apply (Hsu i)|by right].
  - right. right. exists t0. split; [split; [auto|]|done].
    intros i y Hi Hy. by apply (Hsu i y Hi), (Hkeep b HnQ).
Qed.

Lemma regs_same g g' l n (Q Q' : nat -> Prop) :
  (forall i y, l <= i < n -> (y ∈ succs_of g' i <-> y ∈ succs_of g i)) ->
  (forall i x, l < i < n -> (x ∈ preds_of g' i <-> x ∈ preds_of g i)) ->
  (forall x, l <= x < n -> Q' x -> Q x) -> regs g l n Q -> regs g' l n Q'.
Proof.
  intros Hs Hp HQ H b Hb Hc. apply (R_same g g' n n Q Q' b).
  - intros i y Hi. apply Hs. lia.
  - intros i x Hi. apply Hp. lia.
  - intros x Hx. apply HQ. lia.
  - done.
  - apply (H b Hb). destruct Hc as [(y1 & y2 & Hne & H1 & H2)|[Hq (y & Hy)]].
    + left. exists y1, y2. split; [done|]. split; apply Hs; done.
    + right. split; [by apply HQ|]. exists y. by apply Hs.
Qed.

Lemma regs_join g l m n (Q1 Q2 Q : nat -> Prop) :
  m <= n -> (forall x, x < m -> Q x -> Q1 x) -> (forall x, m <= x -> Q x -> Q2 x) ->
  regs g l m Q1 -> regs g m n Q2 -> regs g l n Q.
Proof.
  intros Hmn H1 H2 HA HB b Hb Hc. destruct (decide (b < m)) as [Hlt|Hge].
  - apply (R_same g g m n Q1 Q b); try done.
    + intros x Hx. apply H1. lia.
    + apply HA; [lia|]. destruct Hc as [?|[Hq ?]]; [by left|right]. split; [by apply H1|done].
  - apply (R_same g g n n Q2 Q b); try done.
    + intros x Hx. apply H2. lia.
    + apply HB; [lia|]. destruct Hc as [?|[Hq ?]]; [by left|right]. split; [apply H2; [lia|done]|done].
Qed.

Lemma regs_link g g' ps t l n (Q Q' : nat -> Prop) :
  linked g g' ps t -> (t < l \/ n <= t) ->
  (forall x, x ∈ ps -> Q x) -> (forall x, l <= x < n -> ~ Q' x) ->
  regs g l n Q -> regs g' l n Q'.
Proof.
  intros Hl Ht Hps HQ' H b Hb Hc. apply (R_link g g' ps t n Q Q' b); try done.
  - lia.
  - intros x Hx. apply HQ'. lia.
  - apply (H b Hb). destruct Hc as [(y1 & y2 & Hne & H1 & H2)|[Hq _]]; [|by destruct (HQ' b Hb)].
    apply (lk_succs _ _ _ _ Hl) in H1. apply (lk_succs _ _ _ _ Hl) in H2.
    destruct H1 as [H1|[Hin ->]], H2 as [H2|[Hin' ->]].
    + left. by exists y1, y2.
    + right. split; [by apply Hps|by exists y1].
    + right. split; [by apply Hps|by exists y2].
    + done.
Qed.

Definition pend (g : graph) (ps : list nat) (x : nat) : Prop :=
  if is_nil ps then x = length g - 1 else x ∈ ps.
Definition bnd (g : graph) (ps : list nat) : nat :=
  if is_nil ps then length g - 1 else length g.

(* the blocks made for a statement that was entered in the last block of g:
   that block keeps its predecessors, and nothing enters or leaves the new part
   except through it *)
Definition Vp (g g' : graph) : Prop :=
  (forall x, x ∈ preds_of g' (length g - 1) <-> x ∈ preds_of g (length g - 1)) /\
  oreg g' (length g - 1) (length g' - 1).

Definition vreg (g g' : graph) (ps : list nat) : Prop :=
  Vp g g' /\ regs g' (length g - 1) (bnd g' ps) (pend g' ps).

Definition visit_reg (s : sk) : Prop :=
  forall d g P0 g' ps, pre g d P0 -> visit s d g = Ok (g', ps) -> vreg g g' ps.

Lemma pre_succs_nil g d P0 : pre g d P0 -> succs_of g (length g - 1) = [].
Proof.
  intros [Hwf _ (b & Hb & Hpl & _)]. unfold succs_of. rewrite Hb.
  eapply pending_plain_succs; [by apply (wf_blk _ _ Hwf)|by right|done].
Qed.

Lemma V_init g d P0 : pre g d P0 -> Vp g g.
Proof.
  intros Hpre. split; [done|]. split.
  - intros i x Hi. lia.
  - intros i y Hi. replace i with (length g - 1) by lia. rewrite (pre_succs_nil _ _ _ Hpre). set_solver.
Qed.

Lemma V_same g0 g g' :
  Vp g0 g -> length g' = length g ->
  (forall i, succs_of g' i = succs_of g i /\ preds_of g' i = preds_of g i) -> Vp g0 g'.
Proof.
  intros [H1 [H2 H3]] Hlen Hsame. split; [|split].
  - intros x. by rewrite (proj2 (Hsame _)).
  - intros i x. rewrite Hlen, (proj2 (Hsame _)). apply H2.
  - intros i y. rewrite Hlen, (proj1 (Hsame _)). apply H3.
Qed.

Lemma V_link g0 g g' ps t :
  Vp g0 g -> linked g g' ps t -> 0 < length g0 <= length g -> length g0 - 1 < t ->
  (forall x, x ∈ ps -> length g0 - 1 <= x < length g) -> Vp g0 g'.
Proof.
  intros [H1 [H2 H3]] L Hlen Ht Hps.
  pose proof (lk_len _ _ _ _ L) as Hl. pose proof (lk_t _ _ _ _ L) as Ht'. split; [|split].
  - intros x. rewrite <- H1. apply (lk_preds _ _ _ _ L). lia.
  - intros i x Hi Hx. destruct (decide (i = t)) as [->|Hne].
    + apply (lk_tpreds _ _ _ _ L) in Hx as [Hx|Hx%Hps]; [|lia].
      destruct (decide (t < length g)) as [Hlt|Hge]; [apply H2 in Hx; lia|].
      rewrite preds_of_ge in Hx by lia. by apply elem_of_nil in Hx.
    + destruct (decide (i < length g)) as [Hlt|Hge]; [|pose proof (lk_new _ _ _ _ L i); lia].
      apply (lk_preds _ _ _ _ L) in Hx; [|done]. apply H2 in Hx; lia.
  - intros i y Hi Hy. apply (lk_succs _ _ _ _ L) in Hy as [Hy|[_ ->]]; [|lia].
    destruct (decide (i < length g)) as [Hlt|Hge]; [apply H3 in Hy; lia|].
    rewrite succs_of_ge in Hy by lia. by apply elem_of_nil in Hy.
Qed.

Lemma V_visit g0 g2 g3 :
  Vp g0 g2 -> Vp g2 g3 -> 0 < length g0 <= length g2 -> length g2 <= length g3 ->
  (forall i, i < length g2 - 1 -> g3 !! i = g2 !! i) -> Vp g0 g3.
Proof.
  intros [A1 [A2 A3]] [B1 [B2 B3]] Hlen Hlen' Hfr.
  assert (Hs : forall i, i < length g2 - 1 -> succs_of g3 i = succs_of g2 i).
  { intros i Hi. unfold succs_of. by rewrite Hfr. }
  assert (Hp : forall i x, i <= length g2 - 1 -> x ∈ preds_of g3 i <-> x ∈ preds_of g2 i).
  { intros i x Hi. destruct (decide (i = length g2 - 1)) as [->|Hne]; [apply B1|].
    unfold preds_of. rewrite Hfr by lia. done. }
  split; [|split].
  - intros x. rewrite <- A1. apply Hp. lia.
  - intros i x Hi Hx. destruct (decide (i <= length g2 - 1)) as [Hle|Hgt].
    + apply Hp in Hx; [|done]. apply A2 in Hx; lia.
    + apply B2 in Hx; lia.
  - intros i y Hi Hy. destruct (decide (i < length g2 - 1)) as [Hlt|Hge].
    + rewrite Hs in Hy by done. apply A3 in Hy; lia.
    + apply B3 in Hy; lia.
Qed.

Lemma regs_full g l ps :
  0 < length g -> (is_nil ps = true -> succs_of g (length g - 1) = []) ->
  regs g l (bnd g ps) (pend g ps) -> regs g l (length g) (pend g ps).
Proof.
  intros Hpos Hnil. unfold bnd. destruct (is_nil ps) eqn:E; [|done].
  intros H b Hb Hc. destruct (decide (b < length g - 1)) as [Hlt|Hge].
  - apply (R_same g g (length g - 1) (length g) (pend g ps) (pend g ps) b); [done|done|done|lia|].
    apply H; [lia|done].
  - exfalso. replace b with (length g - 1) in Hc by lia. unfold cand in Hc. rewrite Hnil in Hc by done.
    destruct Hc as [(y1 & y2 & _ & H1 & _)|[_ (y & Hy)]]; by eapply elem_of_nil.
Qed.

Lemma regs_cons g l n (Q : nat -> Prop) :
  oreg g l (n - 1) -> l < n - 1 -> regs g (S l) n Q -> regs g l n Q.
Proof.
  intros Ho Hl H b Hb Hc. destruct (decide (b = l)) as [->|Hne]; [|apply H; [lia|done]].
  exists (n - 1). split; [lia|]. right. by left.
Qed.

Lemma vreg_init g d P0 : pre g d P0 -> vreg g g [].
Proof. intros Hpre. split; [by eapply V_init|]. intros b Hb. unfold bnd in Hb. simpl in Hb. lia. Qed.

Lemma pend_or_last g ps ps' :
  ps' = (if is_nil ps then [length g - 1] else ps) -> forall x, x ∈ ps' <-> pend g ps x.
Proof. intros -> x. unfold pend. destruct (is_nil ps); [apply elem_of_list_singleton|done]. Qed.

Lemma post_pend_range s g d P0 g' ps x :
  0 < length g -> post s g d P0 g' ps -> pend g' ps x -> length g - 1 <= x < length g'.
Proof.
  intros Hpos [Q1 Q2 _ _ _ _ _]. unfold pend. destruct (is_nil ps); [lia|apply Q2].
Qed.

Lemma post_last_nil s g d P0 g' ps :
  post s g d P0 g' ps -> is_nil ps = true -> succs_of g' (length g' - 1) = [].
Proof. intros [_ _ _ Q4 _ _ _] E. rewrite E in Q4. by eapply pre_succs_nil. Qed.

Lemma regs_frame g g' l n (Q : nat -> Prop) :
  (forall i, l <= i < n -> g' !! i = g !! i) -> regs g l n Q -> regs g' l n Q.
Proof.
  intros Hf. apply regs_same; [| |done].
  - intros i y Hi. unfold succs_of. by rewrite Hf by lia.
  - intros i x Hi. unfold preds_of. by rewrite Hf by lia.
Qed.

Lemma open_block g0 g b d g' :
  closes g [b] d g' -> Vp g0 g -> 0 < length g0 -> length g0 - 1 <= b < length g ->
  Vp g0 g' /\ forall i, i < length g -> i <> b -> g' !! i = g !! i.
Proof.
  intros Hc HV H0 Hb. split.
  - apply (V_link g0 g g' [b] (length g)); [done| |lia|lia|].
    + apply (closes_linked _ _ d); [done|]. intros i ->%elem_of_list_singleton. lia.
    + intros x ->%elem_of_list_singleton. lia.
  - intros i Hi Hne. apply (closes_frame g [b] d); [done| |done]. by intros ?%elem_of_list_singleton.
Qed.

Lemma open_branch g0 g it g1 b d g' :
  upd_last (push_item it) g = Ok g1 -> closes g1 [b] d g' ->
  Vp g0 g -> 0 < length g0 -> length g0 - 1 <= b < length g -> Vp g0 g'.
Proof.
  intros [_ ->]%upd_last_inv Hc HV H0 Hb.
  apply (open_block g0 (alter (push_item it) (length g - 1) g) b d g'); [done| |done|by rewrite alter_length].
  eapply V_same; [done|apply alter_length|apply push_same].
Qed.

(* what is known after a sub-statement that was entered in the last block of g;
   ps' is its pending set, made non-empty *)
Record visited (g : graph) (P : nat -> Prop) (g' : graph) (ps' : list nat) : Prop := {
  vis_V : forall g0, Vp g0 g -> 0 < length g0 <= length g -> Vp g0 g';
  vis_len : length g <= length g';
  vis_frame : forall i, i < length g - 1 -> g' !! i = g !! i;
  vis_ne : ps' <> [];
  vis_ss : ssorted ps';
  vis_wf : wf g' (fun i => P i \/ i ∈ ps');
  vis_range : forall i, i ∈ ps' -> length g - 1 <= i < length g';
  vis_regs : regs g' (length g - 1) (length g') (fun x => x ∈ ps');
}.
Arguments vis_V {_ _ _ _}. Arguments vis_len {_ _ _ _}. Arguments vis_frame {_ _ _ _}.
Arguments vis_ne {_ _ _ _}. Arguments vis_ss {_ _ _ _}. Arguments vis_wf {_ _ _ _}.
Arguments vis_range {_ _ _ _}. Arguments vis_regs {_ _ _ _}.

Lemma sub_visit s d g P g' ps :
  visit_reg s -> pre g d P -> visit s d g = Ok (g', ps) ->
  exists ps', or_last g' ps = Ok ps' /\ visited g P g' ps'.
Proof.
  intros Hs Hpre Hv. destruct (Hs d g P g' ps Hpre Hv) as [HV HR].
  pose proof (visit_post s d g P g' ps Hpre Hv) as Hpost.
  pose proof (pre_length _ _ _ Hpre) as Hpos.
  destruct (or_last_post s g d P g' ps Hpos Hpost) as (ps' & Ho & O5 & O1 & O2 & O3 & O4).
  pose proof (pend_or_last g' ps ps' O5) as Hpend. pose proof (post_len _ _ _ _ _ _ Hpost) as Hlen.
  pose proof (post_frame _ _ _ _ _ _ Hpost) as Hfr.
  exists ps'. split; [done|]. split; [|done..|].
  - intros g0 V0 H0. by apply (V_visit g0 g g').
  - eapply regs_same; [done|done| |apply regs_full; [lia|by eapply post_last_nil|exact HR]].
    intros x _. apply Hpend.
Qed.

Lemma vreg_complete g0 g1 ps1 d g2 :
  vreg g0 g1 ps1 -> ps1 <> [] -> 0 < length g0 <= length g1 ->
  (forall i, i ∈ ps1 -> length g0 - 1 <= i < length g1) -> closes g1 ps1 d g2 -> vreg g0 g2 [].
Proof.
  intros [HV HR] Hne Hlen Hrange Hc.
  assert (L : linked g1 g2 ps1 (length g1)) by (apply (closes_linked _ _ d); [done|]; intros i Hi%Hrange; lia).
  pose proof (closes_length _ _ _ _ Hc) as Hl. split; [apply (V_link g0 g1 g2 ps1 (length g1)); [done|done|done|lia|done]|].
  unfold bnd, pend in *. rewrite (proj2 (is_nil_false ps1) Hne) in HR. simpl.
  rewrite Hl. simpl. rewrite Nat.sub_0_r.
  apply (regs_link g1 g2 ps1 (length g1) _ _ (fun x => x ∈ ps1) _ L); [by right|done| |exact HR].
  intros x Hx. lia.
Qed.

Lemma vreg_seq s g0 g2 d P0 g3 ps3 :
  0 < length g0 <= length g2 -> vreg g0 g2 [] -> post s g2 d P0 g3 ps3 -> vreg g2 g3 ps3 ->
  vreg g0 g3 ps3.
Proof.
  intros Hlen [V2 R2] Hpost [V3 R3].
  pose proof (post_len _ _ _ _ _ _ Hpost) as Q1. pose proof (post_frame _ _ _ _ _ _ Hpost) as Q7.
  split; [by eapply V_visit|]. unfold bnd, pend in R2. simpl in R2.
  eapply (regs_join g3 (length g0 - 1) (length g2 - 1) _ (fun x => x = length g2 - 1)); [| | | |exact R3].
  - unfold bnd. destruct (is_nil ps3); lia.
  - intros x Hx Hq. eapply (post_pend_range s g2) in Hq; [lia|lia|done].
  - done.
  - apply (regs_frame g2); [|done]. intros i Hi. apply Q7. lia.
Qed.

(* the statements ss0 visited so far have built g1 from g0 *)
Lemma visit_seq_reg ss : Forall visit_reg ss ->
  forall ss0 d (g0 : graph) (P0 : nat -> Prop) (g1 : graph) (ps1 : list nat) (g' : graph) (ps : list nat),
  (forall i, P0 i -> i < length g0 - 1) -> 0 < length g0 -> post (SBlock ss0) g0 d P0 g1 ps1 ->
  vreg g0 g1 ps1 -> visit_seq d ss ps1 g1 = Ok (g', ps) -> vreg g0 g' ps.
Proof.
  induction 1 as [|s r Hs _ IH]; intros ss0 d g0 P0 g1 ps1 g' ps HP0 Hpos Hq Hvr Hv; simpl in Hv.
  - by injection Hv as <- <-.
  - destruct (step_join _ _ _ _ _ _ HP0 Hq) as (g2 & E2 & Hq2 & Hc). rewrite E2 in Hv. simpl in Hv.
    inv_bind Hv. destruct a as [g3 ps3]. simpl in Hv.
    pose proof (post_state _ _ _ _ _ _ Hq2) as Hpre2. pose proof (post_len _ _ _ _ _ _ Hq) as Hl1.
    pose proof (visit_post s d g2 P0 g3 ps3 Hpre2 E) as Hq3.
    apply (IH (ss0 ++ [s]) d g0 P0 g3 ps3 g' ps HP0 Hpos (post_snoc _ _ _ _ _ _ _ _ Hq2 Hq3)); [|done].
    apply (vreg_seq s g0 g2 d P0 g3 ps3); [|  |done|exact (Hs d g2 P0 g3 ps3 Hpre2 E)].
    + pose proof (post_len _ _ _ _ _ _ Hq2). lia.
    + destruct (is_nil ps1) eqn:En; [apply is_nil_true in En; by subst|].
      apply (vreg_complete g0 g1 ps1 d g2 Hvr); [by apply is_nil_false|lia|apply Hq|done].
Qed.

Lemma leaf_reg id r : visit_reg (SLeaf id r).
Proof.
  intros d g P0 g' ps Hpre Hv. rewrite (visit_leaf _ _ _ _ _ Hpre) in Hv. injection Hv as <- <-. split.
  - eapply V_same; [by eapply V_init|apply alter_length|apply push_same].
  - intros b Hb. unfold bnd in Hb. simpl in Hb. rewrite alter_length in Hb. lia.
Qed.

Lemma seq_reg ss d g P0 g' ps :
  Forall visit_reg ss -> pre g d P0 -> visit_seq d ss [] g = Ok (g', ps) -> vreg g g' ps.
Proof.
  intros IH Hpre Hv. apply (visit_seq_reg ss IH [] d g P0 g [] g' ps); [| | | |done].
  - apply (pre_P0 _ _ _ Hpre).
  - by eapply pre_length.
  - apply post_nil; [apply grow_refl|done].
  - by eapply vreg_init.
Qed.

Lemma loop_regs g g' ps h :
  oreg g h (length g - 1) -> S h ∈ succs_of g h -> S h < length g ->
  linked g g' ps h -> length g' = length g -> (forall i, i ∈ ps -> h < i < length g) ->
  regs g (S h) (length g) (fun x => x ∈ ps) -> regs g' h (length g') (fun x => x ∈ [h]).
Proof.
  intros [Hp Hs] HS Hh L Hlen Hps HR b Hb Hc. rewrite Hlen in *.
  assert (HQ : forall x, h < x < length g -> x ∉ [h]) by (intros x Hx ->%elem_of_list_singleton; lia).
  destruct (decide (b = h)) as [->|Hne].
  - exists (length g - 1). split; [lia|]. left. split; [split; [|split]|].
    + intros i x Hi Hx. apply (lk_preds _ _ _ _ L) in Hx; [|lia]. by apply (Hp i).
    + apply (lk_succs _ _ _ _ L). by left.
    + intros i y Hi Hy. apply (lk_succs _ _ _ _ L) in Hy.
      destruct Hy as [Hy|[_ ->]]; [|by right]. left. apply (Hs i); [lia|done].
    + intros x Hx. apply HQ. lia.
  - apply (regs_link g g' ps h (S h) (length g) (fun x => x ∈ ps) _ L); [lia|done| |done|lia|done].
    intros x Hx. apply HQ. lia.
Qed.

Lemma while_reg c body : visit_reg body -> visit_reg (SWhile c body).
Proof.
  intros IH d g P0 g' ps Hpre Hv. pose proof (pre_length _ _ _ Hpre) as Hpos.
  destruct (step_complete_last g d P0 Hpre) as (g1 & E1 & Hp1 & Hc1). pose proof (closes_length _ _ _ _ Hc1) as Hl1.
  destruct (step_branch g1 d (d + 1) P0 c Hp1)
    as (g2 & g3 & E2 & E3 & Hc3 & Hp3 & Hl3 & _ & (bo & bh & _ & Hbh & _ & Hsh) & _).
  simpl in Hv. rewrite (pre_last_index _ _ _ Hpre) in Hv. simpl in Hv.
  replace (length g - 1 + 2) with (length g1) in Hv by lia.
  replace (length g - 1 + 1) with (length g1 - 1) in Hv by lia.
  rewrite E1 in Hv. simpl in Hv. rewrite E2 in Hv. simpl in Hv. rewrite E3 in Hv. simpl in Hv.
  inv_bind Hv. destruct a as [g4 ps4]. simpl in Hv.
  destruct (sub_visit body (d + 1) g3 _ g4 ps4 IH Hp3 E) as (ps' & E5 & B).
  pose proof (vis_len B) as Hl4. pose proof (vis_range B) as Hps'. rewrite E5 in Hv. simpl in Hv. inv_bind Hv. rename a into g5. injection Hv as <- <-.
  destruct (open_block g _ _ _ _ Hc1) as (V01 & _); [by eapply V_init|done|lia|].
  pose proof (open_branch g _ _ _ _ _ _ E2 Hc3 V01 Hpos) as V03.
  pose proof (open_branch g1 _ _ _ _ _ _ E2 Hc3 (V_init _ _ _ Hp1)) as V13.
  assert (Hb5 : backs g4 (length g1 - 1) ps' g5).
  { destruct (back_fold (length g1 - 1) ps' g4) as (g5' & E' & Hb5); [lia| |apply ssorted_NoDup, (vis_ss B)|].
    - intros i Hi%Hps'. lia.
    - rewrite E' in E0. by injection E0 as <-. }
  assert (L6 : linked g4 g5 ps' (length g1 - 1)).
  { apply backs_linked; [done|lia|]. intros i Hi%Hps'. lia. }
  pose proof (backs_length _ _ _ _ Hb5) as Hl5.
  assert (V05 : Vp g g5).
  { apply (V_link g g4 g5 ps' (length g1 - 1)); [|done|lia|lia|].
    - apply (vis_V B); [apply V03; lia|lia].
    - intros x Hx%Hps'. lia. }
  split; [done|]. unfold bnd, pend. simpl.
  apply regs_cons; [by destruct V05|lia|]. replace (S (length g - 1)) with (length g1 - 1) by lia.
  apply (loop_regs g4 g5 ps'); [| |lia|done|done| |].
  - destruct (vis_V B g1) as [_ Ho]; [apply V13; lia|lia|done].
  - unfold succs_of. rewrite (vis_frame B), Hbh, Hsh by lia. apply elem_of_list_singleton. lia.
  - intros i Hi%Hps'. lia.
  - replace (S (length g1 - 1)) with (length g3 - 1) by lia. apply (vis_regs B).
Qed.

Lemma if_reg c t e :
  visit_reg t -> (forall e', e = Some e' -> visit_reg e') -> visit_reg (SIf c t e).
Proof.
  intros IHt IHe d g P0 g' ps Hpre Hv. pose proof (pre_length _ _ _ Hpre) as Hpos.
  destruct (step_branch g d d P0 c Hpre) as (g1 & g2 & E1 & E2 & Hc2 & Hp2 & Hl2 & _).
  rewrite (visit_if c t e d g P0 g1 g2 Hpre E1 E2) in Hv. set (l := length g - 1) in *.
  inv_bind Hv. destruct a as [g3 ps3]. simpl in Hv.
  destruct (sub_visit t d g2 _ g3 ps3 IHt Hp2 E) as (psi & E4 & Bt).
  pose proof (vis_len Bt) as Hl3. pose proof (vis_range Bt) as Hpsi. pose proof (vis_regs Bt) as R3.
  rewrite E4 in Hv. simpl in Hv.
  assert (V03 : Vp g g3).
  { apply (vis_V Bt); [|lia]. apply (open_branch g _ _ _ _ _ _ E1 Hc2); [by eapply V_init|done|lia]. }
  replace (length g2 - 1) with (S l) in R3 by lia.
  destruct e as [e|].
  - destruct (step_else g d P0 g3 psi Hpre (vis_wf Bt)) as (g4 & E5 & Hp4 & Hc4); [intros i Hi%Hpsi; lia|].
    pose proof (closes_length _ _ _ _ Hc4) as Hl4. fold l in E5, Hc4. rewrite E5 in Hv. simpl in Hv.
    inv_bind Hv. destruct a as [g5 ps5]. simpl in Hv.
    destruct (sub_visit e d g4 _ g5 ps5 (IHe e eq_refl) Hp4 E0) as (pse & E7 & Be).
    pose proof (vis_len Be) as Hl5. pose proof (vis_range Be) as Hpse. rewrite E7 in Hv. injection Hv as <- <-.
    destruct (open_block g _ _ _ _ Hc4) as (V04 & F4); [done|done|lia|].
    assert (V05 : Vp g g5) by (apply (vis_V Be); [done|lia]).
    split; [done|]. unfold bnd, pend. rewrite (proj2 (is_nil_false _) (iunion_not_nil _ pse (vis_ne Bt))).
    apply regs_cons; [by destruct V05|lia|].
    apply (regs_join g5 (S l) (length g3) (length g5) (fun x => x ∈ psi) (fun x => x ∈ pse)); [lia| | | |].
    + intros x Hx [?|Hq%Hpse]%elem_of_iunion; [done|lia].
    + intros x Hx [Hq%Hpsi|?]%elem_of_iunion; [lia|done].
    + apply (regs_frame g3); [|done]. intros i Hi. rewrite (vis_frame Be) by lia. apply F4; lia.
    + replace (length g3) with (length g4 - 1) by lia. apply (vis_regs Be).
  - injection Hv as <- <-. split; [done|].
    unfold bnd, pend. rewrite (proj2 (is_nil_false _) (ins_not_nil l psi)).
    apply regs_cons; [by destruct V03|lia|].
    apply (regs_same g3 g3 (S l) (length g3) (fun x => x ∈ psi)); [done|done| |done].
    intros x Hx [->|?]%elem_of_ins; [lia|done].
Qed.

Theorem visit_reg_all s : visit_reg s.
Proof.
  induction s as [id r|ss IH|ss IH|c body IH|c t e IHt IHe] using sk_ind'.
  - apply leaf_reg.
  - intros d g P0 g' ps Hpre Hv. rewrite visit_init_eq in Hv. inv_bind Hv.
    apply visit_init_seq in Hv. by eapply seq_reg.
  - intros d g P0 g' ps Hpre Hv. rewrite visit_block_eq in Hv. inv_bind Hv. by eapply seq_reg.
  - by apply while_reg.
  - by apply if_reg.
Qed.

Lemma lifted_idom_exists body g : lift body = Ok g ->
  forall j, 0 < j < length g -> exists d, idom_of g d j.
Proof.
  intros Hl j Hj. pose proof (MirrorsDom.lifted_rooted body g Hl) as Hg.
  assert (Hord : DomSpec.order_ok Dom.id_order) by apply DomOracle.orders_ok.
  destruct (DomProofs.dominator_tree_correct _ _ Hg Hord) as (t & Ht & Hok).
  destruct (lookup_lt_is_Some_2 (Dom.dt_idom t) j) as (o & Ho).
  { rewrite (DomProofs.ok_idom_len _ _ Hok), MirrorsDom.to_dom_length. lia. }
  destruct o as [d|].
  - exists d. apply MirrorsDom.idom_to_dom. by apply (DomProofs.idom_exact _ _ t Hg Hord Ht j (Some d) d Ho).
  - pose proof (proj1 (DomProofs.idom_total _ _ t Hg Hord Ht j None Ho) eq_refl). lia.
Qed.

Lemma two_elems (l : list nat) y1 y2 :
  NoDup l -> length l <= 2 -> y1 <> y2 -> y1 ∈ l -> y2 ∈ l -> forall y, y ∈ l -> y = y1 \/ y = y2.
Proof.
  intros Hnd Hlen Hne H1 H2 y Hy.
  destruct l as [|a [|a' [|a'' r]]]; simpl in Hlen; [set_solver|set_solver| |lia].
  apply NoDup_cons in Hnd as [Hn _]. set_solver.
Qed.

Section lifted.
  Context (body : sk) (g : graph) (Hl : lift body = Ok g).

  Lemma lifted_regs : exists ps, regs g 0 (length g) (pend g ps) /\ 0 < length g.
  Proof.
    unfold lift in Hl. destruct body as [| |ss| |]; try done.
    apply bind_ok in Hl as ([g' ps] & Hv & [= <-]). simpl.
    pose proof (visit_reg_all (SBlock ss) 0 g_init _ g' ps pre_init Hv) as [_ HR].
    pose proof (visit_post (SBlock ss) 0 g_init _ g' ps pre_init Hv) as Hpost.
    assert (0 < length g') by (destruct Hpost as [Q1 _ _ _ _ _ _]; simpl in Q1; lia).
    exists ps. split; [|done]. apply regs_full; [done|by eapply post_last_nil|exact HR].
  Qed.

  Lemma edge_preds_of x i : edge g x i -> x ∈ preds_of g i.
  Proof.
    intros He. apply (preds_succs_mirror body g Hl) in He as (bj & Hb & Hin).
    unfold preds_of. by rewrite Hb.
  Qed.

  Lemma lifted_region b y1 y2 :
    y1 <> y2 -> edge g b y1 -> edge g b y2 -> exists hi t t', region g b hi t t'.
  Proof.
    intros Hne E1 E2. destruct lifted_regs as (ps & HR & Hpos).
    assert (Hb : b < length g) by (destruct E1 as (bb & ? & _); by eapply lookup_lt_Some).
    destruct (HR b) as (hi & Hhi & H); [lia|left; exists y1, y2; by rewrite <- !edge_succs_of|].
    exists hi.
    assert (Hin : preds_in g b hi -> forall i x, b < i <= hi -> edge g x i -> b <= x <= hi).
    { intros Hpr i x Hi Hx. apply (Hpr i x Hi). by apply edge_preds_of. }
    assert (Hc : lreg g b hi \/ exists t, creg g b hi t).
    { destruct H as [[? _]|[[Hpr Hsu]|(t & ? & _)]]; [by left|right; exists 0|right; by exists t].
      split; [done|]. intros i y Hi Hy. left. by apply (Hsu i y). }
    destruct Hc as [(Hpr & HS & Hsu)|(t & Hpr & Hsu)].
    - destruct (lookup_lt_is_Some_2 g b Hb) as (bb & Hbb).
      destruct (at_most_two_succs body g Hl b bb Hbb) as (Hnd & Hlen & _).
      assert (Hall : forall y, y ∈ succs_of g b -> y = y1 \/ y = y2).
      { apply edge_succs_of in E1, E2. unfold succs_of in *. rewrite Hbb in *. by apply two_elems. }
      (* y1 + y2 - S b: the successor of b other than S b *)
      exists b, (y1 + y2 - S b). split; [by apply Hin| | |by right].
      + intros x y Hx Hy%edge_succs_of. by apply (Hsu x y Hx).
      + intros y Hy%edge_succs_of%Hall. apply Hall in HS. lia.
    - exists t, t. split; [by apply Hin| | |by left].
      + intros x y Hx Hy%edge_succs_of. apply (Hsu x y); [lia|done].
      + intros y Hy%edge_succs_of. apply (Hsu b y); [lia|done].
  Qed.
End lifted.

Lemma can_split_meeting_of g b j : can_split g b j -> can_split_meeting g b j.
Proof.
  intros (m1 & m2 & R1 & R2 & Hdis & Hne). exists m1, m2. split; [done|]. split; [done|].
  destruct R1 as (P1 & Hb1 & Hj1), R2 as (P2 & Hb2 & Hj2). split.
  - destruct m1 as [|s1 m1], m2 as [|s2 m2]; simpl.
    + by destruct Hne.
    + intros <-. set_solver.
    + intros ->. set_solver.
    + intros ->. apply (Hdis s2); set_solver.
  - destruct (last_of_in b m1) as [[-> E1]|H1], (last_of_in b m2) as [[-> E2]|H2].
    + by destruct Hne.
    + rewrite E1. intros E. by rewrite <- E in H2.
    + rewrite E2. intros E. by rewrite E in H1.
    + intros E. apply (Hdis _ H1). by rewrite E.
Qed.

Lemma can_split_edges g b j : can_split g b j ->
  exists s1 s2 p1 p2, s1 <> s2 /\ edge g b s1 /\ edge g b s2 /\ p1 <> p2 /\ edge g p1 j /\ edge g p2 j.
Proof.
  intros (m1 & m2 & (P1 & _) & (P2 & _) & Hs & Hp)%can_split_meeting_of.
  exists (first_of m1 j), (first_of m2 j), (last_of b m1), (last_of b m2).
  split; [done|]. split; [|split; [|split; [done|split]]].
  - destruct m1; simpl in *; by inversion P1.
  - destruct m2; simpl in *; by inversion P2.
  - by apply route_last_edge.
  - by apply route_last_edge.
Qed.

Lemma route_one g b s j :
  edge g b s -> edge g s j -> j < length g -> b <> s -> j <> s -> route g b [s] j.
Proof.
  intros Hb Hs Hj Hbs Hjs. split; [|by rewrite !elem_of_list_singleton].
  eapply path_cons; [done|]. eapply path_cons; [done|]. by apply path_nil.
Qed.

Lemma diamond_split g b s1 s2 j :
  edge g b s1 -> edge g b s2 -> edge g s1 j -> edge g s2 j -> j < length g ->
  s1 <> s2 -> b <> s1 -> b <> s2 -> j <> s1 -> j <> s2 -> can_split g b j.
Proof.
  intros B1 B2 J1 J2 Hj Hs Hb1 Hb2 Hj1 Hj2. exists [s1], [s2].
  split; [by apply route_one|]. split; [by apply route_one|]. split; [|by left].
  intros x. rewrite !elem_of_list_singleton. congruence.
Qed.

Theorem lifted_control_dependence body g : lift body = Ok g ->
  forall b j, can_split g b j -> is_join g j -> on_dom_chain g j b.
Proof.
  intros Hl b j Hcs _.
  destruct (can_split_edges _ _ _ Hcs) as (s1 & s2 & p1 & p2 & Hs & Es1 & Es2 & _ & Ep1 & _).
  destruct Hcs as (m1 & m2 & R1 & R2 & Hdis & Hne).
  destruct (lifted_region body g Hl b s1 s2 Hs Es1 Es2) as (hi & t & t' & Hreg).
  destruct (region_split g b hi t t' Hreg j m1 m2 R1 R2 Hdis) as (p & Hp & Hdom).
  assert (Hj : 0 < j < length g).
  { split.
    - destruct (decide (j = 0)) as [->|]; [|lia].
      apply (preds_succs_mirror body g Hl) in Hp as (b0 & Hb0 & Hin).
      destruct (entry_no_pred body g Hl) as (_ & b0' & Hb0' & Hnil). rewrite Hb0 in Hb0'. injection Hb0' as <-.
      rewrite Hnil in Hin. set_solver.
    - apply (preds_succs_mirror body g Hl) in Hp as (bj & Hbj & _). by eapply lookup_lt_Some. }
  destruct (lifted_idom_exists body g Hl j Hj) as (d & Hd).
  exists p, d. split; [done|]. split; [done|]. split; [done|].
  destruct Hd as [[Hdj Hnj] _]. exact (split_dom_above g b j m1 m2 d R1 R2 Hdis Hdj Hnj).
Qed.

Ltac ex_in := simpl; repeat first [apply elem_of_list_here | apply elem_of_list_further].
Ltac ex_edge := eexists; split; [reflexivity|ex_in].
Ltac ex_nin := let H := fresh in intros H; rewrite ?elem_of_cons, ?elem_of_nil in H; lia.
Ltac ex_path := repeat (eapply path_cons; [ex_edge|]); apply path_nil; simpl; lia.

(* if (c1) { x } ; if (c3) { y } ; z  -  the first `if` does not decide how the
   join of the second is entered, yet walks that may meet exist *)
Definition ex_seq_body : sk :=
  SBlock [SIf 1 (SLeaf 2 false) None; SIf 3 (SLeaf 4 false) None; SLeaf 5 false].
Definition ex_seq_g : graph :=
  [Block 0 0 [IBranch 1 1 (Some 2)] [] [1; 2]; Block 1 0 [ILeaf 2] [0] [2];
   Block 2 0 [IBranch 3 3 (Some 4)] [0; 1] [3; 4]; Block 3 0 [ILeaf 4] [2] [4];
   Block 4 0 [ILeaf 5] [2; 3] []].

Lemma meeting_variant_refuted :
  lift ex_seq_body = Ok ex_seq_g /\ can_split_meeting ex_seq_g 0 4 /\ is_join ex_seq_g 4 /\
  ~ on_dom_chain ex_seq_g 4 0 /\ ~ can_split ex_seq_g 0 4.
Proof.
  assert (Hl : lift ex_seq_body = Ok ex_seq_g) by (vm_compute; reflexivity).
  assert (Hj : is_join ex_seq_g 4) by (eexists; split; [reflexivity|simpl; lia]).
  assert (Hn : ~ on_dom_chain ex_seq_g 4 0).
  { intros (p & d & _ & _ & [_ Hcl] & Hd0).
    assert (H0 : path ex_seq_g 0 [] 0) by (apply path_nil; simpl; lia).
    pose proof (Hd0 [] H0) as ->%elem_of_list_singleton.
    assert (Hs : sdominates ex_seq_g 2 4).
    { split; [|done]. apply dominates_preds; [done|]. intros x Hx%(edge_preds_of _ _ Hl). simpl in Hx.
      apply elem_of_cons in Hx as [->|Hx]; [apply dominates_refl|]. apply elem_of_list_singleton in Hx as ->.
      apply dominates_preds; [done|]. intros x ->%(edge_preds_of _ _ Hl)%elem_of_list_singleton.
      apply dominates_refl. }
    by pose proof (Hcl 2 Hs [] H0) as ?%elem_of_list_singleton. }
  split; [done|]. split; [|split; [done|split; [done|]]].
  - exists [1; 2], [2; 3]. split; [|split; [|split]].
    + split; [ex_path|]. split; ex_nin.
    + split; [ex_path|]. split; ex_nin.
    + unfold first_of. simpl. lia.
    + unfold last_of. simpl. lia.
  - intros Hcs. apply Hn. by apply (lifted_control_dependence ex_seq_body).
Qed.

(* if (c1) { if (c2) { x } else { y } } else { z } ; w  -  the inner `if` is the
   last statement of the outer branch: its branches are predecessors of the
   outer join (block 5), the inner branching block 1 splits it and lies on the
   dominator chain from block 2 up to block 0 *)
Definition ex_nest_body : sk :=
  SBlock [SIf 1 (SBlock [SIf 2 (SBlock [SLeaf 3 false]) (Some (SBlock [SLeaf 4 false]))])
              (Some (SBlock [SLeaf 5 false])); SLeaf 6 false].
Definition ex_nest_g : graph :=
  [Block 0 0 [IBranch 1 1 (Some 4)] [] [1; 4]; Block 1 0 [IBranch 2 2 (Some 3)] [0] [2; 3];
   Block 2 0 [ILeaf 3] [1] [5]; Block 3 0 [ILeaf 4] [1] [5]; Block 4 0 [ILeaf 5] [0] [5];
   Block 5 0 [ILeaf 6] [2; 3; 4] []].

Lemma nested_if_example :
  lift ex_nest_body = Ok ex_nest_g /\ can_split ex_nest_g 1 5 /\ is_join ex_nest_g 5 /\
  on_dom_chain ex_nest_g 5 1.
Proof.
  assert (Hl : lift ex_nest_body = Ok ex_nest_g) by (vm_compute; reflexivity).
  assert (Hj : is_join ex_nest_g 5) by (eexists; split; [reflexivity|simpl; lia]).
  assert (Hc : can_split ex_nest_g 1 5).
  { apply (diamond_split _ 1 2 3 5); [ex_edge|ex_edge|ex_edge|ex_edge|..]; simpl; lia. }
  split; [done|]. split; [done|]. split; [done|]. by apply (lifted_control_dependence ex_nest_body).
Qed.
