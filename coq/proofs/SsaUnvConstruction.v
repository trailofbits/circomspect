(* C14: the construction mirror Model.Ssa.into_ssa gives a version to EVERY
   read of a local, and every version it hands out is listed by a re-issued Declaration
   statement.

     into_ssa_unversioned_reads_ok     SsaCheck.unversioned_reads_ok holds of the output, with the
                                       declaration table rebuilt from the re-issued Declaration
                                       statements (SsaDecls.with_stmt_decls; the mirror leaves the
                                       table itself empty): no statement - dimensions of Declaration
                                       statements, array indices and access lists included - reads,
                                       without a version, a name whose key is the key of a parameter
                                       or of a versioned name listed by a Declaration statement of a local
     into_ssa_versions_stmt_declared   every versioned name that occurs in the output (parameters,
                                       reads, assignment targets, phi arguments, declared names) is
                                       listed by a Declaration statement of the output or is a version
                                       of a parameter

   Method: one invariant of the dominator-tree walk.  The environment keeps every scoped
   version at or below the per-key counter ([sbnd]) and hands out counters only for keys of
   declared locals and of parameters ([gk]); a renamed read is either the unchanged name of a
   non-local or the name of a local with a version at or below the counter ([rd_rel]). *)
From Coq Require Import ZArith NArith List Bool Lia Arith.
Require Import Model.Base Model.Ir Model.SsaCheck Model.SsaErase Model.Ssa Model.SsaPre Model.SsaDecls.
Require Import Proofs.IrInd Proofs.IrFacts Proofs.SsaNoPanic Proofs.SsaConstruction Proofs.SsaRenameSem.
Import ListNotations.

Definition klocal (decls : list (vname * vtype)) (k : key) : bool :=
  existsb (fun d => key_eqb (key_of (fst d)) k && match snd d with TLocal => true | _ => false end) decls.

Lemma is_local_klocal decls v : is_local_in decls v = klocal decls (key_of v).
Proof. reflexivity. Qed.

Lemma key_with_version' v n : key_of (with_version v n) = key_of v.
Proof. reflexivity. Qed.

Section Reads.
Variable decls : list (vname * vtype).
Variable pk : key -> Prop.          
Definition map_bnd (g b : vmap) : Prop :=
  forall k n, vget b k = Some n -> exists m, vget g k = Some m /\ (n <= m)%N.
Definition sbnd (env : senv) : Prop := Forall (map_bnd (se_global env)) (se_scoped env).
Definition gk (env : senv) : Prop :=
  forall k m, vget (se_global env) k = Some m -> klocal decls k = true \/ pk k.
Definition envok (env : senv) : Prop := sbnd env /\ gk env.

Lemma map_bnd_gle g g' b : gle g g' -> map_bnd g b -> map_bnd g' b.
Proof.
  intros L H k n Hk. destruct (H k n Hk) as (m & Hm & Le). destruct (L k m Hm) as (m' & Hm' & Le').
  exists m'. split; [exact Hm'|lia].
Qed.

Lemma sbnd_cur env v n : sbnd env -> cur_version env v = Some n -> bounded (se_global env) (with_version v n).
Proof.
  unfold sbnd, cur_version. generalize (se_scoped env) as l.
  induction l as [|b tl IH]; intros HF H; simpl in H; [discriminate|].
  apply Forall_cons_iff in HF as [Hb Htl]. destruct (vget b (key_of v)) as [n'|] eqn:Eb; [|auto].
  injection H as ->. destruct (Hb _ _ Eb) as (m & Hm & Le). exists n, m. auto.
Qed.

Lemma next_version_scoped env v :
  se_scoped (snd (next_version env v)) =
  match se_scoped env with
  | [] => [vset [] (key_of v) (fst (next_version env v))]
  | b :: tl => vset b (key_of v) (fst (next_version env v)) :: tl
  end.
Proof. reflexivity. Qed.

Lemma envok_next env v : envok env -> (is_local_in decls v = true \/ pk (key_of v)) ->
  envok (snd (next_version env v)).
Proof.
  intros [Hs Hg] Hv. pose proof (next_version_gle env v) as G. unfold env_gle in G.
  rewrite next_version_global in G. split.
  - unfold sbnd in *. rewrite next_version_global, next_version_scoped. revert G.
    generalize (fst (next_version env v)) as n. intros n G.
    assert (B : forall b, map_bnd (se_global env) b -> map_bnd (vset (se_global env) (key_of v) n) (vset b (key_of v) n)).
    { intros b Hb k' n' H. rewrite vget_vset in *. destruct (key_eqb (key_of v) k'); [|auto].
      exists n. split; [reflexivity|]. injection H as <-. lia. }
    destruct (se_scoped env) as [|b tl].
    + constructor; [|constructor]. apply B. intros k n' H. discriminate H.
    + apply Forall_cons_iff in Hs as [Hb Htl]. constructor; [exact (B b Hb)|].
      eapply Forall_impl; [|exact Htl]. intros a. apply map_bnd_gle. exact G.
  - intros k' m H. rewrite next_version_global, vget_vset in H.
    destruct (key_eqb (key_of v) k') eqn:Ek; [|eapply Hg; exact H].
    apply key_eqb_eq in Ek. subst k'. exact Hv.
Qed.

Lemma envok_push env : envok env -> envok (push_scope env).
Proof. intros [Hs Hg]. split; [|exact Hg]. constructor; [|exact Hs]. intros k n H. discriminate H. Qed.

Lemma envok_pop env : envok env -> envok (pop_scope env).
Proof.
  intros [Hs Hg]. split; [|exact Hg]. unfold sbnd, pop_scope in *. cbn [se_global se_scoped].
  destruct Hs; [constructor|assumption].
Qed.

Definition rd_rel (g : vmap) (v v' : vname) : Prop :=
  (v' = v /\ is_local_in decls v = false) \/
  (is_local_in decls v = true /\ exists n, v' = with_version v n /\ bounded g v').

Definition rds (g : vmap) (l l' : list vname) : Prop :=
  forall v', In v' l' -> exists v, In v l /\ rd_rel g v v'.

Lemma rd_rel_gle g g' v v' : gle g g' -> rd_rel g v v' -> rd_rel g' v v'.
Proof.
  intros L [H|(Hl & n & Hv & Hb)]; [left; exact H|right]. split; [exact Hl|]. exists n. split; [exact Hv|].
  eapply bounded_gle; eassumption.
Qed.

Lemma rds_gle g g' l l' : gle g g' -> rds g l l' -> rds g' l l'.
Proof. intros L H v' Hv'. destruct (H v' Hv') as (v & Hv & R). exists v. split; [exact Hv|eapply rd_rel_gle; eassumption]. Qed.

Lemma rds_nil g : rds g [] [].
Proof. intros v' []. Qed.

Lemma rds_app g a a' b b' : rds g a a' -> rds g b b' -> rds g (a ++ b) (a' ++ b').
Proof.
  intros Ha Hb v' Hv'. apply in_app_or in Hv' as [Hv'|Hv']; [destruct (Ha v' Hv') as (v & Hv & R)|destruct (Hb v' Hv') as (v & Hv & R)];
    exists v; (split; [apply in_or_app; auto|exact R]).
Qed.

Lemma rds_cons g v v' l l' : rd_rel g v v' -> rds g l l' -> rds g (v :: l) (v' :: l').
Proof.
  intros Hv Hl. apply (rds_app g [v] [v'] l l'); [|exact Hl]. intros w [<-|[]]. exists v. split; [left; reflexivity|exact Hv].
Qed.

(* One renaming step from env to env' that turns the reads l into l': the counters only grow,
   the environment invariant is kept, the new reads are renamed forms of the old ones. *)
Definition rd_step (env : senv) (l l' : list vname) (env' : senv) : Prop :=
  env_gle env env' /\ (envok env -> envok env' /\ rds (se_global env') l l').

Lemma rd_step_nil env : rd_step env [] [] env.
Proof. split; [apply gle_refl|]. intros He. split; [exact He|apply rds_nil]. Qed.

Lemma rd_step_seq env l1 l1' env1 l2 l2' env2 :
  rd_step env l1 l1' env1 -> rd_step env1 l2 l2' env2 -> rd_step env (l1 ++ l2) (l1' ++ l2') env2.
Proof.
  intros [G1 H1] [G2 H2]. split; [eapply gle_trans; eassumption|]. intros He.
  destruct (H1 He) as [He1 R1]. destruct (H2 He1) as [He2 R2]. split; [exact He2|].
  apply rds_app; [eapply rds_gle; eassumption|exact R2].
Qed.

(* the variable of an access or update is renamed last and listed first *)
Lemma rd_step_last env l l' env1 v v' env2 :
  rd_step env l l' env1 -> rd_step env1 [v] [v'] env2 -> rd_step env (v :: l) (v' :: l') env2.
Proof.
  intros H1 H2. destruct (rd_step_seq _ _ _ _ _ _ _ H1 H2) as [G H]. split; [exact G|]. intros He.
  destruct (H He) as [He2 R]. split; [exact He2|]. intros w Hw.
  destruct (R w) as (u & Hu & Ru); [apply in_or_app; destruct Hw as [<-|Hw]; [right; left; reflexivity|left; exact Hw]|].
  exists u. split; [|exact Ru]. apply in_app_or in Hu as [Hu|[<-|[]]]; [right; exact Hu|left; reflexivity].
Qed.

Lemma rd_step_read env v v' : read_as decls env v v' -> rd_step env [v] [v'] env.
Proof.
  intros Hv. split; [apply gle_refl|]. intros He. split; [exact He|]. apply rds_cons; [|apply rds_nil].
  unfold read_as in Hv. destruct (is_local_in decls v) eqn:El; [|left; auto].
  destruct Hv as (n & Hc & ->). right. split; [exact El|]. exists n. split; [reflexivity|exact (sbnd_cur _ _ _ (proj1 He) Hc)].
Qed.

Lemma rd_step_fresh env v v' env' : is_local_in decls v = true -> fresh_as env v v' env' -> rd_step env [v] [v'] env'.
Proof.
  intros El Hv. pose proof (proj2 (fresh_as_bounds _ _ _ _ Hv)) as B. destruct Hv as [-> ->].
  split; [apply next_version_gle|]. intros He. split; [apply envok_next; auto|].
  apply rds_cons; [|apply rds_nil]. right. split; [exact El|]. eauto.
Qed.

Lemma rd_step_upd env v v' env' : upd_as decls env v v' env' -> rd_step env [v] [v'] env'.
Proof.
  unfold upd_as. destruct (is_local_in decls v) eqn:El.
  - destruct (cur_version env v) as [n|] eqn:Ec; [|apply rd_step_fresh; exact El].
    intros [-> ->]. apply rd_step_read. unfold read_as. rewrite El. eauto.
  - intros [-> ->]. apply rd_step_read. unfold read_as. rewrite El. reflexivity.
Qed.

Definition expr_rd (e : expr) : Prop :=
  forall env e' env', envok env -> ssa_expr decls env e = SOk (e', env') ->
    envok env' /\ rds (se_global env') (expr_reads e) (expr_reads e').

Lemma ssa_rename_rd :
  (forall e env e' env', ssa_expr decls env e = SOk (e', env') -> rd_step env (expr_reads e) (expr_reads e') env') /\
  (forall es env es' env', ssa_exprs decls env es = SOk (es', env') -> rd_step env (list_reads es) (list_reads es') env') /\
  (forall acc env acc' env', ssa_acc decls env acc = SOk (acc', env') -> rd_step env (acc_reads acc) (acc_reads acc') env').
Proof.
  apply (ssa_expr_ind decls (fun env e e' env' => rd_step env (expr_reads e) (expr_reads e') env')
           (fun env es es' env' => rd_step env (list_reads es) (list_reads es') env')
           (fun env acc acc' env' => rd_step env (acc_reads acc) (acc_reads acc') env')); intros.
  - apply rd_step_nil.
  - eapply rd_step_seq; eassumption.
  - apply rd_step_nil.
  - assumption.
  - eapply rd_step_seq; eassumption.
  - apply rd_step_nil.
  - apply rd_step_nil.
  - apply rd_step_read. assumption.
  - eapply rd_step_seq; eassumption.
  - assumption.
  - eapply rd_step_seq; [eassumption|]. eapply rd_step_seq; eassumption.
  - assumption.
  - assumption.
  - rewrite !expr_reads_access. eapply rd_step_last; [eassumption|]. apply rd_step_read. assumption.
  - rewrite !expr_reads_update. eapply rd_step_last; [eapply rd_step_seq; eassumption|]. apply rd_step_upd. assumption.
Qed.

Lemma ssa_expr_rd : forall e, expr_rd e.
Proof. intros e env e' env' He H. exact (proj2 (proj1 ssa_rename_rd e env e' env' H) He). Qed.
End Reads.

Definition pargs (e : expr) : list vname := match e with EPhi args _ => args | _ => [] end.

(* the names a statement mentions apart from the names a Declaration lists *)
Definition stmt_tgt (s : stmt) : list vname :=
  match s with SSubst _ x _ rhe _ _ => x :: pargs rhe | _ => [] end.
Definition stmt_occ (s : stmt) : list vname := stmt_reads s ++ stmt_tgt s.

(* a versioned name lies at or below the counter of its key *)
Definition vok (g : vmap) (v : vname) : Prop := vn_version v = None \/ bounded g v.

Lemma vok_gle g g' v : gle g g' -> vok g v -> vok g' v.
Proof. intros L [H|H]; [left; exact H|right; eapply bounded_gle; eassumption]. Qed.

Section Stmts.
Variable decls : list (vname * vtype).
Variable pk : key -> Prop.

(* a name read without a version is not a declared local *)
Definition uok (v : vname) : Prop := vn_version v = None -> is_local_in decls v = false.

Lemma rds_uok g l l' : rds decls g l l' -> forall v', In v' l' -> uok v'.
Proof.
  intros H v' Hv'. destruct (H v' Hv') as (v & _ & [[-> Hl]|(Hl & n & -> & _)]); intros Hn; [exact Hl|discriminate Hn].
Qed.

Lemma rds_vok g l l' : rds decls g l l' -> (forall v, In v l -> vok g v) -> forall v', In v' l' -> vok g v'.
Proof.
  intros H Hl v' Hv'. destruct (H v' Hv') as (v & Hv & [[-> _]|(_ & n & _ & Hb)]); [exact (Hl v Hv)|right; exact Hb].
Qed.

Lemma ssa_expr_pargs : forall e env e' env', ssa_expr decls env e = SOk (e', env') -> pargs e' = pargs e.
Proof.
  apply (ssa_expr_ind decls (fun _ e e' _ => pargs e' = pargs e) (fun _ _ _ _ => True) (fun _ _ _ _ => True));
    intros; reflexivity || exact I.
Qed.

Definition logargs_reads (args : list logarg) : list vname :=
  flat_map (fun a => match a with LExpr e => expr_reads e | LStr => [] end) args.

Lemma ssa_logargs_rd : forall es env r env', ssa_logargs decls env es = SOk (r, env') ->
  rd_step decls pk env (logargs_reads es) (logargs_reads r) env'.
Proof.
  apply (ssa_logargs_ind decls _ (fun env es r env' => rd_step decls pk env (logargs_reads es) (logargs_reads r) env')
           (proj1 (ssa_rename_rd decls pk))); auto.
  - intros env. apply rd_step_nil.
  - intros env x x' env1 tl tl' env2. apply rd_step_seq.
Qed.

(* every read of the renamed statement is the renamed form of a read of the statement *)
Lemma ssa_stmt_rd : forall s env s' env', ssa_stmt decls env s = SOk (s', env') ->
  rd_step decls pk env (stmt_reads s) (stmt_reads s') env'.
Proof.
  destruct (ssa_rename_rd decls pk) as (He & Hl & _).
  apply (ssa_stmt_cases decls (fun env s s' env' => rd_step decls pk env (stmt_reads s) (stmt_reads s') env'));
    cbn [stmt_reads]; auto.
  - intros env m v op rhe sv st rhe' env1 v' env2 _ E Hv.
    rewrite <- (app_nil_r (expr_reads rhe)), <- (app_nil_r (expr_reads rhe')). eapply rd_step_seq; [eauto|].
    (* the target: a step that reads nothing *)
    unfold def_as in Hv. destruct (is_local_in decls v) eqn:El; [|destruct Hv as [_ ->]; apply rd_step_nil].
    destruct (rd_step_fresh decls pk _ _ _ _ El Hv) as [G H]. split; [exact G|]. intros Hok.
    split; [apply H; exact Hok|apply rds_nil].
  - intros env m l r l' env1 r' env2 E1 E2. eapply rd_step_seq; eauto.
  - intros env m args args' env1 E. exact (ssa_logargs_rd _ _ _ _ E).
Qed.

(* the target is renamed to a name below the counter, or stays; the phi arguments stay *)
Lemma ssa_stmt_tgt : forall s env s' env', ssa_stmt decls env s = SOk (s', env') ->
  forall v', In v' (stmt_tgt s') -> bounded (se_global env') v' \/ In v' (stmt_tgt s).
Proof.
  apply (ssa_stmt_cases decls (fun _ s s' env' => forall v', In v' (stmt_tgt s') ->
           bounded (se_global env') v' \/ In v' (stmt_tgt s))); try (intros; contradiction).
  intros env m v op rhe sv st rhe' env1 v' env2 _ E Hv w. cbn [stmt_tgt]. rewrite (ssa_expr_pargs _ _ _ _ E).
  intros [<-|Hw]; [|right; right; exact Hw]. unfold def_as in Hv.
  destruct (is_local_in decls v); [left; exact (proj2 (fresh_as_bounds _ _ _ _ Hv))|destruct Hv as [-> _]; right; left; reflexivity].
Qed.

Definition ur_stmt (s : stmt) : Prop := forall v, In v (stmt_reads s) -> uok v.
Definition occ_ok (g : vmap) (s : stmt) : Prop := forall v, In v (stmt_occ s) -> vok g v.

Lemma ssa_stmt_ur s env s' env' : envok decls pk env -> ssa_stmt decls env s = SOk (s', env') -> ur_stmt s'.
Proof. intros He H. exact (rds_uok _ _ _ (proj2 (proj2 (ssa_stmt_rd _ _ _ _ H) He))). Qed.

Lemma ssa_stmt_occ s env s' env' : envok decls pk env -> occ_ok (se_global env) s ->
  ssa_stmt decls env s = SOk (s', env') -> occ_ok (se_global env') s'.
Proof.
  intros He Ho H. destruct (ssa_stmt_rd _ _ _ _ H) as [G R]. destruct (R He) as [_ R'].
  assert (Ho' : occ_ok (se_global env') s) by (intros v Hv; eapply vok_gle; [exact G|apply Ho; exact Hv]).
  intros v' Hv'. apply in_app_or in Hv' as [Hv'|Hv'].
  - eapply rds_vok; [exact R'| |exact Hv']. intros v Hv. apply Ho', in_or_app. left. exact Hv.
  - destruct (ssa_stmt_tgt _ _ _ _ H v' Hv') as [B|Hin]; [right; exact B|]. apply Ho', in_or_app. right. exact Hin.
Qed.

Lemma ensure_phi_arg_reads env s : stmt_reads (ensure_phi_arg env s) = stmt_reads s.
Proof. apply ensure_phi_arg_same. reflexivity. Qed.

Lemma occ_ok_phi_arg g m x op args k sv st a : vok g a ->
  occ_ok g (SSubst m x op (EPhi args k) sv st) -> occ_ok g (SSubst m x op (EPhi (args ++ [a]) k) sv st).
Proof.
  intros Ha Ho v [<-|Hv]; [apply Ho; left; reflexivity|].
  apply in_app_or in Hv as [Hv|[<-|[]]]; [apply Ho; right; exact Hv|exact Ha].
Qed.

Lemma ensure_phi_arg_occ env s : sbnd env -> occ_ok (se_global env) s -> occ_ok (se_global env) (ensure_phi_arg env s).
Proof.
  intros Hs Ho. destruct s as [| | |m x op rhe sval stype| | |]; try exact Ho. destruct rhe; try exact Ho.
  unfold ensure_phi_arg. destruct (cur_version env x) as [n|] eqn:Ec;
    match goal with |- context [if ?c then _ else _] => destruct c end; try exact Ho; apply occ_ok_phi_arg; try exact Ho.
  - right. exact (sbnd_cur _ _ _ Hs Ec).
  - left. reflexivity.
Qed.
End Stmts.

Section Walk.
Variable decls : list (vname * vtype).
Variable pk : key -> Prop.
(* an invariant of ALL statements, relative to the counters *)
Variable Q : vmap -> stmt -> Prop.
Hypothesis Q_gle : forall g g' s, gle g g' -> Q g s -> Q g' s.
Hypothesis Q_phi : forall g v, Q g (phi_stmt_for v).
Hypothesis Q_ssa : forall env s s' env', envok decls pk env -> Q (se_global env) s ->
  ssa_stmt decls env s = SOk (s', env') -> Q (se_global env') s'.
Hypothesis Q_ens : forall env s, envok decls pk env -> Q (se_global env) s -> Q (se_global env) (ensure_phi_arg env s).

Definition allQ (g : vmap) (bs : list block) : Prop := Forall (fun b => Forall (Q g) (b_stmts b)) bs.

Lemma allQ_gle g g' bs : gle g g' -> allQ g bs -> allQ g' bs.
Proof.
  intros L H. eapply Forall_impl; [|exact H]. intros b Hb. eapply Forall_impl; [|exact Hb]. intros s. apply Q_gle. exact L.
Qed.

Lemma insert_phis_Q g frontier fuel bs work bs' :
  insert_phis fuel frontier bs work = SOk bs' -> allQ g bs -> allQ g bs'.
Proof.
  intros H Hi. apply forall2_of_Forall in Hi. eapply Forall_of_forall2.
  refine (insert_phis_keeps (fun _ => True) _ (fun _ _ _ _ _ => I) _ _ _ _ _ _ _ H Hi).
  intros _ b v _ Hb. constructor; [apply Q_phi|exact Hb].
Qed.

Lemma ssa_stmts_walk : forall ss env r env', envok decls pk env -> Forall (Q (se_global env)) ss ->
  ssa_stmts decls env ss = SOk (r, env') ->
  envok decls pk env' /\ Forall (Q (se_global env')) r /\ Forall (ur_stmt decls) r.
Proof.
  induction ss as [|s tl IH]; intros env r env' He HQ H; cbn [ssa_stmts] in H.
  - injection H as <- <-. split; [exact He|]. split; constructor.
  - apply sbind_ok in H as ([s' env1] & E & H). apply sbind_ok in H as ([tl' env2] & E0 & H). injection H as <- <-.
    apply Forall_cons_iff in HQ as [Qs Qtl].
    pose proof (proj1 (proj2 (ssa_stmt_rd decls pk _ _ _ _ E) He)) as He1.
    pose proof (ssa_stmt_gle _ _ _ _ _ E) as G1. pose proof (ssa_stmts_gle _ _ _ _ _ E0) as G2.
    assert (Qtl1 : Forall (Q (se_global env1)) tl) by (eapply Forall_impl; [|exact Qtl]; intros a; apply Q_gle; exact G1).
    destruct (IH _ _ _ He1 Qtl1 E0) as (He2 & Q2 & U2). split; [exact He2|]. split; constructor; auto.
    + eapply Q_gle; [exact G2|]. exact (Q_ssa _ _ _ _ He Qs E).
    + exact (ssa_stmt_ur decls pk _ _ _ _ He E).
Qed.

Definition ur_at (bs : list block) (i : nat) : Prop :=
  forall b, nth_error bs i = Some b -> Forall (ur_stmt decls) (b_stmts b).

Variable children : list (list N).

Lemma rename_tree_walk : forall fuel cur bs env bs' env',
  rename_tree fuel decls children cur bs env = SOk (bs', env') -> envok decls pk env -> allQ (se_global env) bs ->
  envok decls pk env' /\ env_gle env env' /\ allQ (se_global env') bs' /\
  (forall i, ur_at bs i -> ur_at bs' i) /\ (forall i, In i (preorder fuel children cur) -> ur_at bs' i).
Proof.
  intros fuel cur bs env bs' env' H He HQ.
  edestruct (rename_tree_inv decls children (fun _ => True)
               (fun e l => envok decls pk e /\ env_gle env e /\ allQ (se_global e) l) (Forall (ur_stmt decls)))
    as ((He' & G & HQ') & M & P); [| | | | |exact (fun _ _ => I)|exact H| |].
  - intros e l c b ss e1 _ (Hee & Ge & Hl) Hb E.
    destruct (ssa_stmts_walk _ _ _ _ Hee (Forall_nth_error _ _ _ _ Hl Hb) E) as (He1 & Q1 & U1).
    pose proof (ssa_stmts_gle _ _ _ _ _ E) as G1.
    split; [|exact U1]. split; [exact He1|]. split; [eapply gle_trans; eassumption|].
    apply Forall_update_nth; [exact (allQ_gle _ _ _ G1 Hl)|]. intros x _ _. exact Q1.
  - intros e l s (Hee & Ge & Hl). split; [exact Hee|]. split; [exact Ge|].
    apply Forall_update_nth; [exact Hl|]. intros b _. apply update_phis_Forall. intros s0. apply Q_ens. exact Hee.
  - intros e l (Hee & Ge & Hl). split; [apply envok_push; exact Hee|]. split; assumption.
  - intros e l (Hee & Ge & Hl). split; [apply envok_pop; exact Hee|]. split; assumption.
  - intros e ss. apply update_phis_Forall. intros s Hs v Hv. rewrite ensure_phi_arg_reads in Hv. exact (Hs v Hv).
  - split; [exact He|]. split; [apply gle_refl|exact HQ].
  - auto.
Qed.
End Walk.

Definition param_key (c : cfg) (k : key) : Prop := exists p, In p (c_params c) /\ key_of p = k.

Lemma envok_init decls pk : envok decls pk {| se_global := []; se_scoped := [[]] |}.
Proof.
  split; [|intros k m H; discriminate H]. constructor; [|constructor]. intros k n H. discriminate H.
Qed.

Lemma envok_params decls (pk : key -> Prop) : forall ps env, (forall p, In p ps -> pk (key_of p)) -> envok decls pk env ->
  envok decls pk (fold_left (fun env x => snd (next_version env x)) ps env).
Proof.
  induction ps as [|p tl IH]; intros env Hp He; simpl; [exact He|].
  apply IH; [intros q Hq; apply Hp; right; exact Hq|]. apply envok_next; [exact He|]. right. apply Hp. left. reflexivity.
Qed.

(* the stages of into_ssa with the invariant of the walks *)
Lemma into_ssa_walk (Q : vmap -> stmt -> Prop) frontier children c c' :
  (forall g g' s, gle g g' -> Q g s -> Q g' s) ->
  (forall g v, Q g (phi_stmt_for v)) ->
  (forall env s s' env', envok (c_decls c) (param_key c) env -> Q (se_global env) s ->
     ssa_stmt (c_decls c) env s = SOk (s', env') -> Q (se_global env') s') ->
  (forall env s, envok (c_decls c) (param_key c) env -> Q (se_global env) s -> Q (se_global env) (ensure_phi_arg env s)) ->
  (forall g, allQ Q g (c_blocks c)) ->
  into_ssa frontier children c = SOk c' ->
  exists bs2 env,
    c' = {| c_kind := c_kind c; c_params := map (fun x => with_version x 0%N) (c_params c); c_decls := [];
            c_blocks := map (fun b => set_stmts b (map (update_decl_stmt env) (b_stmts b))) bs2 |} /\
    envok (c_decls c) (param_key c) env /\ allQ Q (se_global env) bs2 /\
    length bs2 = length (c_blocks c) /\
    (forall i, In i (preorder (S (length (c_blocks c))) children 0) -> ur_at (c_decls c) bs2 i) /\
    (phi_free c = true -> erase_inv (c_blocks c) bs2).
Proof.
  intros Q_gle Q_phi Q_ssa Q_ens H0 H.
  destruct (into_ssa_stages _ _ _ _ H) as (fuel & bs1 & env0 & bs2 & env & H1 & Henv0 & H2 & ->).
  assert (He0 : envok (c_decls c) (param_key c) env0).
  { rewrite Henv0. apply envok_params; [|apply envok_init]. intros p Hp. exists p. split; [exact Hp|reflexivity]. }
  pose proof (insert_phis_Q Q Q_phi (se_global env0) _ _ _ _ _ H1 (H0 _)) as HQ1.
  destruct (rename_tree_walk (c_decls c) (param_key c) Q Q_gle Q_ssa Q_ens children _ _ _ _ _ _ H2 He0 HQ1)
    as (He & _ & HQ2 & _ & P).
  exists bs2, env. split; [reflexivity|]. split; [exact He|]. split; [exact HQ2|]. split; [|split; [exact P|]].
  - rewrite (rename_tree_length _ _ _ _ _ _ _ _ H2). eapply insert_phis_length. exact H1.
  - intros Hpf. exact (stages_erase _ _ _ _ _ _ _ _ _ _ _ (phi_free_self_sim c Hpf) H1 H2).
Qed.

Lemma ssa_stmt_decl_local d decls : forall s env s' env',
  ssa_stmt decls env s = SOk (s', env') -> decl_stmt_local d s' = decl_stmt_local d s.
Proof. apply (ssa_stmt_cases decls (fun _ s s' _ => decl_stmt_local d s' = decl_stmt_local d s)); reflexivity. Qed.

Lemma ensure_phi_arg_decl_local d env s : decl_stmt_local d (ensure_phi_arg env s) = decl_stmt_local d s.
Proof. apply ensure_phi_arg_same. reflexivity. Qed.

Lemma update_decl_stmt_reads env s : stmt_reads (update_decl_stmt env s) = stmt_reads s.
Proof. apply update_decl_stmt_same. reflexivity. Qed.

(* a versioned name that a re-issued Declaration statement of a local lists has the key of a
   name that a Declaration statement of a local listed first before *)
Lemma update_decl_entry_local decls env s x :
  In (x, TLocal) (stmt_decl_entries (update_decl_stmt env s)) -> vn_version x <> None ->
  decl_stmt_local decls s = true -> is_local_in decls x = true.
Proof.
  intros Hin Hv Hq. destruct s as [m names t dims| | | | | |]; try contradiction.
  destruct names as [|name rest]; [contradiction|].
  destruct t; cbn [update_decl_stmt stmt_decl_entries] in Hin;
    try (apply in_map_iff in Hin; destruct Hin as (y & Hy & _); discriminate Hy).
  apply in_map_iff in Hin. destruct Hin as (y & Hy & Hin). inversion Hy; subst y.
  apply in_map_iff in Hin. destruct Hin as (n & <- & _).
  rewrite (is_local_in_key decls (with_version name n) name eq_refl). exact Hq.
Qed.

(* a statement of the output is the re-issued form of a statement of a renamed block *)
Lemma in_output_stmt env bs2 b' s' :
  In b' (map (fun b => set_stmts b (map (update_decl_stmt env) (b_stmts b))) bs2) -> In s' (b_stmts b') ->
  exists i b s, nth_error bs2 i = Some b /\ In s (b_stmts b) /\ s' = update_decl_stmt env s.
Proof.
  intros Hb' Hs'. apply in_map_iff in Hb' as (b & <- & Hb). cbn [set_stmts b_stmts] in Hs'.
  apply in_map_iff in Hs' as (s & <- & Hs). apply In_nth_error in Hb as [i Hi]. eauto 6.
Qed.

(* every read of the output that carries no version is not a local of the table of the input
   (parameters, dimensions of declarations, indices, access lists, logged expressions included) *)
Theorem into_ssa_unversioned_reads_nonlocal : forall frontier children c c' b s v,
  children_cover children (length (c_blocks c)) ->
  into_ssa frontier children c = SOk c' ->
  In b (c_blocks c') -> In s (b_stmts b) -> In v (stmt_reads s) -> vn_version v = None ->
  is_local_in (c_decls c) v = false.
Proof.
  intros frontier children c c' b' s' v Hcov H Hb' Hs' Hv Hn.
  destruct (into_ssa_walk (fun _ _ => True) frontier children c c') as (bs2 & env & -> & _ & _ & L2 & P & _); auto.
  { intros g. apply Forall_forall. intros b _. apply Forall_forall. auto. }
  destruct (in_output_stmt _ _ _ _ Hb' Hs') as (i & b & s & Hi & Hs & ->). rewrite update_decl_stmt_reads in Hv.
  assert (Hlt : i < length bs2) by (apply nth_error_Some; congruence). rewrite L2 in Hlt.
  specialize (P i (Hcov i Hlt) b Hi). rewrite Forall_forall in P. exact (P s Hs v Hv Hn).
Qed.

Lemma klocal_in decls k : klocal decls k = true <-> exists x, In (x, TLocal) decls /\ key_of x = k.
Proof.
  unfold klocal. rewrite existsb_exists. split.
  - intros ([x t] & Hd & Hk). cbn [fst snd] in Hk. apply andb_true_iff in Hk as [Hk Ht]. apply key_eqb_eq in Hk.
    destruct t; try discriminate Ht. exists x. split; [exact Hd|exact Hk].
  - intros (x & Hd & Hk). exists (x, TLocal). split; [exact Hd|]. cbn [fst snd]. rewrite Hk, key_eqb_refl. reflexivity.
Qed.

(* the condition of the check, from its meaning *)
Lemma unversioned_reads_ok_intro c :
  (forall b s v, In b (c_blocks c) -> In s (b_stmts b) -> In v (stmt_reads s) -> vn_version v = None ->
     local_key c (key_of v) = false) -> unversioned_reads_ok c = true.
Proof.
  intros H. unfold unversioned_reads_ok. apply forallb_forall. intros b Hb. apply forallb_forall. intros s Hs.
  apply forallb_forall. intros v Hv. unfold unversioned_read_ok. destruct (vn_version v) eqn:Ev; [reflexivity|].
  rewrite (H b s v Hb Hs Hv Ev). reflexivity.
Qed.

Theorem into_ssa_unversioned_reads_ok : forall frontier children c c',
  children_cover children (length (c_blocks c)) ->
  forallb (is_local_in (c_decls c)) (c_params c) = true ->
  decl_stmts_declared c = true ->
  into_ssa frontier children c = SOk c' -> unversioned_reads_ok (with_stmt_decls c') = true.
Proof.
  intros frontier children c c' Hcov Hpar Hdecl H.
  set (decls := c_decls c) in *.
  destruct (into_ssa_walk (fun _ s => decl_stmt_local decls s = true) frontier children c c') as (bs2 & env & Hc' & _ & HQ & _ & _ & _); auto.
  { intros env s s' env' _ Hq Hs. rewrite (ssa_stmt_decl_local _ _ _ _ _ _ Hs). exact Hq. }
  { intros env s _ Hq. rewrite ensure_phi_arg_decl_local. exact Hq. }
  { intros g. unfold decl_stmts_declared in Hdecl. rewrite forallb_forall in Hdecl. apply Forall_forall. intros b Hb.
    apply Forall_forall. specialize (Hdecl b Hb). rewrite forallb_forall in Hdecl. exact Hdecl. }
  apply unversioned_reads_ok_intro. intros b s v Hb Hs Hv Ev.
  pose proof (into_ssa_unversioned_reads_nonlocal _ _ _ _ b s v Hcov H Hb Hs Hv Ev) as NL.
  (* the keys the rebuilt table calls local are keys of locals of the table of the input *)
  destruct (local_key (with_stmt_decls c') (key_of v)) eqn:Ek; [|reflexivity].
  rewrite is_local_klocal in NL. rewrite <- NL. symmetry. clear NL Hb Hs Hv b s.
  unfold local_key in Ek. apply orb_true_iff in Ek. destruct Ek as [Hk|Hk].
  - apply existsb_exists in Hk. destruct Hk as ([x t] & Hd & Hk). cbn [fst snd] in Hk.
    apply andb_true_iff in Hk as [Hk Hver]. apply andb_true_iff in Hk as [Hk Ht].
    apply key_eqb_eq in Hk. apply vtype_eqb_eq in Ht. subst t.
    cbn [with_stmt_decls c_decls] in Hd. apply in_flat_map in Hd. destruct Hd as (b' & Hb' & Hd).
    apply in_flat_map in Hd. destruct Hd as (s' & Hs' & Hd). rewrite Hc' in Hb'.
    destruct (in_output_stmt _ _ _ _ Hb' Hs') as (i & b & s & Hi & Hs & ->).
    pose proof (Forall_nth_error _ _ _ _ HQ Hi) as Hq. rewrite Forall_forall in Hq. specialize (Hq s Hs).
    rewrite <- Hk, <- is_local_klocal. eapply update_decl_entry_local; [exact Hd| |exact Hq].
    destruct (vn_version x); [discriminate|discriminate Hver].
  - apply existsb_exists in Hk. destruct Hk as (p' & Hp' & Hk). apply key_eqb_eq in Hk.
    cbn [with_stmt_decls c_params] in Hp'. rewrite Hc' in Hp'. cbn [c_params] in Hp'.
    apply in_map_iff in Hp'. destruct Hp' as (p & <- & Hp). rewrite forallb_forall in Hpar.
    rewrite <- Hk. change (key_of (with_version p 0)) with (key_of p). rewrite <- is_local_klocal. apply Hpar. exact Hp.
Qed.

(* the condition as the check evaluates it on the mirror's own output (table empty: parameters only) *)
Corollary into_ssa_unversioned_reads_ok_bare : forall frontier children c c',
  children_cover children (length (c_blocks c)) ->
  forallb (is_local_in (c_decls c)) (c_params c) = true ->
  into_ssa frontier children c = SOk c' -> unversioned_reads_ok c' = true.
Proof.
  intros frontier children c c' Hcov Hpar H. apply unversioned_reads_ok_intro. intros b s v Hb Hs Hv Ev.
  pose proof (into_ssa_unversioned_reads_nonlocal _ _ _ _ _ _ _ Hcov H Hb Hs Hv Ev) as NL.
  destruct (local_key c' (key_of v)) eqn:Ek; [|reflexivity]. exfalso.
  destruct (into_ssa_stages _ _ _ _ H) as (fuel & bs1 & env0 & bs2 & env & _ & _ & _ & Hc').
  unfold local_key in Ek. rewrite Hc' in Ek. cbn [c_decls c_params existsb orb] in Ek.
  apply existsb_exists in Ek. destruct Ek as (p' & Hp' & Hk). apply key_eqb_eq in Hk.
  apply in_map_iff in Hp'. destruct Hp' as (p & <- & Hp). rewrite forallb_forall in Hpar.
  rewrite (is_local_in_key (c_decls c) v p (eq_sym Hk)), (Hpar p Hp) in NL. discriminate NL.
Qed.


(* the graph before the conversion mentions no version *)
Definition unv (v : vname) : Prop := vn_version v = None.
Definition reads_unv (e : expr) : Prop := expr_unvb e = true -> Forall unv (expr_reads e).

Lemma list_unvb_reads : forall es, Forall reads_unv es -> list_unvb es = true -> Forall unv (list_reads es).
Proof.
  induction 1 as [|x tl Hx _ IH]; cbn [list_unvb list_reads]; intros Hu; [constructor|].
  apply andb_true_iff in Hu as [Hu1 Hu2]. apply Forall_app. auto.
Qed.

Lemma acc_unvb_reads : forall acc, Forall reads_unv (acc_exprs acc) -> acc_unvb acc = true -> Forall unv (acc_reads acc).
Proof.
  induction acc as [|[x|n] tl IH]; cbn [acc_exprs flat_map app acc_unvb acc_reads]; intros HF Hu; [constructor| |auto].
  apply Forall_cons_iff in HF as [Hx Htl]. apply andb_true_iff in Hu as [Hu1 Hu2]. apply Forall_app. auto.
Qed.

Lemma expr_unvb_reads : forall e, reads_unv e.
Proof.
  induction e as [z k|v k|op l r k IHl IHr|op x k IHx|c t f k IHc IHt IHf|n args k IH|vs k IH
                 |v acc k IH|v acc rhe k IH IHr|args k] using expr_ind'; intros Hu.
  - constructor.
  - constructor; [exact (isnoneb_true _ Hu)|constructor].
  - cbn [expr_unvb] in Hu. apply andb_true_iff in Hu as [Hu1 Hu2]. apply Forall_app. auto.
  - exact (IHx Hu).
  - cbn [expr_unvb] in Hu. apply andb_true_iff in Hu as [Hu Hu3]. apply andb_true_iff in Hu as [Hu1 Hu2].
    apply Forall_app. split; [auto|]. apply Forall_app. auto.
  - exact (list_unvb_reads args IH Hu).
  - exact (list_unvb_reads vs IH Hu).
  - rewrite expr_unvb_access in Hu. apply andb_true_iff in Hu as [Hv Hu]. rewrite expr_reads_access.
    constructor; [exact (isnoneb_true _ Hv)|exact (acc_unvb_reads acc IH Hu)].
  - rewrite expr_unvb_update in Hu. apply andb_true_iff in Hu as [Hu Hu3]. apply andb_true_iff in Hu as [Hv Hu].
    rewrite expr_reads_update. constructor; [exact (isnoneb_true _ Hv)|]. apply Forall_app.
    split; [auto|exact (acc_unvb_reads acc IH Hu)].
  - constructor.
Qed.

Lemma stmt_unvb_occ s : stmt_unvb s = true -> stmt_nophi s = true -> Forall unv (stmt_occ s).
Proof.
  pose proof expr_unvb_reads as He. unfold reads_unv in He.
  intros Hu Hp. apply Forall_app.
  destruct s as [m names t dims|m c t f|m e|m x op rhe sval stype|m l r|m args|m e];
    cbn [stmt_unvb stmt_nophi stmt_reads stmt_tgt] in *.
  - split; [|constructor]. rewrite <- list_reads_flat_map. apply list_unvb_reads; [|exact Hu]. apply Forall_forall. intros e _. apply expr_unvb_reads.
  - split; [auto|constructor].
  - split; [auto|constructor].
  - apply andb_true_iff in Hu as [Hx Hu]. split; [auto|]. constructor; [exact (isnoneb_true _ Hx)|].
    destruct rhe; try constructor. discriminate Hp.
  - apply andb_true_iff in Hu as [Hu1 Hu2]. split; [apply Forall_app; auto|constructor].
  - split; [|constructor]. apply Forall_flat_map. rewrite forallb_forall in Hu. apply Forall_forall. intros [|e] Ha; [constructor|].
    exact (He e (Hu _ Ha)).
  - split; [auto|constructor].
Qed.

Lemma stmts_sim_in_l : forall xs ys x, stmts_sim xs ys = true -> In x xs -> exists y, In y ys /\ stmt_sim x y = true.
Proof.
  induction xs as [|a tx IH]; intros [|b ty] x Hs Hin; cbn [stmts_sim] in Hs; try discriminate; [contradiction|].
  apply andb_true_iff in Hs as [Hs1 Hs2]. destruct Hin as [<-|Hin]; [exists b; split; [left; reflexivity|exact Hs1]|].
  destruct (IH ty x Hs2 Hin) as (y & Hy & Sy). exists y. split; [right; exact Hy|exact Sy].
Qed.

(* a Declaration statement of a local stays one, with the same key, through phi insertion and renaming *)
Lemma declares_key_sim k s0 s2 : declares_key k s0 = true -> decl_names_ok s0 = true -> stmt_sim s0 s2 = true ->
  exists m name rest dims, s2 = SDecl m (name :: rest) TLocal dims /\ key_of name = k.
Proof.
  intros Hk Hd Hs. destruct s0 as [m0 names0 t0 dims0| | | | | |]; try discriminate Hk.
  destruct names0 as [|n0 rest0]; [discriminate Hk|]. destruct t0; try discriminate Hk.
  cbn [declares_key] in Hk. apply key_eqb_eq in Hk.
  destruct s2 as [m names t dims| | | | | |]; try discriminate Hs. cbn [stmt_sim] in Hs.
  rewrite !andb_true_iff in Hs. destruct Hs as (((_ & Hn) & Ht) & _). destruct t; try discriminate Ht.
  unfold names_sim in Hn. apply andb_true_iff in Hn as [Hn1 Hn2].
  destruct names as [|name rest].
  { cbn [forallb existsb] in Hn1. discriminate Hn1. }
  exists m, name, rest, dims. split; [reflexivity|].
  cbn [forallb] in Hn2. apply andb_true_iff in Hn2 as [Hn2 _]. apply existsb_exists in Hn2.
  destruct Hn2 as (x & Hx & Hxs). apply vname_sim_eq in Hxs. rewrite <- Hxs, <- Hk.
  destruct Hx as [<-|Hx]; [reflexivity|]. cbn [decl_names_ok] in Hd. rewrite forallb_forall in Hd.
  symmetry. apply vname_sim_eq. apply Hd. exact Hx.
Qed.

Lemma versions_of_in env name n m : vget (se_global env) (key_of name) = Some m -> (n <= m)%N -> In n (versions_of env name).
Proof.
  intros Hm Le. unfold versions_of. rewrite Hm. apply in_map_iff. exists (N.to_nat n). split; [apply N2Nat.id|].
  apply in_seq. lia.
Qed.

Lemma vname_eta v name n : key_of v = key_of name -> vn_version v = Some n -> v = with_version name n.
Proof. destruct v as [a b c], name as [a' b' c']. unfold key_of, with_version. cbn. intros Hk Hv. inversion Hk; subst. reflexivity. Qed.

Lemma in_stmt_decl_names c b s m names t dims v :
  In b (c_blocks c) -> In s (b_stmts b) -> s = SDecl m names t dims -> In v names -> In v (stmt_decl_names c).
Proof.
  intros Hb Hs -> Hv. unfold stmt_decl_names. apply in_flat_map. exists b. split; [exact Hb|].
  apply in_flat_map. exists (SDecl m names t dims). split; [exact Hs|exact Hv].
Qed.

Theorem into_ssa_versions_stmt_declared : forall frontier children c c',
  phi_free c = true -> decls_ok c = true ->
  forallb (fun b => forallb stmt_unvb (b_stmts b)) (c_blocks c) = true ->
  locals_have_decl_stmt c = true ->
  into_ssa frontier children c = SOk c' -> versions_stmt_declared c' = true.
Proof.
  intros frontier children c c' Hpf Hdk Hunv Hloc H.
  set (decls := c_decls c) in *.
  destruct (into_ssa_walk occ_ok frontier children c c') as (bs2 & env & Hc' & He & HQ & _ & _ & Her); auto.
  { intros g g' s L Ho v Hv. eapply vok_gle; [exact L|apply Ho; exact Hv]. }
  { intros g v w Hw. unfold stmt_occ in Hw. cbn in Hw. destruct Hw as [<-|[]]. left. reflexivity. }
  { intros env0 s s' env' He0 Ho Hs. eapply ssa_stmt_occ; eassumption. }
  { intros env0 s He0 Ho. apply ensure_phi_arg_occ; [exact (proj1 He0)|exact Ho]. }
  { intros g. apply Forall_forall. intros b Hb. apply Forall_forall. intros s Hs v Hv. left.
    rewrite forallb_forall in Hunv. specialize (Hunv b Hb). rewrite forallb_forall in Hunv.
    unfold phi_free in Hpf. rewrite forallb_forall in Hpf. specialize (Hpf b Hb). rewrite forallb_forall in Hpf.
    pose proof (stmt_unvb_occ s (Hunv s Hs) (Hpf s Hs)) as U. rewrite Forall_forall in U. exact (U v Hv). }
  specialize (Her Hpf).
  unfold versions_stmt_declared. apply forallb_forall. intros v Hv. unfold version_declared.
  destruct (vn_version v) as [n|] eqn:Ev; [|reflexivity]. apply orb_true_iff.
    assert (PK : param_key c (key_of v) -> existsb (fun p => key_eqb (key_of p) (key_of v)) (c_params c') = true).
  { intros (p & Hp & Hk). apply existsb_exists. exists (with_version p 0). split.
    - rewrite Hc'. cbn [c_params]. apply in_map_iff. exists p. split; [reflexivity|exact Hp].
    - apply key_eqb_eq. exact Hk. }
  unfold all_occurrences in Hv. apply in_app_or in Hv. destruct Hv as [Hv|Hv].
  { right. apply existsb_exists. exists v. split; [exact Hv|apply key_eqb_refl]. }
  apply in_flat_map in Hv. destruct Hv as (b' & Hb' & Hv). apply in_flat_map in Hv. destruct Hv as (s' & Hs' & Hv).
  pose proof Hb' as Hb'0. pose proof Hs' as Hs'0. rewrite Hc' in Hb'.
  destruct (in_output_stmt _ _ _ _ Hb' Hs') as (i & b & s & Hi & Hs & Es).
  (* either a name a Declaration statement lists itself, or an occurrence of the renamed statement *)
  assert (Hcase : (exists m names t dims, s' = SDecl m names t dims /\ In v names) \/ In v (stmt_occ s)).
  { apply in_app_or in Hv. destruct Hv as [Hv|Hv].
    - right. rewrite Es, update_decl_stmt_reads in Hv. unfold stmt_occ. apply in_or_app. left. exact Hv.
    - destruct s' as [m names t dims| | |m x op rhe sval stype| | |]; try contradiction.
      + left. exists m, names, t, dims. split; [reflexivity|exact Hv].
      + right. destruct s as [m1 [|n1 r1] [] dims1| | |m1 x1 op1 rhe1 sval1 stype1| | |]; try discriminate Es.
        injection Es as <- <- <- <- <- <-. unfold stmt_occ. apply in_or_app. right. exact Hv. }
  destruct Hcase as [(m & names & t & dims & -> & Hin)|Hocc].
  { left. apply existsb_exists. exists v. split; [|apply vname_eqb_refl].
    eapply in_stmt_decl_names; [exact Hb'0|exact Hs'0|reflexivity|exact Hin]. }
  (* the version lies at or below the counter, so the key is the key of a local or of a parameter *)
  pose proof (Forall_nth_error _ _ _ _ HQ Hi) as Hq. rewrite Forall_forall in Hq.
  destruct (Hq s Hs v Hocc) as [Hnone|(n' & mx & Hn' & Hm & Le)]; [congruence|].
  rewrite Ev in Hn'. inversion Hn'; subst n'.
  destruct (proj2 He _ _ Hm) as [Hkl|Hpk]; [|right; exact (PK Hpk)].
  apply klocal_in in Hkl. destruct Hkl as (x & Hd & Hk).
  unfold locals_have_decl_stmt in Hloc. rewrite forallb_forall in Hloc. specialize (Hloc _ Hd).
  unfold local_has_decl_stmt in Hloc. cbn [fst snd] in Hloc. apply orb_true_iff in Hloc. destruct Hloc as [Hloc|Hloc].
  { right. apply PK. apply existsb_exists in Hloc. destruct Hloc as (p & Hp & Hkp). apply key_eqb_eq in Hkp.
    exists p. split; [exact Hp|congruence]. }
  left. apply existsb_exists in Hloc. destruct Hloc as (b0 & Hb0 & Hloc). apply existsb_exists in Hloc.
  destruct Hloc as (s0 & Hs0 & Hdk0).
  apply In_nth_error in Hb0 as [j Hj].
  destruct (forall2_nth_fwd _ _ _ _ _ Her Hj) as (b2 & Hb2 & (_ & _ & P & B & Hst & _ & Hsim)).
  apply nth_error_In in Hj, Hb2.
  destruct (stmts_sim_in_l _ _ _ Hsim Hs0) as (s2 & Hs2 & Hss).
  assert (Hdn : decl_names_ok s0 = true).
  { unfold decls_ok in Hdk. rewrite forallb_forall in Hdk. specialize (Hdk _ Hj). rewrite forallb_forall in Hdk. exact (Hdk s0 Hs0). }
  destruct (declares_key_sim _ _ _ Hdk0 Hdn Hss) as (m2 & name & rest & dims & -> & Hkn).
  apply existsb_exists. exists v. split; [|apply vname_eqb_refl].
  eapply (in_stmt_decl_names c' (set_stmts b2 (map (update_decl_stmt env) (b_stmts b2)))
            (update_decl_stmt env (SDecl m2 (name :: rest) TLocal dims))).
  - rewrite Hc'. cbn [c_blocks]. apply in_map_iff. exists b2. split; [reflexivity|exact Hb2].
  - cbn [set_stmts b_stmts]. apply in_map. rewrite Hst. apply in_or_app. right. exact Hs2.
  - reflexivity.
  - apply in_map_iff. exists n. split.
    + symmetry. apply vname_eta; [congruence|exact Ev].
    + eapply versions_of_in; [|exact Le]. rewrite Hkn, Hk. exact Hm.
Qed.

(* what the executable condition versions_stmt_declared says (an unfolding) *)
Lemma versions_stmt_declared_spec : forall c v n,
  versions_stmt_declared c = true -> In v (all_occurrences c) -> vn_version v = Some n ->
  (exists b m names t dims, In b (c_blocks c) /\ In (SDecl m names t dims) (b_stmts b) /\ In v names) \/
  (exists p, In p (c_params c) /\ key_of p = key_of v).
Proof.
  intros c v n H Hv Hn. unfold versions_stmt_declared in H. rewrite forallb_forall in H. specialize (H v Hv).
  unfold version_declared in H. rewrite Hn in H. apply orb_true_iff in H. destruct H as [H|H].
  - left. apply existsb_exists in H. destruct H as (w & Hw & E). apply vname_eqb_eq in E. subst w.
    unfold stmt_decl_names in Hw. apply in_flat_map in Hw. destruct Hw as (b & Hb & Hw).
    apply in_flat_map in Hw. destruct Hw as (s & Hs & Hw).
    destruct s as [m names t dims| | | | | |]; try contradiction. exists b, m, names, t, dims. auto.
  - right. apply existsb_exists in H. destruct H as (p & Hp & E). apply key_eqb_eq in E. exists p. auto.
Qed.

(* each hypothesis is needed *)
Module Needed.
Definition k0 : know := {| kval := None; kdeg := None |}.
Definition m0 : meta := {| m_start := 0%N; m_end := 0%N; m_file := None |}.
Definition uv (c : N) : vname := {| vn_name := [c]; vn_suffix := None; vn_version := None |}.
Definition blk i ss ps su := {| b_index := i; b_depth := 0%N; b_stmts := ss; b_preds := ps; b_succs := su |}.
(* parameter p; var n = 2 + p; signal s[n]; var q; if (n) { n = n + 1; p = p + 1 }; var t[n][p]; t[n] = s; s <== t[n][s[p]]; return t *)
Definition g1 : cfg :=
  {| c_kind := KFunction; c_params := [uv 112];
     c_decls := [(uv 112, TLocal); (uv 110, TLocal); (uv 115, TSigInt); (uv 116, TLocal); (uv 113, TLocal)];
     c_blocks :=
       [ blk 0%N [ SDecl m0 [uv 110] TLocal [];
                   SSubst m0 (uv 110) OpVar (EInfix IAdd (ENum 2 k0) (EVar (uv 112) k0) k0) None (Some TLocal);
                   SDecl m0 [uv 115] TSigInt [EVar (uv 110) k0];
                   SDecl m0 [uv 113] TLocal [];
                   SIf m0 (EVar (uv 110) k0) 1%N (Some 2%N) ] [] [1%N; 2%N];
         blk 1%N [ SSubst m0 (uv 110) OpVar (EInfix IAdd (EVar (uv 110) k0) (ENum 1 k0) k0) None (Some TLocal);
                   SSubst m0 (uv 112) OpVar (EInfix IAdd (EVar (uv 112) k0) (ENum 1 k0) k0) None (Some TLocal) ] [0%N] [2%N];
         blk 2%N [ SDecl m0 [uv 116] TLocal [EVar (uv 110) k0; EVar (uv 112) k0];
                   SSubst m0 (uv 116) OpVar (EUpdate (uv 116) [AIdx (EVar (uv 110) k0)] (EVar (uv 115) k0) k0) None (Some TLocal);
                   SSubst m0 (uv 115) OpSig (EAccess (uv 116) [AIdx (EVar (uv 110) k0); AIdx (EAccess (uv 115) [AIdx (EVar (uv 112) k0)] k0)] k0)
                          None (Some TSigInt);
                   SRet m0 (EVar (uv 116) k0) ] [0%N; 1%N] [] ] |}.
Definition fr1 : list (list N) := [[]; [2%N]; []].
Definition ch1 : list (list N) := [[1%N; 2%N]; []; []].
Definition res fr ch g :=
  match into_ssa fr ch g with
  | SOk c' => Some (unversioned_reads_ok c', unversioned_reads_ok (with_stmt_decls c'), versions_stmt_declared c')
  | _ => None
  end.

Lemma all_hypotheses : res fr1 ch1 g1 = Some (true, true, true).
Proof. vm_compute. reflexivity. Qed.

(* the children table does not reach block 2: its reads stay unversioned *)
Lemma needs_children_cover :
  children_coverb [[1%N]; []; []] 3 = false /\ res fr1 [[1%N]; []; []] g1 = Some (false, false, true).
Proof. vm_compute. split; reflexivity. Qed.

(* the table calls t a signal, the statement declares it a local: t is read without a version although
   the re-issued Declaration statement lists versions of it *)
Definition g2 : cfg :=
  {| c_kind := c_kind g1; c_params := c_params g1;
     c_decls := [(uv 112, TLocal); (uv 110, TLocal); (uv 115, TSigInt); (uv 116, TSigInt); (uv 113, TLocal)];
     c_blocks := c_blocks g1 |}.
Lemma needs_decl_stmts_declared :
  decl_stmts_declared g2 = false /\ locals_have_decl_stmt g2 = true /\ res fr1 ch1 g2 = Some (true, false, true).
Proof. vm_compute. repeat split; reflexivity. Qed.

(* no Declaration statement for the local n: its versions are listed nowhere *)
Definition g3 : cfg :=
  {| c_kind := c_kind g1; c_params := c_params g1; c_decls := c_decls g1;
     c_blocks := map (fun b => set_stmts b (filter (fun s => match s with
                                                             | SDecl _ (x :: _) TLocal _ => negb (vname_eqb x (uv 110))
                                                             | _ => true
                                                             end) (b_stmts b))) (c_blocks g1) |}.
Lemma needs_locals_have_decl_stmt :
  decl_stmts_declared g3 = true /\ locals_have_decl_stmt g3 = false /\ res fr1 ch1 g3 = Some (true, true, false).
Proof. vm_compute. repeat split; reflexivity. Qed.
End Needed.
