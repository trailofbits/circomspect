(* Degree propagation never touches a value claim: erasing all degree knowledge
   commutes with it, and the validator only reads the erased graph.  Hence the
   universal C20 theorem extends from values_passes to the full
   Model.Propagate.propagate (values then degrees, each with its own budget). *)
From Coq Require Import ZArith List Bool.
Require Import Model.Base Model.Field Model.Ir Model.Propagate Model.Justify Model.Clean Model.DegWf Gen.DegreeTable.
Require Import Proofs.IrInd Proofs.IrFacts Proofs.PropagateVisit Proofs.CutInvariant.
Import ListNotations.
Local Open Scope Z_scope.

Definition ek (k : know) : know := {| kval := kval k; kdeg := None |}.

Fixpoint eerase (e : expr) {struct e} : expr :=
  let fix elist (es : list expr) : list expr :=
      match es with [] => [] | x :: tl => eerase x :: elist tl end in
  let fix eacc (acc : list (access expr)) : list (access expr) :=
      match acc with
      | [] => []
      | AIdx x :: tl => AIdx (eerase x) :: eacc tl
      | AComp n :: tl => AComp n :: eacc tl
      end in
  match e with
  | ENum z k => ENum z (ek k)
  | EVar v k => EVar v (ek k)
  | EInfix op l r k => EInfix op (eerase l) (eerase r) (ek k)
  | EPrefix op x k => EPrefix op (eerase x) (ek k)
  | ESwitch c t f k => ESwitch (eerase c) (eerase t) (eerase f) (ek k)
  | ECall n args k => ECall n (elist args) (ek k)
  | EArray vs k => EArray (elist vs) (ek k)
  | EAccess v acc k => EAccess v (eacc acc) (ek k)
  | EUpdate v acc rhe k => EUpdate v (eacc acc) (eerase rhe) (ek k)
  | EPhi args k => EPhi args (ek k)
  end.

Definition elogarg (a : logarg) : logarg := match a with LStr => LStr | LExpr e => LExpr (eerase e) end.

Definition serase (s : stmt) : stmt :=
  match s with
  | SDecl m names t dims => SDecl m names t (map eerase dims)
  | SIf m c t f => SIf m (eerase c) t f
  | SRet m e => SRet m (eerase e)
  | SSubst m v op rhe sval st => SSubst m v op (eerase rhe) sval st
  | SCeq m l r => SCeq m (eerase l) (eerase r)
  | SLog m args => SLog m (map elogarg args)
  | SAssert m e => SAssert m (eerase e)
  end.

Lemma elist_map es :
  (fix elist (es : list expr) : list expr :=
     match es with [] => [] | x :: tl => eerase x :: elist tl end) es = map eerase es.
Proof. induction es as [|x tl IH]; [reflexivity|]. cbn [map]. rewrite IH. reflexivity. Qed.

Lemma eacc_map acc :
  (fix eacc (acc : list (access expr)) : list (access expr) :=
     match acc with
     | [] => []
     | AIdx x :: tl => AIdx (eerase x) :: eacc tl
     | AComp n :: tl => AComp n :: eacc tl
     end) acc = map (amap eerase) acc.
Proof. induction acc as [|[x|n] tl IH]; [reflexivity| |]; cbn [map amap]; rewrite IH; reflexivity. Qed.

Lemma expr_val_eerase e : expr_val (eerase e) = expr_val e.
Proof. destruct e; reflexivity. Qed.

Lemma is_update_eerase e : is_update (eerase e) = is_update e.
Proof. destruct e; reflexivity. Qed.

Lemma def_ok_serase v c s : def_ok v c (serase s) = def_ok v c s.
Proof. destruct s; cbn [serase def_ok]; try reflexivity. rewrite expr_val_eerase, is_update_eerase. reflexivity. Qed.

Lemma defines_serase v s : defines v (serase s) = defines v s.
Proof. destruct s; reflexivity. Qed.

Lemma all_defs_claim_serase ss v c : all_defs_claim (map serase ss) v c = all_defs_claim ss v c.
Proof.
  unfold all_defs_claim. f_equal.
  - induction ss as [|s tl IH]; [reflexivity|]. cbn [map forallb]. rewrite def_ok_serase, IH. reflexivity.
  - induction ss as [|s tl IH]; [reflexivity|]. cbn [map existsb]. rewrite defines_serase, IH. reflexivity.
Qed.

Lemma vjust_eerase ss p e : vjust_expr (map serase ss) p (eerase e) = vjust_expr ss p e.
Proof.
  induction e as [z k|v k|op l r k IHl IHr|op e k IHe|c t f k IHc IHt IHf|n args k IHargs|vs k IHvs
                  |v acc k IHacc|v acc rhe k IHacc IHrhe|args k] using expr_ind';
    cbn [eerase vjust_expr ek kval]; rewrite ?elist_map, ?eacc_map, ?list_forallb, ?acc_forallb, ?acc_exprs_amap.
  - reflexivity.
  - destruct (kval k); [apply all_defs_claim_serase|reflexivity].
  - rewrite IHl, IHr, !expr_val_eerase. reflexivity.
  - rewrite IHe, expr_val_eerase. reflexivity.
  - rewrite IHc, IHt, IHf, !expr_val_eerase. reflexivity.
  - rewrite (forallb_map_ext _ _ _ _ IHargs). reflexivity.
  - rewrite (forallb_map_ext _ _ _ _ IHvs). reflexivity.
  - rewrite (forallb_map_ext _ _ _ _ IHacc). reflexivity.
  - rewrite IHrhe, (forallb_map_ext _ _ _ _ IHacc). reflexivity.
  - destruct (kval k); [|reflexivity]. f_equal.
    induction args as [|a tl IH]; [reflexivity|]. cbn [forallb]. rewrite all_defs_claim_serase, IH. reflexivity.
Qed.

Lemma vjust_stmt_serase ss p s : vjust_stmt (map serase ss) p (serase s) = vjust_stmt ss p s.
Proof.
  destruct s; cbn [serase vjust_stmt].
  - induction dims as [|x tl IH]; [reflexivity|]. cbn [map forallb]. rewrite vjust_eerase, IH. reflexivity.
  - apply vjust_eerase.
  - apply vjust_eerase.
  - rewrite vjust_eerase, is_update_eerase, expr_val_eerase. reflexivity.
  - rewrite !vjust_eerase. reflexivity.
  - induction args as [|a tl IH]; [reflexivity|]. cbn [map forallb]. rewrite IH. f_equal.
    destruct a; [reflexivity|]. cbn. apply vjust_eerase.
  - apply vjust_eerase.
Qed.

Lemma vjust_all_serase p ctx ss : forallb (vjust_stmt (map serase ctx) p) (map serase ss) = forallb (vjust_stmt ctx p) ss.
Proof. apply forallb_map_ext. apply all_ext. apply vjust_stmt_serase. Qed.

Lemma vjust_same_erasure p ss ss' :
  map serase ss = map serase ss' -> forallb (vjust_stmt ss p) ss = forallb (vjust_stmt ss' p) ss'.
Proof. intros H. rewrite <- (vjust_all_serase p ss ss), <- (vjust_all_serase p ss' ss'), H. reflexivity. Qed.

Lemma ek_set_deg k r : ek (fst (set_deg k r)) = ek k.
Proof. reflexivity. Qed.

Lemma eerase_set_know e k' : kval k' = kval (expr_know e) -> eerase (set_know e k') = eerase e.
Proof. intros H. destruct e; cbn [set_know eerase expr_know] in *; unfold ek; rewrite H; reflexivity. Qed.

Lemma eerase_sc_set_deg res e r : eerase (snd (sc_set_deg res e r)) = eerase e.
Proof.
  unfold sc_set_deg. destruct res; [reflexivity|]. unfold set_deg. cbn [snd].
  apply eerase_set_know. reflexivity.
Qed.

Lemma eerase_match_sc (o : option drange) b e :
  eerase (snd (match o with Some rg => sc_set_deg b e rg | None => (b, e) end)) = eerase e.
Proof. destruct o; [apply eerase_sc_set_deg|reflexivity]. Qed.

Lemma pd_expr_pres env : forall e, eerase (snd (pd_expr env e)) = eerase e.
Proof.
  induction e as [z k|v k|op l r k IHl IHr|op e k IHe|c t f k IHc IHt IHf|n args k IHargs|vs k IHvs
                  |v acc k IHacc|v acc rhe k IHacc IHrhe|args k] using expr_ind'; cbn [pd_expr].
  - reflexivity.
  - destruct (denv_degree env v); reflexivity.
  - destruct (pd_expr env l) as [b1 l']. cbn [snd] in IHl.
    assert (Hr : eerase (snd (if b1 then (true, r) else pd_expr env r)) = eerase r) by (destruct b1; [reflexivity|exact IHr]).
    destruct (if b1 then (true, r) else pd_expr env r) as [b2 r']. cbn [snd] in Hr.
    rewrite eerase_match_sc. cbn [eerase]. rewrite IHl, Hr. reflexivity.
  - destruct (pd_expr env e) as [b1 x']. cbn [snd] in IHe. rewrite eerase_match_sc. cbn [eerase]. rewrite IHe. reflexivity.
  - destruct (pd_expr env c) as [b1 c']. cbn [snd] in IHc.
    assert (Ht : eerase (snd (if b1 then (true, t) else pd_expr env t)) = eerase t) by (destruct b1; [reflexivity|exact IHt]).
    destruct (if b1 then (true, t) else pd_expr env t) as [b2 t']. cbn [snd] in Ht.
    assert (Hf : eerase (snd (if b2 then (true, f) else pd_expr env f)) = eerase f) by (destruct b2; [reflexivity|exact IHf]).
    destruct (if b2 then (true, f) else pd_expr env f) as [b3 f']. cbn [snd] in Hf.
    assert (Hbase : eerase (ESwitch c' t' f' k) = eerase (ESwitch c t f k)) by (cbn [eerase]; rewrite IHc, Ht, Hf; reflexivity).
    destruct (expr_deg c') as [rc|]; [|exact Hbase].
    destruct (range_is_constant rc); [|exact Hbase]. rewrite eerase_match_sc. exact Hbase.
  - rewrite pd_list_eq. pose proof (Forall2_map_eq _ _ _ (pd_exprs_lift env _ (fun _ => eq_refl) args IHargs false)) as Hl.
    destruct (pd_exprs env false args) as [b args']. cbn [snd] in Hl.
    assert (Hbase : eerase (ECall n args' k) = eerase (ECall n args k)) by (cbn [eerase]; rewrite !elist_map, Hl; reflexivity).
    destruct (all_constant args'); [rewrite eerase_sc_set_deg|]; exact Hbase.
  - rewrite pd_list_eq. pose proof (Forall2_map_eq _ _ _ (pd_exprs_lift env _ (fun _ => eq_refl) vs IHvs false)) as Hl.
    destruct (pd_exprs env false vs) as [b vs']. cbn [snd] in Hl.
    rewrite eerase_match_sc. cbn [eerase]. rewrite !elist_map, Hl. reflexivity.
  - rewrite pd_acc_eq. pose proof (acc_rel_map _ _ _ (pd_accs_lift env _ (fun _ => eq_refl) acc IHacc false)) as Ha.
    destruct (pd_accs env false acc) as [b acc']. cbn [snd] in Ha.
    assert (Hbase : eerase (EAccess v acc' k) = eerase (EAccess v acc k)) by (cbn [eerase]; rewrite !eacc_map, Ha; reflexivity).
    destruct (denv_degree env v); [|exact Hbase]. rewrite eerase_match_sc. exact Hbase.
  - destruct (pd_expr env rhe) as [b1 rhe']. cbn [snd] in IHrhe.
    rewrite pd_acc_eq. pose proof (acc_rel_map _ _ _ (pd_accs_lift env _ (fun _ => eq_refl) acc IHacc b1)) as Ha.
    destruct (pd_accs env b1 acc) as [b acc']. cbn [snd] in Ha.
    assert (Hbase : eerase (EUpdate v acc' rhe' k) = eerase (EUpdate v acc rhe k))
      by (cbn [eerase]; rewrite !eacc_map, Ha, IHrhe; reflexivity).
    match goal with |- context [match ?t with Some _ => _ | None => _ end] => destruct t as [rg|]; [|exact Hbase] end.
    rewrite eerase_match_sc. exact Hbase.
  - rewrite eerase_match_sc. reflexivity.
Qed.

Lemma all_pres env es : Forall (pd_lifts env (fun e e' => eerase e' = eerase e)) es.
Proof. apply Forall_forall. intros e _. apply pd_expr_pres. Qed.

Lemma pd_exprs_pres env es : forall res, map eerase (snd (pd_exprs env res es)) = map eerase es.
Proof. intros res. apply Forall2_map_eq. apply pd_exprs_lift; [reflexivity|apply all_pres]. Qed.

Lemma pd_logargs_pres env es res : map elogarg (snd (pd_logargs env res es)) = map elogarg es.
Proof. apply (la_rel_map eerase). apply pd_logargs_lift; [reflexivity|apply all_pres]. Qed.

Lemma pd_stmt_pres env s : serase (snd (fst (pd_stmt env s))) = serase s.
Proof.
  destruct s; cbn [pd_stmt].
  - destruct (pd_decl_names env false t names). reflexivity.
  - pose proof (pd_expr_pres env c) as H. destruct (pd_expr env c) as [b c']. cbn [snd fst serase] in *. rewrite H. reflexivity.
  - pose proof (pd_expr_pres env e) as H. destruct (pd_expr env e) as [b e']. cbn [snd fst serase] in *. rewrite H. reflexivity.
  - pose proof (pd_expr_pres env rhe) as H. destruct (pd_expr env rhe) as [b rhe']. cbn [snd] in H.
    destruct (stype_is_local stype).
    + destruct (expr_deg rhe').
      * destruct b; [cbn [snd fst serase]; rewrite H; reflexivity|].
        destruct (denv_set_degree (denv_set_assigned env v) v d). cbn [snd fst serase]. rewrite H. reflexivity.
      * cbn [snd fst serase]. rewrite H. reflexivity.
    + cbn [snd fst serase]. rewrite H. reflexivity.
  - pose proof (pd_expr_pres env l) as Hl. destruct (pd_expr env l) as [b1 l']. cbn [snd] in Hl.
    destruct b1; [cbn [snd fst serase]; rewrite Hl; reflexivity|].
    pose proof (pd_expr_pres env r) as Hr. destruct (pd_expr env r) as [b2 r']. cbn [snd fst serase] in *.
    rewrite Hl, Hr. reflexivity.
  - pose proof (pd_logargs_pres env args false) as H. destruct (pd_logargs env false args) as [b args']. cbn [snd fst serase] in *.
    rewrite H. reflexivity.
  - pose proof (pd_expr_pres env e) as H. destruct (pd_expr env e) as [b e']. cbn [snd fst serase] in *. rewrite H. reflexivity.
Qed.

Lemma pd_stmts_pres : forall ss env res, map serase (snd (fst (pd_stmts env res ss))) = map serase ss.
Proof.
  induction ss as [|s tl IH]; intros env res; [reflexivity|]. cbn [pd_stmts]. destruct res; [reflexivity|].
  pose proof (pd_stmt_pres env s) as Hs. destruct (pd_stmt env s) as [[b s'] env']. cbn [fst snd] in Hs.
  specialize (IH env' b). destruct (pd_stmts env' b tl) as [[b' tl'] env'']. cbn [fst snd map] in *.
  rewrite Hs, IH. reflexivity.
Qed.

Lemma pd_blocks_pres idom : forall bs env res pre,
  map serase (all_stmts (snd (fst (pd_blocks idom env res pre bs)))) = map serase (all_stmts bs).
Proof.
  induction bs as [|b tl IH]; intros env res pre; [reflexivity|]. cbn [pd_blocks]. destruct res; [reflexivity|].
  pose proof (pd_stmts_pres (b_stmts b) (denv_set_ctl env (block_ctl (pre ++ b :: tl) idom b)) false) as Hs.
  destruct (pd_stmts (denv_set_ctl env (block_ctl (pre ++ b :: tl) idom b)) false (b_stmts b)) as [[r1 ss'] env'] eqn:Es. cbn [fst snd] in Hs.
  specialize (IH env' r1 (pre ++ [set_stmts b ss'])).
  destruct (pd_blocks idom env' r1 (pre ++ [set_stmts b ss']) tl) as [[r2 tl'] env'']. cbn [fst snd] in *.
  unfold all_stmts in *. cbn [flat_map]. rewrite !map_app. cbn [set_stmts b_stmts]. rewrite Hs, IH. reflexivity.
Qed.

Lemma degrees_passes_pres idom : forall k env bs,
  map serase (all_stmts (fst (degrees_passes k idom env bs))) = map serase (all_stmts bs).
Proof.
  induction k as [|k IH]; intros env bs; [reflexivity|]. cbn [degrees_passes].
  pose proof (pd_blocks_pres idom bs env false []) as Hb.
  destruct (pd_blocks idom env false [] bs) as [[rerun bs'] env']. cbn [fst snd] in Hb.
  destruct rerun; [|cbn [fst]; exact Hb]. rewrite IH. exact Hb.
Qed.

Lemma acc_ub_flat acc :
  flat_map (fun a => match a with AIdx x => update_bases x | AComp _ => [] end) acc = flat_map update_bases (acc_exprs acc).
Proof. unfold acc_exprs. induction acc as [|[x|n] tl IH]; cbn [flat_map app]; [reflexivity| |exact IH]. rewrite IH. reflexivity. Qed.

(* the static signature only reads the erased statement *)
Lemma ub_eerase e : update_bases (eerase e) = update_bases e.
Proof.
  induction e as [z k|v k|op l r k IHl IHr|op e k IHe|c t f k IHc IHt IHf|n args k IHargs|vs k IHvs
                  |v acc k IHacc|v acc rhe k IHacc IHrhe|args k] using expr_ind';
    cbn [eerase update_bases]; rewrite ?elist_map, ?eacc_map, ?acc_ub_flat, ?acc_exprs_amap.
  - reflexivity.
  - reflexivity.
  - rewrite IHl, IHr. reflexivity.
  - exact IHe.
  - rewrite IHc, IHt, IHf. reflexivity.
  - exact (flat_map_map_ext _ _ _ _ IHargs).
  - exact (flat_map_map_ext _ _ _ _ IHvs).
  - exact (flat_map_map_ext _ _ _ _ IHacc).
  - rewrite IHrhe, (flat_map_map_ext _ _ _ _ IHacc). reflexivity.
  - reflexivity.
Qed.

Lemma stmt_exprs_serase s : stmt_exprs (serase s) = map eerase (stmt_exprs s).
Proof. destruct s; cbn [serase stmt_exprs map]; try reflexivity. apply (la_exprs_lmap eerase). Qed.

Lemma ssig_serase s : ssig (serase s) = ssig s.
Proof.
  unfold ssig. replace (stmt_update_bases (serase s)) with (stmt_update_bases s); [destruct s; reflexivity|].
  unfold stmt_update_bases. rewrite stmt_exprs_serase. symmetry. apply flat_map_map_ext. apply all_ext. apply ub_eerase.
Qed.

Lemma pd_stmt_ssig env s : ssig (snd (fst (pd_stmt env s))) = ssig s.
Proof. rewrite <- (ssig_serase (snd (fst (pd_stmt env s)))), pd_stmt_pres. apply ssig_serase. Qed.

Theorem propagate_validated_at_every_budget kv kd p idom c c' :
  clean_cfg c = true -> ldefs_unique (all_stmts (c_blocks c)) = true ->
  propagate kv kd p idom c = Ok c' -> vjust_cfg p c' = true.
Proof.
  intros Hclean Hu. unfold propagate.
  destruct (values_passes kv p [] (c_blocks c)) as [[bs1 env1]| | |] eqn:Ev; try discriminate. cbn [bind].
  pose proof (degrees_passes_pres idom kd (denv_init (c_kind c) (c_params c)) bs1) as Hd.
  destruct (degrees_passes kd idom (denv_init (c_kind c) (c_params c)) bs1) as [bs2 env2]. cbn [fst] in Hd.
  intros [= <-]. unfold vjust_cfg. cbn [set_blocks c_blocks].
  rewrite (vjust_same_erasure p (all_stmts bs2) (all_stmts bs1) Hd).
  exact (mirror_validated_at_every_budget kv p c bs1 env1 Hclean Hu Ev).
Qed.
