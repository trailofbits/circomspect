(* The function-side decision of remove_syntactic_sugar, both directions (C18).

   Proofs.DesugarProofs.check_function_kept is one implication (kept => sugar
   free), the one C18_functions_with_sugar_rejected contains.  The converse is
   a statement of its own: a sugar-free function is never dropped,
   never answered by a report and never makes the check panic, whatever its metas
   are (the report builder, whose `get_file_id` can panic, is only reached when
   sugar was found). *)
From Coq Require Import ZArith NArith List Bool String.
Require Import Model.Ast Model.Desugar Spec.ExpandSpec Proofs.DesugarProofs.
Import ListNotations.

Lemma check_function_keeps_sugar_free : forall body,
  sugar_free_stmt body -> check_function body = DOk None.
Proof.
  intros body [He Hs]. unfold check_function.
  destruct (contains_expr_stmt is_tuple body) eqn:Ht.
  { apply contains_expr_stmt_sound in Ht. destruct Ht as (x & Hx & Hxt).
    destruct (He _ Hx) as [H1 _]. rewrite H1 in Hxt. discriminate. }
  destruct (contains_expr_stmt is_anonymous_component body) eqn:Ha.
  { apply contains_expr_stmt_sound in Ha. destruct Ha as (x & Hx & Hxt).
    destruct (He _ Hx) as [_ H2]. rewrite H2 in Hxt. discriminate. }
  destruct (find_multi_substitution body) eqn:Hm; [|reflexivity].
  apply find_multi_substitution_sound in Hm. destruct Hm as (t & Ht' & Hmt).
  rewrite (Hs _ Ht') in Hmt. discriminate.
Qed.

Lemma check_function_kept_iff : forall body,
  check_function body = DOk None <-> sugar_free_stmt body.
Proof.
  intros body. split; [apply check_function_kept | apply check_function_keeps_sugar_free].
Qed.

(* ... and at the level of remove_syntactic_sugar: every sugar-free input function
   is among the functions handed on *)
Lemma remove_syntactic_sugar_keeps_sugar_free_functions : forall lib ts fs d,
  remove_syntactic_sugar lib ts fs = DOk d ->
  forall n b, In (n, b) fs -> sugar_free_stmt b -> In (n, b) (d_functions d).
Proof.
  intros lib ts fs d H n b Hin Hsf. pose proof (remove_syntactic_sugar_spec lib ts fs) as S.
  destruct (existsb _ ts || existsb f_stuck fs); [elim (S _ H)|].
  rewrite S in H. inversion H; subst. simpl. apply in_flat_map. exists (n, b). split; [exact Hin|].
  unfold f_ok. simpl. rewrite (check_function_keeps_sugar_free _ Hsf). left. reflexivity.
Qed.
