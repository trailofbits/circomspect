From Coq Require Import ZArith Lia Bool.
Require Import Model.Base Model.Field Spec.FieldSpec Proofs.FieldProofs.
Local Open Scope Z_scope.

Theorem shift_mirror l r p : 0 < p -> Z.quot p 2 < r <= p ->
  shift_l l r p = shift_r l (p - r) p /\ shift_r l r p = shift_l l (p - r) p.
Proof.
  intros Hp [Hr _]. rewrite !shift_l_unfold, !shift_r_unfold by exact Hp.
  rewrite (proj2 (Z.leb_gt _ _) Hr), (mirror_count p r Hp Hr). split; reflexivity.
Qed.

Theorem shift_r_zero l p : 0 < p -> shift_r l 0 p = Ok l.
Proof.
  intros Hp. rewrite shift_r_unfold by lia.
  destruct (Z.leb_spec 0 (Z.quot p 2)); [|Z.quot_rem_to_equations; lia].
  unfold shr_direct. change (to_usize 0) with (Some 0). cbv iota beta.
  destruct (Z.leb_spec (bits l) 0) as [Hb|_].
  - unfold bits in Hb. destruct (Z.eqb_spec l 0) as [->|]; [reflexivity|].
    pose proof (Z.log2_nonneg (Z.abs l)). lia.
  - change (2 ^ 0) with 1. rewrite Z.quot_1_r. reflexivity.
Qed.

Theorem shift_l_zero l p : 0 < p -> 0 <= l < p -> shift_l l 0 p = Ok l.
Proof.
  intros Hp Hl. rewrite shift_l_unfold by lia.
  destruct (Z.leb_spec 0 (Z.quot p 2)); [|Z.quot_rem_to_equations; lia].
  rewrite shl_direct_spec by lia. cbn [Z.leb Z.compare]. f_equal.
  unfold shl_doc. pose proof (lt_pow2_nbits p Hp). pose proof (Z.log2_nonneg p).
  rewrite land_mask by (unfold nbits; lia). change (2 ^ 0) with 1.
  rewrite Z.mul_1_r, (Z.mod_small l (2 ^ nbits p)), (Z.mod_small l p) by lia. reflexivity.
Qed.
