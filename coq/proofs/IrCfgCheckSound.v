(* C12: the decision procedures of Model.IrCfgCheck are sound for the
   specification predicates of Spec.IrCfgSpec. *)
From Coq Require Import NArith List Bool Arith Lia.
Require Import Model.Ir Model.IrCfgCheck Spec.IrCfgSpec Proofs.IrFacts.
Require Model.SignalAssign Proofs.LiftFullC08.
Import ListNotations.

Lemma is_phi_b_true s : is_phi_b s = true -> is_phi s.
Proof.
  destruct s as [| | |m x op rhe sv st| | |]; try discriminate. destruct rhe; try discriminate.
  intros _. unfold is_phi. eauto 10.
Qed.

Lemma is_phi_b_false s : is_phi_b s = false -> ~ is_phi s.
Proof. intros H (m & x & op & args & k & sv & st & ->). discriminate. Qed.

Lemma op_eqb_true a b : op_eqb a b = true <-> a = b.
Proof. destruct a, b; simpl; split; congruence. Qed.

Lemma same_kind_b_true a b : same_kind_b a b = true -> same_kind a b.
Proof.
  destruct a, b; try discriminate; cbn [same_kind_b same_kind]; intros H;
    repeat match type of H with _ && _ = true => apply andb_prop in H; destruct H as [H ?] end;
    apply Proofs.LiftFullC08.meta_eqb_eq in H; repeat split; try assumption.
  - apply vtype_eqb_eq. assumption.
  - apply N.eqb_eq. assumption.
  - apply optN_eqb_eq. assumption.
  - apply op_eqb_true. assumption.
Qed.

Lemma list_eqbN_true l k : list_eqb N.eqb l k = true -> l = k.
Proof.
  revert k. induction l as [|x l IH]; intros [|y k]; simpl; try discriminate; [reflexivity|].
  rewrite andb_true_iff. intros [H1 H2]. apply N.eqb_eq in H1. f_equal; auto.
Qed.

Lemma forall2b_Forall2 {A B} (p : A -> B -> bool) (P : A -> B -> Prop) l k :
  (forall x y, p x y = true -> P x y) -> forall2b p l k = true -> Forall2 P l k.
Proof.
  intros Hp. revert k. induction l as [|x l IH]; intros [|y k]; simpl; try discriminate; [constructor|].
  rewrite andb_true_iff. intros [H1 H2]. constructor; auto.
Qed.

Lemma drop_phis_split l : exists phis, l = phis ++ drop_phis l /\ Forall is_phi phis.
Proof.
  induction l as [|s r (phis & E & F)]; [exists []; split; [reflexivity|constructor]|].
  simpl. destruct (is_phi_b s) eqn:Es.
  - exists (s :: phis). split; [simpl; congruence|]. constructor; [apply is_phi_b_true; exact Es|assumption].
  - exists []. split; [reflexivity|constructor].
Qed.

Lemma same_frame_b_true b b' : same_frame_b b b' = true -> same_frame b b'.
Proof.
  unfold same_frame_b, same_frame. rewrite !andb_true_iff. intros [[[H1 H2] H3] H4].
  apply N.eqb_eq in H1, H2. apply list_eqbN_true in H3, H4. auto.
Qed.

Lemma phis_then_image_b_true b b' : phis_then_image_b b b' = true -> phis_then_image b b'.
Proof.
  unfold phis_then_image_b, phis_then_image. rewrite andb_true_iff. intros [H1 H2].
  destruct (drop_phis_split (b_stmts b')) as (phis & E & F).
  exists phis, (drop_phis (b_stmts b')). split; [exact E|]. split; [exact F|]. split.
  - rewrite forallb_forall in H1. apply Forall_forall. intros s Hs. apply is_phi_b_false.
    specialize (H1 s Hs). destruct (is_phi_b s); [discriminate|reflexivity].
  - eapply forall2b_Forall2; [|exact H2]. apply same_kind_b_true.
Qed.

Theorem ssa_shape_b_sound c c' : ssa_shape_b c c' = true -> ssa_shape_of c c'.
Proof.
  unfold ssa_shape_b, ssa_shape_of. apply forall2b_Forall2. intros b b'. rewrite andb_true_iff. intros [H1 H2].
  split; [exact (same_frame_b_true _ _ H1)|exact (phis_then_image_b_true _ _ H2)].
Qed.

Lemma indexed_nth {A} (l : list A) k i b : nth_error l i = Some b -> In (k + i, b) (indexed k l).
Proof.
  revert k i. induction l as [|x l IH]; intros k [|i] H; simpl in *; try discriminate.
  - injection H as ->. left. f_equal. lia.
  - right. replace (k + S i) with (S k + i) by lia. apply IH. exact H.
Qed.

Lemma indexed_forall {A} (p : nat * A -> bool) (l : list A) i b :
  forallb p (indexed 0 l) = true -> nth_error l i = Some b -> p (i, b) = true.
Proof. intros H Hn. rewrite forallb_forall in H. apply H. exact (indexed_nth l 0 i b Hn). Qed.

Lemma memN_In x l : memN x l = true -> In x l.
Proof. unfold memN. rewrite existsb_exists. intros (y & Hy & E). apply N.eqb_eq in E. congruence. Qed.

Lemma nodupN_NoDup l : nodupN l = true -> NoDup l.
Proof.
  induction l as [|x l IH]; simpl; [constructor|]. rewrite andb_true_iff, negb_true_iff. intros [H1 H2].
  constructor; [|auto]. intros Hin. assert (memN x l = true); [|congruence].
  unfold memN. apply existsb_exists. exists x. split; [exact Hin|apply N.eqb_refl].
Qed.

Lemma branch_only_last_l_sound l : branch_only_last_l l = true ->
  forall k s, nth_error l k = Some s -> is_branch s -> S k = length l.
Proof.
  induction l as [|x l IH]; intros H k s Hn Hb; [destruct k; discriminate|].
  destruct l as [|y l].
  - destruct k as [|k]; [reflexivity|]. destruct k; discriminate.
  - simpl in H. rewrite andb_true_iff, negb_true_iff in H. destruct H as [H1 H2].
    destruct k as [|k].
    + injection Hn as ->. destruct Hb as (m & c & t & f & ->). discriminate.
    + simpl. f_equal. apply (IH H2 k s); assumption.
Qed.

Lemma s_index c : index_is_position_b c = true -> index_is_position c.
Proof.
  intros H1 i b Hb. pose proof (indexed_forall _ _ i b H1 Hb) as E. simpl in E.
  apply N.eqb_eq in E. exact E.
Qed.

Lemma s_entry c : entry_no_pred_b c = true -> entry_no_pred c.
Proof.
  unfold entry_no_pred_b, entry_no_pred, blk. intros H2.
  destruct (c_blocks c) as [|b0 r]; [discriminate|]. exists b0. split; [reflexivity|].
  destruct (b_preds b0); [reflexivity|discriminate].
Qed.

Lemma s_range c : edges_in_range_b c = true -> edges_in_range c.
Proof.
  unfold edges_in_range_b. intros H3 i b x Hb Hx. rewrite forallb_forall in H3.
  specialize (H3 b (nth_error_In _ _ Hb)). rewrite forallb_forall in H3.
  assert (Hin : In x (b_succs b ++ b_preds b)) by (apply in_or_app; tauto).
  specialize (H3 x Hin). apply Nat.ltb_lt in H3. exact H3.
Qed.

Lemma s_mirror c : mirror_b c = true -> preds_succs_mirror c.
Proof.
  unfold mirror_b. intros H4 i j. split.
  - intros (bi & Hb & Hin). pose proof (indexed_forall _ _ i bi H4 Hb) as E. simpl in E.
    rewrite andb_true_iff in E. destruct E as [E _]. rewrite forallb_forall in E. specialize (E _ Hin).
    rewrite Nat2N.id in E. unfold blk. destruct (nth_error (c_blocks c) j) as [bj|]; [|discriminate].
    exists bj. split; [reflexivity|]. exact (memN_In _ _ E).
  - intros (bj & Hb & Hin). pose proof (indexed_forall _ _ j bj H4 Hb) as E. simpl in E.
    rewrite andb_true_iff in E. destruct E as [_ E]. rewrite forallb_forall in E. specialize (E _ Hin).
    rewrite Nat2N.id in E. unfold blk. destruct (nth_error (c_blocks c) i) as [bi|]; [|discriminate].
    exists bi. split; [reflexivity|]. exact (memN_In _ _ E).
Qed.

Lemma s_branch_last c : branch_only_last_b c = true -> branch_only_last c.
Proof.
  unfold branch_only_last_b. intros H5 i b k s Hb Hn Hbr.
  rewrite forallb_forall in H5. exact (branch_only_last_l_sound _ (H5 b (nth_error_In _ _ Hb)) k s Hn Hbr).
Qed.

Lemma s_targets c : branch_targets_ok_b c = true -> branch_targets_ok c.
Proof.
  intros H6 i b m e t f Hb Hl.
  pose proof (indexed_forall _ _ i b H6 Hb) as E. simpl in E.
  change (IrCfgCheck.last_stmt b) with (IrCfgSpec.last_stmt b) in E. rewrite Hl in E.
  rewrite !andb_true_iff in E. destruct E as [[[E1 E2] E3] E4].
  apply N.eqb_eq in E1. apply Nat.ltb_lt in E2. apply memN_In in E3. unfold IrCfgSpec.nblocks. unfold IrCfgCheck.nblocks in *.
  split; [exact E1|]. split; [exact E2|]. split; [exact E3|].
  intros x ->. rewrite !andb_true_iff, negb_true_iff in E4. destruct E4 as [[E4 E5] E6].
  split; [apply Nat.ltb_lt; exact E4|]. split; [exact (memN_In _ _ E5)|].
  intros ->. rewrite N.eqb_refl in E6. discriminate.
Qed.

Lemma s_two c : at_most_two_succs_b c = true -> at_most_two_succs c.
Proof.
  unfold at_most_two_succs_b. intros H7 i b Hb.
  rewrite forallb_forall in H7. specialize (H7 b (nth_error_In _ _ Hb)).
  rewrite !andb_true_iff in H7. destruct H7 as [[E1 E2] E3].
  split; [exact (nodupN_NoDup _ E1)|]. split; [apply Nat.leb_le; exact E2|].
  intros Hn. apply orb_true_iff in E3. destruct E3 as [E3|E3]; [|apply Nat.leb_le; exact E3].
  exfalso. apply Hn. unfold ends_in_branch_b in E3. change (IrCfgCheck.last_stmt b) with (IrCfgSpec.last_stmt b) in E3.
  unfold ends_in_branch. destruct (IrCfgSpec.last_stmt b) as [s|]; [|discriminate]. exists s. split; [reflexivity|].
  destruct s; try discriminate. unfold is_branch. eauto.
Qed.

Lemma path_snoc c a l i j : path c a l i -> edge c i j -> j < IrCfgSpec.nblocks c -> path c a (l ++ [j]) j.
Proof.
  induction 1 as [i Hi|i k l j' He Hp IH]; intros Hedge Hj; simpl.
  - apply path_cons; [exact Hedge|apply path_nil; exact Hj].
  - apply path_cons; [exact He|apply IH; assumption].
Qed.

(* a predecessor with a smaller index below every block but the first: by strong induction on
   the index, a path from the entry through smaller indices only *)
Lemma s_descending c : preds_succs_mirror c -> pred_below_b c = true -> descending_paths c.
Proof.
  intros Hm H8 j. induction j as [j IH] using lt_wf_ind. intros Hj.
  destruct j as [|j'].
  - exists []. split; [apply path_nil; exact Hj|]. intros x [<-|[]]. lia.
  - unfold IrCfgSpec.nblocks in Hj. destruct (nth_error (c_blocks c) (S j')) as [bj|] eqn:Eb;
      [|apply nth_error_None in Eb; lia].
    pose proof (indexed_forall _ _ (S j') bj H8 Eb) as E. simpl in E.
    apply existsb_exists in E. destruct E as (p & Hp & Hlt). apply Nat.ltb_lt in Hlt.
    assert (Hedge : edge c (N.to_nat p) (S j')).
    { apply (proj2 (Hm (N.to_nat p) (S j'))). exists bj. split; [exact Eb|]. rewrite N2Nat.id. exact Hp. }
    destruct (IH (N.to_nat p) Hlt (Nat.lt_trans _ _ _ Hlt Hj)) as (l & Hl & Hle).
    exists (l ++ [S j']). split.
    + eapply path_snoc; [exact Hl|exact Hedge|unfold IrCfgSpec.nblocks; lia].
    + intros x Hx. change (0 :: l ++ [S j']) with ((0 :: l) ++ [S j']) in Hx. apply in_app_or in Hx.
      destruct Hx as [Hx|[<-|[]]]; [|apply le_n]. exact (Nat.le_trans _ _ _ (Hle x Hx) (Nat.lt_le_incl _ _ Hlt)).
Qed.

Theorem cfg_wf_b_sound c : cfg_wf_b c = true -> cfg_wf c.
Proof.
  unfold cfg_wf_b. rewrite !andb_true_iff. intros [[[[[[[H1 H2] H3] H4] H5] H6] H7] H8].
  pose proof (s_descending c (s_mirror c H4) H8) as Hd.
  constructor; [exact (s_index c H1)|exact (s_entry c H2)|exact (s_range c H3)|exact (s_mirror c H4)
               |exact (s_branch_last c H5)|exact (s_targets c H6)|exact (s_two c H7)| | |exact Hd].
  - intros j Hj. destruct (Hd j Hj) as (l & Hl & _). exists l. exact Hl.
  - intros i j Hj Hdm. destruct (Hd j Hj) as (l & Hl & Hle). apply Hle. apply Hdm. exact Hl.
Qed.
