(* Lemmas about the content-carrying lifting mirror Model.LiftFull:
   (a) skeleton agreement with Model.Lift (so that the theorems of C12/C13 about
       Model.Lift speak about the graph built here),
   (b) statement provenance (every IR statement of the graph is the image of
       exactly one statement occurrence of the body, in order, same meta),
   (c) facts about the renaming pass needed to state (a)/(b) on the body as
       handed to try_lift_impl (renaming keeps the structure and every meta). *)
From Coq Require Import ZArith NArith Ascii String.
From stdpp Require Import list.
Require Import Model.Lift Model.LiftFull Proofs.LiftBasics Proofs.LiftProofs.
Require Model.Ast Model.Ir.
Import Base(outcome, Ok, Err, Panic, OutOfFuel, bind, EOther).
Local Open Scope nat_scope.

(* the statements that are appended as they are *)
Definition plain_stmt (s : Ast.statement) : Prop :=
  match s with
  | Ast.IfThenElse _ _ _ _ | Ast.While _ _ _ | Ast.InitializationBlock _ _ _ | Ast.Block _ _
  | Ast.Declaration _ _ _ _ _ => False
  | _ => True
  end.

Section StmtInd.
  Variable P : Ast.statement -> Prop.
  Hypothesis HIf : forall m c i e, P i -> match e with Some e' => P e' | None => True end -> P (Ast.IfThenElse m c i e).
  Hypothesis HWhile : forall m c b, P b -> P (Ast.While m c b).
  Hypothesis HInit : forall m t l, Forall P l -> P (Ast.InitializationBlock m t l).
  Hypothesis HBlock : forall m l, Forall P l -> P (Ast.Block m l).
  Hypothesis HDecl : forall m t n d c, P (Ast.Declaration m t n d c).
  Hypothesis HOther : forall s, plain_stmt s -> P s.

  Fixpoint stmt_ind' (s : Ast.statement) : P s :=
    let list_ind := fix go (l : list Ast.statement) : Forall P l :=
      match l with
      | [] => Forall_nil_2 P
      | x :: r => Forall_cons_2 P x r (stmt_ind' x) (go r)
      end in
    match s with
    | Ast.IfThenElse m c i e =>
        HIf m c i e (stmt_ind' i) (match e with Some x => stmt_ind' x | None => I end)
    | Ast.While m c b => HWhile m c b (stmt_ind' b)
    | Ast.InitializationBlock m t l => HInit m t l (list_ind l)
    | Ast.Block m l => HBlock m l (list_ind l)
    | Ast.Declaration m t n d c => HDecl m t n d c
    | Ast.Return m v => HOther (Ast.Return m v) I
    | Ast.Substitution m v a o r => HOther (Ast.Substitution m v a o r) I
    | Ast.MultiSubstitution m l o r => HOther (Ast.MultiSubstitution m l o r) I
    | Ast.ConstraintEquality m l r => HOther (Ast.ConstraintEquality m l r) I
    | Ast.LogCall m a => HOther (Ast.LogCall m a) I
    | Ast.Assert m a => HOther (Ast.Assert m a) I
    end.
End StmtInd.

(* the inner loops of LiftFull.visit as functions (convertible with the local ones) *)
Fixpoint xvisit_seq (d : nat) (ss : list Ast.statement) (ps : list nat) (st : lstate) : outcome (lstate * list nat) :=
  match ss with
  | [] => Ok (st, ps)
  | s :: r =>
      bind (if is_nil ps then Ok (fst st) else LiftFull.complete (fst st) (lift_meta (Ast.stmt_meta s)) ps d) (fun g =>
      bind (LiftFull.visit s d (g, snd st)) (fun res => xvisit_seq d r (snd res) (fst res)))
  end.

Fixpoint xvisit_init (d : nat) (ss : list Ast.statement) (st : lstate) : outcome (lstate * list nat) :=
  match ss with
  | [] => Ok (st, [])
  | s :: r =>
      bind (LiftFull.visit s d st) (fun res =>
      if is_nil (snd res) then xvisit_init d r (fst res) else Panic LiftFull.site_init_nonempty)
  end.

Lemma xvisit_block_eq m ss d st :
  LiftFull.visit (Ast.Block m ss) d st = bind (LiftFull.last_index (fst st)) (fun _ => xvisit_seq d ss [] st).
Proof.
  simpl. apply bind_ext. intros _. generalize (@nil nat). revert st.
  induction ss as [|s r IH]; intros st ps; [done|]. simpl.
  apply bind_ext. intros g1. apply bind_ext. intros res. apply IH.
Qed.

Lemma xvisit_init_eq m t ss d st :
  LiftFull.visit (Ast.InitializationBlock m t ss) d st
  = bind (LiftFull.last_index (fst st)) (fun _ => xvisit_init d ss st).
Proof.
  simpl. apply bind_ext. intros _. revert st.
  induction ss as [|s r IH]; intros st; [done|]. simpl.
  apply bind_ext. intros res. destruct (is_nil (snd res)); [apply IH|done].
Qed.

Lemma visit_plain_eq s d st : plain_stmt s ->
  LiftFull.visit s d st =
  bind (LiftFull.last_index (fst st)) (fun _ =>
  bind (lift_stmt s) (fun x =>
  bind (LiftFull.upd_last (push_stmt x) (fst st)) (fun g => Ok ((g, snd st), [])))).
Proof. destruct s; simpl; intros H; try done. Qed.

(* what a statement occurrence is identified by: its kind (with the assignment
   operator of a substitution) and its meta *)
Inductive skind :=
| KIf | KWhile | KRet | KInit | KDecl | KSub (op : Ast.assign_op) | KMSub | KCeq | KLog | KBlock | KAssert.

Definition stmt_kind (s : Ast.statement) : skind :=
  match s with
  | Ast.IfThenElse _ _ _ _ => KIf | Ast.While _ _ _ => KWhile | Ast.Return _ _ => KRet
  | Ast.InitializationBlock _ _ _ => KInit | Ast.Declaration _ _ _ _ _ => KDecl
  | Ast.Substitution _ _ _ op _ => KSub op | Ast.MultiSubstitution _ _ _ _ => KMSub
  | Ast.ConstraintEquality _ _ _ => KCeq | Ast.LogCall _ _ => KLog | Ast.Block _ _ => KBlock
  | Ast.Assert _ _ => KAssert
  end.

Definition hdr (s : Ast.statement) : skind * Ast.meta := (stmt_kind s, Ast.stmt_meta s).

(* the kind and the meta of an IR statement *)
Inductive xkind := XKDecl | XKIf | XKRet | XKSubst (op : Ir.assign_op) | XKCeq | XKLog | XKAssert.

Definition xstmt_kind (x : xstmt) : xkind :=
  match x with
  | XDecl _ _ _ _ => XKDecl | XIf _ _ _ _ => XKIf | XRet _ _ => XKRet | XSubst _ _ op _ _ => XKSubst op
  | XCeq _ _ _ => XKCeq | XLog _ _ => XKLog | XAssert _ _ => XKAssert
  end.

(* what kind of IR statement a source statement becomes: `while` and `if` both
   become the IfThenElse statement, a substitution keeps its operator
   (`<--`/`-->` AssignSignal, `<==`/`==>` AssignConstraintSignal, `=` AssignLocalOrComponent),
   blocks and initialization blocks have no statement of their own, a
   multi-substitution cannot be lifted *)
Definition lift_kind (k : skind) : option xkind :=
  match k with
  | KIf | KWhile => Some XKIf
  | KRet => Some XKRet
  | KDecl => Some XKDecl
  | KSub op => Some (XKSubst (lift_assign_op op))
  | KCeq => Some XKCeq
  | KLog => Some XKLog
  | KAssert => Some XKAssert
  | KInit | KBlock | KMSub => None
  end.

Definition xhdr (x : xstmt) : option xkind * Ir.meta := (Some (xstmt_kind x), xstmt_meta x).
Definition lift_hdr (h : skind * Ast.meta) : option xkind * Ir.meta := (lift_kind (fst h), lift_meta (snd h)).

(* an IfThenElse statement is created with an empty false target, which
   complete_basic_block may fill in later: statements are compared up to it *)
Definition unpatch (x : xstmt) : xstmt :=
  match x with XIf m c t _ => XIf m c t None | _ => x end.

(* x is what lifting makes of the statement s itself (not of its sub-statements) *)
Definition image0 (s : Ast.statement) (x : xstmt) : Prop :=
  match s with
  | Ast.While m c _ | Ast.IfThenElse m c _ _ =>
      exists c' t, lift_expr c = Ok c' /\ x = XIf (lift_meta m) c' t None
  | _ => lift_stmt s = Ok x
  end.

(* TryLift for a statement keeps kind and meta, and makes no IfThenElse *)
Lemma lift_stmt_ok s x : lift_stmt s = Ok x ->
  image0 s x /\ xhdr x = lift_hdr (hdr s) /\ unpatch x = x /\
  forall key, skel_item key x = ILeaf (key (lift_meta (Ast.stmt_meta s))).
Proof.
  intros Hl. split; [destruct s; done|].
  destruct s; simpl in Hl; try done; repeat inv_bind Hl; injection Hl as <-; done.
Qed.

Lemma image0_hdr s x : image0 s x -> xhdr x = lift_hdr (hdr s).
Proof.
  destruct s; try (intros Hl; apply (lift_stmt_ok _ _ Hl)); intros (c' & t & _ & ->); done.
Qed.

Lemma xpatch_last_snoc j l x : LiftFull.patch_last j (l ++ [x]) = l ++ [patch_stmt j x].
Proof.
  induction l as [|y r IH]; simpl; [done|].
  rewrite IH. destruct (r ++ [x]) eqn:E; [|done].
  destruct r; discriminate.
Qed.

(* the statements of a graph, up to false targets *)
Definition U (g : xgraph) : list xstmt := map unpatch (graph_stmts g).

Lemma unpatch_patch j x : unpatch (patch_stmt j x) = unpatch x.
Proof. destruct x as [| m c t [f|] | | | | |]; simpl; try done. destruct (negb (j =? t)); done. Qed.

Lemma unpatch_patch_last j l : map unpatch (LiftFull.patch_last j l) = map unpatch l.
Proof.
  destruct (list_snoc_cases l) as [->|(l' & x & ->)]; [done|].
  by rewrite xpatch_last_snoc, !map_app, (map_cons _ (patch_stmt j x)), unpatch_patch.
Qed.

Lemma U_cons b g : U (b :: g) = map unpatch (xb_stmts b) ++ U g.
Proof. unfold U, graph_stmts. simpl. by rewrite map_app. Qed.

Lemma U_app g1 g2 : U (g1 ++ g2) = U g1 ++ U g2.
Proof. induction g1 as [|b g IH]; [done|]. simpl. by rewrite !U_cons, IH, app_assoc. Qed.

(* block updates that keep the statements (up to false targets) keep U *)
Lemma U_upd site i f g g' : (forall b, map unpatch (xb_stmts (f b)) = map unpatch (xb_stmts b)) ->
  LiftFull.upd site i f g = Ok g' -> U g' = U g.
Proof.
  intros Hf. unfold LiftFull.upd. destruct (g !! i); [|done]. intros [= <-].
  revert i. induction g as [|b g IH]; intros [|i]; try done.
  - change (alter f 0 (b :: g)) with (f b :: g). by rewrite !U_cons, Hf.
  - change (alter f (S i) (b :: g)) with (b :: alter f i g). by rewrite !U_cons, IH.
Qed.

(* a loop of steps that keep U keeps U *)
Lemma U_fold (f : outcome xgraph -> nat -> outcome xgraph) :
  (forall acc i g', f acc i = Ok g' -> exists g, acc = Ok g /\ U g' = U g) ->
  forall ps acc g', fold_left f ps acc = Ok g' -> exists g, acc = Ok g /\ U g' = U g.
Proof.
  intros Hf. induction ps as [|i r IH]; intros acc g' H; simpl in H; [eauto|].
  destruct (IH _ _ H) as (g1 & H1 & H2). destruct (Hf _ _ _ H1) as (g & -> & H3).
  exists g. split; [done|]. by rewrite H2.
Qed.

Lemma U_link j acc i g' : LiftFull.link j acc i = Ok g' -> exists g, acc = Ok g /\ U g' = U g.
Proof.
  unfold LiftFull.link. intros H. inv_bind H. inv_bind H. inv_bind H.
  exists a. split; [done|].
  rewrite (U_upd _ _ (patch_false j) _ _ (fun b => unpatch_patch_last j (xb_stmts b)) H), (U_upd _ _ (LiftFull.add_pred i) _ _ (fun _ => eq_refl) E1).
  exact (U_upd _ _ (LiftFull.add_succ j) _ _ (fun _ => eq_refl) E0).
Qed.

Lemma U_complete g m ps d g' : LiftFull.complete g m ps d = Ok g' -> U g' = U g.
Proof.
  unfold LiftFull.complete. intros H. destruct (U_fold _ (U_link _) _ _ _ H) as (g0 & [= <-] & ->).
  rewrite U_app. unfold U at 2. simpl. by rewrite app_nil_r.
Qed.

Lemma U_back_edge h acc i g' : LiftFull.back_edge h acc i = Ok g' -> exists g, acc = Ok g /\ U g' = U g.
Proof.
  unfold LiftFull.back_edge. intros H. inv_bind H. inv_bind H.
  exists a. split; [done|].
  rewrite (U_upd _ _ (LiftFull.add_pred i) _ _ (fun _ => eq_refl) H).
  exact (U_upd _ _ (LiftFull.add_succ h) _ _ (fun _ => eq_refl) E0).
Qed.

Lemma U_push x g g' : LiftFull.upd_last (push_stmt x) g = Ok g' -> U g' = U g ++ [unpatch x].
Proof.
  unfold LiftFull.upd_last. destruct (list_snoc_cases g) as [->|(l & b & ->)]; [done|].
  destruct (l ++ [b]) eqn:E; [by destruct l|]. rewrite <- E. intros [= <-].
  rewrite app_length. simpl. replace (length l + 1 - 1) with (length l + 0) by (by rewrite Nat.add_sub, Nat.add_0_r).
  rewrite alter_app_r. simpl. rewrite !U_app, !U_cons. unfold U at 2 4. simpl.
  rewrite !app_nil_r, map_app. by rewrite app_assoc.
Qed.

(* from [u] to [u']: the images of the statements [ss] are appended *)
Definition grows (u u' : list xstmt) (ss : list Ast.statement) : Prop :=
  exists xs, u' = u ++ xs /\ Forall2 image0 ss xs.

Lemma grows_nil u : grows u u [].
Proof. exists []. by rewrite app_nil_r. Qed.

Lemma grows_app u u1 u2 l1 l2 : grows u u1 l1 -> grows u1 u2 l2 -> grows u u2 (l1 ++ l2).
Proof.
  intros (x1 & -> & F1) (x2 & -> & F2). exists (x1 ++ x2). split; [by rewrite app_assoc|by apply Forall2_app].
Qed.

Lemma grows_push s x g g' : image0 s (unpatch x) -> LiftFull.upd_last (push_stmt x) g = Ok g' -> grows (U g) (U g') [s].
Proof. intros Hi Hg. exists [unpatch x]. split; [exact (U_push _ _ _ Hg)|by constructor]. Qed.

Section Skeleton.
  Context (key : Ir.meta -> nat).
  Notation er := (map (skel_block key)).

  Definition er_out (m : outcome xgraph) : outcome graph :=
    match m with Ok g => Ok (er g) | Err e => Err e | Panic s => Panic s | OutOfFuel => OutOfFuel end.

  Lemma er_last_index g : Lift.last_index (er g) = LiftFull.last_index g.
  Proof.
    unfold Lift.last_index, LiftFull.last_index. rewrite fmap_last.
    destruct (last g); done.
  Qed.

  Lemma er_upd site i f f' g :
    (forall b, skel_block key (f b) = f' (skel_block key b)) ->
    Lift.upd site i f' (er g) = er_out (LiftFull.upd site i f g).
  Proof.
    intros Hf. unfold Lift.upd, LiftFull.upd. rewrite list_lookup_fmap.
    destruct (g !! i) eqn:E; simpl; [|done].
    f_equal. symmetry. apply list_alter_fmap. apply Forall_forall. intros b _. apply Hf.
  Qed.

  Lemma skel_add_succ j b : skel_block key (LiftFull.add_succ j b) = Lift.add_succ j (skel_block key b).
  Proof. done. Qed.
  Lemma skel_add_pred j b : skel_block key (LiftFull.add_pred j b) = Lift.add_pred j (skel_block key b).
  Proof. done. Qed.

  Lemma skel_patch_false j b : skel_block key (LiftFull.patch_false j b) = Lift.patch_false j (skel_block key b).
  Proof.
    unfold skel_block, LiftFull.patch_false, Lift.patch_false. simpl. f_equal.
    destruct (list_snoc_cases (xb_stmts b)) as [->|(l' & x & ->)]; [done|].
    rewrite xpatch_last_snoc, !map_app. simpl. rewrite patch_last_snoc. do 2 f_equal.
    destruct x as [| m c t [f|] | | | | |]; simpl; try done. destruct (negb (j =? t)); done.
  Qed.

  Lemma er_push x g :
    Lift.upd_last (push_item (skel_item key x)) (er g) = er_out (LiftFull.upd_last (push_stmt x) g).
  Proof.
    unfold Lift.upd_last, LiftFull.upd_last. destruct g as [|b g]; [done|].
    change (er (b :: g)) with (skel_block key b :: er g) at 1. cbn [er_out]. f_equal.
    rewrite map_length. symmetry. apply list_alter_fmap. apply Forall_forall. intros y _.
    unfold skel_block, push_stmt, push_item. simpl. by rewrite map_app.
  Qed.

  Lemma er_out_bind (m : outcome xgraph) (f : xgraph -> outcome xgraph) (f' : graph -> outcome graph) :
    (forall g, f' (er g) = er_out (f g)) ->
    bind (er_out m) f' = er_out (bind m f).
  Proof. intros H. destruct m; simpl; auto. Qed.

  Lemma er_fold (f' : outcome graph -> nat -> outcome graph) (f : outcome xgraph -> nat -> outcome xgraph) :
    (forall acc i, f' (er_out acc) i = er_out (f acc i)) ->
    forall ps acc, fold_left f' ps (er_out acc) = er_out (fold_left f ps acc).
  Proof. intros Hf. induction ps as [|i r IH]; intros acc; [done|]. simpl. rewrite Hf. apply IH. Qed.

  Lemma er_link j acc i : Lift.link j (er_out acc) i = er_out (LiftFull.link j acc i).
  Proof.
    unfold Lift.link, LiftFull.link. apply er_out_bind. intros g.
    rewrite (er_upd _ _ (LiftFull.add_succ j) (Lift.add_succ j)) by apply skel_add_succ.
    apply er_out_bind. intros g1.
    rewrite (er_upd _ _ (LiftFull.add_pred i) (Lift.add_pred i)) by apply skel_add_pred.
    apply er_out_bind. intros g2.
    apply er_upd. apply skel_patch_false.
  Qed.

  Lemma er_complete g m ps d : Lift.complete (er g) ps d = er_out (LiftFull.complete g m ps d).
  Proof.
    unfold Lift.complete, LiftFull.complete. rewrite map_length.
    rewrite <- (er_fold _ _ (er_link _)). f_equal. simpl. by rewrite map_app.
  Qed.

  Lemma er_back_edge h acc i : Lift.back_edge h (er_out acc) i = er_out (LiftFull.back_edge h acc i).
  Proof.
    unfold Lift.back_edge, LiftFull.back_edge. apply er_out_bind. intros g.
    rewrite (er_upd _ _ (LiftFull.add_succ h) (Lift.add_succ h)) by apply skel_add_succ.
    apply er_out_bind. intros g1.
    apply er_upd. apply skel_add_pred.
  Qed.

  Lemma er_fold_back h ps acc :
    fold_left (Lift.back_edge h) ps (er_out acc) = er_out (fold_left (LiftFull.back_edge h) ps acc).
  Proof. apply er_fold, er_back_edge. Qed.

  Lemma er_or_last g ps : Lift.or_last (er g) ps = LiftFull.or_last g ps.
  Proof. unfold Lift.or_last, LiftFull.or_last. by rewrite er_last_index. Qed.

  (* the simulation statement for one statement *)
  Definition sim (s : Ast.statement) : Prop :=
    forall d st res, LiftFull.visit s d st = Ok res ->
      Lift.visit (skel key s) d (er (fst st)) = Ok (er (fst (fst res)), snd res).

  (* a successful visit of s: the skeleton side makes the same steps, and the IR
     statements appended are the images of the statements of s, in source order *)
  Definition ok (s : Ast.statement) : Prop :=
    forall d st res, LiftFull.visit s d st = Ok res ->
      Lift.visit (skel key s) d (er (fst st)) = Ok (er (fst (fst res)), snd res) /\
      grows (U (fst st)) (U (fst (fst res))) (lifted_stmts s).

  Lemma ok_seq ss : Forall ok ss ->
    forall d ps st res, xvisit_seq d ss ps st = Ok res ->
      visit_seq d (map (skel key) ss) ps (er (fst st)) = Ok (er (fst (fst res)), snd res) /\
      grows (U (fst st)) (U (fst (fst res))) (flat_map lifted_stmts ss).
  Proof.
    induction 1 as [|s r Hs _ IH]; intros d ps st res Hv; simpl in Hv.
    - injection Hv as <-. split; [done|apply grows_nil].
    - inv_bind Hv. inv_bind Hv.
      destruct (Hs _ _ _ E0) as [S1 G1]. destruct (IH _ _ _ _ Hv) as [S2 G2]. cbn [fst snd] in S1, G1.
      assert (Ha : (if is_nil ps then Ok (er (fst st)) else Lift.complete (er (fst st)) ps d) = Ok (er a)
                   /\ U a = U (fst st)).
      { destruct (is_nil ps); [by injection E as <-|].
        split; [by rewrite (er_complete _ (lift_meta (Ast.stmt_meta s))), E|by eapply U_complete]. }
      destruct Ha as [Ha Ua]. split.
      + simpl. rewrite Ha. cbn [bind]. rewrite S1. exact S2.
      + rewrite <- Ua. exact (grows_app _ _ _ _ _ G1 G2).
  Qed.

  Lemma ok_init ss : Forall ok ss ->
    forall d st res, xvisit_init d ss st = Ok res ->
      visit_init d (map (skel key) ss) (er (fst st)) = Ok (er (fst (fst res)), snd res) /\
      grows (U (fst st)) (U (fst (fst res))) (flat_map lifted_stmts ss).
  Proof.
    induction 1 as [|s r Hs _ IH]; intros d st res Hv; simpl in Hv.
    - injection Hv as <-. split; [done|apply grows_nil].
    - inv_bind Hv. destruct (Hs _ _ _ E) as [S1 G1]. simpl. rewrite S1. cbn [bind fst snd].
      destruct (is_nil (snd a)); [|done]. destruct (IH _ _ _ Hv) as [S2 G2].
      split; [exact S2|exact (grows_app _ _ _ _ _ G1 G2)].
  Qed.

  Lemma ok_leaf s d g cur x g' :
    LiftFull.last_index g = Ok cur -> lift_stmt s = Ok x -> LiftFull.upd_last (push_stmt x) g = Ok g' ->
    Lift.visit (skel key s) d (er g) = Ok (er g', []) /\ grows (U g) (U g') (lifted_stmts s).
  Proof.
    intros Ec Ex Eg. destruct (lift_stmt_ok _ _ Ex) as (Hi & _ & Hu & Hk).
    assert (Hs : skel key s = SLeaf (key (lift_meta (Ast.stmt_meta s))) (is_return s) /\ lifted_stmts s = [s])
      by (destruct s; done).
    destruct Hs as [-> ->]. split.
    - cbn [Lift.visit]. rewrite er_last_index, Ec. cbn [bind]. by rewrite <- (Hk key), er_push, Eg.
    - apply (grows_push _ x); [by rewrite Hu|done].
  Qed.

  Lemma ok_all s : ok s.
  Proof.
    induction s as [m c t e IHt IHe|m c body IH|m t ss IH|m ss IH|m t n dd cst|s Hplain] using stmt_ind';
      intros d st res Hv.
    - (* if *)
      simpl in Hv. inv_bind Hv. rename a into cur. inv_bind Hv. rename a into c'. inv_bind Hv. inv_bind Hv.
      inv_bind Hv. rename a1 into rt. inv_bind Hv. rename a1 into ps_if.
      destruct (IHt _ _ _ E3) as [St Gt]. cbn [fst snd] in St, Gt.
      assert (G1 : grows (U (fst st)) (U a0) [Ast.IfThenElse m c t e]).
      { rewrite (U_complete _ _ _ _ _ E2). eapply grows_push; [|exact E1]. by exists c', (cur + 1). }
      cbn [skel Lift.visit]. rewrite er_last_index, E. cbn [bind].
      rewrite (er_push (XIf (lift_meta m) c' (cur + 1) None)), E1. cbn [er_out bind].
      rewrite (er_complete _ (lift_meta (Ast.stmt_meta t))), E2. cbn [er_out bind].
      rewrite St. cbn [bind fst snd]. rewrite er_or_last, E4. cbn [bind].
      destruct e as [e|]; cbn [option_map].
      + inv_bind Hv. inv_bind Hv. rename a2 into re. inv_bind Hv. injection Hv as <-.
        destruct (IHe _ _ _ E6) as [Se Ge]. cbn [fst snd] in Se, Ge.
        rewrite (U_complete _ _ _ _ _ E5) in Ge. split.
        * rewrite (er_complete _ (lift_meta (Ast.stmt_meta e))), E5. cbn [er_out bind].
          rewrite Se. cbn [bind fst snd]. by rewrite er_or_last, E7.
        * exact (grows_app _ _ _ [_] _ G1 (grows_app _ _ _ _ _ Gt Ge)).
      + injection Hv as <-. split; [done|]. cbn [lifted_stmts]. rewrite app_nil_r.
        exact (grows_app _ _ _ [_] _ G1 Gt).
    - (* while *)
      simpl in Hv. inv_bind Hv. rename a into cur. inv_bind Hv. inv_bind Hv. rename a0 into c'. inv_bind Hv.
      inv_bind Hv. inv_bind Hv. rename a2 into rb. inv_bind Hv. rename a2 into ps. inv_bind Hv. injection Hv as <-.
      destruct (IH _ _ _ E4) as [Sb Gb]. cbn [fst snd] in Sb, Gb.
      destruct (U_fold _ (U_back_edge _) _ _ _ E6) as (g0 & [= <-] & Hg). split.
      + cbn [skel Lift.visit]. rewrite er_last_index, E. cbn [bind].
        rewrite (er_complete _ (lift_meta m)), E0. cbn [er_out bind].
        rewrite (er_push (XIf (lift_meta m) c' (cur + 2) None)), E2. cbn [er_out bind].
        rewrite (er_complete _ (lift_meta (Ast.stmt_meta body))), E3. cbn [er_out bind].
        rewrite Sb. cbn [bind fst snd]. rewrite er_or_last, E5. cbn [bind].
        change (Ok (er (fst (fst rb)))) with (er_out (Ok (fst (fst rb)))). by rewrite er_fold_back, E6.
      + cbn [fst]. rewrite Hg. apply (grows_app _ (U a1) _ [_] _); [|exact Gb].
        rewrite (U_complete _ _ _ _ _ E3), <- (U_complete _ _ _ _ _ E0).
        eapply grows_push; [|exact E2]. by exists c', (cur + 2).
    - (* initialization block *)
      rewrite xvisit_init_eq in Hv. inv_bind Hv.
      change (skel key (Ast.InitializationBlock m t ss)) with (SInit (map (skel key) ss)).
      rewrite visit_init_eq, er_last_index, E. by apply ok_init.
    - (* block *)
      rewrite xvisit_block_eq in Hv. inv_bind Hv.
      change (skel key (Ast.Block m ss)) with (SBlock (map (skel key) ss)).
      rewrite visit_block_eq, er_last_index, E. by apply ok_seq.
    - (* declaration *)
      simpl in Hv. inv_bind Hv. inv_bind Hv. inv_bind Hv. inv_bind Hv. inv_bind Hv. inv_bind Hv.
      injection Hv as <-. exact (ok_leaf (Ast.Declaration m t n dd cst) _ _ _ _ _ E E3 E4).
    - (* other leaves *)
      rewrite (visit_plain_eq _ _ _ Hplain) in Hv. inv_bind Hv. inv_bind Hv. inv_bind Hv.
      injection Hv as <-. exact (ok_leaf _ _ _ _ _ _ E E0 E1).
  Qed.

  Lemma sim_all s : sim s.
  Proof. intros d st res Hv. exact (proj1 (ok_all s d st res Hv)). Qed.
End Skeleton.

(* s' is s with other names *)
Definition same (s s' : Ast.statement) : Prop :=
  (forall key, skel key s' = skel key s) /\ map hdr (lifted_stmts s') = map hdr (lifted_stmts s) /\ hdr s' = hdr s.

Lemma ren_block_eq m ss st :
  ren_stmt (Ast.Block m ss) st =
  bind (ren_stmts ss (denv_add_block (fst st), snd st)) (fun r =>
  bind (denv_remove_block (fst (snd r))) (fun env => Ok (Ast.Block m (fst r), (env, snd (snd r))))).
Proof. reflexivity. Qed.

Lemma ren_init_eq m t ss st :
  ren_stmt (Ast.InitializationBlock m t ss) st =
  bind (ren_stmts ss st) (fun r => Ok (Ast.InitializationBlock m t (fst r), snd r)).
Proof. reflexivity. Qed.

(* what the renaming of every statement of a list keeps, the renaming of the list keeps pointwise *)
Lemma ren_stmts_Forall2 (Q : Ast.statement -> Ast.statement -> Prop) ss :
  Forall (fun s => forall st r, ren_stmt s st = Ok r -> Q s (fst r)) ss ->
  forall st r, ren_stmts ss st = Ok r -> Forall2 Q ss (fst r).
Proof.
  induction 1 as [|s l Hs Hl IH]; intros st r Hr; simpl in Hr.
  - injection Hr as <-. constructor.
  - inv_bind Hr. inv_bind Hr. injection Hr as <-. simpl. constructor; [by eapply Hs|by eapply IH].
Qed.

Definition ren_same (s : Ast.statement) : Prop := forall st r, ren_stmt s st = Ok r -> same s (fst r).

Lemma same_lists ss ss' : Forall2 same ss ss' ->
  (forall key, map (skel key) ss' = map (skel key) ss) /\
  map hdr (flat_map lifted_stmts ss') = map hdr (flat_map lifted_stmts ss).
Proof.
  induction 1 as [|s s' l l' (H1 & H2 & H3) Hl [IH1 IH2]]; [done|]. split.
  - intros key. simpl. by rewrite H1, IH1.
  - simpl. by rewrite !map_app, H2, IH2.
Qed.

Lemma ren_same_all s : ren_same s.
Proof.
  induction s as [m c t e IHt IHe|m c body IH|m t ss IH|m ss IH|m t n dd cst|s Hplain] using stmt_ind';
    intros st r Hr.
  - simpl in Hr. inv_bind Hr. destruct (IHt _ _ E) as (T1 & T2 & _). destruct e as [e|].
    + inv_bind Hr. injection Hr as <-. destruct (IHe _ _ E0) as (E1 & E2 & _).
      split; [intros key; simpl; by rewrite T1, E1|]. split; [simpl; by rewrite !map_app, T2, E2|done].
    + injection Hr as <-.
      split; [intros key; simpl; by rewrite T1|]. split; [simpl; by rewrite !map_app, T2|done].
  - simpl in Hr. inv_bind Hr. injection Hr as <-. destruct (IH _ _ E) as (T1 & T2 & _).
    split; [intros key; simpl; by rewrite T1|]. split; [simpl; by rewrite T2|done].
  - rewrite ren_init_eq in Hr. inv_bind Hr. injection Hr as <-.
    destruct (same_lists _ _ (ren_stmts_Forall2 same ss IH _ _ E)) as [L1 L2].
    split; [intros key; simpl; by rewrite L1|]. split; [exact L2|done].
  - rewrite ren_block_eq in Hr. inv_bind Hr. inv_bind Hr. injection Hr as <-.
    destruct (same_lists _ _ (ren_stmts_Forall2 same ss IH _ _ E)) as [L1 L2].
    split; [intros key; simpl; by rewrite L1|]. split; [exact L2|done].
  - simpl in Hr. inv_bind Hr. destruct (fst a); injection Hr as <-; done.
  - destruct s; try done; simpl in Hr; injection Hr as <-; repeat split.
Qed.

(* ensure_unique_variables is the renaming of the body from the environment of the parameters *)
Lemma ensure_unique_inv params pfile ploc body u :
  ensure_unique_variables params pfile ploc body = Ok u ->
  exists st r, ren_stmt body st = Ok r /\ fst u = fst r.
Proof.
  unfold ensure_unique_variables. destruct (negb (is_block body)); [done|]. intros H.
  inv_bind H. inv_bind H. injection H as <-. eauto.
Qed.

Lemma ensure_unique_same params pfile ploc body u :
  ensure_unique_variables params pfile ploc body = Ok u -> same body (fst u).
Proof. intros (st & r & Hr & ->)%ensure_unique_inv. by eapply ren_same_all. Qed.

Lemma try_lift_impl_inv kind params pfile ploc body r :
  try_lift_impl kind params pfile ploc body = Ok r ->
  exists body' ds0 st,
    ensure_unique_variables params pfile ploc body = Ok (body', l_reports r) /\
    decls_of_params (map vname_plain params) pfile ploc [] = Ok ds0 /\
    build_basic_blocks body' ds0 = Ok st /\
    xc_decls (l_cfg r) = snd st /\
    xc_blocks (l_cfg r) = map (propagate_types_block (snd st)) (fst st) /\
    xc_kind (l_cfg r) = kind /\ xc_params (l_cfg r) = map vname_plain params.
Proof.
  unfold try_lift_impl. intros H. inv_bind H. inv_bind H. inv_bind H. injection H as <-.
  exists (fst a), a0, a1. destruct a. done.
Qed.

Lemma build_ok key body ds st : build_basic_blocks body ds = Ok st ->
  Lift.lift (skel key body) = Ok (map (skel_block key) (fst st)) /\ Forall2 image0 (lifted_stmts body) (U (fst st)).
Proof.
  unfold build_basic_blocks. destruct body; try done. intros Hb. inv_bind Hb. injection Hb as <-.
  destruct (ok_all key _ _ _ _ E) as [Hs (xs & -> & F)]. split; [|exact F].
  unfold Lift.lift. change (skel key (Ast.Block m stmts)) with (SBlock (map (skel key) stmts)) in Hs |- *.
  change (map (skel_block key) (fst ([new_block (lift_meta m) 0 0], ds))) with [Lift.new_block 0 0] in Hs.
  by rewrite Hs.
Qed.

(* Forgetting the statement content of the graph LiftFull builds gives exactly
   the graph Model.Lift builds from the skeleton of the body (for ANY way [key]
   of naming a statement / a condition by its meta). *)
Theorem liftfull_skeleton : forall key kind params pfile ploc body r,
  try_lift_impl kind params pfile ploc body = Ok r ->
  Lift.lift (skel key body) = Ok (map (skel_block key) (xc_blocks (l_cfg r))).
Proof.
  intros key kind params pfile ploc body r H.
  destruct (try_lift_impl_inv _ _ _ _ _ _ H) as (body' & ds0 & st & Hu & _ & Hb & _ & -> & _).
  destruct (ensure_unique_same _ _ _ _ _ Hu) as (Hsk & _). simpl in Hsk.
  rewrite <- Hsk, (proj1 (build_ok key _ _ _ Hb)). f_equal.
  rewrite map_map. apply map_ext. intros b. unfold skel_block, propagate_types_block. simpl. f_equal.
  rewrite map_map. apply map_ext. intros x. destruct x; done.
Qed.

(* the image of a source statement in the final graph: what lifting makes of the
   statement, then possibly a false target (complete_basic_block) and the type of
   the assigned variable (propagate_types) *)
Definition image (ds : xdecls) (s : Ast.statement) (x : xstmt) : Prop :=
  exists x0, image0 s (unpatch x0) /\ x = propagate_types_stmt ds x0.

Lemma graph_stmts_propagate ds g :
  graph_stmts (map (propagate_types_block ds) g) = map (propagate_types_stmt ds) (graph_stmts g).
Proof.
  unfold graph_stmts. induction g as [|b g IH]; [done|]. simpl. by rewrite map_app, IH.
Qed.

Lemma lift_to_ir_inv kind params pfile ploc body c :
  lift_to_ir kind params pfile ploc body = Ok c ->
  exists r, try_lift_impl kind params pfile ploc body = Ok r /\ c = erase_cfg (l_cfg r).
Proof. unfold lift_to_ir. intros H. inv_bind H. injection H as <-. eauto. Qed.

Lemma map_to_of_nat l : map N.to_nat (map N.of_nat l) = l.
Proof. rewrite map_map. rewrite <- (map_id l) at 2. apply map_ext. apply Nat2N.id. Qed.

(* the statements of the erased graph *)
Lemma erase_stmts c :
  List.flat_map Ir.b_stmts (Ir.c_blocks (erase_cfg c)) = map erase_stmt (graph_stmts (xc_blocks c)).
Proof.
  unfold erase_cfg, graph_stmts. simpl.
  induction (xc_blocks c) as [|b g IH]; [done|]. simpl. by rewrite map_app, IH.
Qed.

(* Statement provenance.  [body'] is the body after the renaming pass (same
   structure, same kinds, same metas: [same]); the IR statements of the graph, read
   block by block, are in one-to-one, order-preserving correspondence with the
   statements of the body that are not blocks, each the image of its statement. *)
Theorem liftfull_provenance : forall kind params pfile ploc body r,
  try_lift_impl kind params pfile ploc body = Ok r ->
  exists body',
    ensure_unique_variables params pfile ploc body = Ok (body', l_reports r) /\
    same body body' /\
    Forall2 (image (xc_decls (l_cfg r))) (lifted_stmts body') (graph_stmts (xc_blocks (l_cfg r))).
Proof.
  intros kind params pfile ploc body r H.
  destruct (try_lift_impl_inv _ _ _ _ _ _ H) as (body' & ds0 & st & Hu & _ & Hb & -> & -> & _).
  exists body'. split; [exact Hu|]. split; [exact (ensure_unique_same _ _ _ _ _ Hu)|].
  rewrite graph_stmts_propagate. apply (Forall2_fmap_r (propagate_types_stmt (snd st))).
  pose proof (proj1 (Forall2_fmap_r unpatch image0 _ _) (proj2 (build_ok (fun _ => 0) _ _ _ Hb))) as F.
  eapply Forall2_impl; [exact F|]. intros s x0 Hi. by exists x0.
Qed.

Lemma image_hdr ds s x : image ds s x -> xhdr x = lift_hdr (hdr s).
Proof.
  intros (x0 & H0 & ->). rewrite <- (image0_hdr _ _ H0). by destruct x0.
Qed.

(* In terms of the body handed to try_lift_impl (before renaming): kind and meta
   of the IR statements, in block order, are kind and meta of the source
   statements, in source order. *)
Theorem liftfull_stmt_headers : forall kind params pfile ploc body r,
  try_lift_impl kind params pfile ploc body = Ok r ->
  map xhdr (graph_stmts (xc_blocks (l_cfg r))) = map lift_hdr (map hdr (lifted_stmts body)).
Proof.
  intros kind params pfile ploc body r H.
  destruct (liftfull_provenance _ _ _ _ _ _ H) as (body' & _ & (_ & <- & _) & F).
  induction F as [|s x ss xs Hi _ IH]; [done|]. simpl. by rewrite (image_hdr _ _ _ Hi), IH.
Qed.

Theorem liftfull_stmt_metas : forall kind params pfile ploc body r,
  try_lift_impl kind params pfile ploc body = Ok r ->
  map xstmt_meta (graph_stmts (xc_blocks (l_cfg r)))
  = map (fun s => lift_meta (Ast.stmt_meta s)) (lifted_stmts body).
Proof.
  intros kind params pfile ploc body r H.
  pose proof (liftfull_stmt_headers _ _ _ _ _ _ H) as Hh.
  apply (f_equal (map snd)) in Hh. rewrite !map_map in Hh. exact Hh.
Qed.

(* the `<--` / `-->` statements *)

Definition is_sig_kind (h : option xkind * Ir.meta) : bool :=
  match fst h with Some (XKSubst Ir.OpSig) => true | _ => false end.

(* The signal assignments (`<--`, `-->`) of the graph are exactly the images of
   the signal assignments of the source, in order, with the same metas. *)
Theorem liftfull_signal_assignments : forall kind params pfile ploc body r,
  try_lift_impl kind params pfile ploc body = Ok r ->
  map xstmt_meta (List.filter is_xsignal_assignment (graph_stmts (xc_blocks (l_cfg r))))
  = map (fun s => lift_meta (Ast.stmt_meta s)) (List.filter is_signal_assignment (lifted_stmts body)).
Proof.
  intros kind params pfile ploc body r H.
  pose proof (liftfull_stmt_headers _ _ _ _ _ _ H) as Hh. rewrite map_map in Hh.
  apply (f_equal (fun l => map snd (List.filter is_sig_kind l))) in Hh.
  rewrite (filter_map_comm xhdr is_sig_kind is_xsignal_assignment),
    (filter_map_comm _ is_sig_kind is_signal_assignment), !map_map in Hh; [exact Hh|..].
  - intros s. destruct s as [| | | | |m v a [] rhe| | | | |]; done.
  - intros x. destruct x as [| | |m v [] rhe st| | |]; done.
Qed.
