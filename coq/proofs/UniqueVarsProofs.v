(* Proofs for C10 about the pass itself: on EVERY statement tree the mirror of
   ensure_unique_variables renames each occurrence to the name of the
   declaration that the stack resolver (Proofs.ScopeStack, which says how it
   differs from the specification) assigns to it; the renaming is injective on
   declarations, the reports are exactly that resolver's shadowing set, duplicate
   parameters are reported, the name.suffix split inverts the renaming. *)
From Coq Require Import List NArith Arith Bool Lia Decimal DecimalNat.
Require Import Model.Base Model.Ir Model.UniqueVars Spec.ScopeSpec Proofs.ScopeStack Proofs.IrFacts Proofs.BaseFacts.
Import ListNotations.

Lemma ident_eqb_neq : forall a b, a <> b -> ident_eqb a b = false.
Proof.
  intros a b H. destruct (ident_eqb a b) eqn:E; auto. apply ident_eqb_eq in E. contradiction.
Qed.

Lemma find_name_assoc : forall V n (b : list (name * V)), find_name n b = assoc n b.
Proof. induction b as [|[m v] r IH]; simpl; [reflexivity|]. unfold name_eqb. rewrite IH. reflexivity. Qed.

Lemma assoc_app : forall V n (a b : list (name * V)),
  assoc n (a ++ b) = match assoc n a with Some v => Some v | None => assoc n b end.
Proof.
  induction a as [|[m v] r IH]; simpl; intros; auto.
  destruct (name_eqb n m); auto.
Qed.

Lemma get_variable_concat : forall V n (e : venv V), get_variable n e = assoc n (concat e).
Proof.
  induction e as [|b r IH]; simpl; auto.
  rewrite assoc_app, IH. reflexivity.
Qed.

Lemma lookup_concat : forall n stk, lookup n stk = assoc n (concat stk).
Proof.
  induction stk as [|b r IH]; simpl; auto.
  rewrite assoc_app, IH, find_name_assoc. reflexivity.
Qed.

Lemma assoc_none_notin : forall V n (b : list (name * V)),
  (forall v, ~ In (n, v) b) -> assoc n b = None.
Proof.
  induction b as [|[m v] r IH]; simpl; intros H; auto.
  unfold name_eqb. destruct (ident_eqb n m) eqn:E.
  - apply ident_eqb_eq in E. subst. exfalso. apply (H v). left. reflexivity.
  - apply IH. intros v' Hin. apply (H v'). right. exact Hin.
Qed.

Lemma assoc_in : forall V n (b : list (name * V)) v, assoc n b = Some v -> In (n, v) b.
Proof.
  induction b as [|[m w] r IH]; simpl; intros v H; try discriminate.
  unfold name_eqb in H. destruct (ident_eqb n m) eqn:E.
  - apply ident_eqb_eq in E. inversion H. subst. left. reflexivity.
  - right. apply IH. exact H.
Qed.

Definition dproj (b : list entry) : list (name * loc) :=
  map (fun e : entry => (fst e, snd (snd e))) b.
Definition sproj (b : list entry) : list (name * nat) :=
  flat_map (fun e : entry => match fst (snd e) with 0 => [] | S v => [(fst e, v)] end) b.
Definition gproj (c : list (name * nat)) : list (name * option nat) :=
  map (fun e : name * nat => (fst e, match snd e with S (S v) => Some v | _ => None end)) c.

Definition sorted_for (l : list entry) : Prop :=
  forall l1 n k lo l2, l = l1 ++ (n, (k, lo)) :: l2 ->
  forall k' lo', In (n, (k', lo')) l2 -> k' < k.
Definition bounded (l : list entry) (c : list (name * nat)) : Prop :=
  forall n k lo, In (n, (k, lo)) l -> k < count n c.

Record Inv (env : denv) (st : sstate) : Prop := {
  inv_decl : declarations env = map dproj (sstack st);
  inv_scoped : scoped_versions env = map sproj (sstack st);
  inv_global : global_versions env = [gproj (scount st)];
  inv_nonempty : sstack st <> [];
  inv_sorted : sorted_for (concat (sstack st));
  inv_bounded : bounded (concat (sstack st)) (scount st);
  inv_pos : forall n, find_name n (scount st) <> Some 0
}.

Lemma concat_map_dproj : forall stk, concat (map dproj stk) = dproj (concat stk).
Proof. induction stk; simpl; auto. unfold dproj in *. rewrite map_app, IHstk. reflexivity. Qed.

Lemma concat_map_sproj : forall stk, concat (map sproj stk) = sproj (concat stk).
Proof. induction stk; simpl; auto. unfold sproj in *. rewrite flat_map_app, IHstk. reflexivity. Qed.

Lemma assoc_dproj : forall n l, assoc n (dproj l) = option_map snd (assoc n l).
Proof.
  induction l as [|[m [k lo]] r IH]; simpl; auto.
  destruct (name_eqb n m); auto.
Qed.

Lemma sorted_tail : forall a l, sorted_for (a ++ l) -> sorted_for l.
Proof.
  intros a l H l1 n k lo l2 E k' lo' Hin.
  apply (H (a ++ l1) n k lo l2) with (lo' := lo'); auto.
  rewrite E, app_assoc. reflexivity.
Qed.

Lemma sproj_notin : forall n l, (forall k lo, ~ In (n, (k, lo)) l) -> assoc n (sproj l) = None.
Proof.
  intros n l H. apply assoc_none_notin. intros v Hin.
  unfold sproj in Hin. apply in_flat_map in Hin. destruct Hin as [[m [k lo]] [Hin1 Hin2]].
  simpl in Hin2. destruct k; simpl in Hin2; [contradiction|].
  destruct Hin2 as [E|[]]. inversion E. subst. apply (H (S v) lo). exact Hin1.
Qed.

Lemma assoc_sproj : forall n l, sorted_for l ->
  assoc n (sproj l) = match assoc n l with Some (S v, _) => Some v | _ => None end.
Proof.
  induction l as [|[m [k lo]] r IH]; intros Hs; simpl; auto.
  assert (Hr : sorted_for r) by (apply (sorted_tail [(m, (k, lo))]); exact Hs).
  unfold name_eqb. destruct (ident_eqb n m) eqn:E.
  - apply ident_eqb_eq in E. subst m. destruct k as [|v]; simpl.
    + apply sproj_notin. intros k lo' Hin.
      specialize (Hs [] n 0 lo r eq_refl k lo' Hin). lia.
    + unfold name_eqb. rewrite ident_eqb_refl. reflexivity.
  - destruct k as [|v]; simpl.
    + apply IH. exact Hr.
    + unfold name_eqb. rewrite E. apply IH. exact Hr.
Qed.

Lemma rename_use_spec : forall env st n, Inv env st ->
  rename_use env n =
  match option_map fst (lookup n (sstack st)) with Some k => vname_of n k | None => n end.
Proof.
  intros env st n I. unfold rename_use, get_current_version.
  rewrite (inv_scoped _ _ I), get_variable_concat, concat_map_sproj, lookup_concat.
  rewrite assoc_sproj by apply (inv_sorted _ _ I).
  destruct (assoc n (concat (sstack st))) as [[[|v] lo]|]; reflexivity.
Qed.

Lemma get_declaration_spec : forall env st n, Inv env st ->
  get_declaration n env = option_map snd (lookup n (sstack st)).
Proof.
  intros env st n I. unfold get_declaration.
  rewrite (inv_decl _ _ I), get_variable_concat, concat_map_dproj, lookup_concat, assoc_dproj.
  reflexivity.
Qed.

Lemma uses_spec : forall env st k uses, Inv env st ->
  map (pair k) (map (rename_use env) uses) = map ren_of (map (stk_use_occ k st) uses).
Proof.
  intros. rewrite !map_map. apply map_ext. intros n. unfold stk_use_occ, ren_of.
  rewrite (rename_use_spec env st n H). reflexivity.
Qed.

Definition ver (k : nat) : option nat := match k with 0 => None | S v => Some v end.

Lemma count_declare : forall n p l st,
  count n (scount (declare p l st)) = if ident_eqb n p then S (count n (scount st)) else count n (scount st).
Proof.
  intros. unfold declare, count. simpl. destruct (ident_eqb n p) eqn:E; auto.
  apply ident_eqb_eq in E. subst. reflexivity.
Qed.

Lemma sstack_declare : forall n l st b r, sstack st = b :: r ->
  sstack (declare n l st) = ((n, (count n (scount st), l)) :: b) :: r.
Proof. intros. unfold declare. simpl. rewrite H. reflexivity. Qed.

Lemma scount_declare : forall n l st, scount (declare n l st) = (n, S (count n (scount st))) :: scount st.
Proof. reflexivity. Qed.

Lemma assoc_gproj : forall n c,
  assoc n (gproj c) = option_map (fun c => match c with S (S v) => Some v | _ => None end) (find_name n c).
Proof.
  induction c as [|[m k] t IH]; simpl; [reflexivity|].
  unfold name_eqb. destruct (ident_eqb n m); auto.
Qed.

Lemma add_declaration_spec : forall env st n l, Inv env st ->
  exists env', add_declaration n l env = Ok (ver (count n (scount st)), env') /\ Inv env' (declare n l st).
Proof.
  intros env st n l I.
  destruct I as [Hd Hs Hg Hne Hsort Hb Hpos].
  destruct (sstack st) as [|b r] eqn:Estk; [contradiction|].
  pose proof (sstack_declare n l st b r Estk) as Estk'.
  simpl in Hsort, Hb.
  assert (Hsort' : sorted_for (concat (sstack (declare n l st)))).
  { rewrite Estk'. simpl. intros l1 m k lo l2 E k' lo' Hin.
    destruct l1 as [|x l1]; simpl in E; inversion E; subst.
    - apply (Hb m k' lo'). exact Hin.
    - apply (Hsort l1 m k lo l2) with (lo' := lo'); auto. }
  assert (Hb' : bounded (concat (sstack (declare n l st))) (scount (declare n l st))).
  { rewrite Estk'. intros m k lo Hin. rewrite count_declare. simpl in Hin.
    destruct Hin as [E|Hin].
    - inversion E. subst. rewrite ident_eqb_refl. lia.
    - specialize (Hb m k lo Hin).
      destruct (ident_eqb m n) eqn:E; [|exact Hb].
      apply ident_eqb_eq in E. subst. lia. }
  assert (Hpos' : forall m, find_name m (scount (declare n l st)) <> Some 0).
  { intros m. rewrite scount_declare. simpl. destruct (ident_eqb m n); [discriminate|apply Hpos]. }
  assert (Hne' : sstack (declare n l st) <> []).
  { rewrite Estk'. discriminate. }
  unfold add_declaration. rewrite Hd. simpl.
  unfold get_next_version. simpl. rewrite Hg. simpl.
  rewrite assoc_gproj.
  specialize (Hpos n). unfold count in *.
  (* seen exactly once: version 0; more than once: the next version; never: unversioned *)
  destruct (find_name n (scount st)) as [[|[|v]]|] eqn:Ec; simpl; [contradiction|..].
  all: rewrite ?Hs; simpl; rewrite ?Nat.add_1_r.
  all: eexists; split; [reflexivity|].
  all: constructor; cbn [declarations scoped_versions global_versions]; auto.
  all: rewrite ?Estk', ?scount_declare, ?Hs; unfold count; rewrite ?Ec; reflexivity.
Qed.

Lemma push_inv : forall env st, Inv env st -> Inv (denv_add_block env) (push st).
Proof.
  intros env st [Hd Hs Hg Hne Hsort Hb Hpos].
  constructor; cbn [declarations scoped_versions global_versions denv_add_block push sstack scount]; auto.
  - unfold add_variable_block. rewrite Hd. reflexivity.
  - unfold add_variable_block. rewrite Hs. reflexivity.
  - discriminate.
Qed.

Lemma pop_inv : forall env st b r, Inv env st -> sstack st = b :: r -> r <> [] ->
  exists env', denv_remove_block env = Ok env' /\ Inv env' (pop st).
Proof.
  intros env st b r [Hd Hs Hg Hne Hsort Hb Hpos] E Hr.
  unfold denv_remove_block. rewrite Hd, Hs, E. simpl.
  eexists. split; [reflexivity|].
  rewrite E in Hsort, Hb. simpl in Hsort, Hb.
  constructor; cbn [declarations scoped_versions global_versions pop sstack scount]; rewrite ?E; simpl; auto.
  - apply sorted_tail in Hsort. exact Hsort.
  - intros n k lo Hin. apply (Hb n k lo). apply in_or_app. right. exact Hin.
Qed.

Section ustmt_ind_nested.
  Variable P : ustmt -> Prop.
  (* the statements of a block or initialisation block, one after the other *)
  Hypothesis HN : P (UInit []).
  Hypothesis HC : forall s ss, P s -> P (UInit ss) -> P (UInit (s :: ss)).
  Hypothesis HB : forall ss, P (UInit ss) -> P (UBlock ss).
  Hypothesis HD : forall k n l dims, P (UDecl k n l dims).
  Hypothesis HS : forall n uses, P (USubst n uses).
  Hypothesis HE : forall k uses, P (UExpr k uses).
  Hypothesis HW : forall c b, P b -> P (UWhile c b).
  Hypothesis HF1 : forall c t, P t -> P (UIf c t None).
  Hypothesis HF2 : forall c t e0, P t -> P e0 -> P (UIf c t (Some e0)).

  Fixpoint ustmt_ind_nested (s : ustmt) : P s :=
    let fix go (l : list ustmt) : P (UInit l) :=
      match l with [] => HN | x :: r => HC x r (ustmt_ind_nested x) (go r) end in
    match s with
    | UBlock ss => HB ss (go ss)
    | UInit ss => go ss
    | UDecl k n l dims => HD k n l dims
    | USubst n uses => HS n uses
    | UExpr k uses => HE k uses
    | UWhile c b => HW c b (ustmt_ind_nested b)
    | UIf c t e =>
      match e as e' return P (UIf c t e') with
      | Some e0 => HF2 c t e0 (ustmt_ind_nested t) (ustmt_ind_nested e0)
      | None => HF1 c t (ustmt_ind_nested t)
      end
    end.
End ustmt_ind_nested.

(* What the stack resolver computes, as an induction principle: a property of
   (statement, state before, occurrences, shadowings, state after) that follows
   the equations of [stk_resolve] holds of every run. *)
Section stk_resolve_ind.
  Variable R : ustmt -> sstate -> list rocc -> list shadow -> sstate -> Prop.
  (* a list of statements is resolved like an initialisation block *)
  Hypothesis Hnil : forall st, R (UInit []) st [] [] st.
  Hypothesis Hcons : forall s ss st o1 sh1 st1 o2 sh2 st2,
    R s st o1 sh1 st1 -> R (UInit ss) st1 o2 sh2 st2 -> R (UInit (s :: ss)) st (o1 ++ o2) (sh1 ++ sh2) st2.
  Hypothesis Hblock : forall ss st o sh st', R (UInit ss) (push st) o sh st' -> R (UBlock ss) st o sh (pop st').
  Hypothesis Hdecl : forall k n l dims st,
    R (UDecl k n l dims) st (map (stk_use_occ OUse st) dims ++ [(ODecl, n, Some (count n (scount st)))])
      (match lookup n (sstack st) with Some prev => [(n, (count n (scount st), l), prev)] | None => [] end)
      (declare n l st).
  Hypothesis Hsubst : forall n uses st,
    R (USubst n uses) st (stk_use_occ OTarget st n :: map (stk_use_occ OUse st) uses) [] st.
  Hypothesis Hexpr : forall k uses st, R (UExpr k uses) st (map (stk_use_occ OUse st) uses) [] st.
  Hypothesis Hwhile : forall c b st o sh st',
    R b st o sh st' -> R (UWhile c b) st (map (stk_use_occ OUse st) c ++ o) sh st'.
  Hypothesis Hif : forall c t st o sh st',
    R t st o sh st' -> R (UIf c t None) st (map (stk_use_occ OUse st) c ++ o) sh st'.
  Hypothesis Hifelse : forall c t e st o1 sh1 st1 o2 sh2 st2,
    R t st o1 sh1 st1 -> R e st1 o2 sh2 st2 ->
    R (UIf c t (Some e)) st (map (stk_use_occ OUse st) c ++ o1 ++ o2) (sh1 ++ sh2) st2.

  Let run (s : ustmt) : Prop := forall st, let '(o, sh, st') := stk_resolve s st in R s st o sh st'.

  Lemma stk_resolve_ind : forall s st o sh st', stk_resolve s st = (o, sh, st') -> R s st o sh st'.
  Proof.
    enough (H : forall s, run s) by (intros s st o sh st' E; specialize (H s st); now rewrite E in H).
    induction s using ustmt_ind_nested; intro st; cbn [stk_resolve resolve_list].
    - apply Hnil.
    - specialize (IHs st). destruct (stk_resolve s st) as [[o1 sh1] st1].
      specialize (IHs0 st1). cbn [stk_resolve] in IHs0.
      destruct (resolve_list stk_resolve ss st1) as [[o2 sh2] st2]. eapply Hcons; eassumption.
    - specialize (IHs (push st)). cbn [stk_resolve] in IHs.
      destruct (resolve_list stk_resolve ss (push st)) as [[o sh] st']. now apply Hblock.
    - apply Hdecl.
    - apply Hsubst.
    - apply Hexpr.
    - specialize (IHs st). destruct (stk_resolve s st) as [[o sh] st']. now apply Hwhile.
    - specialize (IHs st). destruct (stk_resolve s st) as [[o sh] st']. now apply Hif.
    - specialize (IHs1 st). destruct (stk_resolve s1 st) as [[o1 sh1] st1]. specialize (IHs2 st1).
      destruct (stk_resolve s2 st1) as [[o2 sh2] st2]. eapply Hifelse; eassumption.
  Qed.
End stk_resolve_ind.

Definition sim (s : ustmt) : Prop :=
  forall env reports st, Inv env st ->
  forall o sh st', stk_resolve s st = (o, sh, st') ->
  exists s' env',
    visit s (env, reports) = Ok (s', (env', reports ++ map report_of sh)) /\
    Inv env' st' /\ length (sstack st') = length (sstack st) /\ occs s' = map ren_of o.

Lemma length_declare : forall n l st, sstack st <> [] ->
  length (sstack (declare n l st)) = length (sstack st).
Proof. intros n l st H. unfold declare. simpl. now destruct (sstack st). Qed.

Lemma visit_init : forall ss st u st', visit (UInit ss) st = Ok (u, st') ->
  exists ss', mapfold visit ss st = Ok (ss', st') /\ u = UInit ss'.
Proof.
  intros ss [env reports] u st' H. cbn [visit] in H.
  destruct (mapfold visit ss (env, reports)) as [[ss' st2]| | |]; try discriminate.
  injection H as <- <-. eauto.
Qed.

Lemma visit_sim : forall s, sim s.
Proof.
  intros s env reports st I o sh st' E. revert env reports I.
  pattern s, st, o, sh, st'. apply stk_resolve_ind; [clear..|exact E].
  - intros st env reports I. exists (UInit []), env. simpl. rewrite app_nil_r. auto.
  - intros s ss st o1 sh1 st1 o2 sh2 st2 Hs Hss env reports I.
    destruct (Hs env reports I) as (s' & env1 & V1 & I1 & L1 & O1).
    destruct (Hss env1 (reports ++ map report_of sh1) I1) as (u & env2 & V2 & I2 & L2 & O2).
    destruct (visit_init _ _ _ _ V2) as (ss' & M & ->).
    exists (UInit (s' :: ss')), env2. cbn [visit mapfold]. rewrite V1, M.
    rewrite map_app, app_assoc. split; [reflexivity|]. split; [exact I2|]. split; [congruence|].
    cbn [occs flat_map] in *. rewrite O1, O2, map_app. reflexivity.
  - intros ss st o sh st1 H env reports I.
    destruct (H _ reports (push_inv _ _ I)) as (u & env1 & V1 & I1 & L1 & O1).
    destruct (visit_init _ _ _ _ V1) as (ss' & M & ->).
    cbn [push sstack length] in L1.
    destruct (sstack st1) as [|b r] eqn:E1; [discriminate|].
    assert (Hr : r <> []).
    { intro. subst r. simpl in L1. pose proof (inv_nonempty _ _ I). destruct (sstack st); [contradiction|discriminate]. }
    destruct (pop_inv _ _ _ _ I1 E1 Hr) as (env2 & P2 & I2).
    exists (UBlock ss'), env2. cbn [visit]. unfold denv_add_block in *. rewrite M, P2.
    split; [reflexivity|]. split; [exact I2|]. split; [|exact O1].
    unfold pop. cbn [sstack]. rewrite E1. simpl in *. lia.
  - intros k n l dims st env reports I.
    destruct (add_declaration_spec env st n l I) as (env' & A & I').
    exists (UDecl k (vname_of n (count n (scount st))) l (map (rename_use env) dims)), env'.
    split; [|split; [exact I'|split; [exact (length_declare n l st (inv_nonempty _ _ I))|]]].
    + cbn [visit]. rewrite A, (get_declaration_spec env st n I).
      destruct (lookup n (sstack st)) as [[k' l']|], (count n (scount st)); cbn; rewrite ?app_nil_r; reflexivity.
    + cbn [occs]. rewrite map_app, (uses_spec env st OUse dims I). reflexivity.
  - intros n uses st env reports I.
    eexists. eexists. cbn [visit]. rewrite app_nil_r. split; [reflexivity|]. split; [exact I|]. split; [reflexivity|].
    cbn [occs map]. rewrite (uses_spec env st OUse uses I). f_equal.
    unfold stk_use_occ, ren_of. rewrite (rename_use_spec env st n I). reflexivity.
  - intros k uses st env reports I.
    eexists. eexists. cbn [visit]. rewrite app_nil_r. split; [reflexivity|]. split; [exact I|]. split; [reflexivity|].
    cbn [occs]. apply (uses_spec env st OUse uses I).
  - intros c b st o sh st' H env reports I.
    destruct (H env reports I) as (b' & env1 & V1 & I1 & L1 & O1).
    eexists. eexists. cbn [visit]. rewrite V1. split; [reflexivity|]. split; [exact I1|]. split; [exact L1|].
    cbn [occs]. rewrite map_app, (uses_spec env st OUse c I), O1. reflexivity.
  - intros c t st o sh st' H env reports I.
    destruct (H env reports I) as (t' & env1 & V1 & I1 & L1 & O1).
    eexists. eexists. cbn [visit]. rewrite V1. split; [reflexivity|]. split; [exact I1|]. split; [exact L1|].
    cbn [occs]. rewrite !map_app, (uses_spec env st OUse c I), O1, app_nil_r. reflexivity.
  - intros c t e st o1 sh1 st1 o2 sh2 st2 Ht He env reports I.
    destruct (Ht env reports I) as (t' & env1 & V1 & I1 & L1 & O1).
    destruct (He env1 (reports ++ map report_of sh1) I1) as (e' & env2 & V2 & I2 & L2 & O2).
    eexists. eexists. cbn [visit]. rewrite V1, V2. rewrite map_app, app_assoc.
    split; [reflexivity|]. split; [exact I2|]. split; [congruence|].
    cbn [occs]. rewrite !map_app, (uses_spec env st OUse c I), O1, O2. reflexivity.
Qed.

Definition st0 : sstate := {| sstack := [[]]; scount := [] |}.

Lemma inv_initial : Inv denv_new st0.
Proof.
  constructor; simpl; auto; try discriminate.
  - intros l1 n k lo l2 E. destruct l1; discriminate.
  - intros n k lo [].
Qed.

Definition declare_all (ps : list name) (ploc : loc) (st : sstate) : sstate :=
  fold_left (fun st p => declare p ploc st) ps st.

Lemma fresh_declare : forall q p ploc st,
  count q (scount (declare p ploc st)) = 0 -> q <> p /\ count q (scount st) = 0.
Proof.
  intros q p ploc st. rewrite count_declare. destruct (ident_eqb q p) eqn:E; [discriminate|].
  intro H. split; [|exact H]. intros ->. now rewrite ident_eqb_refl in E.
Qed.

(* the parameters are declared one after the other up to the first one that was
   seen before; [l1] is the part that went through *)
Lemma env_of_params_spec : forall ps ploc env st, Inv env st ->
  exists l1 rest, ps = l1 ++ rest /\ NoDup l1 /\ (forall q, In q l1 -> count q (scount st) = 0) /\
    ((rest = [] /\ exists env', env_of_params ps ploc env = Ok (inl env') /\ Inv env' (declare_all ps ploc st)) \/
     (exists p l2, rest = p :: l2 /\ env_of_params ps ploc env = Ok (inr (ParamCollision p ploc)) /\
                   (In p l1 \/ count p (scount st) <> 0))).
Proof.
  induction ps as [|p r IH]; intros ploc env st I.
  - exists [], []. split; [reflexivity|]. split; [constructor|]. split; [intros q []|].
    left. split; [reflexivity|]. exists env. split; [reflexivity|exact I].
  - destruct (add_declaration_spec env st p ploc I) as (env1 & A & I1).
    cbn [env_of_params]. rewrite A.
    destruct (count p (scount st)) as [|v] eqn:Ec; cbn [ver].
    + destruct (IH ploc env1 (declare p ploc st) I1) as (l1 & rest & -> & ND & Z & Hrest).
      assert (Z' : forall q, In q l1 -> q <> p /\ count q (scount st) = 0)
        by (intros q Hq; apply (fresh_declare q p ploc), Z, Hq).
      exists (p :: l1), rest. split; [reflexivity|].
      split; [constructor; [intro Hin; now destruct (Z' p Hin)|exact ND]|].
      split; [intros q [<-|Hq]; [exact Ec|apply Z', Hq]|].
      destruct Hrest as [Hok|(q & l2 & -> & C & W)]; [left; exact Hok|right].
      exists q, l2. split; [reflexivity|]. split; [exact C|].
      destruct W as [W|W]; [left; now right|]. rewrite count_declare in W.
      destruct (ident_eqb q p) eqn:Eq; [|now right]. apply ident_eqb_eq in Eq. left. now left.
    + exists [], (p :: r). split; [reflexivity|]. split; [constructor|]. split; [intros q []|].
      right. exists p, r. split; [reflexivity|]. split; [reflexivity|]. right. lia.
Qed.

Lemma in_not_nodup : forall A (l1 : list A) p l2, In p l1 -> ~ NoDup (l1 ++ p :: l2).
Proof.
  intros A l1 p l2 Hin ND. apply NoDup_remove_2 in ND. apply ND. apply in_or_app. left. exact Hin.
Qed.

Lemma ensure_cases : forall params ploc ss,
  (NoDup params /\ exists body',
     ensure_unique_variables params ploc (UBlock ss) =
       Renamed body' (map report_of (snd (stk_resolve_def params ploc (UBlock ss)))) /\
     occs body' = map ren_of (fst (stk_resolve_def params ploc (UBlock ss))))
  \/
  (exists l1 p l2, params = l1 ++ p :: l2 /\ NoDup l1 /\ In p l1 /\
     ensure_unique_variables params ploc (UBlock ss) = Collision (ParamCollision p ploc)).
Proof.
  intros params ploc ss. unfold stk_resolve_def, ensure_unique_variables. cbn [is_block negb].
  change (stk_initial params ploc) with (declare_all params ploc st0).
  destruct (env_of_params_spec params ploc denv_new st0 inv_initial)
    as (l1 & rest & E & ND & _ & [[-> (env & Ee & I)]|(p & l2 & -> & C & W)]).
  - left. rewrite app_nil_r in E. subst l1. split; [exact ND|]. rewrite Ee.
    destruct (stk_resolve (UBlock ss) (declare_all params ploc st0)) as [[o sh] st'] eqn:R.
    destruct (visit_sim (UBlock ss) env [] _ I _ _ _ R) as (s' & env' & V & _ & _ & O).
    rewrite V. exists s'. cbn [fst snd app]. auto.
  - right. exists l1, p, l2. rewrite C. repeat split; auto.
    destruct W as [W|W]; [exact W|]. exfalso. apply W. reflexivity.
Qed.

Lemma not_block_panics : forall params ploc body,
  is_block body = false -> ensure_unique_variables params ploc body = Panicked site_not_a_block.
Proof. intros. unfold ensure_unique_variables. rewrite H. reflexivity. Qed.

Lemma renamed_spec : forall params ploc body body' reports,
  ensure_unique_variables params ploc body = Renamed body' reports ->
  NoDup params /\
  occs body' = map ren_of (fst (stk_resolve_def params ploc body)) /\
  reports = map report_of (snd (stk_resolve_def params ploc body)).
Proof.
  intros params ploc body body' reports H.
  destruct body; try (rewrite not_block_panics in H by reflexivity; discriminate).
  destruct (ensure_cases params ploc ss) as [(ND & b & E & O)|(l1 & p & l2 & _ & _ & _ & E)];
    rewrite E in H; [|discriminate].
  injection H as <- <-. auto.
Qed.

Theorem renaming_preserves_binding : forall params ploc body body' reports,
  ensure_unique_variables params ploc body = Renamed body' reports ->
  occs body' = map ren_of (fst (stk_resolve_def params ploc body)).
Proof. intros params ploc body body' reports H. apply (renamed_spec _ _ _ _ _ H). Qed.

Theorem shadowing_reports_exact : forall params ploc body body' reports,
  ensure_unique_variables params ploc body = Renamed body' reports ->
  reports = map report_of (snd (stk_resolve_def params ploc body)).
Proof. intros params ploc body body' reports H. apply (renamed_spec _ _ _ _ _ H). Qed.

Theorem duplicate_parameters_reported : forall params ploc ss,
  (NoDup params -> exists body' reports,
     ensure_unique_variables params ploc (UBlock ss) = Renamed body' reports) /\
  (~ NoDup params -> exists l1 p l2,
     params = l1 ++ p :: l2 /\ NoDup l1 /\ In p l1 /\
     ensure_unique_variables params ploc (UBlock ss) = Collision (ParamCollision p ploc)).
Proof.
  intros params ploc ss.
  destruct (ensure_cases params ploc ss) as [(ND & b & E & _)|(l1 & p & l2 & E & ND & Hin & C)].
  - split; [intros _; eauto|]. intros H. contradiction.
  - split.
    + intros H. exfalso. subst params. exact (in_not_nodup _ _ _ _ Hin H).
    + intros _. exists l1, p, l2. auto.
Qed.

Theorem block_body_never_panics : forall params ploc ss site,
  ensure_unique_variables params ploc (UBlock ss) <> Panicked site.
Proof.
  intros params ploc ss site.
  destruct (ensure_cases params ploc ss) as [(_ & b & E & _)|(l1 & p & l2 & _ & _ & _ & E)];
    rewrite E; discriminate.
Qed.

Lemma bytes_of_uint_inj : forall d d', bytes_of_uint d = bytes_of_uint d' -> d = d'.
Proof.
  induction d; destruct d'; simpl; intros H; try discriminate; try reflexivity;
    inversion H; f_equal; auto.
Qed.

Lemma show_nat_inj : forall a b, show_nat a = show_nat b -> a = b.
Proof. intros a b H. apply Unsigned.to_uint_inj, bytes_of_uint_inj, H. Qed.

Lemma bytes_of_uint_nodot : forall d, nodot (bytes_of_uint d).
Proof.
  unfold nodot, dot. induction d; simpl; intros H; auto; destruct H as [H|H]; try discriminate; auto.
Qed.

Lemma show_nat_nodot : forall v, nodot (show_nat v).
Proof. intros. apply bytes_of_uint_nodot. Qed.

Lemma split_dot_nodot : forall a, nodot a -> split_dot a = [a].
Proof.
  induction a as [|c r IH]; intros H; [reflexivity|].
  cbn [split_dot].
  assert (Hc : N.eqb c dot = false).
  { apply N.eqb_neq. intro. subst. apply H. left. reflexivity. }
  rewrite Hc, IH; [reflexivity|]. intro Hin. apply H. right. exact Hin.
Qed.

Lemma split_dot_app : forall a s, nodot a -> split_dot (a ++ dot :: s) = a :: split_dot s.
Proof.
  induction a as [|c r IH]; intros s H.
  - cbn [app split_dot]. rewrite N.eqb_refl. reflexivity.
  - cbn [app split_dot].
    assert (Hc : N.eqb c dot = false).
    { apply N.eqb_neq. intro. subst. apply H. left. reflexivity. }
    rewrite Hc, IH; [reflexivity|]. intro Hin. apply H. right. exact Hin.
Qed.

(* splitting what the pass joined gives the pair back *)
Theorem lifted_names_roundtrip : forall v,
  vn_version v = None -> nodot (vn_name v) ->
  (forall s, vn_suffix v = Some s -> nodot s) ->
  lift_name (join_name v) = Some v.
Proof.
  intros [a [s|] ver] Hv Ha Hs; simpl in *; subst ver; unfold lift_name, join_name; simpl.
  - rewrite split_dot_app by exact Ha. rewrite split_dot_nodot by (apply Hs; reflexivity). reflexivity.
  - rewrite split_dot_nodot by exact Ha. reflexivity.
Qed.

Lemma lift_vname_of : forall n k, nodot n -> lift_name (vname_of n k) = Some (lifted_of n k).
Proof.
  intros n [|v] H.
  - apply (lifted_names_roundtrip (lifted_of n 0)); simpl; auto. discriminate.
  - apply (lifted_names_roundtrip (lifted_of n (S v))); simpl; auto.
    intros s E. inversion E. apply show_nat_nodot.
Qed.

Lemma lifted_of_inj : forall n k n' k', lifted_of n k = lifted_of n' k' -> n = n' /\ k = k'.
Proof.
  intros n k n' k' H. unfold lifted_of in H. inversion H. split; [reflexivity|].
  destruct k, k'; try discriminate; auto.
  inversion H2. f_equal. apply show_nat_inj. assumption.
Qed.

Lemma first_sep_unique : forall (c : N) a a' s s',
  ~ In c a -> ~ In c a' -> a ++ c :: s = a' ++ c :: s' -> a = a' /\ s = s'.
Proof.
  intros c. induction a as [|x r IH]; intros [|x' r'] s s' Ha Ha' E; simpl in E.
  - inversion E. auto.
  - inversion E. subst. exfalso. apply Ha'. left. reflexivity.
  - inversion E. subst. exfalso. apply Ha. left. reflexivity.
  - inversion E. subst.
    destruct (IH r' s s') as [E1 E2]; auto.
    + intro Hin. apply Ha. right. exact Hin.
    + intro Hin. apply Ha'. right. exact Hin.
    + subst. auto.
Qed.

Lemma ident_ok_notin : forall n c, ident_ok n = true -> ident_char c = false -> ~ In c n.
Proof.
  unfold ident_ok. intros n c H Hc Hin. rewrite forallb_forall in H.
  rewrite (H c Hin) in Hc. discriminate.
Qed.

(* every key format accepted by key_format_ok identifies (name, suffix), for
   names made of identifier characters *)
Theorem separating_key_formats_injective : forall some none,
  key_format_ok some none = true ->
  forall v1 v2,
  ident_ok (vn_name v1) = true -> ident_ok (vn_name v2) = true ->
  ssa_key_with some none v1 = ssa_key_with some none v2 ->
  vn_name v1 = vn_name v2 /\ vn_suffix v1 = vn_suffix v2.
Proof.
  intros some none F.
  unfold key_format_ok in F.
  repeat match type of F with
         | context [match ?x with _ => _ end] => is_var x; destruct x; try discriminate F
         end.
  match type of F with negb (ident_char ?x) = true => rename x into c end.
  match goal with |- context [KLit (c :: ?r)] => rename r into rest end.
  apply negb_true_iff in F.
  intros [a [s|] v] [a' [s'|] v'] H1 H2 E; unfold ssa_key_with, render_key in E; cbn [flat_map vn_name vn_suffix] in E;
    rewrite ?app_nil_r in E; simpl in H1, H2; cbn [vn_name vn_suffix].
  - change ((c :: rest) ++ s) with (c :: rest ++ s) in E. change ((c :: rest) ++ s') with (c :: rest ++ s') in E.
    destruct (first_sep_unique c _ _ _ _ (ident_ok_notin _ _ H1 F) (ident_ok_notin _ _ H2 F) E) as [Ea Es].
    apply app_inv_head in Es. subst. auto.
  - exfalso. apply (ident_ok_notin _ _ H2 F). rewrite <- E. apply in_or_app. right. left. reflexivity.
  - exfalso. apply (ident_ok_notin _ _ H1 F). rewrite E. apply in_or_app. right. left. reflexivity.
  - subst. auto.
Qed.

(* the decision for the format of Model.UniqueVars.ssa_key (Environment::version_key) *)
Lemma ssa_key_format_separates : key_format_ok version_key_some version_key_none = true.
Proof. vm_compute. reflexivity. Qed.

Theorem ssa_keys_injective : forall v1 v2,
  ident_ok (vn_name v1) = true -> ident_ok (vn_name v2) = true ->
  ssa_key v1 = ssa_key v2 ->
  vn_name v1 = vn_name v2 /\ vn_suffix v1 = vn_suffix v2.
Proof. exact (separating_key_formats_injective _ _ ssa_key_format_separates). Qed.

(* D20: the key used before the repair identifies x with suffix 0 and the identifier x_0 *)
Theorem ssa_keys_injective_refuted : exists v1 v2,
  ident_ok (vn_name v1) = true /\ ident_ok (vn_name v2) = true /\
  ssa_key_old v1 = ssa_key_old v2 /\
  (vn_name v1, vn_suffix v1) <> (vn_name v2, vn_suffix v2).
Proof.
  exists {| vn_name := [120%N]; vn_suffix := Some [48%N]; vn_version := None |},
         {| vn_name := [120%N; 95%N; 48%N]; vn_suffix := None; vn_version := None |}.
  repeat split; try reflexivity. simpl. discriminate.
Qed.

Lemma ident_ok_nodot : forall n, ident_ok n = true -> nodot n.
Proof.
  unfold ident_ok, nodot. intros n H Hin.
  rewrite forallb_forall in H. specialize (H dot Hin). vm_compute in H. discriminate.
Qed.

Definition decl_ids (o : list rocc) : list (name * nat) :=
  flat_map (fun r : rocc =>
              match r with
              | (ODecl, n, d) => [(n, match d with Some k => k | None => 0 end)]
              | _ => []
              end) o.

Lemma decl_ids_app : forall a b, decl_ids (a ++ b) = decl_ids a ++ decl_ids b.
Proof. intros. apply flat_map_app. Qed.

Lemma decl_ids_uses : forall st l, decl_ids (map (stk_use_occ OUse st) l) = [].
Proof. induction l; simpl; auto. Qed.

Lemma decl_names_ren : forall o,
  decl_names (map ren_of o) = map (fun p => vname_of (fst p) (snd p)) (decl_ids o).
Proof.
  induction o as [|[[k n] d] r IH]; [reflexivity|].
  unfold decl_names, decl_ids in *. cbn [map flat_map ren_of].
  destruct k; cbn [app]; rewrite IH; [|reflexivity|reflexivity].
  destruct d; reflexivity.
Qed.

Lemma NoDup_map_inj_on : forall A B (f : A -> B) l,
  (forall x y, In x l -> In y l -> f x = f y -> x = y) -> NoDup l -> NoDup (map f l).
Proof.
  induction l as [|a l IH]; intros Hinj ND; simpl; constructor; inversion ND; subst.
  - intro Hin. apply in_map_iff in Hin. destruct Hin as (y & E & Hy).
    assert (y = a) by (apply Hinj; [right; exact Hy|left; reflexivity|exact E]).
    subst. contradiction.
  - apply IH; auto. intros x y Hx Hy. apply Hinj; right; assumption.
Qed.

Definition ids_ok (s : ustmt) : Prop :=
  forall st o sh st', stk_resolve s st = (o, sh, st') ->
  NoDup (decl_ids o) /\
  (forall n k, In (n, k) (decl_ids o) ->
     count n (scount st) <= k < count n (scount st') /\ In n (declared s)) /\
  (forall n, count n (scount st) <= count n (scount st')).

Lemma ids_ok_app : forall (o1 o2 : list rocc) (c0 c1 c2 : name -> nat) (D1 D2 : list name),
  NoDup (decl_ids o1) /\ (forall n k, In (n, k) (decl_ids o1) -> c0 n <= k < c1 n /\ In n D1) /\
  (forall n, c0 n <= c1 n) ->
  NoDup (decl_ids o2) /\ (forall n k, In (n, k) (decl_ids o2) -> c1 n <= k < c2 n /\ In n D2) /\
  (forall n, c1 n <= c2 n) ->
  NoDup (decl_ids (o1 ++ o2)) /\
  (forall n k, In (n, k) (decl_ids (o1 ++ o2)) -> c0 n <= k < c2 n /\ In n (D1 ++ D2)) /\
  (forall n, c0 n <= c2 n).
Proof.
  intros o1 o2 c0 c1 c2 D1 D2 (N1 & R1 & M1) (N2 & R2 & M2). rewrite decl_ids_app. split; [|split].
  - apply NoDup_app_intro; auto. intros [n k] H1 H2.
    destruct (R1 n k H1) as [? _]. destruct (R2 n k H2) as [? _]. lia.
  - intros n k Hin. apply in_app_or in Hin. destruct Hin as [H|H].
    + destruct (R1 n k H). specialize (M2 n). split; [lia|]. apply in_or_app. left. assumption.
    + destruct (R2 n k H). specialize (M1 n). split; [lia|]. apply in_or_app. right. assumption.
  - intros n. specialize (M1 n). specialize (M2 n). lia.
Qed.

Lemma ids_ok_none : forall (o : list rocc) (c : name -> nat) (D : list name), decl_ids o = [] ->
  NoDup (decl_ids o) /\ (forall n k, In (n, k) (decl_ids o) -> c n <= k < c n /\ In n D) /\
  (forall n, c n <= c n).
Proof. intros o c D ->. split; [constructor|]. split; [intros n k []|auto]. Qed.

Lemma resolve_ids_ok : forall s, ids_ok s.
Proof.
  intros s st o sh st' E. pattern s, st, o, sh, st'. apply stk_resolve_ind; [clear..|exact E].
  - intro st. now apply ids_ok_none.
  - intros s ss st o1 sh1 st1 o2 sh2 st2 H1 H2.
    exact (ids_ok_app o1 o2 _ (fun n => count n (scount st1)) _ _ _ H1 H2).
  - auto.
  - intros k n l dims st. rewrite decl_ids_app, decl_ids_uses. cbn [app decl_ids flat_map declared].
    split; [constructor; [intros []|constructor]|]. split.
    + intros m j [[= <- <-]|[]]. rewrite count_declare, ident_eqb_refl. split; [lia|now left].
    + intros m. rewrite count_declare. destruct (ident_eqb m n); lia.
  - intros n uses st. apply ids_ok_none. apply (decl_ids_uses st uses).
  - intros k uses st. apply ids_ok_none, decl_ids_uses.
  - intros c b st o sh st' H. now rewrite decl_ids_app, decl_ids_uses.
  - intros c t st o sh st' H. cbn [declared]. now rewrite decl_ids_app, decl_ids_uses, app_nil_r.
  - intros c t e st o1 sh1 st1 o2 sh2 st2 H1 H2. rewrite decl_ids_app, decl_ids_uses.
    exact (ids_ok_app o1 o2 _ (fun n => count n (scount st1)) _ _ _ H1 H2).
Qed.

Lemma count_declare_all_mono : forall ps ploc st n,
  count n (scount st) <= count n (scount (declare_all ps ploc st)).
Proof.
  induction ps as [|p r IH]; intros; simpl; auto.
  etransitivity; [|apply IH]. rewrite count_declare. destruct (ident_eqb n p); lia.
Qed.

Lemma count_declare_all_in : forall ps ploc st p, In p ps ->
  1 <= count p (scount (declare_all ps ploc st)).
Proof.
  induction ps as [|q r IH]; intros ploc st p Hin; [destruct Hin|].
  simpl. destruct Hin as [->|Hin].
  - etransitivity; [|apply count_declare_all_mono]. rewrite count_declare, ident_eqb_refl. lia.
  - apply IH. exact Hin.
Qed.

Theorem renaming_injective_on_declarations : forall params ploc body body' reports,
  ensure_unique_variables params ploc body = Renamed body' reports ->
  Forall nodot (params ++ declared body) ->
  NoDup (map lift_name (params ++ decl_names (occs body'))) /\
  Forall (fun n => lift_name n <> None) (params ++ decl_names (occs body')).
Proof.
  intros params ploc body body' reports H Hok.
  destruct (renamed_spec _ _ _ _ _ H) as (ND & O & _). unfold stk_resolve_def in O.
  change (stk_initial params ploc) with (declare_all params ploc st0) in O.
  destruct (stk_resolve body (declare_all params ploc st0)) as [[o sh] st'] eqn:R.
  cbn [fst] in O.
  destruct (resolve_ids_ok body _ _ _ _ R) as (N & Rg & _).
  set (vn := fun p : name * nat => vname_of (fst p) (snd p)).
  set (IDS := map (fun p : name => (p, 0)) params ++ decl_ids o).
  assert (Enames : params ++ decl_names (occs body') = map vn IDS).
  { unfold IDS. rewrite map_app, map_map, O, decl_names_ren. f_equal.
    rewrite <- (map_id params) at 1. apply map_ext. reflexivity. }
  assert (Hnd : forall x, In x IDS -> nodot (fst x)).
  { rewrite Forall_forall in Hok. intros [n k] Hin. simpl. apply Hok.
    unfold IDS in Hin. apply in_app_or in Hin. apply in_or_app. destruct Hin as [Hin|Hin].
    - left. apply in_map_iff in Hin. destruct Hin as (q & Eq & Hq). inversion Eq; subst. exact Hq.
    - right. apply (Rg n k Hin). }
  assert (NI : NoDup IDS).
  { unfold IDS. apply NoDup_app_intro; auto.
    - apply NoDup_map_inj_on; auto. intros x y _ _ Exy. inversion Exy. reflexivity.
    - intros [n k] H1 H2. apply in_map_iff in H1. destruct H1 as (q & Eq & Hq). inversion Eq; subst.
      destruct (Rg n 0 H2) as [Hr _].
      pose proof (count_declare_all_in params ploc st0 n Hq). lia. }
  rewrite Enames, map_map. split.
  - apply NoDup_map_inj_on; auto. intros [n k] [n' k'] Hx Hy Exy. unfold vn in Exy. simpl in Exy.
    rewrite (lift_vname_of n k (Hnd _ Hx)), (lift_vname_of n' k' (Hnd _ Hy)) in Exy.
    assert (Exy' : lifted_of n k = lifted_of n' k') by congruence.
    destruct (lifted_of_inj n k n' k' Exy') as [-> ->]. reflexivity.
  - apply Forall_forall. intros m Hin. apply in_map_iff in Hin. destruct Hin as ([n k] & Em & Hx).
    subst m. unfold vn. simpl. rewrite (lift_vname_of n k (Hnd _ Hx)). discriminate.
Qed.
