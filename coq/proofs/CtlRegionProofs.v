(* C09: the branch regions and the closure of the tainted set under control dependence, for all graphs and
   all region tables (a pure taint-propagation argument):
     - [region_taint_edge]: the mirror of run_taint_analysis records a taint step from every name read by a
       non-constant condition of block b to every name written in a block listed in the region of b;
     - [regions_give_ctl_closed]: region_covers br /\ self_closed es -> ctl_closed es, for the set es of names the
       mirror run with the table br finds tainted by an input/output signal, on every graph with distinct indices;
     - [exported_sinks_total]: the tainted set always exists;
     - [region_covers_b_spec], [self_closed_b_spec]: the decidable forms decide the propositions;
       [ctl_closed_self_closed]: self_closed is a part of ctl_closed. *)
From Coq Require Import ZArith NArith List Bool Relations Lia.
Require Import Model.Base Model.Ir Model.VarUse Model.Taint Model.SideEffect
  Spec.SsaEffects Spec.CtlDep Spec.CtlRegion Proofs.TaintProofs Proofs.SideEffectProofs Proofs.CtlDepProofs.
Import ListNotations.

Lemma nodup_n_spec l : nodup_n l = true <-> NoDup l.
Proof.
  induction l as [|x r IH]; cbn [nodup_n].
  - split; [constructor | reflexivity].
  - rewrite andb_true_iff, negb_true_iff, IH. split.
    + intros [Hm Hr]. constructor; [|assumption]. intro Hin. apply nmem_In in Hin. congruence.
    + intro H. inversion H as [|? ? Hn Hr]; subst. split; [|assumption].
      destruct (mem N.eqb x r) eqn:E; [|reflexivity]. apply nmem_In in E. contradiction.
Qed.

Lemma indices_distinct_b_spec g : indices_distinct_b g = true <-> NoDup (map b_index (c_blocks g)).
Proof. apply nodup_n_spec. Qed.

Lemma get_block_unique bs yb : NoDup (map b_index bs) -> In yb bs -> get_block bs (b_index yb) = Some yb.
Proof.
  unfold get_block. induction bs as [|b r IH]; intros Hnd Hin; [destruct Hin|].
  cbn [map] in Hnd. inversion Hnd as [|? ? Hn Hr]; subst. cbn [find].
  destruct Hin as [->|Hin].
  - rewrite N.eqb_refl. reflexivity.
  - destruct (N.eqb (b_index b) (b_index yb)) eqn:E.
    + apply N.eqb_eq in E. exfalso. apply Hn. rewrite E. apply in_map. assumption.
    + apply IH; assumption.
Qed.

Section Part1.
  Variable g : cfg.
  Variable br : branches.
  Notation D := (c_decls g).
  Notation bs := (c_blocks g).
  Notation tm := (t_edges (run_taint_analysis g br)).

  Lemma taint_stmt_if_edge bi st m c t f r i body x :
    expr_val c = None -> In r (uses_names (expr_uses D c)) ->
    In i (branch_blocks br bi) -> get_block bs i = Some body -> In x (block_writes D body) ->
    In (r, x) (t_edges (taint_stmt D bs br bi st (SIf m c t f))).
  Proof.
    intros Hv Hr Hi Hb Hx. cbn [taint_stmt]. rewrite Hv.
    apply fold_left_establish with (P := fun st' => In (r, x) (t_edges st')) (x := i); [| |assumption].
    - intros a b Ha. destruct (get_block bs b); [|assumption].
      apply fold_left_inv with (P := fun st' => In (r, x) (t_edges st')); [|assumption].
      intros a' b' Ha'. cbn [t_edges]. apply add_steps_mono. assumption.
    - intro a. rewrite Hb.
      apply fold_left_establish with (P := fun st' => In (r, x) (t_edges st')) (x := x); [| |assumption].
      + intros a' b' Ha'. cbn [t_edges]. apply add_steps_mono. assumption.
      + intro a'. cbn [t_edges]. apply add_steps_In. assumption.
  Qed.

  Lemma region_taint_edge blk m c t f r i body x :
    In blk bs -> In (SIf m c t f) (b_stmts blk) -> expr_val c = None -> In r (uses_names (expr_uses D c)) ->
    In i (branch_blocks br (b_index blk)) -> get_block bs i = Some body -> In x (block_writes D body) ->
    In (r, x) tm.
  Proof.
    intros Hblk Hs Hv Hr Hi Hb Hx. unfold run_taint_analysis.
    apply fold_left_establish with (P := fun st' => In (r, x) (t_edges st')) (x := blk); [| |assumption].
    - intros a b Ha. unfold taint_block.
      apply fold_left_inv with (P := fun st' => In (r, x) (t_edges st')); [|assumption].
      intros a' b' Ha'. apply taint_stmt_mono. assumption.
    - intro a. unfold taint_block.
      apply fold_left_establish with (P := fun st' => In (r, x) (t_edges st')) (x := SIf m c t f); [| |assumption].
      + intros a' b' Ha'. apply taint_stmt_mono. assumption.
      + intro a'. eapply taint_stmt_if_edge; eassumption.
  Qed.

  Lemma tainted_step_closed (tm0 : edges) es a b :
    exported_sinks g tm0 = Ok es -> In a es -> In (a, b) tm0 -> In b es.
  Proof.
    intros Hes Ha Hab. unfold exported_sinks in Hes. apply bind_ok in Hes. destruct Hes as [l [Hl H]]. injection H as <-.
    apply in_concat in Ha. destruct Ha as [r [Hr Ha]].
    destruct (mapM_Ok_In_rev _ _ _ Hl _ Hr) as [sig [_ Hsig]].
    apply in_concat. exists r. split; [assumption|].
    apply (taint_closure_exact _ _ _ Hsig). eapply rt_trans; [apply (taint_closure_exact _ _ _ Hsig); exact Ha|].
    apply rt_step. exact Hab.
  Qed.

  Theorem regions_give_ctl_closed es :
    NoDup (map b_index bs) ->
    region_covers g br ->
    exported_sinks g tm = Ok es ->
    self_closed g es ->
    ctl_closed g es.
  Proof.
    intros Hnd Hcov Hes Hself a x Ha (blk & m & c & t & f & yb & Hblk & Hs & Hv & Hr & Hyb & Hctl & Hx).
    destruct (N.eq_dec (b_index yb) (b_index blk)) as [Heq|Hne].
    - eapply (Hself blk yb m c t f a x); eassumption.
    - assert (Hin : In (b_index yb) (branch_blocks br (b_index blk))).
      { apply (Hcov blk yb); try assumption. exists m, c, t, f. split; assumption. }
      eapply tainted_step_closed; [exact Hes | exact Ha |].
      apply (region_taint_edge blk m c t f a (b_index yb) yb x); try assumption. apply get_block_unique; assumption.
  Qed.
End Part1.

Lemma mapM_total {A B} (f : A -> outcome B) l : (forall x, exists y, f x = Ok y) -> exists ys, mapM f l = Ok ys.
Proof.
  intro H. induction l as [|x r [ys IH]]; [exists []; reflexivity|].
  destruct (H x) as [y Hy]. exists (y :: ys). cbn [mapM]. rewrite Hy. cbn [bind]. rewrite IH. reflexivity.
Qed.

(* the closure loop of multi_step_taint ends within its fuel on every relation *)
Lemma exported_sinks_total g tm0 : exists es, exported_sinks g tm0 = Ok es.
Proof.
  unfold exported_sinks.
  destruct (mapM_total (multi_step_taint tm0) (exported_signals g)) as [l Hl].
  - intro x. exact (proj1 (taint_fuel_suffices tm0 x)).
  - exists (concat l). rewrite Hl. reflexivity.
Qed.

Section Decide.
  Variable g : cfg.
  Notation D := (c_decls g).
  Notation bs := (c_blocks g).

  Lemma nonconst_branch_b_spec blk : nonconst_branch_b blk = true <-> nonconst_branch blk.
  Proof.
    unfold nonconst_branch_b, nonconst_branch. rewrite existsb_exists. split.
    - intros [s [Hs H]].
      destruct s as [m names t dims|m c t f|m e|m v op rhe sv sty|m l r|m args|m e]; try discriminate.
      exists m, c, t, f. split; [assumption|]. destruct (expr_val c); [discriminate | reflexivity].
    - intros (m & c & t & f & Hs & Hv). exists (SIf m c t f). split; [assumption|]. rewrite Hv. reflexivity.
  Qed.

  Theorem region_covers_b_spec br : region_covers_b g br = true <-> region_covers g br.
  Proof.
    unfold region_covers_b, region_covers. split.
    - intros H blk yb Hblk Hyb Hnc Hctl Hne.
      rewrite forallb_forall in H. specialize (H blk Hblk).
      apply orb_true_iff in H. destruct H as [H|H].
      + apply negb_true_iff in H. apply nonconst_branch_b_spec in Hnc. congruence.
      + rewrite forallb_forall in H. specialize (H yb Hyb).
        apply orb_true_iff in H. destruct H as [H|H]; [apply orb_true_iff in H; destruct H as [H|H]|].
        * apply negb_true_iff in H. apply ctl_dependent_b_spec in Hctl. congruence.
        * apply N.eqb_eq in H. contradiction.
        * apply nmem_In. assumption.
    - intro H. apply forallb_forall. intros blk Hblk.
      destruct (nonconst_branch_b blk) eqn:Hnc; [|reflexivity]. cbn [negb orb].
      apply nonconst_branch_b_spec in Hnc.
      apply forallb_forall. intros yb Hyb.
      destruct (ctl_dependent_b g (b_index blk) (b_index yb)) eqn:Hctl; [|reflexivity]. cbn [negb orb].
      destruct (N.eqb (b_index yb) (b_index blk)) eqn:Heq; [reflexivity|]. cbn [orb].
      apply nmem_In. apply (H blk yb); try assumption.
      + apply ctl_dependent_b_spec. assumption.
      + apply N.eqb_neq. assumption.
  Qed.

  Theorem self_closed_b_spec B : self_closed_b g B = true <-> self_closed g B.
  Proof.
    unfold self_closed_b, self_closed. split.
    - intros H blk yb m c t f r x Hblk Hyb Heq Hs Hv Hr HrB Hctl Hx.
      rewrite forallb_forall in H. specialize (H blk Hblk).
      rewrite forallb_forall in H. specialize (H _ Hs). cbn beta iota in H. rewrite Hv in H.
      apply orb_true_iff in H. destruct H as [H|H].
      + exfalso. apply negb_true_iff in H.
        assert (existsb (fun r => vmem r B) (uses_names (expr_uses D c)) = true); [|congruence].
        apply existsb_exists. exists r. split; [assumption | apply vmem_In; assumption].
      + rewrite forallb_forall in H. specialize (H yb Hyb).
        apply orb_true_iff in H. destruct H as [H|H]; [apply orb_true_iff in H; destruct H as [H|H]|].
        * apply negb_true_iff, N.eqb_neq in H. contradiction.
        * apply negb_true_iff in H. apply ctl_dependent_b_spec in Hctl. congruence.
        * rewrite forallb_forall in H. apply vmem_In. apply H. assumption.
    - intro H. apply forallb_forall. intros blk Hblk. apply forallb_forall. intros s Hs.
      destruct s as [m names t dims|m c t f|m e|m v op rhe sv sty|m l r|m args|m e]; try reflexivity.
      destruct (expr_val c) eqn:Hv; [reflexivity|].
      destruct (existsb (fun r => vmem r B) (uses_names (expr_uses D c))) eqn:E; [|reflexivity].
      cbn [negb orb]. apply existsb_exists in E. destruct E as [a [Ha Hm]]. apply vmem_In in Hm.
      apply forallb_forall. intros yb Hyb.
      destruct (N.eqb (b_index yb) (b_index blk)) eqn:Heq; [|reflexivity]. cbn [negb orb]. apply N.eqb_eq in Heq.
      destruct (ctl_dependent_b g (b_index blk) (b_index yb)) eqn:Hc; [|reflexivity]. cbn [negb orb].
      apply forallb_forall. intros x Hx. apply vmem_In.
      apply (H blk yb m c t f a x); try assumption. apply ctl_dependent_b_spec. assumption.
  Qed.

  Lemma ctl_closed_self_closed B : ctl_closed g B -> self_closed g B.
  Proof.
    intros H blk yb m c t f r x Hblk Hyb Heq Hs Hv Hr HrB Hctl Hx.
    apply (H r x HrB). exists blk, m, c, t, f, yb.
    split; [assumption|]. split; [assumption|]. split; [assumption|]. split; [assumption|]. split; [assumption|].
    split; assumption.
  Qed.
End Decide.

Theorem regions_give_ctl_closed_b g br es :
  indices_distinct_b g = true ->
  region_covers_b g br = true ->
  exported_sinks g (t_edges (run_taint_analysis g br)) = Ok es ->
  self_closed_b g es = true ->
  ctl_closed_b g es = true.
Proof.
  intros Hnd Hcov Hes Hself. apply ctl_closed_b_complete.
  eapply regions_give_ctl_closed; [apply indices_distinct_b_spec; assumption | apply region_covers_b_spec; exact Hcov | exact Hes |].
  apply self_closed_b_spec. assumption.
Qed.

(* CS0008 with implicit flows, with the hypotheses about the REGIONS instead of the closure of the tainted set:
   the table covers control dependence (structure of the graph and the table only, no taint involved, so a hole
   in a region cannot be masked by another taint source), and the names written in a self-dependent branch block
   (the phis of a loop header) are tainted when its condition is. *)
Require Import Spec.NiSpec.
Theorem noninterference_with_region_cover
  (V : Type) (sem_num : Z -> V) (sem_infix : infix_op -> V -> V -> V) (sem_prefix : prefix_op -> V -> V)
  (sem_switch : V -> V -> V -> V) (sem_call : ident -> list V -> V) (sem_array : list V -> V)
  (sem_access : V -> list (access V) -> V) (sem_update : V -> list (access V) -> V -> V)
  (sem_phi : list pcT -> list (vname * V) -> V) (sem_undef : V) (truthy : V -> bool)
  (g : cfg) (br : branches) (ment : stmt -> bool) (res : result) (f : finding) (es : list vname) :
  indices_distinct_b g = true ->
  region_covers_b g br = true ->
  exported_sinks g (t_edges (run_taint_analysis g br)) = Ok es ->
  self_closed_b g es = true ->
  ment_sound_by g (idep g) ment ->
  exported_targets_declared g = true ->
  run_side_effect_analysis g br = Ok res ->
  In f (r_findings res) ->
  f_kind f = FVarNoSideEffect \/ f_kind f = FParamNoSideEffect ->
  noninterference vname V pcT vname_eq_dec
    (ssa_prog V sem_num sem_infix sem_prefix sem_switch sem_call sem_array sem_access sem_update sem_phi
              sem_undef truthy g ment) (f_var f).
Proof.
  intros Hnd Hcov Hes Hself. apply noninterference_with_implicit_flows with (br := br) (es := es); [exact Hes|].
  eapply regions_give_ctl_closed_b; eassumption.
Qed.
