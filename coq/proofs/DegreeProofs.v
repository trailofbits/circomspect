(* C07: the regenerated degree tables (Gen.DegreeTable, obtained by executing
   degree_meta.rs) are at least the hand-written composition rule
   Spec.PolyDeg.sound_deg, which is semantically sound for the calculus of
   Proofs.PolyDegProofs.  The finite obligations are re-checked on every run
   against the table regenerated from the current source. *)
From Coq Require Import ZArith List Bool Lia.
Require Import Model.Base Model.Ir Model.Propagate Gen.DegreeTable Spec.PolyDeg Proofs.PolyDegProofs.
Import ListNotations.
Local Open Scope Z_scope.

Lemma degree_order_is_rank a b : deg_le a b = deg_leb a b.
Proof. destruct a, b; reflexivity. Qed.

Lemma degree_table_sound op a b : deg_leb (sound_deg op a b) (deg_infix op a b) = true.
Proof. destruct op, a, b; reflexivity. Qed.

Lemma degree_prefix_table_sound op a : deg_leb (sound_deg_prefix op a) (deg_prefix op a) = true.
Proof. destruct op, a; reflexivity. Qed.

Lemma degree_table_monotone op a a' b b' :
  deg_leb a' a = true -> deg_leb b' b = true ->
  deg_leb (deg_infix op a' b') (deg_infix op a b) = true.
Proof.
  (* only the 100 ordered pairs of pairs reach the 20 operators *)
  intros Ha Hb. destruct a, a'; try discriminate Ha; destruct b, b'; try discriminate Hb;
    destruct op; reflexivity.
Qed.

Lemma degree_prefix_table_monotone op a a' :
  deg_leb a' a = true -> deg_leb (deg_prefix op a') (deg_prefix op a) = true.
Proof. destruct op, a, a'; cbn; intros; try reflexivity; discriminate. Qed.

Definition drange_eqb (a b : drange) : bool :=
  degree_eqb (fst a) (fst b) && degree_eqb (snd a) (snd b).

(* the DegreeRange-level functions of degree_meta.rs, as executed, are the
   pointwise liftings the model uses *)
Lemma range_tables_consistent :
  forallb (fun '(op, a, b, r) => drange_eqb (range_infix op a b) r) range_infix_table = true /\
  forallb (fun '(op, a, r) => drange_eqb (range_prefix op a) r) range_prefix_table = true /\
  forallb (fun '(a, b, r) => drange_eqb (range_inf a b) r) range_inf_table = true /\
  forallb (fun '(a, (c, l, q)) =>
             Bool.eqb (range_is_constant a) c && Bool.eqb (range_is_linear a) l && Bool.eqb (range_is_quadratic a) q)
          range_pred_table = true.
Proof. vm_compute. repeat split; reflexivity. Qed.

Lemma range_tables_complete :
  N.of_nat (length range_infix_table) = 5120%N /\ N.of_nat (length range_prefix_table) = 48%N /\
  N.of_nat (length range_inf_table) = 256%N /\ N.of_nat (length range_pred_table) = 16%N.
Proof. vm_compute. repeat split; reflexivity. Qed.

Section Sem.
Variable V : Type.
Variable line : V -> V -> Z -> V.
Variable p : Z.
Notation Deg := (Deg V line p).
Notation Constant := (Constant V).
Notation SemDeg := (SemDeg V line p).

(* what the value of `F op G` is, as far as the degree argument needs it *)
Definition op_den (op : infix_op) (h : Z -> Z -> Z) : Prop :=
  match op with
  | IAdd => forall x y, h x y = (x + y) mod p
  | ISub => forall x y, h x y = (x - y) mod p
  | IMul => forall x y, h x y = (x * y) mod p
  | IDiv => exists inv : Z -> Z, forall x y, h x y = (x * inv y) mod p
  | _ => True
  end.

Definition prefix_den (op : prefix_op) (h : Z -> Z) : Prop :=
  match op with
  | PNeg => forall x, h x = (x * -1) mod p
  | _ => True
  end.

Lemma SemDeg_to_Deg d F : SemDeg d F -> (deg_rank d <= 2)%nat -> Deg (deg_rank d) F.
Proof.
  destruct d; cbn; intros H Hr; try exact H; try lia.
  apply Constant_Deg. exact H.
Qed.

Lemma Deg_to_SemDeg n F : ((n <= 2)%nat -> Deg n F) -> (1 <= n)%nat -> SemDeg (deg_of_rank n) F.
Proof.
  intros H Hn. destruct n as [|[|[|n]]]; cbn; try lia; try exact I; apply H; lia.
Qed.

Lemma fun_ext_SemDeg d (F G : V -> Z) : (forall r, F r = G r) -> SemDeg d G -> SemDeg d F.
Proof.
  intros E. destruct d; cbn; try tauto; try apply (Deg_ext V line p _ _ _ E).
  intros H r r'. rewrite !E. apply H.
Qed.

(* a binary operation under which degrees combine by f (the maximum for + and -, the sum for * ) *)
Lemma sound_arith (f : nat -> nat -> nat) (g : Z -> Z -> Z) a b F G :
  (forall m n F G, Deg m F -> Deg n G -> Deg (f m n) (fun r => g (F r) (G r) mod p)) ->
  (forall m n, Nat.max m n <= f m n)%nat ->
  SemDeg a F -> SemDeg b G ->
  SemDeg (deg_of_rank (f (deg_rank a) (deg_rank b))) (fun r => g (F r) (G r) mod p).
Proof.
  intros law fmax HF HG. pose proof (fmax (deg_rank a) (deg_rank b)) as Hm.
  destruct (f (deg_rank a) (deg_rank b)) as [|n] eqn:E.
  - destruct a, b; cbn in Hm; try lia.
    apply (Constant_binop V (fun x y => g x y mod p)); assumption.
  - rewrite <- E. apply Deg_to_SemDeg; [intros Hle|lia].
    apply law; apply SemDeg_to_Deg; assumption || lia.
Qed.

Lemma Deg_div_const n (inv : Z -> Z) F G :
  Deg n F -> Constant G -> Deg n (fun r => (F r * inv (G r)) mod p).
Proof.
  intros HF HG rho delta t.
  rewrite (Dn_ext _ _ (fun u => (F (line rho delta u) * inv (G rho)) mod p)).
  - apply (Deg_scale V line p n (inv (G rho)) F HF rho delta).
  - intros u. rewrite (HG _ rho). reflexivity.
Qed.

Lemma sound_deg_sem op a b F G h :
  op_den op h -> SemDeg a F -> SemDeg b G -> SemDeg (sound_deg op a b) (fun r => h (F r) (G r)).
Proof.
  intros Hden HF HG.
  destruct op; cbn [op_den] in Hden;
    try (destruct a, b; try exact I; apply Constant_binop; assumption).
  - apply (fun_ext_SemDeg _ _ (fun r => (F r * G r) mod p)); [intros; apply Hden|].
    replace (sound_deg IMul a b) with (deg_of_rank (deg_rank a + deg_rank b)) by (destruct a, b; reflexivity).
    apply (sound_arith Nat.add Z.mul); [apply Deg_mul|lia|assumption|assumption].
  - destruct Hden as [inv Hden].
    apply (fun_ext_SemDeg _ _ (fun r => (F r * inv (G r)) mod p)); [intros; apply Hden|].
    destruct b; try exact I. destruct a; cbn [sound_deg SemDeg] in *; try exact I.
    + apply (Constant_binop V (fun x y => (x * inv y) mod p)); assumption.
    + apply Deg_div_const; assumption.
    + apply Deg_div_const; assumption.
  - apply (fun_ext_SemDeg _ _ (fun r => (F r + G r) mod p)); [intros; apply Hden|].
    apply (sound_arith Nat.max Z.add); [apply Deg_add|lia|assumption|assumption].
  - apply (fun_ext_SemDeg _ _ (fun r => (F r - G r) mod p)); [intros; apply Hden|].
    apply (sound_arith Nat.max Z.sub); [apply Deg_sub|lia|assumption|assumption].
Qed.

Theorem infix_bound_sound op a b F G h :
  op_den op h -> SemDeg a F -> SemDeg b G -> SemDeg (deg_infix op a b) (fun r => h (F r) (G r)).
Proof.
  intros Hden HF HG.
  apply (SemDeg_mono V line p (sound_deg op a b)); [apply degree_table_sound|].
  apply sound_deg_sem; assumption.
Qed.

Theorem prefix_bound_sound op a F h :
  prefix_den op h -> SemDeg a F -> SemDeg (deg_prefix op a) (fun r => h (F r)).
Proof.
  intros Hden HF.
  apply (SemDeg_mono V line p (sound_deg_prefix op a)); [apply degree_prefix_table_sound|].
  destruct op; cbn [prefix_den sound_deg_prefix] in *;
    try (destruct a; try exact I; apply Constant_unop; exact HF).
  apply (fun_ext_SemDeg _ _ (fun r => (F r * -1) mod p)); [intros; apply Hden|].
  destruct a; cbn [SemDeg] in *; try exact I.
  - apply (Constant_unop V (fun x => (x * -1) mod p)). exact HF.
  - apply Deg_scale. exact HF.
  - apply Deg_scale. exact HF.
Qed.

(* joins under a decision that does not depend on the valuation (phi, switch
   with a constant condition, inline arrays): whichever operand is selected,
   the infimum range's upper end bounds it *)
Theorem inf_bound_sound a b F :
  SemDeg a F \/ SemDeg b F -> SemDeg (snd (range_inf (a, a) (b, b))) F.
Proof.
  intros [H|H]; unfold range_inf, deg_max; cbn [fst snd]; rewrite degree_order_is_rank.
  - destruct (deg_leb a b) eqn:E; [apply (SemDeg_mono V line p a b F E H)|exact H].
  - destruct (deg_leb a b) eqn:E; [exact H|].
    apply (SemDeg_mono V line p b a F); [|exact H]. destruct a, b; cbn in *; congruence.
Qed.
End Sem.
