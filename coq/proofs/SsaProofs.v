(* Soundness of the SSA validator (C14): a graph accepted by SsaCheck.infos_ok
   has, on every path from the entry block, every read naming the version most
   recently assigned on that path, and every phi finding the incoming version
   among its arguments. *)
From Coq Require Import ZArith NArith List Bool.
Require Import Model.Base Model.Ir Model.SsaCheck Spec.SsaSpec Proofs.IrFacts.
Import ListNotations.

Definition meq (a b : vmap) : Prop := forall k, vget a k = vget b k.

Lemma meq_refl a : meq a a. Proof. intros k. reflexivity. Qed.
Lemma meq_trans a b c : meq a b -> meq b c -> meq a c.
Proof. intros H1 H2 k. rewrite H1. apply H2. Qed.
Lemma meq_sym a b : meq a b -> meq b a.
Proof. intros H k. symmetry. apply H. Qed.

Lemma meq_vset a b k n : meq a b -> meq (vset a k n) (vset b k n).
Proof. intros H k'. rewrite !vget_vset. destruct (key_eqb k k'); [reflexivity|apply H]. Qed.

Lemma meq_track a b s : meq a b -> meq (track a s) (track b s).
Proof.
  intros H. unfold track. destruct (stmt_def s) as [x|]; [|exact H].
  destruct (vn_version x); [apply meq_vset; exact H|exact H].
Qed.

Lemma read_ok_meq a b f v : meq a b -> read_ok a f v = read_ok b f v.
Proof. intros H. unfold read_ok. rewrite (H (key_of v)). reflexivity. Qed.

Lemma body_stmt_ok_meq a b s : meq a b -> body_stmt_ok a s = body_stmt_ok b s.
Proof.
  intros H. unfold body_stmt_ok. f_equal.
  induction (stmt_reads s) as [|v tl IH]; [reflexivity|]. cbn [forallb].
  rewrite (read_ok_meq a b _ v H), IH. reflexivity.
Qed.

Lemma body_run_meq ss : forall a b r, meq a b -> body_run a ss = Some r ->
  exists r', body_run b ss = Some r' /\ meq r r'.
Proof.
  induction ss as [|s tl IH]; intros a b r H; cbn [body_run].
  - intros [= <-]. eauto.
  - rewrite <- (body_stmt_ok_meq a b s H). destruct (body_stmt_ok a s); [|discriminate].
    apply IH. apply meq_track. exact H.
Qed.

Lemma fold_track_meq ss : forall a b, meq a b -> meq (fold_left track ss a) (fold_left track ss b).
Proof. induction ss as [|s tl IH]; intros a b H; cbn [fold_left]; [exact H|]. apply IH. apply meq_track. exact H. Qed.

Lemma leading_phis_are_phis ss : forall phis body, leading_phis ss = (phis, body) ->
  Forall (fun s => is_phi_stmt s = true) phis.
Proof.
  induction ss as [|s tl IH]; intros phis body; cbn [leading_phis].
  - intros [= <- <-]. constructor.
  - destruct (is_phi_stmt s) eqn:E.
    + destruct (leading_phis tl) as [p b] eqn:El. intros [= <- <-]. constructor; [exact E|]. eapply IH; eauto.
    + intros [= <- <-]. constructor.
Qed.

Lemma leading_phis_app ss : forall phis body, leading_phis ss = (phis, body) -> ss = phis ++ body.
Proof.
  induction ss as [|s tl IH]; intros phis body; cbn [leading_phis].
  - intros [= <- <-]. reflexivity.
  - destruct (is_phi_stmt s).
    + destruct (leading_phis tl) as [p b] eqn:El. intros [= <- <-]. cbn [app]. f_equal. apply IH. reflexivity.
    + intros [= <- <-]. reflexivity.
Qed.

Lemma is_phi_parts s : is_phi_stmt s = true -> exists x args, phi_parts s = Some (x, args).
Proof.
  destruct s; try discriminate. destruct rhe; try discriminate. cbn. eauto.
Qed.

Lemma phi_track m s x args : phi_parts s = Some (x, args) ->
  track m s = match vn_version x with Some n => vset m (key_of x) n | None => m end.
Proof.
  destruct s; try discriminate. destruct rhe; try discriminate. cbn. intros [= -> ->].
  unfold track. cbn [stmt_def]. destruct (vn_version x) eqn:E; [rewrite E|]; reflexivity.
Qed.

(* after the phis of a block, a phi'd key holds the phi's target and every
   other key is unchanged *)
Lemma vget_apply_phis phis : forall m k, phi_keys_nodup phis = true ->
  vget (apply_phis m phis) k =
  match find_phi phis k with
  | Some (x, _) => vn_version x
  | None => vget m k
  end.
Proof.
  unfold apply_phis. induction phis as [|s tl IH]; intros m k Hn; cbn [fold_left find_phi]; [reflexivity|].
  cbn [phi_keys_nodup] in Hn.
  destruct (phi_parts s) as [[x args]|] eqn:Ep; [|discriminate].
  destruct (vn_version x) as [n|] eqn:Ev; [|discriminate].
  destruct (find_phi tl (key_of x)) eqn:Ef; [discriminate|].
  rewrite (IH _ k Hn). rewrite (phi_track m s x args Ep), Ev.
  destruct (key_eqb (key_of x) k) eqn:Ek.
  - apply key_eqb_eq in Ek. subst k. rewrite Ef. rewrite vget_vset, key_eqb_refl. symmetry. exact Ev.
  - destruct (find_phi tl k) as [[y ?]|]; [reflexivity|]. rewrite vget_vset, Ek. reflexivity.
Qed.

Lemma find_phi_in phis : forall s x args, phi_keys_nodup phis = true -> In s phis ->
  phi_parts s = Some (x, args) -> find_phi phis (key_of x) = Some (x, args).
Proof.
  induction phis as [|s0 tl IH]; intros s x args Hn Hin Hp; [contradiction|].
  cbn [phi_keys_nodup] in Hn. cbn [find_phi].
  destruct (phi_parts s0) as [[x0 args0]|] eqn:Ep0; [|discriminate].
  destruct (vn_version x0) eqn:Ev0; [|discriminate].
  destruct (find_phi tl (key_of x0)) eqn:Ef0; [discriminate|].
  destruct Hin as [<-|Hin].
  - rewrite Hp in Ep0. injection Ep0 as <- <-. rewrite key_eqb_refl. reflexivity.
  - pose proof (IH s x args Hn Hin Hp) as Hf.
    destruct (key_eqb (key_of x0) (key_of x)) eqn:Ek.
    + apply key_eqb_eq in Ek. rewrite Ek in Ef0. congruence.
    + exact Hf.
Qed.

Lemma phi_key_list_in b s x args :
  In s (fst (leading_phis (b_stmts b))) -> phi_parts s = Some (x, args) -> In (key_of x) (phi_key_list b).
Proof.
  intros Hin Hp. unfold phi_key_list. apply in_flat_map. exists s. split; [exact Hin|]. rewrite Hp. left. reflexivity.
Qed.

Lemma find_phi_key_in phis : forall k x args, find_phi phis k = Some (x, args) ->
  In k (flat_map (fun s => match phi_parts s with Some (y, _) => [key_of y] | None => [] end) phis).
Proof.
  induction phis as [|s0 tl IH]; intros k x args Ef; [discriminate|].
  cbn [find_phi] in Ef. cbn [flat_map].
  destruct (phi_parts s0) as [[x0 a0]|].
  - destruct (key_eqb (key_of x0) k) eqn:Ek.
    + apply key_eqb_eq in Ek. left. exact Ek.
    + right. eauto.
  - eauto.
Qed.

Lemma combine_nth {A B} : forall (l : list A) (l' : list B) i x y,
  nth_error l i = Some x -> nth_error l' i = Some y -> In (x, y) (combine l l').
Proof.
  induction l as [|a tl IH]; intros [|b tl'] [|i] x y H1 H2; cbn in *; try discriminate.
  - inversion H1; inversion H2; subst. left. reflexivity.
  - right. eapply IH; eassumption.
Qed.

Section Graph.
Variable c : cfg.
Variable infos : list binfo.
Hypothesis Hok : infos_ok infos c = true.

Lemma infos_len : length infos = length (c_blocks c).
Proof.
  pose proof Hok as Hk. unfold infos_ok in Hk. repeat (apply andb_true_iff in Hk as [Hk ?]).
  apply Nat.eqb_eq. exact Hk.
Qed.

Lemma block_facts i b : nth_error (c_blocks c) i = Some b ->
  exists info, nth_error infos i = Some info /\ block_ok info b = true.
Proof.
  intros Hb. pose proof infos_len as Hl.
  destruct (nth_error infos i) as [info|] eqn:Ei.
  - exists info. split; [reflexivity|].
    pose proof Hok as Hk. unfold infos_ok in Hk. repeat (apply andb_true_iff in Hk as [Hk ?]).
    rewrite forallb_forall in H1. exact (H1 (info, b) (combine_nth _ _ _ _ _ Ei Hb)).
  - apply nth_error_None in Ei. rewrite Hl in Ei. apply nth_error_None in Ei. congruence.
Qed.

Lemma edge_facts p bp s : nth_error (c_blocks c) p = Some bp -> In (N.of_nat s) (b_succs bp) ->
  b_index bp = N.of_nat p -> edge_ok infos (c_blocks c) p s = true.
Proof.
  intros Hb Hin Hidx.
  pose proof Hok as Hk. unfold infos_ok in Hk. apply andb_true_iff in Hk as [_ He].
  rewrite forallb_forall in He. specialize (He bp (nth_error_In _ _ Hb)).
  rewrite forallb_forall in He. specialize (He _ Hin).
  rewrite Hidx, !Nat2N.id in He. exact He.
Qed.

(* the list of keys that edge_ok enumerates is complete: a key outside it has no
   version on either side of the edge and no phi *)
Lemma edge_all_keys p s ip is_ bs_ :
  nth_error infos p = Some ip -> nth_error infos s = Some is_ -> nth_error (c_blocks c) s = Some bs_ ->
  edge_ok infos (c_blocks c) p s = true -> forall k, edge_key_ok ip is_ bs_ k = true.
Proof.
  intros Hip His Hbs He k. unfold edge_ok in He. rewrite Hip, His, Hbs, forallb_forall in He. specialize (He k).
  destruct (vget (bi_out ip) k) eqn:Eo.
  { apply He. apply in_or_app. left. eapply vget_some_in. exact Eo. }
  destruct (vget (bi_in is_) k) eqn:Ei.
  { apply He. apply in_or_app. right. apply in_or_app. left. eapply vget_some_in. exact Ei. }
  destruct (find_phi (fst (leading_phis (b_stmts bs_))) k) as [[x args]|] eqn:Ef.
  { apply He. apply in_or_app. right. apply in_or_app. right. eapply find_phi_key_in. exact Ef. }
  unfold edge_key_ok. rewrite Eo, Ei, Ef. reflexivity.
Qed.

(* entering s from p: behind the phis the running map is the validator's entry map of s *)
Lemma apply_phis_edge p s ip is_ bs_ L phis body :
  nth_error infos p = Some ip -> nth_error infos s = Some is_ -> nth_error (c_blocks c) s = Some bs_ ->
  edge_ok infos (c_blocks c) p s = true -> phi_keys_nodup phis = true -> meq L (bi_out ip) ->
  leading_phis (b_stmts bs_) = (phis, body) -> meq (apply_phis L phis) (bi_in is_).
Proof.
  intros Hip His Hbs He Hnd HL Elp k.
  pose proof (edge_all_keys p s ip is_ bs_ Hip His Hbs He k) as Hall.
  rewrite (vget_apply_phis phis L k Hnd).
  unfold edge_key_ok in Hall. rewrite Elp in Hall. cbn [fst] in Hall.
  destruct (find_phi phis k) as [[x args]|].
  - apply andb_true_iff in Hall as [_ Hall]. apply optN_eqb_eq in Hall. symmetry. exact Hall.
  - apply optN_eqb_eq in Hall. rewrite (HL k). exact Hall.
Qed.

(* the central step: entering block s from p with a running map equivalent to
   p's exit map succeeds and ends equivalent to s's exit map *)
Lemma enter_step p s ip is_ bs_ L :
  nth_error infos p = Some ip -> nth_error infos s = Some is_ -> nth_error (c_blocks c) s = Some bs_ ->
  edge_ok infos (c_blocks c) p s = true -> block_ok is_ bs_ = true ->
  meq L (bi_out ip) ->
  exists L', enter_block L bs_ = Some L' /\ meq L' (bi_out is_).
Proof.
  intros Hip His Hbs He Hblk HL.
  unfold block_ok in Hblk. unfold enter_block.
  destruct (leading_phis (b_stmts bs_)) as [phis body] eqn:Elp.
  apply andb_true_iff in Hblk as [Hnd Hbody].
  destruct (body_run (bi_in is_) body) as [o|] eqn:Ebr; [|discriminate].
  apply vmap_eqb_eq in Hbody. subst o.
  (* the phis read one of their arguments *)
  assert (Hphis : forallb (phi_read_ok L) phis = true).
  { apply forallb_forall. intros s0 Hs0.
    pose proof (leading_phis_are_phis _ _ _ Elp) as Hf. rewrite Forall_forall in Hf.
    destruct (is_phi_parts s0 (Hf _ Hs0)) as (x & args & Hp).
    unfold phi_read_ok. rewrite Hp. rewrite (HL (key_of x)).
    pose proof (edge_all_keys p s ip is_ bs_ Hip His Hbs He (key_of x)) as Hall.
    unfold edge_key_ok in Hall. rewrite Elp in Hall. cbn [fst] in Hall.
    rewrite (find_phi_in phis s0 x args Hnd Hs0 Hp) in Hall.
    apply andb_true_iff in Hall as [Hall _]. exact Hall. }
  rewrite Hphis.
  pose proof (apply_phis_edge p s ip is_ bs_ L phis body Hip His Hbs He Hnd HL Elp) as Hin.
  destruct (body_run_meq body (bi_in is_) (apply_phis L phis) (bi_out is_) (meq_sym _ _ Hin) Ebr) as (r' & Hr & Hm).
  exists r'. split; [exact Hr|]. apply meq_sym. exact Hm.
Qed.

Lemma entry_facts : exists i0 b0,
  nth_error infos 0 = Some i0 /\ nth_error (c_blocks c) 0 = Some b0 /\
  bi_in i0 = params_map (c_params c) /\ fst (leading_phis (b_stmts b0)) = [].
Proof.
  pose proof Hok as Hk. unfold infos_ok in Hk.
  apply andb_true_iff in Hk as [Hk _]. apply andb_true_iff in Hk as [_ H0].
  destruct infos as [|i0 itl]; [discriminate|].
  destruct (c_blocks c) as [|b0 btl]; [discriminate|].
  apply andb_true_iff in H0 as [Hin0 Hnophi]. apply vmap_eqb_eq in Hin0.
  exists i0, b0. repeat split; try reflexivity; [exact Hin0|].
  destruct (fst (leading_phis (b_stmts b0))); [reflexivity|discriminate].
Qed.

Hypothesis Hidx : forall i b, nth_error (c_blocks c) i = Some b -> b_index b = N.of_nat i.

(* a walk from p executes and ends equivalent to the exit map of its last block *)
Lemma walk_run : forall pi p ip L,
  nth_error infos p = Some ip -> meq L (bi_out ip) -> is_walk c p pi ->
  exists L' il, exec_path c L pi = Some L' /\ nth_error infos (last (p :: pi) 0%nat) = Some il /\ meq L' (bi_out il).
Proof.
  induction pi as [|s tl IH]; intros p ip L Hip HL Hw; [exists L, ip; auto|].
  cbn [is_walk] in Hw. destruct Hw as [(bp & Hbp & Hin) Hw].
  pose proof (edge_facts p bp s Hbp Hin (Hidx _ _ Hbp)) as He.
  destruct (nth_error (c_blocks c) s) as [bs_|] eqn:Hbs.
  2: { unfold edge_ok in He. rewrite Hip, Hbs in He. destruct (nth_error infos s); discriminate. }
  destruct (block_facts s bs_ Hbs) as (is_ & His & Hblk).
  destruct (enter_step p s ip is_ bs_ L Hip His Hbs He Hblk HL) as (L1 & HL1 & Hm).
  cbn [exec_path]. rewrite Hbs, HL1. exact (IH s is_ L1 His Hm Hw).
Qed.

(* the entry block runs from the parameters to its exit map *)
Lemma entry_enter : exists i0 b0, nth_error infos 0 = Some i0 /\ nth_error (c_blocks c) 0 = Some b0 /\
  enter_block (params_map (c_params c)) b0 = Some (bi_out i0).
Proof.
  destruct entry_facts as (i0 & b0 & Hi0 & Hb0 & Hin0 & Hnophi). exists i0, b0. split; [exact Hi0|]. split; [exact Hb0|].
  destruct (block_facts 0 b0 Hb0) as (i0' & Hi0' & Hblk). rewrite Hi0 in Hi0'. injection Hi0' as <-.
  unfold block_ok in Hblk. unfold enter_block.
  destruct (leading_phis (b_stmts b0)) as [phis body]. cbn [fst] in Hnophi. subst phis.
  apply andb_true_iff in Hblk as [_ Hbody]. rewrite <- Hin0. cbn [forallb apply_phis fold_left].
  destruct (body_run (bi_in i0) body) as [o|]; [|discriminate]. apply vmap_eqb_eq in Hbody. subst o. reflexivity.
Qed.

(* every path from the entry block executes without a disagreeing read, and ends
   equivalent to the exit map the validator computed for its last block *)
Theorem paths_run pi : path_from_entry c pi ->
  exists L il, exec_path c (params_map (c_params c)) pi = Some L /\ nth_error infos (last pi 0%nat) = Some il /\ meq L (bi_out il).
Proof.
  destruct pi as [|[|n] tl]; cbn [path_from_entry]; try contradiction. intros Hw.
  destruct entry_enter as (i0 & b0 & Hi0 & Hb0 & Hen). cbn [exec_path]. rewrite Hb0, Hen.
  exact (walk_run tl 0%nat i0 (bi_out i0) Hi0 (meq_refl _) Hw).
Qed.

Theorem paths_ok pi : path_from_entry c pi ->
  exists L, exec_path c (params_map (c_params c)) pi = Some L.
Proof. intros Hp. destruct (paths_run pi Hp) as (L & _ & H & _). eauto. Qed.
End Graph.

Lemma indices_ok_nth bs : forall k i b, indices_ok bs k = true -> nth_error bs i = Some b ->
  b_index b = N.of_nat (k + i).
Proof.
  induction bs as [|b0 tl IH]; intros k i b H Hn; [destruct i; discriminate|].
  cbn [indices_ok] in H. apply andb_true_iff in H as [H0 H1].
  destruct i as [|i]; cbn [nth_error] in Hn.
  - injection Hn as <-. apply N.eqb_eq in H0. rewrite H0, Nat.add_0_r. reflexivity.
  - rewrite (IH (S k) i b H1 Hn), Nat.add_succ_r. reflexivity.
Qed.

Lemma ssa_check_infos c idom : ssa_check c idom = true ->
  exists infos, compute_infos (c_params c) idom (c_blocks c) [] = Some infos /\ infos_ok infos c = true /\
    forall i b, nth_error (c_blocks c) i = Some b -> b_index b = N.of_nat i.
Proof.
  intros Hc. unfold ssa_check in Hc.
  apply andb_true_iff in Hc as [Hc _]. apply andb_true_iff in Hc as [Hc _].
  apply andb_true_iff in Hc as [Hshape Hinf].
  destruct (compute_infos (c_params c) idom (c_blocks c) []) as [infos|]; [|discriminate].
  exists infos. split; [reflexivity|]. split; [exact Hinf|].
  intros i b Hb. unfold shape_ok in Hshape. repeat (apply andb_true_iff in Hshape as [Hshape ?]).
  exact (indices_ok_nth (c_blocks c) 0 i b Hshape Hb).
Qed.

Theorem ssa_check_paths_ok c idom pi :
  ssa_check c idom = true -> path_from_entry c pi ->
  exists L, exec_path c (params_map (c_params c)) pi = Some L.
Proof. intros Hc. destruct (ssa_check_infos c idom Hc) as (infos & _ & Hok & Hidx). exact (paths_ok c infos Hok Hidx pi). Qed.

Lemma nodupb_NoDup {A} (eqb : A -> A -> bool) (nd : list A -> bool) :
  (forall x, eqb x x = true) -> (forall x tl, nd (x :: tl) = negb (existsb (eqb x) tl) && nd tl) ->
  forall l, nd l = true -> NoDup l.
Proof.
  intros Hrefl Hnd. induction l as [|x tl IH]; intros H; constructor; rewrite Hnd in H; apply andb_true_iff in H as [H1 H2].
  - intros Hin. apply negb_true_iff in H1.
    assert (existsb (eqb x) tl = true) by (apply existsb_exists; exists x; split; [exact Hin|apply Hrefl]).
    congruence.
  - apply IH. exact H2.
Qed.

Lemma nodup_v_NoDup l : nodup_v l = true -> NoDup l.
Proof. exact (nodupb_NoDup vname_eqb nodup_v vname_eqb_refl (fun _ _ => eq_refl) l). Qed.

(* at most one defining statement per versioned local *)
Theorem ssa_check_unique_defs c idom : ssa_check c idom = true -> NoDup (all_defs c).
Proof.
  intros Hc. unfold ssa_check in Hc. apply andb_true_iff in Hc as [Hc _]. apply andb_true_iff in Hc as [_ Hn].
  apply nodup_v_NoDup. exact Hn.
Qed.

(* versioned names are declared locals; signals and components stay unversioned *)
Theorem ssa_check_occurrences c idom v :
  ssa_check c idom = true -> In v (all_occurrences c) ->
  match vn_version v with
  | Some _ => decl_type c v = Some TLocal
  | None => decl_type c v <> Some TLocal
  end.
Proof.
  intros Hc Hin. unfold ssa_check in Hc. apply andb_true_iff in Hc as [_ Ho].
  rewrite forallb_forall in Ho. specialize (Ho v Hin). unfold occurrence_ok in Ho.
  destruct (vn_version v); destruct (decl_type c v) as [[]|]; try discriminate; congruence.
Qed.

(* phi statements stand only at the head of blocks: the body of an accepted
   block contains none *)
Lemma body_run_no_phi ss : forall m r, body_run m ss = Some r -> Forall (fun s => is_phi_stmt s = false) ss.
Proof.
  induction ss as [|s tl IH]; intros m r; cbn [body_run]; [constructor|].
  unfold body_stmt_ok. destruct (is_phi_stmt s) eqn:E; cbn [negb andb]; [discriminate|].
  destruct (forallb _ _); [|discriminate]. intros H. constructor; [exact E|]. eapply IH; eauto.
Qed.

Theorem ssa_check_phis_at_head c idom i b :
  ssa_check c idom = true -> nth_error (c_blocks c) i = Some b ->
  Forall (fun s => is_phi_stmt s = false) (snd (leading_phis (b_stmts b))).
Proof.
  intros Hc Hb. destruct (ssa_check_infos c idom Hc) as (infos & _ & Hinf & _).
  destruct (block_facts c infos Hinf i b Hb) as (info & _ & Hblk).
  unfold block_ok in Hblk. destruct (leading_phis (b_stmts b)) as [phis body]. cbn [snd].
  apply andb_true_iff in Hblk as [_ Hbody].
  destruct (body_run (bi_in info) body) eqn:E; [|discriminate]. eapply body_run_no_phi; eauto.
Qed.

Definition sets (s : stmt) (k : key) (n : N) : Prop :=
  exists x, stmt_def s = Some x /\ key_of x = k /\ vn_version x = Some n.

Lemma track_vget m s k n : vget (track m s) k = Some n -> vget m k = Some n \/ sets s k n.
Proof.
  unfold track. destruct (stmt_def s) as [x|] eqn:Ed; [|auto].
  destruct (vn_version x) as [n'|] eqn:Ev; [|auto].
  rewrite vget_vset. destruct (key_eqb (key_of x) k) eqn:Ek; [|auto].
  intros [= <-]. right. exists x. apply key_eqb_eq in Ek. auto.
Qed.

Lemma fold_track_vget ss : forall m k n, vget (fold_left track ss m) k = Some n ->
  vget m k = Some n \/ exists s, In s ss /\ sets s k n.
Proof.
  induction ss as [|s tl IH]; intros m k n; cbn [fold_left]; [auto|].
  intros H. destruct (IH _ _ _ H) as [H1|(s' & Hin & Hs)].
  - destruct (track_vget _ _ _ _ H1) as [H2|H2]; [auto|]. right. exists s. split; [left; reflexivity|exact H2].
  - right. exists s'. split; [right; exact Hin|exact Hs].
Qed.

(* a successful run is the fold of [track]; the checks only read *)
Lemma body_run_fold ss : forall m m', body_run m ss = Some m' -> m' = fold_left track ss m.
Proof.
  induction ss as [|s tl IH]; intros m m'; cbn [body_run fold_left]; [congruence|].
  destruct (body_stmt_ok m s); [|discriminate]. apply IH.
Qed.

Lemma enter_block_fold L b L' : enter_block L b = Some L' -> L' = fold_left track (b_stmts b) L.
Proof.
  unfold enter_block. destruct (leading_phis (b_stmts b)) as [phis body] eqn:El.
  destruct (forallb (phi_read_ok L) phis); [|discriminate]. intros H.
  rewrite (leading_phis_app _ _ _ El), fold_left_app. exact (body_run_fold _ _ _ H).
Qed.

Lemma body_run_nth ss : forall m m' j s, body_run m ss = Some m' -> nth_error ss j = Some s ->
  body_stmt_ok (fold_left track (firstn j ss) m) s = true.
Proof.
  induction ss as [|x tl IH]; intros m m' [|j] s; cbn [body_run nth_error firstn fold_left]; try discriminate.
  - destruct (body_stmt_ok m x) eqn:E; [|discriminate]. intros _ [= <-]. exact E.
  - destruct (body_stmt_ok m x); [|discriminate]. apply IH.
Qed.

Definition defined_on (c : cfg) (pi : list nat) (k : key) (n : N) : Prop :=
  exists j b s, In j pi /\ nth_error (c_blocks c) j = Some b /\ In s (b_stmts b) /\ sets s k n.

Lemma exec_path_app c : forall pi1 pi2 L L', exec_path c L (pi1 ++ pi2) = Some L' ->
  exists L1, exec_path c L pi1 = Some L1 /\ exec_path c L1 pi2 = Some L'.
Proof.
  induction pi1 as [|i tl IH]; intros pi2 L L'; cbn [app exec_path].
  - intros H. exists L. auto.
  - destruct (nth_error (c_blocks c) i) as [b|]; [|discriminate].
    destruct (enter_block L b) as [L1|]; [|discriminate]. apply IH.
Qed.

(* a version that runs after a path and a prefix of the statements of one more block
   ran before the path or was assigned by one of these statements *)
Lemma exec_path_vget c bi b pre post k n : nth_error (c_blocks c) bi = Some b -> b_stmts b = pre ++ post ->
  forall pi L L1, exec_path c L pi = Some L1 -> vget (fold_left track pre L1) k = Some n ->
  vget L k = Some n \/ defined_on c (pi ++ [bi]) k n.
Proof.
  intros Hb Hs. induction pi as [|i tl IH]; intros L L1; cbn [exec_path app].
  - intros [= <-] Hv. destruct (fold_track_vget _ _ _ _ Hv) as [H|(s & Hin & Hset)]; [auto|].
    right. exists bi, b, s. rewrite Hs. repeat split; auto; [left; reflexivity|apply in_or_app; left; exact Hin].
  - destruct (nth_error (c_blocks c) i) as [bi'|] eqn:Eb; [|discriminate].
    destruct (enter_block L bi') as [L2|] eqn:Ee; [|discriminate]. intros Hr Hv.
    destruct (IH _ _ Hr Hv) as [H1|(j & b' & s & Hj & Hb' & Hs' & Hset)].
    + rewrite (enter_block_fold _ _ _ Ee) in H1. destruct (fold_track_vget _ _ _ _ H1) as [H2|(s & Hin & Hset)]; [auto|].
      right. exists i, bi', s. repeat split; auto. left. reflexivity.
    + right. exists j, b', s. repeat split; auto. right. exact Hj.
Qed.

(* in front of the j-th body statement of the last block of a path that executes, a read
   of a versioned name finds that version running (or none, at the base of an update) *)
Lemma exec_read c L pi bi b phis body j s v n Lf :
  exec_path c L (pi ++ [bi]) = Some Lf -> nth_error (c_blocks c) bi = Some b ->
  leading_phis (b_stmts b) = (phis, body) -> nth_error body j = Some s ->
  In v (stmt_reads s) -> vn_version v = Some n ->
  exists L1, exec_path c L pi = Some L1 /\
    (vget (fold_left track (phis ++ firstn j body) L1) (key_of v) = Some n \/
     vget (fold_left track (phis ++ firstn j body) L1) (key_of v) = None /\ update_base s = Some v).
Proof.
  intros Hex Hb El Hj Hv Hn. destruct (exec_path_app c pi [bi] _ _ Hex) as (L1 & Hpre & Hlast).
  exists L1. split; [exact Hpre|].
  cbn [exec_path] in Hlast. rewrite Hb in Hlast. unfold enter_block in Hlast. rewrite El in Hlast.
  destruct (forallb (phi_read_ok L1) phis); [|discriminate].
  destruct (body_run (apply_phis L1 phis) body) as [L2|] eqn:Er; [|discriminate].
  pose proof (body_run_nth _ _ _ _ _ Er Hj) as Hok. rewrite fold_left_app.
  unfold body_stmt_ok in Hok. apply andb_true_iff in Hok as [_ Hreads]. rewrite forallb_forall in Hreads.
  specialize (Hreads v Hv). unfold read_ok in Hreads. rewrite Hn in Hreads. fold (apply_phis L1 phis).
  destruct (vget _ (key_of v)) as [n'|].
  - left. apply N.eqb_eq in Hreads. congruence.
  - right. split; [reflexivity|]. destruct (update_base s) as [w|]; [|discriminate]. apply vname_eqb_eq in Hreads. congruence.
Qed.

Lemma body_stmt_index ss phis body s : leading_phis ss = (phis, body) -> In s ss -> is_phi_stmt s = false ->
  exists j, nth_error body j = Some s.
Proof.
  intros El Hs Hn. rewrite (leading_phis_app _ _ _ El) in Hs. apply in_app_or in Hs as [Hs|Hs]; [|apply In_nth_error; exact Hs].
  pose proof (leading_phis_are_phis _ _ _ El) as Hf. rewrite Forall_forall in Hf. rewrite (Hf s Hs) in Hn. discriminate.
Qed.

Lemma block_prefix ss phis body j : leading_phis ss = (phis, body) -> ss = (phis ++ firstn j body) ++ skipn j body.
Proof. intros El. rewrite <- app_assoc, firstn_skipn. exact (leading_phis_app _ _ _ El). Qed.

(* On every path from the entry that ends in the block of the read, the version
   a read names has been assigned on that path (or is the parameter's version,
   or is the fresh base version of an element-wise update): hence the unique
   defining statement dominates the read.  From the dynamic statement alone. *)
Theorem paths_ok_read_defined c pi bi b s v n :
  (forall p, path_from_entry c p -> exists L, exec_path c (params_map (c_params c)) p = Some L) ->
  path_from_entry c (pi ++ [bi]) ->
  nth_error (c_blocks c) bi = Some b -> In s (b_stmts b) -> is_phi_stmt s = false ->
  In v (stmt_reads s) -> vn_version v = Some n ->
  update_base s = Some v \/
  vget (params_map (c_params c)) (key_of v) = Some n \/
  defined_on c (pi ++ [bi]) (key_of v) n.
Proof.
  intros Hall Hp Hb Hs Hnphi Hv Hn. destruct (Hall _ Hp) as [Lf Hex].
  destruct (leading_phis (b_stmts b)) as [phis body] eqn:El.
  destruct (body_stmt_index _ _ _ _ El Hs Hnphi) as (j & Hj).
  destruct (exec_read c _ pi bi b phis body j s v n Lf Hex Hb El Hj Hv Hn) as (L1 & Hpre & [Hg|[_ Hu]]); [right|left; exact Hu].
  exact (exec_path_vget c bi b _ _ _ n Hb (block_prefix _ _ _ j El) pi _ L1 Hpre Hg).
Qed.

Theorem ssa_check_read_defined_on_path c idom pi bi b s v n :
  ssa_check c idom = true -> path_from_entry c (pi ++ [bi]) ->
  nth_error (c_blocks c) bi = Some b -> In s (b_stmts b) -> is_phi_stmt s = false ->
  In v (stmt_reads s) -> vn_version v = Some n ->
  update_base s = Some v \/
  vget (params_map (c_params c)) (key_of v) = Some n \/
  defined_on c (pi ++ [bi]) (key_of v) n.
Proof. intros Hc. apply paths_ok_read_defined. intros p. exact (ssa_check_paths_ok c idom p Hc). Qed.
