(* Lemmas about Model.Includes (C19).  The file system functions are Section
   variables; the only assumptions are stated as Hypotheses next to the lemmas
   that use them and become premises of the closed statements in props/C19.v. *)
Require Model.Base.
From Coq Require Import ZArith Ascii String.
From stdpp Require Import list strings.
Require Import Model.Includes Spec.IncludesSpec.
Require Export Proofs.BaseFacts.

Lemma bind_fuel {A B} (m : outcome A) (f : A -> outcome B) :
  Base.bind m f = OutOfFuel -> m = OutOfFuel \/ exists a, m = Ok a /\ f a = OutOfFuel.
Proof. destruct m; simpl; try discriminate; eauto. Qed.

Lemma bind_not_oof {A B} (m : outcome A) (f : A -> outcome B) :
  m <> OutOfFuel -> (forall a, m = Ok a -> f a <> OutOfFuel) -> Base.bind m f <> OutOfFuel.
Proof. intros Hm Hf H. apply bind_fuel in H as [H|(a & Ha & H)]; [done|by eapply Hf]. Qed.

Section IncludesProofs.
  Context {path : Type} `{EqDecision path}.
  Variable canon : path -> option path.
  Variable is_dir : path -> bool.
  Variable is_file : path -> bool.
  Variable read_dir : path -> option (list path).
  Variable join : path -> path -> path.
  Variable parent : path -> path.
  Variable file_name : path -> option path.
  Variable ext_circom : path -> bool.
  Variable starts_dot : path -> bool.
  Variable has_sep : path -> bool.
  Variable content : path -> file_content path.

  Notation add_libraries := (add_libraries canon is_dir ext_circom).
  Notation add_files := (add_files canon is_dir read_dir join ext_circom).
  Notation new := (new canon is_dir read_dir join ext_circom).
  Notation add_files_once := (add_files_once canon is_dir read_dir join ext_circom).
  Notation new_all := (new_all canon is_dir read_dir join ext_circom).
  Notation dirs_revisited := (dirs_revisited canon is_dir read_dir join ext_circom).
  Notation search_libraries := (search_libraries canon is_file join file_name starts_dot has_sep).
  Notation add_include := (add_include canon is_file join file_name starts_dot has_sep).
  Notation take_next := (take_next parent).
  Notation add_includes := (add_includes canon is_file join file_name starts_dot has_sep).
  Notation parse_file := (parse_file canon is_file join file_name starts_dot has_sep content).
  Notation parse_loop := (parse_loop canon is_file join parent file_name starts_dot has_sep content).
  Notation parse_files :=
    (parse_files canon is_dir is_file read_dir join parent file_name ext_circom starts_dot has_sep content).

  Notation canonical := (canonical canon).
  Notation expands := (expands canon is_dir read_dir join ext_circom).
  Notation lib_offers := (lib_offers canon is_file join file_name starts_dot has_sep).
  Notation resolves := (resolves canon is_file join parent file_name starts_dot has_sep).
  Notation named := (named canon is_dir read_dir join ext_circom).
  Notation reachable := (reachable canon is_file join parent file_name starts_dot has_sep content).
  Notation depth_le := (depth_le is_dir read_dir join).
  Notation relative := (relative canon is_file join parent).

  Definition only_os (r : report (path:=path)) : Prop := exists p, r = FileOsError p.

  (* a library that is not a directory is the canonical form of a path that is
     not a directory *)
  Definition lib_from_file (l : library) : Prop :=
    lib_dir l = false -> exists p, is_dir p = false /\ canon p = Some (lib_path l).

  Lemma add_libraries_spec libs reports :
    Forall lib_from_file (add_libraries libs reports).1 /\
    (Forall only_os reports -> Forall only_os (add_libraries libs reports).2).
  Proof.
    unfold Includes.add_libraries. induction libs as [|p libs [H1 H2]] using rev_ind; [split; [constructor|done]|].
    rewrite foldl_app. simpl. unfold Includes.add_library.
    destruct (is_dir p) eqn:Ed; [|destruct (ext_circom p); [destruct (canon p) eqn:Ec|]]; simpl;
      [| | |done]; rewrite Forall_app, Forall_singleton.
    - by split; [split|].
    - split; [|done]. split; [done|]. intros _. by exists p.
    - split; [done|]. intros Hr. split; [auto|by eexists].
  Qed.

  (* what both functions do with a path that is not a directory *)
  Definition add_file (nm : bool) (p : path) (acc : list path * list report) : list path * list report :=
    if nm || ext_circom p then
      match canon p with
      | Some c => (c :: acc.1, acc.2)
      | None => (acc.1, acc.2 ++ [FileOsError p])
      end
    else acc.

  (* entering the directory [p]: the visited set afterwards, None when [p] was entered before *)
  Definition visit (p : path) (dirs : list path * bool) : option (list path * bool) :=
    match canon p with
    | Some d => if decide (d ∈ dirs.1) then None else Some (d :: dirs.1, dirs.2)
    | None => Some dirs
    end.

  Lemma add_files_cons fuel nm p rest acc :
    add_files (S fuel) nm (p :: rest) acc =
    let* acc' := if is_dir p then
                   match read_dir p with
                   | Some names => add_files fuel false (map (join p) names) acc
                   | None => Ok acc
                   end
                 else Ok (add_file nm p acc) in
    add_files (S fuel) nm rest acc'.
  Proof.
    unfold add_file. simpl. destruct (is_dir p); [destruct (read_dir p); reflexivity|].
    destruct (nm || ext_circom p); [destruct (canon p)|]; reflexivity.
  Qed.

  Lemma add_files_once_cons fuel nm p rest dirs acc :
    add_files_once (S fuel) nm (p :: rest) dirs acc =
    let* r := if is_dir p then
                match visit p dirs with
                | Some dirs' =>
                  match read_dir p with
                  | Some names => add_files_once fuel false (map (join p) names) dirs' acc
                  | None => Ok (dirs', acc)
                  end
                | None => Ok ((dirs.1, true), acc)
                end
              else Ok (dirs, add_file nm p acc) in
    add_files_once (S fuel) nm rest r.1 r.2.
  Proof.
    unfold visit, add_file. simpl. destruct (is_dir p).
    - destruct (canon p); [destruct (decide _); [reflexivity|]|]; destruct (read_dir p); reflexivity.
    - destruct (nm || ext_circom p); [destruct (canon p)|]; reflexivity.
  Qed.

  Lemma visit_flag p dirs dirs' : visit p dirs = Some dirs' -> dirs'.2 = dirs.2.
  Proof. unfold visit. destruct (canon p); [destruct (decide _)|]; by intros [= <-]. Qed.

  Lemma elem_of_add_file nm p acc c :
    c ∈ (add_file nm p acc).1 <-> c ∈ acc.1 \/ (nm || ext_circom p = true /\ canon p = Some c).
  Proof.
    unfold add_file. destruct (nm || ext_circom p); [destruct (canon p) as [c0|]|]; simpl.
    - rewrite elem_of_cons. split; [intros [->|Hc]; auto|intros [Hc|[_ [= ->]]]; auto].
    - split; [auto|]. by intros [Hc|[_ [=]]].
    - split; [auto|]. by intros [Hc|[[=] _]].
  Qed.

  Lemma add_file_only_os nm p acc : Forall only_os acc.2 -> Forall only_os (add_file nm p acc).2.
  Proof.
    unfold add_file. destruct (nm || ext_circom p); [destruct (canon p)|]; simpl; try done.
    rewrite Forall_app, Forall_singleton. split; [done|by eexists].
  Qed.

  Lemma expands_iff nm p c :
    expands nm p c <->
    if is_dir p then exists names n, read_dir p = Some names /\ n ∈ names /\ expands false (join p n) c
    else nm || ext_circom p = true /\ canon p = Some c.
  Proof.
    split.
    - intros [nm' p' c' -> H1 H2|nm' p' names n c' -> H1 H2 H3]; eauto.
    - destruct (is_dir p) eqn:Ed; [intros (names & n & H1 & H2 & H3); by eapply expands_dir|].
      intros [H1 H2]. by apply expands_file.
  Qed.

  (* the flag "a directory was met twice" is never cleared *)
  Lemma once_flag_mono fuel : forall nm paths dirs acc r,
    add_files_once fuel nm paths dirs acc = Ok r -> dirs.2 = true -> r.1.2 = true.
  Proof.
    induction fuel as [|k IHk]; intros nm; [discriminate|].
    induction paths as [|p rest IH]; intros dirs acc r H Hf.
    - by injection H as <-.
    - rewrite add_files_once_cons in H. apply bind_ok in H as (r1 & H1 & H2). apply (IH _ _ _ H2).
      destruct (is_dir p); [|by injection H1 as <-].
      destruct (visit p dirs) as [dirs'|] eqn:Ev; [|by injection H1 as <-].
      apply visit_flag in Ev. rewrite <- Ev in Hf.
      destruct (read_dir p); [by apply (IHk _ _ _ _ _ H1)|by injection H1 as <-].
  Qed.

  Lemma once_flag_false fuel nm paths dirs acc r :
    add_files_once fuel nm paths dirs acc = Ok r -> r.1.2 = false -> dirs.2 = false.
  Proof.
    intros H Hf. destruct (dirs.2) eqn:E; [|done]. apply once_flag_mono in H; [congruence|done].
  Qed.

  (* when no directory was met twice the fix changes nothing: the run computes
     what the code before it computed *)
  Lemma add_files_once_bridge fuel : forall nm paths dirs acc r,
    add_files_once fuel nm paths dirs acc = Ok r -> r.1.2 = false ->
    add_files fuel nm paths acc = Ok r.2.
  Proof.
    induction fuel as [|k IHk]; intros nm; [discriminate|].
    induction paths as [|p rest IH]; intros dirs acc r H Hf.
    - by injection H as <-.
    - rewrite add_files_once_cons in H. apply bind_ok in H as (r1 & H1 & H2).
      rewrite add_files_cons, <- (IH _ _ _ H2 Hf).
      apply (once_flag_false _ _ _ _ _ _ H2) in Hf.
      destruct (is_dir p); [|by injection H1 as <-].
      destruct (visit p dirs) as [dirs'|]; [|by injection H1 as <-].
      destruct (read_dir p); [by rewrite (IHk _ _ _ _ _ H1 Hf)|by injection H1 as <-].
  Qed.

  (* what is collected beyond [acc] are expansions of the paths (the visited set
     only removes) and the reports added are OS errors; nothing is lost, and an
     expansion of a path is collected when no directory was met twice or the
     path is itself a file *)
  Lemma add_files_once_spec fuel : forall nm paths dirs acc r,
    add_files_once fuel nm paths dirs acc = Ok r ->
    (forall c, c ∈ r.2.1 -> c ∈ acc.1 \/ exists p, p ∈ paths /\ expands nm p c) /\
    (Forall only_os acc.2 -> Forall only_os r.2.2) /\
    (forall c, c ∈ acc.1 -> c ∈ r.2.1) /\
    (forall p c, p ∈ paths -> expands nm p c -> r.1.2 = false \/ is_dir p = false -> c ∈ r.2.1).
  Proof.
    induction fuel as [|k IHk]; intros nm; [discriminate|].
    induction paths as [|p rest IH]; intros dirs acc r H.
    - injection H as <-. split; [auto|]. split; [done|]. split; [done|]. intros p c Hp. by apply elem_of_nil in Hp.
    - rewrite add_files_once_cons in H. apply bind_ok in H as (r1 & H1 & H2).
      pose proof (once_flag_false _ _ _ _ _ _ H2) as Hf. apply IH in H2 as (R1 & R2 & R3 & R4).
      enough ((forall c, c ∈ r1.2.1 -> c ∈ acc.1 \/ expands nm p c) /\
              (Forall only_os acc.2 -> Forall only_os r1.2.2) /\
              (forall c, c ∈ acc.1 -> c ∈ r1.2.1) /\
              (forall c, expands nm p c -> r1.1.2 = false \/ is_dir p = false -> c ∈ r1.2.1)) as (S1 & S2 & S3 & S4).
      { split; [|split; [auto|split; [auto|]]].
        - intros c [[Hc|Hc]%S1|(q & Hq & He)]%R1; [by left| |]; right; eexists; (split; [|done]); [left|by right].
        - intros q c [->|Hq]%elem_of_cons He Hc; [|by eapply R4]. apply R3, S4; [done|]. destruct Hc; auto. }
      destruct (is_dir p) eqn:Ed.
      + destruct (visit p dirs) as [dirs'|]; [|injection H1 as <-; by repeat split; auto; intros c _ [?|?]].
        destruct (read_dir p) as [names|] eqn:Er.
        * apply IHk in H1 as (A1 & A2 & A3 & A4). split; [|split; [done|split; [done|]]].
          -- intros c [Hc|(q & (n & -> & Hn)%elem_of_list_fmap & He)]%A1; [by left|]. right. by eapply expands_dir.
          -- intros c He%expands_iff [Hc|Hc]; [|congruence]. rewrite Ed, Er in He.
             destruct He as (names' & n & [= <-] & Hn & He). eapply A4; [|done|by left]. apply elem_of_list_fmap. eauto.
        * injection H1 as <-. repeat split; auto. intros c He%expands_iff. rewrite Ed, Er in He.
          by destruct He as (names & n & ? & _).
      + injection H1 as <-. split; [|split; [apply add_file_only_os|split]].
        * intros c [Hc|[Hn Hc]]%elem_of_add_file; [by left|]. right. by apply expands_file.
        * intros c Hc. apply elem_of_add_file. by left.
        * intros c He%expands_iff _. rewrite Ed in He. apply elem_of_add_file. by right.
  Qed.

  Lemma new_is_new_all fuel paths libs st reps :
    new fuel paths libs [] = Ok (st, reps) -> dirs_revisited fuel paths libs = false ->
    new_all fuel paths libs [] = Ok (st, reps).
  Proof.
    unfold Includes.new, Includes.new_all, Includes.dirs_revisited.
    destruct (add_libraries libs []) as [ls r0] eqn:El. simpl.
    intros Hn Hf. apply bind_ok in Hn as (r & Ha & Hn). rewrite Ha in Hf.
    rewrite (add_files_once_bridge _ _ _ _ _ _ Ha Hf). simpl. exact Hn.
  Qed.

  Hypothesis canon_idem : forall p c, canon p = Some c -> canon c = Some c.

  Lemma expands_canonical nm p c : expands nm p c -> canonical c.
  Proof. induction 1; [by eapply canon_idem|done]. Qed.

  (* without any premise: what is collected is named (the visited set only
     removes), canonical, and the reports are OS errors *)
  Lemma add_files_once_sound fuel : forall nm paths dirs acc r,
    add_files_once fuel nm paths dirs acc = Ok r ->
    (forall c, c ∈ r.2.1 -> c ∈ acc.1 \/ exists p, p ∈ paths /\ expands nm p c) /\
    (forall p c, p ∈ paths -> is_dir p = false -> canon p = Some c -> nm || ext_circom p = true -> c ∈ r.2.1) /\
    (forall c, c ∈ acc.1 -> c ∈ r.2.1) /\
    (Forall canonical acc.1 -> Forall canonical r.2.1) /\
    (Forall only_os acc.2 -> Forall only_os r.2.2).
  Proof.
    intros nm paths dirs acc r (E1 & E2 & C1 & C2)%add_files_once_spec.
    split; [done|]. split; [|split; [done|split; [|done]]].
    - intros p c Hp Hd Hc He. apply (C2 p); [done|by apply expands_file|by right].
    - rewrite !Forall_forall. intros Ha c [Hc|(p & _ & He)]%E1; [auto|by eapply expands_canonical].
  Qed.

  (* FileStack::new: the user inputs are named files; a named file is a user
     input when no directory was met twice or the argument itself is the file *)
  Lemma new_spec fuel paths libs st reps :
    new fuel paths libs [] = Ok (st, reps) ->
    exists ui, st = FileStack None [] ui (add_libraries libs []).1 ui /\
      Forall canonical ui /\ Forall only_os reps /\
      (forall c, c ∈ ui -> named paths c) /\
      (forall p c, p ∈ paths -> expands true p c ->
                   dirs_revisited fuel paths libs = false \/ is_dir p = false -> c ∈ ui).
  Proof.
    unfold Includes.new, Includes.dirs_revisited.
    pose proof (add_libraries_spec libs []) as [_ L]. destruct (add_libraries libs []) as [ls r0]. simpl.
    intros Hn. apply bind_ok in Hn as (r & Ha & [= <- <-]). rewrite Ha. exists r.2.1.
    pose proof (add_files_once_sound _ _ _ _ _ _ Ha) as (A1 & _ & _ & A4 & A5).
    split; [done|]. split; [apply A4; constructor|]. split; [apply A5, L; constructor|]. split.
    - intros c Hc. by destruct (A1 c Hc) as [?%elem_of_nil|?].
    - by apply add_files_once_spec in Ha as (_ & _ & _ & C).
  Qed.

  (* [lib_offers] and [resolves] are functional: what `include_library` tests
     on one library, the first library that offers, the whole resolution *)
  Definition offer (inc : path) (l : library) : option path :=
    if lib_dir l then
      if starts_dot inc then None
      else match canon (join (lib_path l) inc) with
           | Some c => if is_file c then Some c else None
           | None => None
           end
    else if has_sep inc then None
    else if decide (file_name (lib_path l) = Some inc) then Some (lib_path l) else None.

  Definition first_offer (inc : path) (libs : list library) : option path := head (omap (offer inc) libs).

  Definition resolve (cur : path) (libs : list library) (inc : path) : option path :=
    match relative cur inc with Some c => Some c | None => first_offer inc libs end.

  Notation no_offer inc := (fun l' : library => forall c', ~ lib_offers inc l' c').

  Lemma lib_offers_iff inc l c : lib_offers inc l c <-> offer inc l = Some c.
  Proof.
    unfold offer. split.
    - intros [l' c' -> -> -> ->|l' -> -> ->]; [done|]. by rewrite decide_True.
    - destruct (lib_dir l) eqn:Ed.
      + destruct (starts_dot inc) eqn:Es; [done|]. destruct (canon _) as [c'|] eqn:Ec; [|done].
        destruct (is_file c') eqn:Ef; [|done]. intros [= <-]. by apply offers_dir.
      + destruct (has_sep inc) eqn:Es; [done|]. destruct (decide _); [|done]. intros [= <-]. by apply offers_file.
  Qed.

  Lemma first_offer_cons inc l libs :
    first_offer inc (l :: libs) = match offer inc l with Some c => Some c | None => first_offer inc libs end.
  Proof. unfold first_offer. simpl. by destruct (offer inc l). Qed.

  Lemma first_offer_skip inc l1 libs : Forall (no_offer inc) l1 -> first_offer inc (l1 ++ libs) = first_offer inc libs.
  Proof.
    induction 1 as [|l l1 Hl _ IH]; [done|]. simpl. rewrite first_offer_cons.
    destruct (offer inc l) as [c|] eqn:E; [|done]. by apply lib_offers_iff, Hl in E.
  Qed.

  Lemma first_offer_spec inc libs :
    match first_offer inc libs with
    | Some c => exists l1 l l2, libs = l1 ++ l :: l2 /\ Forall (no_offer inc) l1 /\ lib_offers inc l c
    | None => Forall (no_offer inc) libs
    end.
  Proof.
    induction libs as [|l libs IH]; [constructor|]. rewrite first_offer_cons.
    destruct (offer inc l) as [c|] eqn:E.
    - exists [], l, libs. split; [done|]. split; [constructor|by apply lib_offers_iff].
    - assert (no_offer inc l) as Hl by (intros c Hc%lib_offers_iff; congruence).
      destruct (first_offer inc libs) as [c|]; [|by constructor].
      destruct IH as (l1 & l0 & l2 & -> & Hf & Ho). exists (l :: l1), l0, l2. split; [done|]. split; [by constructor|done].
  Qed.

  Lemma resolves_iff cur libs inc r : resolves cur libs inc r <-> resolve cur libs inc = r.
  Proof.
    unfold resolve. split.
    - intros [c -> | l1 l l2 c -> -> Hf Ho | -> Hf]; [done| |].
      + rewrite (first_offer_skip _ _ _ Hf), first_offer_cons. apply lib_offers_iff in Ho. by rewrite Ho.
      + rewrite <- (app_nil_r libs). by rewrite (first_offer_skip _ _ _ Hf).
    - destruct (relative cur inc) as [c|] eqn:Er; intros <-; [by apply resolves_relative|].
      pose proof (first_offer_spec inc libs) as Hs. destruct (first_offer inc libs) as [c|].
      + destruct Hs as (l1 & l & l2 & E & Hf & Ho). by eapply resolves_library.
      + by apply resolves_nowhere.
  Qed.

  Lemma search_libraries_offer inc : forall libs r,
    search_libraries false inc libs = Ok r -> r = first_offer inc libs.
  Proof.
    induction libs as [|l libs IH]; intros r Hr; simpl in Hr; [by injection Hr as <-|].
    rewrite first_offer_cons. unfold offer. destruct (lib_dir l).
    - destruct (starts_dot inc); [auto|]. destruct (canon _) as [c|]; [|auto].
      destruct (is_file c); [by injection Hr as <-|auto].
    - destruct (has_sep inc); [auto|]. destruct (file_name (lib_path l)) as [n|]; [|done].
      destruct (decide (n = inc)) as [->|Hn]; [rewrite decide_True by done; by injection Hr as <-|].
      rewrite decide_False by congruence. auto.
  Qed.

  Definition include_error (inc : include (path:=path)) : report :=
    IncludeError (inc_path inc) (inc_file inc) (inc_start inc) (inc_end inc).

  (* resolution order: what add_include does with one include statement *)
  Lemma add_include_spec st inc cur st' rep :
    current_location st = Some (parent cur) ->
    add_include false st inc = Ok (st', rep) ->
    exists r, resolves cur (libraries st) (inc_path inc) r /\
      match r with
      | Some c => rep = None /\ (st' = push c st \/ (c ∈ black_paths st /\ st' = st))
      | None => rep = Some (include_error inc) /\ st' = st
      end.
  Proof.
    intros Hl Ha. eexists. split; [by apply resolves_iff|]. revert Ha.
    unfold Includes.add_include, resolve, IncludesSpec.relative. rewrite Hl. intros Ha.
    destruct (canon (join (parent cur) (inc_path inc))) as [c|]; [destruct (is_file c)|].
    1: { injection Ha as <- <-. destruct (decide _); auto. }
    all: unfold Includes.include_library in Ha; apply bind_ok in Ha as (r & ->%search_libraries_offer & Ha);
      destruct (first_offer _ _); injection Ha as <- <-; auto.
  Qed.

  Definition unresolved (cur : path) (libs : list library) (inc : include) : option report :=
    match resolve cur libs (inc_path inc) with Some _ => None | None => Some (include_error inc) end.

  (* the loop over the include statements of the file [cur]: only the stack changes; up to the visited
     set it grows by the targets of the resolved includes; the others give a warning each *)
  Lemma add_includes_resolve cur black ui libs : forall incs stk ws st' ws',
    add_includes false (FileStack (Some (parent cur)) black ui libs stk) incs ws = Ok (st', ws') ->
    exists stk', st' = FileStack (Some (parent cur)) black ui libs stk' /\
      (forall x, x ∈ stk' \/ x ∈ black <->
                 x ∈ stk \/ x ∈ omap (fun inc => resolve cur libs (inc_path inc)) incs \/ x ∈ black) /\
      ws' = ws ++ omap (unresolved cur libs) incs.
  Proof.
    induction incs as [|inc incs IH]; intros stk ws st' ws' Ha; simpl in Ha.
    - injection Ha as <- <-. exists stk. rewrite app_nil_r. split; [done|]. split; [|done].
      intros x. rewrite elem_of_nil. clear -x. tauto.
    - apply bind_ok in Ha as ([st1 rep] & H1 & Ha).
      apply (add_include_spec _ _ cur) in H1 as (r & Hr%resolves_iff & H1); [|done].
      simpl in *. unfold unresolved at 1. rewrite Hr. destruct r as [c|].
      + destruct H1 as (-> & [->|[Hb ->]]); apply IH in Ha as (stk' & -> & A & ->); exists stk';
          (split; [done|]); (split; [|done]); intros x; rewrite A, !elem_of_cons.
        * split; [intros [[Hx|Hx]|[Hx|Hx]]|intros [Hx|[[Hx|Hx]|Hx]]]; auto.
        * split; [intros [Hx|[Hx|Hx]]|intros [Hx|[[->|Hx]|Hx]]]; auto.
      + destruct H1 as (-> & ->). apply IH in Ha as (stk' & -> & A & ->). exists stk'. by rewrite <- app_assoc.
  Qed.

  Lemma resolves_Some (Q : path -> Prop) cur libs inc c :
    (forall p c, canon p = Some c -> is_file c = true -> Q c) ->
    Forall (fun l => lib_dir l = false -> Q (lib_path l)) libs ->
    resolves cur libs inc (Some c) -> Q c.
  Proof.
    intros Hq Hl Hr. inversion Hr as [c0 Hrel|l1 l l2 c0 _ -> _ Ho|]; subst.
    - unfold IncludesSpec.relative in Hrel. destruct (canon _) as [c1|] eqn:Ec; [|done].
      destruct (is_file c1) eqn:Ef; [|done]. injection Hrel as ->. eauto.
    - destruct Ho as [l c0 _ _ Hc Hf|l Hd _ _]; [eauto|]. rewrite Forall_forall in Hl.
      apply Hl; [|done]. apply elem_of_app; right; left.
  Qed.

  (* an included path is a file *)
  Lemma resolves_is_file cur libs inc c :
    Forall (fun l => lib_dir l = false -> is_file (lib_path l) = true) libs ->
    resolves cur libs inc (Some c) -> is_file c = true.
  Proof. apply (resolves_Some (fun c => is_file c = true)). auto. Qed.

  Lemma resolves_canonical cur libs inc c :
    Forall lib_from_file libs -> resolves cur libs inc (Some c) -> canonical c.
  Proof.
    intros Hl. apply resolves_Some; [intros p c' Hc _; by eapply canon_idem|].
    eapply Forall_impl; [done|]. intros l Hf Hd. destruct (Hf Hd) as (p & _ & Hp). by eapply canon_idem.
  Qed.

  Lemma pop_next_spec (black : list path) : forall stk,
    match pop_next black stk with
    | Some (p, rest) => p ∉ black /\ forall x, x ∈ stk \/ x ∈ black <-> x ∈ p :: rest \/ x ∈ black
    | None => forall x, x ∈ stk -> x ∈ black
    end.
  Proof.
    induction stk as [|q stk IH]; simpl; [by intros x Hx%elem_of_nil|].
    destruct (decide (q ∈ black)) as [Hq|Hq]; [|done]. destruct (pop_next black stk) as [[p rest]|].
    - destruct IH as [Hp IH]. split; [done|]. intros x. rewrite <- IH, elem_of_cons.
      split; [intros [[->|Hx]|Hx]; auto|intros [Hx|Hx]; auto].
    - intros x [->|Hx]%elem_of_cons; auto.
  Qed.

  Lemma omap_fmap {A B C} (f : B -> option C) (g : A -> B) (l : list A) : omap f (g <$> l) = omap (f ∘ g) l.
  Proof. induction l as [|x l IH]; [done|]. csimpl. by rewrite IH. Qed.

  Section Loop.
    Variable libs0 : list (library (path:=path)).
    Variable ui : list path.
    Variable reps0 : list (report (path:=path)).

    Notation reach := (reachable (fun c => c ∈ ui) libs0).

    (* what reading the file [f] contributes: its FileLibrary entry, the paths its
       includes resolve to, and (when its file id is [n]) its reports *)
    Definition entry (f : path) : list (path * bool) :=
      match content f with Unreadable => [] | _ => [(f, bool_decide (f ∈ ui))] end.
    Definition targets (f : path) : list path :=
      match content f with Parsed incs => omap (fun i => resolve f libs0 i.1.1) incs | _ => [] end.
    Definition read_reports (n : nat) (f : path) : list report :=
      match content f with
      | Unreadable => [FileOsError f]
      | Unparsable => [ParsingError n]
      | Parsed incs => omap (unresolved f libs0) (mk_include n <$> incs)
      end.

    Lemma parse_file_spec p black stk files reps read s' :
      parse_file false p (ParseState (FileStack (Some (parent p)) black ui libs0 stk) files reps read) = Ok s' ->
      exists stk',
        s' = ParseState (FileStack (Some (parent p)) black ui libs0 stk') (files ++ entry p)
                        (reps ++ read_reports (length files) p) (read ++ [p]) /\
        forall x, x ∈ stk' \/ x ∈ black <-> x ∈ stk \/ x ∈ targets p \/ x ∈ black.
    Proof.
      unfold Includes.parse_file, Includes.is_user_input, entry, read_reports, targets. simpl.
      destruct (content p) as [| |incs].
      3: { intros H. apply bind_ok in H as ([st' ws] & Ha & [= <-]).
           apply add_includes_resolve in Ha as (stk' & -> & A & ->). rewrite omap_fmap in A. by exists stk'. }
      all: intros [= <-]; exists stk; rewrite ?app_nil_r; split; [done|]; intros x; rewrite elem_of_nil; clear -x; tauto.
    Qed.

    Lemma elem_of_targets f c :
      c ∈ targets f <-> exists incs i, content f = Parsed incs /\ i ∈ incs /\ resolves f libs0 i.1.1 (Some c).
    Proof.
      unfold targets. setoid_rewrite resolves_iff. destruct (content f) as [| |incs].
      3: { rewrite elem_of_list_omap. split; [intros (i & Hi & Hr); eauto|]. intros (incs' & i & [= <-] & Hi). eauto. }
      all: split; [by intros ?%elem_of_nil|by intros (incs & i & ? & _)].
    Qed.

    Lemma elem_of_read_reports n f q fid a b :
      IncludeError q fid a b ∈ read_reports n f <->
      exists incs, content f = Parsed incs /\ (q, a, b) ∈ incs /\ fid = Some n /\ resolves f libs0 q None.
    Proof.
      unfold read_reports. setoid_rewrite resolves_iff. destruct (content f) as [| |incs].
      3: { rewrite elem_of_list_omap. unfold unresolved. split.
           - intros (inc & (i & -> & Hi)%elem_of_list_fmap & Hu). destruct i as [[q' a'] b']. simpl in Hu.
             destruct (resolve f libs0 q') eqn:Er; [done|]. injection Hu as <- <- <- <-. eauto.
           - intros (incs' & [= <-] & Hi & -> & Hr). exists (mk_include n (q, a, b)).
             split; [apply elem_of_list_fmap; eauto|]. simpl. by rewrite Hr. }
      all: split; [by intros ?%elem_of_list_singleton|by intros (incs & ? & _)].
    Qed.

    Lemma elem_of_entries l f u :
      (f, u) ∈ l ≫= entry <-> f ∈ l /\ content f <> Unreadable /\ u = bool_decide (f ∈ ui).
    Proof.
      rewrite elem_of_list_bind. unfold entry. split.
      - intros (y & Hy & Hl). destruct (content y) eqn:E; [by apply elem_of_nil in Hy| |];
          apply elem_of_list_singleton in Hy as [= -> ->]; by rewrite E.
      - intros (Hl & Hc & ->). exists f. split; [|done]. destruct (content f); [done|left|left].
    Qed.

    Lemma entries_lookup_middle l1 f l2 :
      content f <> Unreadable ->
      ((l1 ++ f :: l2) ≫= entry) !! length (l1 ≫= entry) = Some (f, bool_decide (f ∈ ui)).
    Proof.
      intros Hc. rewrite bind_app, bind_cons.
      assert (entry f = [(f, bool_decide (f ∈ ui))]) as -> by (unfold entry; by destruct (content f)).
      by apply list_lookup_middle.
    Qed.

    (* the state of the loop: everything but the stack is a function of the
       sequence of files read so far; what is on the stack or read is
       reachable, and contains the user inputs and the targets of the files read *)
    Record inv (s : parse_state (path:=path)) : Prop := Inv {
      inv_libs : libraries (ps_stack s) = libs0;
      inv_ui : user_inputs (ps_stack s) = ui;
      inv_black : black_paths (ps_stack s) = reverse (ps_read s);
      inv_nodup : NoDup (ps_read s);
      inv_files : ps_files s = ps_read s ≫= entry;
      inv_reports : forall x, x ∈ ps_reports s <->
        x ∈ reps0 \/ exists l1 f l2, ps_read s = l1 ++ f :: l2 /\ x ∈ read_reports (length (l1 ≫= entry)) f;
      inv_sound : forall c, c ∈ stack (ps_stack s) \/ c ∈ ps_read s -> reach c;
      inv_closed : forall c, c ∈ ui \/ (exists f, f ∈ ps_read s /\ c ∈ targets f) ->
        c ∈ stack (ps_stack s) \/ c ∈ ps_read s;
    }.

    Lemma initial_inv : inv (ParseState (FileStack None [] ui libs0 ui) [] reps0 []).
    Proof.
      constructor; simpl; try done.
      - constructor.
      - intros x. split; [by left|]. intros [Hx|(l1 & f & l2 & E & _)]; [done|]. by destruct l1.
      - intros c [Hc|Hc%elem_of_nil]; [by apply reach_named|done].
      - intros c [Hc|(f & Hf%elem_of_nil & _)]; [by left|done].
    Qed.

    Lemma parse_step s p st s' :
      inv s -> take_next (ps_stack s) = (Some p, st) ->
      parse_file false p (ParseState st (ps_files s) (ps_reports s) (ps_read s)) = Ok s' ->
      inv s' /\ ps_read s' = ps_read s ++ [p].
    Proof.
      intros [Il Iu Ib In If Ir Is Ic]. unfold Includes.take_next.
      pose proof (pop_next_spec (black_paths (ps_stack s)) (stack (ps_stack s))) as Hpop.
      destruct (pop_next _ _) as [[p0 rest]|]; [|done]. intros [= -> <-]. destruct Hpop as [Hnb Hpop].
      rewrite Il, Iu, Ib in *. intros (stk' & -> & A)%parse_file_spec. split; [|done].
      (* stack and files read together grow by the targets of [p] *)
      assert (Hcv : forall c, c ∈ stk' \/ c ∈ ps_read s ++ [p] <->
                              (c ∈ stack (ps_stack s) \/ c ∈ ps_read s) \/ c ∈ targets p).
      { intros c. rewrite <- (elem_of_reverse c (ps_read s ++ [p])), reverse_snoc, A.
        rewrite <- (elem_of_reverse c (ps_read s)), Hpop, !elem_of_cons.
        split; [intros [Hc|[Hc|[Hc|Hc]]]|intros [[[Hc|Hc]|Hc]|Hc]]; auto. }
      assert (Hp : p ∈ stack (ps_stack s)) by (destruct (proj2 (Hpop p)) as [Hp|Hp]; [left; left|done|done]).
      constructor; simpl.
      - done.
      - done.
      - by rewrite reverse_snoc.
      - apply NoDup_app. split; [done|]. split; [|apply NoDup_singleton].
        intros x Hx ->%elem_of_list_singleton. by apply Hnb, elem_of_reverse.
      - by rewrite bind_app, bind_singleton, If.
      - intros x. rewrite elem_of_app, Ir, If. split.
        + intros [[Hx|(l1 & f & l2 & -> & Hx)]|Hx]; [by left| |]; right.
          * exists l1, f, (l2 ++ [p]). by rewrite <- app_assoc.
          * by exists (ps_read s), p, [].
        + intros [Hx|(l1 & f & l2 & E & Hx)]; [left; by left|]. destruct l2 as [|y l2 _] using rev_ind.
          * apply app_inj_tail in E as [-> ->]. by right.
          * rewrite app_comm_cons, app_assoc in E. apply app_inj_tail in E as [-> _]. left; right. eauto.
      - intros c [Hc|Hc]%Hcv; [by apply Is|].
        apply elem_of_targets in Hc as (incs & i & Hc & Hi & Hr). eapply reach_include; [|done..]. apply Is. by left.
      - intros c [Hc|(f & [Hf| ->%elem_of_list_singleton]%elem_of_app & Hc)]; apply Hcv;
          [left; apply Ic; by left|left; apply Ic; right; eauto|by right].
    Qed.

    Lemma parse_loop_inv fuel : forall s s',
      inv s -> parse_loop false fuel s = Ok s' -> inv s' /\ stack (ps_stack s') = [].
    Proof.
      induction fuel as [|fuel IH]; intros s s' I Hl; simpl in Hl; [discriminate|].
      destruct (take_next (ps_stack s)) as [[p|] st] eqn:Et.
      { apply bind_ok in Hl as (s1 & Hp & Hl). eapply parse_step in Hp as [I1 _]; eauto. }
      (* the stack holds visited files only: it is emptied *)
      injection Hl as <-. destruct I as [Il Iu Ib In If Ir Is Ic]. unfold Includes.take_next in Et.
      pose proof (pop_next_spec (black_paths (ps_stack s)) (stack (ps_stack s))) as Hpop.
      destruct (pop_next _ _) as [[p rest]|]; [done|]. injection Et as <-. split; [|done].
      constructor; simpl; try done.
      - intros c [Hc%elem_of_nil|Hc]; [done|]. apply Is. by right.
      - intros c Hc. right. apply Ic in Hc as [Hc|Hc]; [|done].
        apply Hpop in Hc. rewrite Ib in Hc. by apply elem_of_reverse.
    Qed.

    Lemma entries_NoDup l : NoDup l -> NoDup (l ≫= entry).*1.
    Proof.
      induction 1 as [|f l Hf _ IH]; [constructor|]. rewrite bind_cons, fmap_app.
      unfold entry at 1. destruct (content f); simpl; try done.
      all: apply NoDup_cons; split; [|done]; by intros ([g u] & -> & (Hg & _)%elem_of_entries)%elem_of_list_fmap.
    Qed.

    (* a file that was read has its reports in the list, under the file id of its FileLibrary entry *)
    Lemma inv_reported s f :
      inv s -> f ∈ ps_read s ->
      exists n, (content f <> Unreadable -> ps_files s !! n = Some (f, bool_decide (f ∈ ui))) /\
                forall x, x ∈ read_reports n f -> x ∈ ps_reports s.
    Proof.
      intros I (l1 & l2 & E)%elem_of_list_split. exists (length (l1 ≫= entry)). split.
      - rewrite (inv_files _ I), E. apply entries_lookup_middle.
      - intros x Hx. apply (inv_reports _ I). right. by exists l1, f, l2.
    Qed.

    (* termination: the files read are distinct canonical paths, so their
       number is bounded by the number of canonical paths of the file system *)
    Hypothesis libs0_ok : Forall lib_from_file libs0.
    Hypothesis ui_ok : Forall canonical ui.

    Lemma reach_canonical c : reach c -> canonical c.
    Proof.
      intros [c' Hc|f incs i c' _ _ _ Hr]; [by eapply Forall_forall in Hc|by eapply resolves_canonical].
    Qed.

    Variable universe : list path.
    Hypothesis universe_complete : forall p c, canon p = Some c -> c ∈ universe.

    Lemma inv_bound s : inv s -> length (ps_read s) <= length universe.
    Proof.
      intros I. apply submseteq_length, NoDup_submseteq; [by destruct I|].
      intros x Hx. eapply universe_complete, reach_canonical, (inv_sound _ I). by right.
    Qed.

    Lemma parse_file_not_oof d p s : parse_file d p s <> OutOfFuel.
    Proof.
      assert (S : forall inc libs, search_libraries d inc libs <> OutOfFuel).
      { intros inc. induction libs as [|l libs IH]; simpl; [done|]. by repeat case_match. }
      assert (A : forall st inc, add_include d st inc <> OutOfFuel).
      { intros st inc. unfold Includes.add_include, Includes.include_library.
        repeat case_match; try done; (apply bind_not_oof; [done|]); intros r _; by case_match. }
      assert (B : forall incs st ws, add_includes d st incs ws <> OutOfFuel).
      { induction incs as [|inc incs IH]; intros st ws; simpl; [done|]. by apply bind_not_oof. }
      unfold Includes.parse_file. case_match; try done. by apply bind_not_oof.
    Qed.

    Lemma parse_loop_fuel fuel : forall s,
      inv s -> length universe < fuel + length (ps_read s) -> parse_loop false fuel s <> OutOfFuel.
    Proof.
      induction fuel as [|fuel IH]; intros s I Hlen; simpl.
      - apply inv_bound in I. lia.
      - destruct (take_next (ps_stack s)) as [[p|] st] eqn:Et; [|done].
        apply bind_not_oof; [apply parse_file_not_oof|]. intros s1 Ep.
        eapply parse_step in Ep as [I1 E1]; eauto. apply IH; [done|]. rewrite E1, app_length. simpl. lia.
    Qed.
  End Loop.

  Lemma reachable_ext (n1 n2 : path -> Prop) libs c :
    (forall x, n1 x -> n2 x) -> reachable n1 libs c -> reachable n2 libs c.
  Proof. intros Hn Hr. induction Hr; [apply reach_named; auto|by eapply reach_include]. Qed.

  (* the user-input set holds named files only, and all of them when no directory was met twice (fix
     517e7a0 skips the second visit) or, without that premise, those given as arguments *)
  (* a finished run: [ui] the user inputs and [reps0] the reports FileStack::new made *)
  Record finished dfuel paths libs (s : parse_state (path:=path)) ui reps0 : Prop := {
    run_inv : inv (add_libraries libs []).1 ui reps0 s;
    run_stack : stack (ps_stack s) = [];
    run_new : new dfuel paths libs [] = Ok (FileStack None [] ui (add_libraries libs []).1 ui, reps0);
    run_canonical : Forall canonical ui;
    run_os : Forall only_os reps0;
    run_named : forall c, c ∈ ui -> named paths c;
    run_complete : forall p c, p ∈ paths -> expands true p c ->
                   dirs_revisited dfuel paths libs = false \/ is_dir p = false -> c ∈ ui }.
  Arguments run_inv {_ _ _ _ _ _}.
  Arguments run_stack {_ _ _ _ _ _}.
  Arguments run_new {_ _ _ _ _ _}.
  Arguments run_canonical {_ _ _ _ _ _}.
  Arguments run_os {_ _ _ _ _ _}.
  Arguments run_named {_ _ _ _ _ _}.
  Arguments run_complete {_ _ _ _ _ _}.

  Lemma parse_files_inv dfuel fuel paths libs s :
    parse_files false dfuel fuel paths libs = Ok s -> exists ui reps0, finished dfuel paths libs s ui reps0.
  Proof.
    unfold Includes.parse_files. intros Hp. apply bind_ok in Hp as ([st0 reps0] & Hn & Hl).
    destruct (new_spec _ _ _ _ _ Hn) as (ui & -> & N1 & N2 & N3 & N4). exists ui, reps0.
    eapply parse_loop_inv in Hl as [I Hstk]; [|apply initial_inv]. by constructor.
  Qed.

  Lemma libraries_from_files libs : Forall lib_from_file (add_libraries libs []).1.
  Proof. apply add_libraries_spec. Qed.

  (* C19: no canonical path is parsed twice *)
  Lemma each_canonical_file_once dfuel fuel paths libs s :
    parse_files false dfuel fuel paths libs = Ok s ->
    Forall canonical (ps_read s) /\
    forall i j p q, ps_read s !! i = Some p -> ps_read s !! j = Some q -> canon p = canon q -> i = j.
  Proof.
    intros (ui & reps0 & R)%parse_files_inv. pose proof (run_inv R) as I. pose proof (run_canonical R) as Hui.
    assert (C : Forall canonical (ps_read s)).
    { apply Forall_forall. intros x Hx. eapply reach_canonical, (inv_sound _ _ _ _ I); [apply libraries_from_files|done|by right]. }
    split; [done|]. intros i j p q Hi Hj Hc. rewrite Forall_forall in C.
    rewrite (C p), (C q) in Hc by (by eapply elem_of_list_lookup_2). injection Hc as <-.
    by eapply NoDup_lookup, Hj; [apply (inv_nodup _ _ _ _ I)|].
  Qed.

  (* no premise: the files read are closed under resolved includes *)
  Lemma reads_closed dfuel fuel paths libs s f incs x c :
    parse_files false dfuel fuel paths libs = Ok s ->
    f ∈ ps_read s -> content f = Parsed incs -> x ∈ incs ->
    resolves f (add_libraries libs []).1 x.1.1 (Some c) -> c ∈ ps_read s.
  Proof.
    intros (ui & reps0 & R)%parse_files_inv Hf Hc Hx Hr.
    destruct (inv_closed _ _ _ _ (run_inv R) c) as [H1|H1]; [|by rewrite (run_stack R) in H1; apply elem_of_nil in H1|done].
    right. exists f. split; [done|]. apply elem_of_targets. eauto.
  Qed.

  (* the half that needs no premise: every file read is reachable from a named file *)
  Lemma reads_only_reachable dfuel fuel paths libs s :
    parse_files false dfuel fuel paths libs = Ok s ->
    forall c, c ∈ ps_read s -> reachable (named paths) (add_libraries libs []).1 c.
  Proof.
    intros (ui & reps0 & R)%parse_files_inv c Hc.
    eapply reachable_ext; [apply (run_named R)|]. apply (inv_sound _ _ _ _ (run_inv R)). by right.
  Qed.

  (* C19: the files read are exactly those reachable from the named files by
     resolving includes relative to the including file first and through the
     libraries in order second *)
  Lemma reads_exactly_reachable dfuel fuel paths libs s :
    dirs_revisited dfuel paths libs = false ->
    parse_files false dfuel fuel paths libs = Ok s ->
    forall c, c ∈ ps_read s <-> reachable (named paths) (add_libraries libs []).1 c.
  Proof.
    intros Hno Hp c. split; [by apply (reads_only_reachable _ _ _ _ _ Hp)|].
    induction 1 as [c (p & Hp' & He)|f incs x c _ IH Hc Hx Hr]; [|by eapply reads_closed].
    apply parse_files_inv in Hp as (ui & reps0 & R).
    destruct (inv_closed _ _ _ _ (run_inv R) c) as [H1|H1]; [|by rewrite (run_stack R) in H1; apply elem_of_nil in H1|done].
    left. by apply (run_complete R p); [| |left].
  Qed.

  (* C19: an include error carries the file id and the range of an unresolved
     include statement of a file that was read, and every such statement has one *)
  Lemma unresolved_include_error_located dfuel fuel paths libs s :
    parse_files false dfuel fuel paths libs = Ok s ->
    (forall p fid a b, IncludeError p fid a b ∈ ps_reports s ->
       exists i f u incs, fid = Some i /\ ps_files s !! i = Some (f, u) /\ f ∈ ps_read s /\
                          content f = Parsed incs /\ (p, a, b) ∈ incs /\
                          resolves f (add_libraries libs []).1 p None) /\
    (forall f incs p a b, f ∈ ps_read s -> content f = Parsed incs -> (p, a, b) ∈ incs ->
       resolves f (add_libraries libs []).1 p None ->
       exists i u, ps_files s !! i = Some (f, u) /\ IncludeError p (Some i) a b ∈ ps_reports s).
  Proof.
    intros (ui & reps0 & R)%parse_files_inv. pose proof (run_inv R) as I. pose proof (run_os R) as Hos.
    split.
    - intros p fid a b [Hi|(l1 & f & l2 & E & Hi)]%(inv_reports _ _ _ _ I).
      { rewrite Forall_forall in Hos. by destruct (Hos _ Hi). }
      apply elem_of_read_reports in Hi as (incs & Hc & Hi & -> & Hr). eexists _, f, _, incs.
      split; [done|]. rewrite (inv_files _ _ _ _ I), E. split; [apply entries_lookup_middle; congruence|].
      split; [|done]. apply elem_of_app. right; left.
    - intros f incs p a b Hf Hc Hx Hr. destruct (inv_reported _ _ _ _ _ I Hf) as (n & Hn & Hrep).
      eexists n, _. split; [apply Hn; congruence|]. apply Hrep, elem_of_read_reports. eauto.
  Qed.

  (* C19: the user-input set is the set of files named on the command line *)
  Lemma user_set_is_argv_files dfuel paths libs st reps :
    dirs_revisited dfuel paths libs = false ->
    new dfuel paths libs [] = Ok (st, reps) ->
    forall c, is_user_input st c = true <-> named paths c.
  Proof.
    intros Hno (ui & -> & _ & _ & N1 & N2)%new_spec c. unfold Includes.is_user_input. rewrite bool_decide_eq_true.
    split; [apply N1|]. intros (p & Hp & He). by apply (N2 p); [| |left].
  Qed.

  (* without a premise: a user input is a named file, and every argument that
     is not a directory is a user input *)
  Lemma user_set_sound dfuel paths libs st reps :
    new dfuel paths libs [] = Ok (st, reps) ->
    (forall c, is_user_input st c = true -> named paths c) /\
    (forall p c, p ∈ paths -> is_dir p = false -> canon p = Some c -> is_user_input st c = true).
  Proof.
    intros (ui & -> & _ & _ & N1 & N2)%new_spec. unfold Includes.is_user_input.
    setoid_rewrite bool_decide_eq_true. split; [done|].
    intros p c Hp Hd Hc. eapply N2; [done|by apply expands_file|by right].
  Qed.

  (* the FileLibrary holds the files read that could be opened, in that order,
     each with its user-input flag *)
  Lemma files_of_reads dfuel fuel paths libs s :
    parse_files false dfuel fuel paths libs = Ok s ->
    NoDup (ps_read s) /\ ps_files s = ps_read s ≫= entry (user_inputs (ps_stack s)).
  Proof.
    intros (ui & reps0 & [I])%parse_files_inv. destruct I. by subst ui.
  Qed.

  Lemma elem_of_files dfuel fuel paths libs s f u :
    parse_files false dfuel fuel paths libs = Ok s ->
    (f, u) ∈ ps_files s <-> f ∈ ps_read s /\ content f <> Unreadable /\ u = is_user_input (ps_stack s) f.
  Proof. intros [_ ->]%files_of_reads. apply elem_of_entries. Qed.

  Lemma files_unique dfuel fuel paths libs s i j f u u' :
    parse_files false dfuel fuel paths libs = Ok s ->
    ps_files s !! i = Some (f, u) -> ps_files s !! j = Some (f, u') -> i = j.
  Proof.
    intros [Hnd ->]%files_of_reads Hi Hj.
    eapply NoDup_lookup; [by apply entries_NoDup| |]; rewrite list_lookup_fmap; [by rewrite Hi|by rewrite Hj].
  Qed.

  (* the reports of FileStack::new are kept; a file that cannot be opened or parsed is reported *)
  Lemma read_files_reported dfuel fuel paths libs s :
    parse_files false dfuel fuel paths libs = Ok s ->
    (forall st0 reps0 x, new dfuel paths libs [] = Ok (st0, reps0) -> x ∈ reps0 -> x ∈ ps_reports s) /\
    (forall f, f ∈ ps_read s -> content f = Unreadable -> FileOsError f ∈ ps_reports s) /\
    (forall i f u, ps_files s !! i = Some (f, u) -> content f = Unparsable -> ParsingError i ∈ ps_reports s).
  Proof.
    intros Hp. pose proof (parse_files_inv _ _ _ _ _ Hp) as (ui & reps0 & R).
    pose proof (run_inv R) as I. pose proof (run_new R) as Hn. split; [|split].
    - intros st0 reps0' x Hn' Hx. rewrite Hn in Hn'. injection Hn' as _ <-. apply (inv_reports _ _ _ _ I). by left.
    - intros f Hf Hc. destruct (inv_reported _ _ _ _ _ I Hf) as (n & _ & Hrep).
      apply Hrep. unfold read_reports. rewrite Hc. left.
    - intros i f u Hi Hc. assert (Hf : f ∈ ps_read s) by (by eapply (elem_of_files _ _ _ _ _ _ _ Hp), elem_of_list_lookup_2).
      destruct (inv_reported _ _ _ _ _ I Hf) as (n & Hn' & Hrep).
      assert (i = n) as -> by (eapply (files_unique _ _ _ _ _ _ _ _ _ _ Hp Hi), Hn'; congruence).
      apply Hrep. unfold read_reports. rewrite Hc. left.
  Qed.

  (* C19: a file that was only included is not a user input, a named one is *)
  Lemma included_only_files_are_not_user_inputs dfuel fuel paths libs s :
    dirs_revisited dfuel paths libs = false ->
    parse_files false dfuel fuel paths libs = Ok s ->
    (forall c, is_user_input (ps_stack s) c = true <-> named paths c) /\
    forall i f u, ps_files s !! i = Some (f, u) -> f ∈ ps_read s /\ (u = true <-> named paths f).
  Proof.
    intros Hno Hp.
    assert (U : forall c, is_user_input (ps_stack s) c = true <-> named paths c).
    { apply parse_files_inv in Hp as (ui & reps0 & R). intros c.
      rewrite <- (user_set_is_argv_files _ _ _ _ _ Hno (run_new R) c). unfold Includes.is_user_input.
      by rewrite (inv_ui _ _ _ _ (run_inv R)). }
    split; [done|]. intros i f u (Hf & _ & ->)%elem_of_list_lookup_2%(elem_of_files _ _ _ _ _ _ _ Hp). by split.
  Qed.

  (* C19: termination.  Directory expansion needs fuel above the nesting depth
     of the named directories; the loop needs fuel above the number of
     canonical paths. *)
  Lemma depth_le_dir k p names :
    depth_le k p -> is_dir p = true -> read_dir p = Some names ->
    exists k', k = S k' /\ Forall (depth_le k') (map (join p) names).
  Proof.
    intros [k' p' Hd|k' p' _ Hr|k' p' names' _ Hr Hn] Ed Er; [congruence|congruence|].
    exists k'. split; [done|]. rewrite Hr in Er. injection Er as <-.
    apply Forall_forall. intros x (n & -> & Hx)%elem_of_list_fmap. auto.
  Qed.

  Lemma add_files_fuel k : forall named paths acc,
    Forall (depth_le k) paths -> add_files (S k) named paths acc <> OutOfFuel.
  Proof.
    induction k as [k IHk] using lt_wf_ind. intros named.
    induction paths as [|p rest IH]; intros acc Hd; [done|]. apply Forall_cons in Hd as [Hp Hrest].
    rewrite add_files_cons. apply bind_not_oof; [|auto].
    destruct (is_dir p) eqn:Ed; [|done]. destruct (read_dir p) as [names|] eqn:Er; [|done].
    destruct (depth_le_dir _ _ _ Hp Ed Er) as (k' & -> & Hn). apply IHk; [lia|done].
  Qed.

  Lemma add_files_once_fuel k : forall nm paths dirs acc,
    Forall (depth_le k) paths -> add_files_once (S k) nm paths dirs acc <> OutOfFuel.
  Proof.
    induction k as [k IHk] using lt_wf_ind. intros nm.
    induction paths as [|p rest IH]; intros dirs acc Hd; [done|]. apply Forall_cons in Hd as [Hp Hrest].
    rewrite add_files_once_cons. apply bind_not_oof; [|auto].
    destruct (is_dir p) eqn:Ed; [|done]. destruct (visit p dirs); [|done].
    destruct (read_dir p) as [names|] eqn:Er; [|done].
    destruct (depth_le_dir _ _ _ Hp Ed Er) as (k' & -> & Hn). apply IHk; [lia|done].
  Qed.

  Lemma include_terminates universe k fuel paths libs :
    (forall p c, canon p = Some c -> c ∈ universe) ->
    Forall (depth_le k) paths ->
    length universe < fuel ->
    parse_files false (S k) fuel paths libs <> OutOfFuel.
  Proof.
    intros Hu Hd Hf. unfold Includes.parse_files. apply bind_not_oof.
    - unfold Includes.new. destruct (add_libraries libs []) as [ls r0].
      apply bind_not_oof; [by apply add_files_once_fuel|done].
    - intros [st0 reps0] (ui & -> & Hui & _)%new_spec.
      eapply parse_loop_fuel; [apply libraries_from_files|done|done|apply initial_inv|simpl; lia].
  Qed.

  (* the number of files read is bounded by the number of canonical paths *)
  Lemma reads_bounded universe dfuel fuel paths libs s :
    (forall p c, canon p = Some c -> c ∈ universe) ->
    parse_files false dfuel fuel paths libs = Ok s -> length (ps_read s) <= length universe.
  Proof.
    intros Hu (ui & reps0 & R)%parse_files_inv. pose proof (run_inv R) as I. pose proof (run_canonical R) as Hui.
    eapply inv_bound; [apply libraries_from_files|done..].
  Qed.

  (* every include statement of a parsed file either resolves to a FILE, which
     is then read, or is reported at the statement (before the repair recorded
     as C19-include-unreadable a directory of that name was pushed and the
     only report was an OS error without location) *)
  Definition include_served (libs : list library) (s : parse_state (path:=path)) (f p : path) (a b : nat) : Prop :=
    (exists c, resolves f libs p (Some c) /\ c ∈ ps_read s) \/
    (resolves f libs p None /\
     exists i u, ps_files s !! i = Some (f, u) /\ IncludeError p (Some i) a b ∈ ps_reports s).

  Lemma every_include_served dfuel fuel paths libs s f incs p a b :
    parse_files false dfuel fuel paths libs = Ok s ->
    f ∈ ps_read s -> content f = Parsed incs -> (p, a, b) ∈ incs ->
    include_served (add_libraries libs []).1 s f p a b.
  Proof.
    intros Hp Hf Hc Hx.
    destruct (resolve f (add_libraries libs []).1 p) as [c|] eqn:Hr; apply resolves_iff in Hr.
    - left. exists c. split; [done|].
      by apply (reads_closed _ _ _ _ _ f incs (p, a, b) c Hp).
    - right. split; [done|]. by eapply (proj2 (unresolved_include_error_located _ _ _ _ _ Hp)).
  Qed.
End IncludesProofs.

(* D23: the code before the repair parsed a file twice when it was reached
   through `-L dir` and through a relative include.  Two-file witness
   (`circomspect -L lib p/main.circom` in /r, main.circom including
   "x.circom" and "../lib/x.circom"), evaluated on the mirror of the old
   code ([d23 = true]) and of the repaired code. *)

Definition d23_fs : fs_data := FsData
  [ (str "p/main.circom", Some (str "/r/p/main.circom"));
    (str "lib", Some (str "/r/lib"));
    (str "/r/p/x.circom", None);
    (str "lib/x.circom", Some (str "/r/lib/x.circom"));
    (str "/r/p/../lib/x.circom", Some (str "/r/lib/x.circom"));
    (str "/r/p/main.circom", Some (str "/r/p/main.circom"));
    (str "/r/lib", Some (str "/r/lib"));
    (str "/r/lib/x.circom", Some (str "/r/lib/x.circom")) ]
  [ (str "lib", [str "x.circom"]) ]
  [ str "/r/p/main.circom"; str "/r/lib/x.circom" ]
  [ (str "/r/p/main.circom", Parsed [(str "x.circom", 21, 40); (str "../lib/x.circom", 41, 67)]);
    (str "/r/lib/x.circom", Parsed []);
    (str "lib/x.circom", Parsed []) ].
Definition d23_argv : list spath := [str "p/main.circom"].
Definition d23_libs : list spath := [str "lib"].

(* some file is read under two spellings of one canonical path *)
Definition parsed_twice (d : fs_data) (r : outcome (parse_state (path:=spath))) : Prop :=
  exists s i j p q, r = Ok s /\ i <> j /\ ps_read s !! i = Some p /\ ps_read s !! j = Some q /\
                    is_Some (d_canon d p) /\ d_canon d p = d_canon d q.

Lemma d23_witness_wellformed : canon_idempotent_b d23_fs = true.
Proof. vm_compute. reflexivity. Qed.

Lemma d23_old_code_parses_twice : parsed_twice d23_fs (run_project true d23_fs d23_argv d23_libs).
Proof.
  eexists _, 1, 2, (str "/r/lib/x.circom"), (str "lib/x.circom").
  split; [vm_compute; reflexivity|].
  split; [discriminate|]. split; [reflexivity|]. split; [reflexivity|].
  split; [by eexists|]. vm_compute. reflexivity.
Qed.

Lemma d23_repaired_code_reads :
  exists s, run_project false d23_fs d23_argv d23_libs = Ok s /\
            ps_read s = [str "/r/p/main.circom"; str "/r/lib/x.circom"].
Proof. eexists. split; vm_compute; reflexivity. Qed.

(* the boolean check on a table is the premise of the theorems *)
Lemma assoc_In {B} k (l : list (spath * B)) v : assoc k l = Some v -> In (k, v) l.
Proof.
  induction l as [|[k' v'] l IH]; simpl; [discriminate|].
  destruct (decide (k' = k)) as [->|]; [intros E; inversion E; auto|auto].
Qed.

Lemma canon_idempotent_b_spec d :
  canon_idempotent_b d = true -> forall p c, d_canon d p = Some c -> d_canon d c = Some c.
Proof.
  unfold canon_idempotent_b. rewrite forallb_forall. intros Hall p c Hp.
  unfold d_canon in Hp at 1. destruct (assoc p (fs_canon d)) as [r|] eqn:E; [|discriminate]. subst r.
  apply assoc_In in E. apply Hall in E. simpl in E. by apply bool_decide_eq_true in E.
Qed.

Lemma d23_canon_idem : forall p c, d_canon d23_fs p = Some c -> d_canon d23_fs c = Some c.
Proof. apply canon_idempotent_b_spec, d23_witness_wellformed. Qed.

(* the instance that is run against the implementation: its loop fuel is
   sufficient, and it reads no canonical path twice *)
Lemma run_project_fuel_ok d argv libs :
  canon_idempotent_b d = true ->
  Forall (depth_le (d_is_dir d) (d_read_dir d) s_join 63) argv ->
  run_project false d argv libs <> OutOfFuel.
Proof.
  intros Hc Hd. unfold run_project. change dir_fuel with (S 63).
  apply include_terminates with (universe := canonical_paths d); [by apply canon_idempotent_b_spec| |done|lia].
  intros p c Hp. unfold canonical_paths. apply elem_of_list_omap.
  unfold d_canon in Hp. destruct (assoc p (fs_canon d)) as [r|] eqn:E; [|discriminate]. subst r.
  exists (p, Some c). split; [|done]. apply elem_of_list_In. by apply assoc_In.
Qed.

(* the decided form of the nesting-depth premise implies the premise *)
Lemma depth_le_b_sound {path : Type} (is_dir : path -> bool) (read_dir : path -> option (list path))
      (join : path -> path -> path) (k : nat) :
  forall p, depth_le_b is_dir read_dir join k p = true -> depth_le is_dir read_dir join k p.
Proof.
  induction k as [|k IHk]; intros p H; simpl in H;
    (destruct (is_dir p) eqn:Ed; [|by apply depth_file]);
    (destruct (read_dir p) as [names|] eqn:Er; [|by apply depth_unreadable]).
  - discriminate.
  - eapply depth_dir; [done|done|]. intros n Hn. apply IHk.
    rewrite forallb_forall in H. apply H. by apply elem_of_list_In.
Qed.

(* both premises in their decided form, as the driver evaluates them on every project *)
Lemma run_project_fuel_ok_decided d argv libs :
  canon_idempotent_b d = true ->
  depth_ok_b d argv = true ->
  run_project false d argv libs <> OutOfFuel.
Proof.
  intros Hc Hd. apply run_project_fuel_ok; [done|].
  apply Forall_forall. intros p Hp. apply depth_le_b_sound.
  unfold depth_ok_b in Hd. rewrite forallb_forall in Hd. apply Hd. by apply elem_of_list_In.
Qed.

Lemma run_project_each_file_once d argv libs s :
  canon_idempotent_b d = true ->
  run_project false d argv libs = Ok s ->
  forall i j p q, ps_read s !! i = Some p -> ps_read s !! j = Some q -> d_canon d p = d_canon d q -> i = j.
Proof.
  intros Hc Hr. eapply each_canonical_file_once in Hr as [_ H]; [done|]. by apply canon_idempotent_b_spec.
Qed.

(* C19-include-unreadable (repaired): `include "sub";` where sub is a
   directory next to the including file.  The directory is no longer pushed;
   the resolution goes on through the libraries and ends in the include
   error located at the statement. *)

Definition kf_dir_fs : fs_data := FsData
  [ (str "q/main.circom", Some (str "/r/q/main.circom"));
    (str "/r/q/sub", Some (str "/r/q/sub"));
    (str "/r/q/main.circom", Some (str "/r/q/main.circom")) ]
  [ ]
  [ str "/r/q/main.circom" ]
  [ (str "/r/q/main.circom", Parsed [(str "sub", 21, 35)]);
    (str "/r/q/sub", Unreadable) ].

Lemma dir_include_is_located :
  canon_idempotent_b kf_dir_fs = true /\
  exists s, run_project false kf_dir_fs [str "q/main.circom"] [] = Ok s /\
            ps_read s = [str "/r/q/main.circom"] /\
            ps_reports s = [IncludeError (str "sub") (Some 0) 21 35].
Proof. split; [vm_compute; reflexivity|]. eexists. split; [vm_compute; reflexivity|]. split; reflexivity. Qed.
