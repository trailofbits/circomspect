(* Algebraic laws of the mirror of modular_arithmetic.rs (Model.Field): the
   reducing functions form a commutative ring on ALL integers for every
   modulus p > 0, and the comparison operators are a strict total order on the
   signed representatives.  Stated about the mirror's own functions, not about
   the specification, so that an edit of the mirror that keeps each single
   operation plausible but breaks their interplay is seen here. *)
From Coq Require Import ZArith Lia Bool Znumtheory.
Require Import Model.Base Model.Field Spec.FieldSpec Proofs.FieldProofs.
Local Open Scope Z_scope.

Lemma add_comm a b p : add a b p = add b a p.
Proof. unfold add. f_equal. lia. Qed.

Lemma mul_comm a b p : mul a b p = mul b a p.
Proof. unfold mul. f_equal. lia. Qed.

Lemma add_assoc a b c p : 0 < p -> add (add a b p) c p = add a (add b c p) p.
Proof.
  intros Hp. unfold add. rewrite !modulus_spec by lia.
  rewrite Zplus_mod_idemp_l, Zplus_mod_idemp_r. f_equal. lia.
Qed.

Lemma mul_assoc a b c p : 0 < p -> mul (mul a b p) c p = mul a (mul b c p) p.
Proof.
  intros Hp. unfold mul. rewrite !modulus_spec by lia.
  rewrite Zmult_mod_idemp_l, Zmult_mod_idemp_r. f_equal. lia.
Qed.

Lemma mul_add_distr a b c p : 0 < p ->
  mul a (add b c p) p = add (mul a b p) (mul a c p) p.
Proof.
  intros Hp. unfold mul, add. rewrite !modulus_spec by lia.
  rewrite Zmult_mod_idemp_r, <- Zplus_mod. f_equal. lia.
Qed.

Lemma add_zero a p : 0 < p -> add a 0 p = modulus a p.
Proof. intros Hp. unfold add. f_equal. lia. Qed.

Lemma mul_one a p : 0 < p -> mul a 1 p = modulus a p.
Proof. intros Hp. unfold mul. f_equal. lia. Qed.

Lemma sub_self a p : 0 < p -> sub a a p = 0.
Proof. intros Hp. unfold sub. rewrite modulus_spec by lia. rewrite Z.sub_diag. apply Z.mod_0_l. lia. Qed.

Lemma sub_add a b p : 0 < p -> add (sub a b p) b p = modulus a p.
Proof.
  intros Hp. unfold add, sub. rewrite !modulus_spec by lia.
  rewrite Zplus_mod_idemp_l. f_equal. lia.
Qed.

Lemma add_sub a b p : 0 < p -> sub (add a b p) b p = modulus a p.
Proof.
  intros Hp. unfold add, sub. rewrite !modulus_spec by lia.
  rewrite Zminus_mod_idemp_l. f_equal. lia.
Qed.

Lemma add_prefix_sub a p : 0 < p -> add a (prefix_sub a p) p = 0.
Proof.
  intros Hp. unfold add, prefix_sub, mul. rewrite !modulus_spec by lia.
  rewrite Zplus_mod_idemp_r. replace (a + a * -1) with 0 by lia. apply Z.mod_0_l. lia.
Qed.

Lemma prefix_sub_is_sub a p : 0 < p -> prefix_sub a p = sub 0 a p.
Proof. intros Hp. unfold prefix_sub, mul, sub. f_equal. lia. Qed.

Theorem field_ring_laws p : 0 < p -> forall a b c,
  add a b p = add b a p /\
  mul a b p = mul b a p /\
  add (add a b p) c p = add a (add b c p) p /\
  mul (mul a b p) c p = mul a (mul b c p) p /\
  mul a (add b c p) p = add (mul a b p) (mul a c p) p /\
  add a 0 p = modulus a p /\
  mul a 1 p = modulus a p /\
  add a (prefix_sub a p) p = 0 /\
  sub a b p = add a (prefix_sub b p) p /\
  add (sub a b p) b p = modulus a p /\
  sub (add a b p) b p = modulus a p.
Proof.
  intros Hp a b c.
  repeat split; auto using add_comm, mul_comm, add_assoc, mul_assoc, mul_add_distr,
    add_zero, mul_one, add_prefix_sub, sub_add, add_sub.
  unfold sub, add, prefix_sub, mul. rewrite !modulus_spec by lia.
  rewrite Zplus_mod_idemp_r. f_equal. lia.
Qed.

Theorem div_mul_cancel a b p : prime p -> 2 < p -> 0 <= a < p -> 0 <= b < p -> b <> 0 ->
  exists c, div a b p = Ok c /\ mul c b p = a /\
            div (mul a b p) b p = Ok a.
Proof.
  intros Hpr Hp Ha Hb Hb0.
  assert (Hm : 0 <= mul a b p < p) by (apply modulus_range; lia).
  pose proof (div_refines_spec a b p Hpr Hp Ha Hb) as D.
  pose proof (div_refines_spec (mul a b p) b p Hpr Hp Hm Hb) as D2.
  destruct (div a b p) as [c|[]| |]; try contradiction.
  destruct (div (mul a b p) b p) as [d|[]| |]; try contradiction.
  destruct D as (_ & Hc & Hcb). destruct D2 as (_ & Hd & Hdb).
  exists c. split; [reflexivity|]. split.
  - unfold mul. rewrite modulus_spec by lia. exact Hcb.
  - f_equal. apply (div_unique (mul a b p) b p d a Hpr Hb Hb0 Hd Ha Hdb). symmetry. apply modulus_spec. lia.
Qed.

Theorem comparison_trichotomy a b p : 2 < p -> 0 <= a < p -> 0 <= b < p ->
  lesser a b p + eq a b p + greater a b p = 1 /\
  lesser_eq a b p = 1 - greater a b p /\
  greater_eq a b p = 1 - lesser a b p /\
  not_eq a b p = 1 - eq a b p /\
  greater a b p = lesser b a p.
Proof.
  intros Hp Ha Hb. unfold not_eq.
  rewrite lesser_spec, eq_spec, greater_spec, lesser_eq_spec, greater_eq_spec, not_b2z, (lesser_spec b a) by lia.
  rewrite <- (sval_eqb a b p), !Z.leb_antisym by lia.
  destruct (Z.ltb_spec (sval a p) (sval b p)), (Z.ltb_spec (sval b p) (sval a p)),
    (Z.eqb_spec (sval a p) (sval b p)); cbn; lia.
Qed.

Theorem lesser_transitive a b c p :
  lesser a b p = 1 -> lesser b c p = 1 -> lesser a c p = 1.
Proof.
  unfold lesser.
  destruct (Z.ltb_spec (comparable_element a p) (comparable_element b p)); [|discriminate].
  destruct (Z.ltb_spec (comparable_element b p) (comparable_element c p)); [|discriminate].
  destruct (Z.ltb_spec (comparable_element a p) (comparable_element c p)); [reflexivity|lia].
Qed.

Theorem lesser_irreflexive a p : lesser a a p = 0.
Proof. unfold lesser. rewrite Z.ltb_irrefl. reflexivity. Qed.

Theorem boolean_algebra_laws a b p : 2 < p ->
  not (not a p) p = normalize a p /\
  not (bool_and a b p) p = bool_or (not a p) (not b p) p /\
  not (bool_or a b p) p = bool_and (not a p) (not b p) p /\
  bool_and a b p = bool_and b a p /\
  bool_or a b p = bool_or b a p /\
  bool_and a a p = normalize a p /\
  bool_or a a p = normalize a p /\
  bool_and a (not a p) p = 0 /\
  bool_or a (not a p) p = 1.
Proof.
  intros Hp. rewrite !not_truth, !bool_and_truth, !bool_or_truth, !normalize_truth.
  rewrite !as_bool_b2z by lia. destruct (as_bool a p), (as_bool b p); repeat split; reflexivity.
Qed.

Theorem bitwise_laws a b p : 0 < p ->
  bit_and a b p = bit_and b a p /\
  bit_or a b p = bit_or b a p /\
  bit_xor a b p = bit_xor b a p /\
  bit_xor a a p = 0 /\
  bit_and a a p = modulus a p /\
  bit_or a a p = modulus a p /\
  bit_or a 0 p = modulus a p /\
  bit_xor a 0 p = modulus a p /\
  bit_and a 0 p = 0.
Proof.
  intros Hp. unfold bit_and, bit_or, bit_xor.
  rewrite (Z.land_comm a b), (Z.lor_comm a b), (Z.lxor_comm a b).
  rewrite Z.lxor_nilpotent, Z.land_diag, Z.lor_diag, Z.lor_0_r, Z.lxor_0_r, Z.land_0_r.
  assert (modulus 0 p = 0) by (rewrite modulus_spec by lia; apply Z.mod_0_l; lia).
  repeat split; auto.
Qed.
