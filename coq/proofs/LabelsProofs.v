(* Proofs about Model.Labels (C04): provenance and well-formedness of labels,
   no label for file-less (phi) metas, the regenerated constructor table, and
   codespan's offset -> (line, column) on the original text. *)
From Coq Require Import NArith List Bool PeanoNat String Lia Sorted.
Require Import Model.Base Model.Ir Model.Preprocess Model.Labels Gen.LabelSites.
Require Proofs.PreprocessProofs.
Import ListNotations.

Definition source_range (s : source) : N * N :=
  match s with
  | FromMeta _ m | WithFileOf _ _ m | Unwrapped _ m => (m_start m, m_end m)
  | Known _ _ a b => (a, b)
  end.

Definition source_file (s : source) : option N :=
  match s with
  | FromMeta _ m | Unwrapped _ m => m_file m
  | WithFileOf _ o _ => m_file o
  | Known _ f _ _ => Some f
  end.

Definition source_primary (s : source) : bool :=
  match s with FromMeta p _ | WithFileOf p _ _ | Unwrapped p _ | Known p _ _ _ => p end.

Lemma labels_of_source_spec : forall s ls l,
  labels_of_source s = Ok ls -> In l ls ->
  (l_start l, l_end l) = source_range s /\ source_file s = Some (l_file l) /\ l_primary l = source_primary s.
Proof.
  intros s ls l H Hin. destruct s; simpl in *.
  - destruct (m_file m) eqn:E; inversion H; subst; simpl in Hin; [|contradiction].
    destruct Hin as [<-|[]]. simpl. auto.
  - destruct (m_file owner) eqn:E; inversion H; subst; simpl in Hin; [|contradiction].
    destruct Hin as [<-|[]]. simpl. auto.
  - inversion H; subst. destruct Hin as [<-|[]]. simpl. auto.
  - destruct (m_file m) eqn:E; inversion H; subst. destruct Hin as [<-|[]]. simpl. auto.
Qed.

Lemma labels_of_In : forall ss ls l,
  labels_of ss = Ok ls -> In l ls ->
  exists s ls', In s ss /\ labels_of_source s = Ok ls' /\ In l ls'.
Proof.
  induction ss as [|s r IH]; intros ls l H Hin; simpl in H.
  - inversion H; subst. contradiction.
  - destruct (labels_of_source s) as [a| | |] eqn:Ea; simpl in H; try discriminate.
    destruct (labels_of r) as [b| | |] eqn:Eb; simpl in H; try discriminate.
    inversion H; subst. apply in_app_or in Hin as [Hin|Hin].
    + exists s, a. simpl. auto.
    + destruct (IH b l eq_refl Hin) as (s' & ls' & Hs & Hl & Hi).
      exists s', ls'. simpl. auto.
Qed.

Lemma labels_from_sources : forall ss ls l,
  labels_of ss = Ok ls -> In l ls ->
  exists s, In s ss /\ (l_start l, l_end l) = source_range s /\
            source_file s = Some (l_file l) /\ l_primary l = source_primary s.
Proof.
  intros ss ls l H Hin. destruct (labels_of_In _ _ _ H Hin) as (s & ls' & Hs & Hl & Hi).
  exists s. split; [exact Hs|]. eapply labels_of_source_spec; eauto.
Qed.

(* [H : In x l] for a list [l] of Model.Labels written out for one constructor:
   conses, then possibly a [map] over a list of metas or a [match] on an optional
   argument.  One goal per member; only [H] is looked at. *)
Ltac members H :=
  simpl in H; unfold anonymous_component_error, tuple_error in H;
  repeat match type of H with
         | _ \/ _ => destruct H as [<-|H]
         | In _ (map _ _) => apply in_map_iff in H as (? & <- & H)
         | In _ (match ?x with Some _ => _ | None => _ end) => destruct x; simpl in H
         | In _ (let (_, _) := ?x in _) => destruct x; simpl in H
         | False => contradiction
         end.

(* Guarded sources read nodes the constructor was handed; a source with a plain
   file id or an unwrapped one belongs to one of the five unguarded constructors.
   [sources_of] is a table with one row per constructor, and so is the proof. *)
Lemma source_origin : forall c s, In s (sources_of c) ->
  match s with
  | FromMeta _ m => In m (nodes_of c)
  | WithFileOf _ o m => In o (nodes_of c) /\ In m (nodes_of c)
  | Known _ _ a b =>
    guarded_constructor c = false /\
    In (a, b) (parser_ranges_of c ++ map (fun m => (m_start m, m_end m)) (nodes_of c))
  | Unwrapped _ m =>
    In m (nodes_of c) /\ (c = CAnonymousComponentError (Some m) \/ c = CTupleError (Some m))
  end.
Proof. intros c s Hin. destruct c; members Hin; simpl; auto 6. Qed.

(* Every label range of every modelled constructor is the
   range of a node it was handed — statement, expression, declaration,
   parameter list, include statement, definition — or a range handed over by the
   parser / pre-processor (lexical errors); its file id is the file id of a node
   of the same constructor call (or the id of the file being parsed). *)
Theorem labels_from_nodes : forall c ls l,
  labels_of (sources_of c) = Ok ls -> In l ls ->
  ((exists m, In m (nodes_of c) /\ l_start l = m_start m /\ l_end l = m_end m) \/
   In (l_start l, l_end l) (parser_ranges_of c)) /\
  ((exists o, In o (nodes_of c) /\ m_file o = Some (l_file l)) \/ guarded_constructor c = false).
Proof.
  intros c ls l H Hin.
  destruct (labels_from_sources _ _ _ H Hin) as (s & Hs & Hr & Hf & _).
  apply source_origin in Hs. destruct s; simpl in Hr, Hf; injection Hr as -> ->.
  - split; left; exists m; auto.
  - destruct Hs as [Ho Hm]. split; left; [exists m|exists owner]; auto.
  - destruct Hs as [G Hr]. split; [|now right]. apply in_app_or in Hr. destruct Hr as [Hp|Hm]; [now right|].
    apply in_map_iff in Hm. destruct Hm as (m & [= <- <-] & Hm). left. exists m. auto.
  - destruct Hs as [Hm _]. split; left; exists m; auto.
Qed.

(* With
   P s e := s <= e /\ e <= len /\ boundary s /\ boundary e this is: under
   parser_ranges_wellformed every label has start <= end, lies in the file, on
   scalar boundaries. *)
Theorem label_wellformed : forall (P : N -> N -> Prop) c ls l,
  (forall m, In m (nodes_of c) -> P (m_start m) (m_end m)) ->
  (forall r, In r (parser_ranges_of c) -> P (fst r) (snd r)) ->
  labels_of (sources_of c) = Ok ls -> In l ls -> P (l_start l) (l_end l).
Proof.
  intros P c ls l Hn Hp H Hin.
  destruct (labels_from_nodes c ls l H Hin) as [[(m & Hm & -> & ->)|Hr] _].
  - apply Hn. exact Hm.
  - apply (Hp _ Hr).
Qed.

Corollary label_start_le_end : forall c ls l,
  (forall m, In m (nodes_of c) -> (m_start m <= m_end m)%N) ->
  (forall r, In r (parser_ranges_of c) -> (fst r <= snd r)%N) ->
  labels_of (sources_of c) = Ok ls -> In l ls -> (l_start l <= l_end l)%N.
Proof. intros c ls l. apply (label_wellformed (fun s e => (s <= e)%N)). Qed.

(* the two lexical-error ranges built outside the grammar are well formed by construction *)
Lemma unclosed_comment_range_le : forall f o r,
  In r (parser_ranges_of (CUnclosedComment f o)) -> (fst r <= snd r)%N.
Proof. intros f o r [<-|[]]. simpl. lia. Qed.

(* synthesised statements: a constructor of the analysis passes / CFG errors
   that is handed only file-less metas (the `Meta::default()` of phi statements)
   emits no label at all, and does not panic *)
Lemma labels_of_nil : forall ss,
  (forall s, In s ss -> labels_of_source s = Ok []) -> labels_of ss = Ok [].
Proof.
  induction ss as [|s r IH]; intros H; simpl; [reflexivity|].
  rewrite (H s (or_introl eq_refl)). simpl. rewrite IH; [reflexivity|].
  intros s' Hs. apply H. right. exact Hs.
Qed.

Theorem synthesised_statements_have_no_file : forall c,
  guarded_constructor c = true ->
  (forall m, In m (nodes_of c) -> m_file m = None) ->
  labels_of (sources_of c) = Ok [].
Proof.
  intros c G Hn. apply labels_of_nil. intros s Hs. apply source_origin in Hs.
  destruct s; simpl.
  - now rewrite (Hn m Hs).
  - now rewrite (Hn owner (proj1 Hs)).
  - destruct Hs. congruence.
  - destruct Hs as [_ [->| ->]]; discriminate.
Qed.

Corollary phi_statement_gets_no_label : forall c,
  guarded_constructor c = true ->
  (forall m, In m (nodes_of c) -> m = default_meta) ->
  labels_of (sources_of c) = Ok [].
Proof.
  intros c G H. apply synthesised_statements_have_no_file; [exact G|].
  intros m Hm. rewrite (H m Hm). reflexivity.
Qed.

(* a label that IS emitted names the file of a node that has one *)
Theorem label_file_is_a_node_file : forall c ls l,
  guarded_constructor c = true ->
  labels_of (sources_of c) = Ok ls -> In l ls ->
  exists o, In o (nodes_of c) /\ m_file o = Some (l_file l).
Proof.
  intros c ls l G H Hin. destruct (labels_from_nodes c ls l H Hin) as [_ [Ho|G']]; [exact Ho|congruence].
Qed.

(* Range and file id of a label come from ONE node.  The constructors of the
   analysis passes read both from the same meta, except the secondary labels of
   UnconstrainedLessThan / UnderConstrainedSignal, which take the range of
   another node of the same definition with the file id of the primary node
   ([WithFileOf]).  So: if the nodes a constructor call is handed that have a
   file all have the same file ([one_file]: they are nodes of one definition
   body - evaluated by the engine on the labels of every report), the file id
   of a label is the file id of the very node whose range it carries, unless
   that node has no file. *)
Definition one_file (c : constructor) : Prop :=
  forall m m' f f', In m (nodes_of c) -> In m' (nodes_of c) ->
    m_file m = Some f -> m_file m' = Some f' -> f = f'.

Theorem label_range_and_file_of_one_node : forall c ls l,
  guarded_constructor c = true -> one_file c ->
  labels_of (sources_of c) = Ok ls -> In l ls ->
  exists m, In m (nodes_of c) /\ l_start l = m_start m /\ l_end l = m_end m /\
            (m_file m = Some (l_file l) \/ m_file m = None).
Proof.
  intros c ls l G One H Hin.
  destruct (labels_from_sources _ _ _ H Hin) as (s & Hs & Hr & Hf & _).
  apply source_origin in Hs. destruct s; simpl in Hr, Hf; injection Hr as -> ->.
  - exists m. auto.
  - destruct Hs as [Ho Hm]. exists m. repeat split; try assumption.
    destruct (m_file m) as [f'|] eqn:Em; [left|now right]. f_equal. exact (One m owner _ _ Hm Ho Em Hf).
  - destruct Hs. congruence.
  - destruct Hs as [_ [->| ->]]; discriminate.
Qed.

(* T2008 in the model: the later definition (whole range, file being merged) and the parameter list
   of the first definition of the name (the file THAT definition was merged from), both primary *)
Lemma duplicate_definition_labels : forall f d f1 p,
  labels_of (sources_of (CDuplicateDefinition f d (Some (f1, p)))) =
  Ok [mk true f (m_start d) (m_end d); mk true f1 (m_start p) (m_end p)].
Proof. reflexivity. Qed.

(* the only constructors that can panic while building their labels are the two
   that unwrap the file id (TAC01 / TAC02 reports), and only on a file-less meta *)
Lemma labels_of_total : forall ss,
  (exists ls, labels_of ss = Ok ls) \/ exists p m, In (Unwrapped p m) ss /\ m_file m = None.
Proof.
  induction ss as [|s r [(b & IH)|(p & m & Hin & E)]]; simpl; [eauto| |right; eauto].
  rewrite IH. destruct s as [p m|p o m|p f x y|p m]; simpl; try destruct (m_file _) eqn:E; simpl; eauto 7.
Qed.

Theorem label_construction_panics_only_on_unwrap : forall c,
  (forall ls, labels_of (sources_of c) <> Ok ls) ->
  exists m, (c = CAnonymousComponentError (Some m) \/ c = CTupleError (Some m)) /\ m_file m = None.
Proof.
  intros c H. destruct (labels_of_total (sources_of c)) as [(ls & E)|(p & m & Hin & E)].
  - destruct (H ls E).
  - exists m. split; [exact (proj2 (source_origin c _ Hin))|exact E].
Qed.

Definition range_allowed (r : range_src) : bool :=
  match r with LMadeUp => false | _ => true end.

Definition file_shape_of (f : file_src) : file_shape :=
  match f with LFileGuarded => GGuarded | LFileKnown | LFileStored => GKnown | LFileUnwrapped => GUnwrapped end.

Definition style_primary (s : style) : bool := match s with Primary => true | Secondary => false end.

Definition file_shape_eqb (a b : file_shape) : bool :=
  match a, b with GGuarded, GGuarded | GKnown, GKnown | GUnwrapped, GUnwrapped => true | _, _ => false end.

(* consecutive rows of one constructor become one entry *)
Fixpoint group (rows : list (string * string * style * range_src * file_src))
  : list (string * string * list (bool * file_shape)) :=
  match rows with
  | [] => []
  | (f, o, st, _, fs) :: r =>
      match group r with
      | (f', o', sh) :: g =>
          if (String.eqb f f' && String.eqb o o')%bool
          then (f, o, (style_primary st, file_shape_of fs) :: sh) :: g
          else (f, o, [(style_primary st, file_shape_of fs)]) :: (f', o', sh) :: g
      | [] => [(f, o, [(style_primary st, file_shape_of fs)])]
      end
  end.

Fixpoint shape_eqb (a b : list (bool * file_shape)) : bool :=
  match a, b with
  | [], [] => true
  | (p, x) :: a', (q, y) :: b' => Bool.eqb p q && file_shape_eqb x y && shape_eqb a' b'
  | _, _ => false
  end.

Fixpoint shapes_eqb (a b : list (string * string * list (bool * file_shape))) : bool :=
  match a, b with
  | [], [] => true
  | (f, o, s) :: a', (f', o', s') :: b' =>
      String.eqb f f' && String.eqb o o' && shape_eqb s s' && shapes_eqb a' b'
  | _, _ => false
  end.

(* T1: no label of the anchored sources takes its range from anything but a
   node meta or a range field (no arithmetic, no literal, no range built in place) *)
Lemma no_made_up_label_range :
  forallb (fun '(_, _, _, r, _) => range_allowed r) label_sites = true.
Proof. vm_compute. reflexivity. Qed.

(* T2: the label sites found in the sources are exactly the modelled
   constructors, call for call, with the same style and the same guard: a new
   label, a dropped `if let Some(file_id)`, an unwrap, a new constructor — all
   change the regenerated table and break this lemma *)
Lemma label_sites_match_model :
  shapes_eqb (group label_sites) modelled_shapes = true.
Proof. vm_compute. reflexivity. Qed.

(* T3: wherever a report struct is filled, range and optional file id are read
   from the same node (meta / declaration / parameter list), or handed through,
   or a parser token range; a literal range only in the one allowed place *)
Definition fill_allowed (row : string * string * string * fill_src) : bool :=
  let '(f, o, _, c) := row in
  match c with
  | FSameNode | FParserToken | FPassThrough => true
  | FLiteral => existsb (fun '(f', o') => String.eqb f f' && String.eqb o o') literal_range_allowed
  | FOther => false
  end.

Lemma label_fills_from_nodes : forallb fill_allowed label_fills = true.
Proof. vm_compute. reflexivity. Qed.

Lemma at_most_one_literal_range :
  (length (filter (fun '(_, _, _, c) => match c with FLiteral => true | _ => false end) label_fills) <=? 1)%nat = true.
Proof. vm_compute. reflexivity. Qed.

Local Open Scope string_scope.
Definition name_of (c : constructor) : list (string * string) :=
  match c with
  | CSignalAssignment _ _ => [("src/signal_assignments", "SignalAssignmentWarning")]
  | CUnnecessarySignalAssignment _ => [("src/signal_assignments", "UnecessarySignalAssignmentWarning")]
  | CUnusedVariable _ => [("src/side_effect_analysis", "UnusedVariableWarning")]
  | CUnconstrainedSignal _ => [("src/side_effect_analysis", "UnconstrainedSignalWarning")]
  | CUnusedSignal _ => [("src/side_effect_analysis", "UnusedSignalWarning")]
  | CUnusedParameter _ => [("src/side_effect_analysis", "UnusedParameterWarning")]
  | CVariableWithoutSideEffects _ => [("src/side_effect_analysis", "VariableWithoutSideEffectsWarning")]
  | CParamWithoutSideEffects _ => [("src/side_effect_analysis", "ParamWithoutSideEffectsWarning")]
  | CConstantBranchCondition _ => [("src/constant_conditional", "ConstantBranchConditionWarning")]
  | CNonStrictBinaryConversion _ => [("src/nonstrict_binary_conversion", "NonStrictBinaryConversionWarning.Num2Bits");
                                     ("src/nonstrict_binary_conversion", "NonStrictBinaryConversionWarning.Bits2Num")]
  | CBn254SpecificCircuit _ => [("src/bn254_specific_circuit", "Bn254SpecificCircuitWarning")]
  | CUnconstrainedDivision _ => [("src/unconstrained_division", "UnconstrainedDivisionWarning")]
  | CUnusedOutputSignal _ => [("src/unused_output_signal", "UnusedOutputSignalWarning")]
  | CFieldArithmetic _ => [("src/field_arithmetic", "FieldElementArithmeticWarning")]
  | CFieldComparison _ => [("src/field_comparisons", "FieldElementComparisonWarning")]
  | CBitwiseComplement _ => [("src/bitwise_complement", "BitwiseComplementWarning")]
  | CUnconstrainedLessThan _ _ => [("src/unconstrained_less_than", "UnconstrainedLessThanWarning")]
  | CUnderConstrainedSignal _ _ => [("src/under_constrained_signals", "UnderConstrainedSignalWarning")]
  | CTooManyArguments _ => [("src/definition_complexity", "TooManyArgumentsWarning")]
  | CCyclomaticComplexity => []
  | CShadowingVariable _ _ => [("control_flow_graph/errors", "CFGError.ShadowingVariableWarning")]
  | CParameterNameCollision _ => [("control_flow_graph/errors", "CFGError.ParameterNameCollisionError")]
  | CUndefinedVariable _ => [("control_flow_graph/errors", "CFGError.UndefinedVariableError");
                             ("intermediate_representation/errors", "IRError.UndefinedVariableError");
                             ("static_single_assignment/errors", "SSAError.UndefinedVariableError")]
  | CInvalidVariableName _ => [("control_flow_graph/errors", "CFGError.InvalidVariableNameError");
                               ("intermediate_representation/errors", "IRError.InvalidVariableNameError")]
  | CIncludeError _ => [("src/errors", "IncludeError")]
  | CAnonymousComponentError _ => [("src/errors", "AnonymousComponentError")]
  | CTupleError _ => [("src/errors", "TupleError")]
  | CUnclosedComment _ _ => [("src/errors", "UnclosedCommentError")]
  | CParsingError _ _ _ => [("src/errors", "ParsingError")]
  | CDuplicateDefinition _ _ _ => [("program_library/program_merger", "Merger")]
  end.
Local Close Scope string_scope.

Definition shape_in (x : bool * file_shape) (sh : list (bool * file_shape)) : bool :=
  existsb (fun y => Bool.eqb (fst x) (fst y) && file_shape_eqb (snd x) (snd y)) sh.

Definition lookup_shape (n : string * string) : list (bool * file_shape) :=
  match find (fun '(f, o, _) => String.eqb (fst n) f && String.eqb (snd n) o) modelled_shapes with
  | Some (_, _, sh) => sh
  | None => []
  end.

(* T4: every source of every Gallina constructor has a (style, guard) that the
   declared shape of each of its Rust counterparts contains — so together with
   T2 the guards of the model are the guards of the code *)
Lemma model_sources_have_declared_shapes : forall c s n,
  In s (sources_of c) -> In n (name_of c) -> shape_in (shape_of_source s) (lookup_shape n) = true.
Proof. intros c s n Hs Hn. destruct c; members Hn; members Hs; reflexivity. Qed.

Local Open Scope nat_scope.
Local Opaque N.eqb.

Lemma bytes_app : forall u v, bytes (u ++ v) = bytes u + bytes v.
Proof. intros. rewrite <- !PreprocessProofs.text_bytes_bytes. apply PreprocessProofs.text_bytes_app. Qed.

Lemma newlines_app : forall u v, newlines (u ++ v) = newlines u + newlines v.
Proof. intros u v. unfold newlines. rewrite filter_app, app_length. reflexivity. Qed.

Lemma newlines_none : forall u, ~ In 10%N u -> newlines u = 0.
Proof.
  induction u as [|c u IH]; intros H; [reflexivity|]. unfold newlines in *. simpl.
  destruct (N.eqb_spec 10 c) as [E|Hc].
  - exfalso. apply H. left. symmetry. exact E.
  - apply IH. intros Hin. apply H. right. exact Hin.
Qed.

Lemma starts_from_app : forall u v pos,
  starts_from pos (u ++ v) = starts_from pos u ++ starts_from (pos + bytes u) v.
Proof.
  induction u as [|c u IH]; intros v pos; simpl.
  - rewrite Nat.add_0_r. reflexivity.
  - rewrite IH. replace (pos + utf8_len c + bytes u) with (pos + (utf8_len c + bytes u)) by lia.
    destruct (N.eqb c 10); reflexivity.
Qed.

Lemma starts_from_gt : forall l pos y, In y (starts_from pos l) -> pos < y.
Proof.
  induction l as [|c l IH]; intros pos y H; simpl in H; [contradiction|].
  pose proof (PreprocessProofs.utf8_len_pos c).
  destruct (N.eqb c 10).
  - destruct H as [<-|H]; [lia|]. apply IH in H. lia.
  - apply IH in H. lia.
Qed.

Lemma starts_from_le : forall l pos y, In y (starts_from pos l) -> y <= pos + bytes l.
Proof.
  induction l as [|c l IH]; intros pos y H; simpl in H; [contradiction|]. simpl.
  destruct (N.eqb c 10).
  - destruct H as [<-|H]; [lia|]. apply IH in H. lia.
  - apply IH in H. lia.
Qed.

Lemma starts_from_sorted : forall l pos, StronglySorted lt (starts_from pos l).
Proof.
  induction l as [|c l IH]; intros pos; simpl; [constructor|].
  destruct (N.eqb c 10); [|apply IH].
  constructor; [apply IH|]. apply Forall_forall. intros y Hy. apply starts_from_gt in Hy. exact Hy.
Qed.

Lemma length_starts_from : forall l pos, length (starts_from pos l) = newlines l.
Proof.
  induction l as [|c l IH]; intros pos; [reflexivity|]. unfold newlines in *. simpl.
  rewrite (N.eqb_sym 10 c). destruct (N.eqb c 10); simpl; rewrite IH; reflexivity.
Qed.

Lemma starts_from_no_newline : forall l pos, ~ In 10%N l -> starts_from pos l = [].
Proof.
  intros l pos H. apply length_zero_iff_nil. rewrite length_starts_from. apply newlines_none. exact H.
Qed.

Definition count_le (x : nat) (l : list nat) : nat := length (filter (fun y => y <=? x) l).

Lemma count_le_none : forall x l, (forall y, In y l -> x < y) -> count_le x l = 0.
Proof.
  intros x. induction l as [|y l IH]; intros H; [reflexivity|]. unfold count_le in *. simpl.
  destruct (Nat.leb_spec y x) as [Hle|_].
  - specialize (H y (or_introl eq_refl)). lia.
  - apply IH. intros z Hz. apply H. right. exact Hz.
Qed.

Lemma count_le_all : forall x l, (forall y, In y l -> y <= x) -> count_le x l = length l.
Proof.
  intros x. induction l as [|y l IH]; intros H; [reflexivity|]. unfold count_le in *. simpl.
  destruct (Nat.leb_spec y x) as [_|Hgt].
  - simpl. f_equal. apply IH. intros z Hz. apply H. right. exact Hz.
  - specialize (H y (or_introl eq_refl)). lia.
Qed.

Lemma count_le_app : forall x a b, count_le x (a ++ b) = count_le x a + count_le x b.
Proof. intros. unfold count_le. rewrite filter_app, app_length. reflexivity. Qed.

(* binary_search on a strictly increasing vector, by counting *)
Lemma bsearch_count : forall l x i,
  StronglySorted lt l ->
  match bsearch x l i with
  | inl k => k + 1 = i + count_le x l
  | inr k => k = i + count_le x l
  end.
Proof.
  induction l as [|y l IH]; intros x i Hs; simpl.
  - unfold count_le. simpl. lia.
  - inversion Hs as [|? ? Hs' Hall]; subst. rewrite Forall_forall in Hall.
    destruct (Nat.eqb_spec x y) as [->|Hne].
    + unfold count_le. simpl. rewrite Nat.leb_refl. simpl.
      fold (count_le y l). rewrite count_le_none; [lia|]. intros z Hz. apply Hall. exact Hz.
    + destruct (Nat.ltb_spec x y) as [Hlt|Hge].
      * rewrite count_le_none; [lia|]. intros z [<-|Hz]; [exact Hlt|]. specialize (Hall z Hz). lia.
      * specialize (IH x (S i) Hs'). unfold count_le in *. simpl.
        destruct (Nat.leb_spec y x); [|lia]. simpl. destruct (bsearch x l (S i)); lia.
Qed.

Lemma line_starts_sorted : forall l, StronglySorted lt (line_starts l).
Proof.
  intros l. unfold line_starts. constructor; [apply starts_from_sorted|].
  apply Forall_forall. intros y Hy. apply starts_from_gt in Hy. exact Hy.
Qed.

Lemma line_index_usual : forall u v, line_index (u ++ v) (bytes u) = newlines u.
Proof.
  intros u v. unfold line_index.
  pose proof (bsearch_count (line_starts (u ++ v)) (bytes u) 0 (line_starts_sorted _)) as H.
  assert (C : count_le (bytes u) (line_starts (u ++ v)) = S (newlines u)).
  { unfold line_starts. change (0 :: starts_from 0 (u ++ v)) with ([0] ++ starts_from 0 (u ++ v)).
    rewrite count_le_app, starts_from_app, count_le_app. simpl.
    rewrite (count_le_all (bytes u) (starts_from 0 u)), length_starts_from.
    - rewrite count_le_none; [unfold count_le; simpl; lia|]. intros y Hy. apply starts_from_gt in Hy. exact Hy.
    - intros y Hy. apply starts_from_le in Hy. exact Hy. }
  rewrite C in H. destruct (bsearch (bytes u) (line_starts (u ++ v)) 0); lia.
Qed.

Lemma last_line_start : forall u1 u2,
  (u1 = [] \/ exists w, u1 = w ++ [10%N]) -> ~ In 10%N u2 ->
  nth (newlines (u1 ++ u2)) (0 :: starts_from 0 (u1 ++ u2)) 0 = bytes u1.
Proof.
  intros u1 u2 H1 H2. rewrite newlines_app, (newlines_none u2 H2), Nat.add_0_r.
  rewrite starts_from_app, (starts_from_no_newline u2 _ H2), app_nil_r.
  destruct H1 as [->|(w & ->)]; [reflexivity|].
  rewrite newlines_app, starts_from_app. simpl. unfold newlines at 2. simpl. rewrite !N.eqb_refl. simpl.
  replace (newlines w + 1) with (S (newlines w)) by lia. simpl.
  rewrite app_nth2; rewrite length_starts_from; [|lia]. rewrite Nat.sub_diag.
  assert (E10 : utf8_len 10 = 1) by (vm_compute; reflexivity).
  cbn [nth]. rewrite bytes_app. cbn [bytes]. rewrite ?E10. lia.
Qed.

Lemma line_range_usual : forall u1 u2 v,
  (u1 = [] \/ exists w, u1 = w ++ [10%N]) -> ~ In 10%N u2 ->
  exists e, line_range (u1 ++ u2 ++ v) (newlines (u1 ++ u2)) = Some (bytes u1, e) /\ bytes (u1 ++ u2) <= e.
Proof.
  intros u1 u2 v H1 H2. set (u := u1 ++ u2). set (k := newlines u).
  assert (L : line_starts (u1 ++ u2 ++ v) = (0 :: starts_from 0 u) ++ starts_from (bytes u) v).
  { unfold line_starts. rewrite app_assoc. fold u. rewrite starts_from_app. reflexivity. }
  assert (Lk : length (0 :: starts_from 0 u) = S k) by (simpl; rewrite length_starts_from; reflexivity).
  unfold line_range, line_start. rewrite L, app_length, Lk.
  destruct (Nat.compare_spec k (S k + length (starts_from (bytes u) v))) as [?|_|?]; try lia.
  rewrite (app_nth1 (0 :: starts_from 0 u) (starts_from (bytes u) v) 0 (n := k)) by (rewrite Lk; lia).
  unfold u at 2, k, u. rewrite (last_line_start u1 u2 H1 H2).
  destruct (starts_from (bytes (u1 ++ u2)) v) as [|b B] eqn:EB; simpl.
  - rewrite Nat.add_0_r, Nat.compare_refl. eexists. split; [reflexivity|].
    rewrite app_assoc, (bytes_app (u1 ++ u2) v). lia.
  - destruct (Nat.compare_spec (newlines (u1 ++ u2)) (newlines (u1 ++ u2) + S (length B))) as [?|_|?]; try lia.
    rewrite app_nth2; rewrite length_starts_from; [|lia]. rewrite Nat.sub_diag. cbn [nth].
    eexists. split; [reflexivity|].
    assert (In b (starts_from (bytes (u1 ++ u2)) v)) as Hb by (rewrite EB; left; reflexivity).
    apply starts_from_gt in Hb. lia.
Qed.


Lemma boundaries_from_ge : forall l pos i, In i (boundaries_from pos l) -> pos <= i.
Proof.
  induction l as [|c l IH]; intros pos i H; simpl in H.
  - destruct H as [<-|[]]. lia.
  - destruct H as [<-|H]; [lia|]. apply IH in H. lia.
Qed.

Lemma boundaries_from_head : forall l pos, In pos (boundaries_from pos l).
Proof. destruct l; intros; simpl; auto. Qed.

Lemma boundaries_gap : forall w c t pos i,
  In i (boundaries_from pos (w ++ c :: t)) -> i <= pos + bytes w \/ pos + bytes w + utf8_len c <= i.
Proof.
  induction w as [|a w IH]; intros c t pos i H; simpl in H.
  - destruct H as [<-|H]; [left; simpl; lia|]. apply boundaries_from_ge in H. right. simpl. lia.
  - destruct H as [<-|H]; [left; lia|]. apply IH in H. simpl. lia.
Qed.

Lemma boundaries_next : forall w c t pos,
  In (pos + bytes w + utf8_len c) (boundaries_from pos (w ++ c :: t)).
Proof.
  induction w as [|a w IH]; intros c t pos; simpl.
  - right. rewrite Nat.add_0_r. apply boundaries_from_head.
  - right. replace (pos + (utf8_len a + bytes w) + utf8_len c) with (pos + utf8_len a + bytes w + utf8_len c) by lia.
    apply IH.
Qed.

Lemma is_char_boundary_In : forall l i, is_char_boundary l i = true <-> In i (boundaries_from 0 l).
Proof.
  intros l i. unfold is_char_boundary. rewrite existsb_exists. split.
  - intros (x & Hx & E). apply Nat.eqb_eq in E. subst. exact Hx.
  - intros H. exists i. split; [exact H|apply Nat.eqb_refl].
Qed.

Lemma filter_false : forall (A : Type) (f : A -> bool) l, (forall x, In x l -> f x = false) -> filter f l = [].
Proof.
  intros A f. induction l as [|x l IH]; intros H; [reflexivity|]. simpl.
  rewrite (H x (or_introl eq_refl)). apply IH. intros y Hy. apply H. right. exact Hy.
Qed.

Lemma count_one : forall s k f,
  1 <= k -> (forall b, s <= b < s + k -> f b = (S b =? s + k)) -> length (filter f (seq s k)) = 1.
Proof.
  intros s k f Hk Hf. destruct k as [|k]; [lia|]. rewrite seq_S, filter_app, app_length.
  rewrite filter_false.
  - simpl. rewrite Hf by lia. replace (S (s + k)) with (s + S k) by lia. rewrite Nat.eqb_refl. reflexivity.
  - intros b Hb. apply in_seq in Hb. rewrite Hf by lia. apply Nat.eqb_neq. lia.
Qed.

(* one scalar boundary per scalar: the number of character boundaries in
   (bytes w, bytes w + bytes u2] is the number of scalars of u2 *)
Lemma count_boundaries : forall u2 w rest,
  length (filter (fun b => is_char_boundary (w ++ u2 ++ rest) (S b)) (seq (bytes w) (bytes u2))) = length u2.
Proof.
  induction u2 as [|c u2 IH]; intros w rest; [reflexivity|].
  simpl bytes. rewrite seq_app, filter_app, app_length. simpl length.
  replace (w ++ c :: u2 ++ rest) with ((w ++ [c]) ++ u2 ++ rest) by (rewrite <- app_assoc; reflexivity).
  replace (bytes w + utf8_len c) with (bytes (w ++ [c])) by (rewrite bytes_app; simpl; lia).
  rewrite IH.
  assert (X : length (filter (fun b => is_char_boundary ((w ++ [c]) ++ u2 ++ rest) (S b))
                             (seq (bytes w) (utf8_len c))) = 1); [|lia].
  apply count_one; [apply PreprocessProofs.utf8_len_pos|].
  intros b Hb.
  replace ((w ++ [c]) ++ u2 ++ rest) with (w ++ c :: (u2 ++ rest)) by (rewrite <- app_assoc; reflexivity).
  destruct (Nat.eqb_spec (S b) (bytes w + utf8_len c)) as [E|Hne].
  - apply is_char_boundary_In. rewrite E. apply (boundaries_next w c (u2 ++ rest) 0).
  - destruct (is_char_boundary (w ++ c :: u2 ++ rest) (S b)) eqn:Eb; [|reflexivity].
    apply is_char_boundary_In in Eb. apply boundaries_gap in Eb. lia.
Qed.

(* For every position that is the end of a prefix u1 ++ u2 of the
   ORIGINAL text, where u1 is empty or ends with a newline and u2 contains none
   (u2 = the part of the line before the position), codespan answers
   line = 1 + number of newlines before the position,
   column = 1 + number of characters (scalars; CR, tabs, multi-byte ones count 1)
   between the start of the line and the position. *)
Theorem location_usual : forall u1 u2 v,
  (u1 = [] \/ exists w, u1 = w ++ [10%N]) -> ~ In 10%N u2 ->
  location (u1 ++ u2 ++ v) (bytes (u1 ++ u2)) = Some (S (newlines u1), S (length u2)).
Proof.
  intros u1 u2 v H1 H2.
  assert (Eli : line_index (u1 ++ u2 ++ v) (bytes (u1 ++ u2)) = newlines (u1 ++ u2))
    by (rewrite app_assoc; apply line_index_usual).
  unfold location. rewrite Eli.
  destruct (line_range_usual u1 u2 v H1 H2) as (e & -> & He).
  rewrite newlines_app, (newlines_none u2 H2), Nat.add_0_r. f_equal. f_equal. f_equal.
  unfold column_index. simpl fst. simpl snd.
  assert (Hb : bytes (u1 ++ u2) <= bytes (u1 ++ u2 ++ v)) by (rewrite app_assoc, (bytes_app (u1 ++ u2)); lia).
  rewrite Nat.min_l by (apply Nat.min_glb; lia).
  rewrite bytes_app. replace (bytes u1 + bytes u2 - bytes u1) with (bytes u2) by lia.
  apply count_boundaries.
Qed.

(* every prefix splits that way: the theorem covers every scalar boundary of the file *)
Lemma last_line_split : forall u,
  exists u1 u2, u = u1 ++ u2 /\ (u1 = [] \/ exists w, u1 = w ++ [10%N]) /\ ~ In 10%N u2.
Proof.
  induction u as [|c u IH] using rev_ind.
  - exists [], []. simpl. auto.
  - destruct (N.eq_dec c 10) as [->|Hc].
    + exists (u ++ [10%N]), []. rewrite app_nil_r. split; [reflexivity|]. split; [right; eauto|auto].
    + destruct IH as (u1 & u2 & -> & H1 & H2). exists u1, (u2 ++ [c]).
      rewrite app_assoc. split; [reflexivity|]. split; [exact H1|].
      intros Hin. apply in_app_or in Hin as [Hin|[Hin|[]]]; [auto|congruence].
Qed.

(* what is written to SARIF for a label whose two ends are the ends of the
   prefixes a1 ++ a2 and b1 ++ b2 of the original text *)
Corollary sarif_region_usual : forall l a1 a2 va b1 b2 vb,
  l = a1 ++ a2 ++ va -> l = b1 ++ b2 ++ vb ->
  (a1 = [] \/ exists w, a1 = w ++ [10%N]) -> ~ In 10%N a2 ->
  (b1 = [] \/ exists w, b1 = w ++ [10%N]) -> ~ In 10%N b2 ->
  sarif_region l (bytes (a1 ++ a2)) (bytes (b1 ++ b2)) =
    Some (S (newlines a1), S (length a2), S (newlines b1), S (length b2)).
Proof.
  intros l a1 a2 va b1 b2 vb Ea Eb Ha1 Ha2 Hb1 Hb2. unfold sarif_region.
  rewrite Ea at 1. rewrite (location_usual a1 a2 va Ha1 Ha2).
  rewrite Eb. rewrite (location_usual b1 b2 vb Hb1 Hb2). reflexivity.
Qed.

(* The first hypothesis is parser_ranges_wellformed: every meta the grammar
   produced (Meta::new(s, e) from @L/@R of one production) satisfies P.  It is
   observed by the engine, with P s e := s <= e /\ e <= length of the text /\
   s, e scalar boundaries.  The second says that every meta of the final IR is a
   meta of the parsed definition or the empty default range 0..0 of a synthesised
   statement; it is proved stage by stage: DesugarMetas.desugar_metas_from_input,
   LiftFullC04.lift_stmt_metas_from_ast, LabelsSsa.ssa_metas_from_input (put
   together in LiftFullC04.labels_wellformed_through_desugaring_lifting_and_ssa). *)
Theorem labels_wellformed_end_to_end :
  forall (P : N -> N -> Prop) (parsed final : list meta) c ls l,
    (forall m, In m parsed -> P (m_start m) (m_end m)) ->
    (forall m, In m final -> In m parsed \/ (m_start m = 0%N /\ m_end m = 0%N)) ->
    P 0%N 0%N ->
    (forall m, In m (nodes_of c) -> In m final) ->
    (forall r, In r (parser_ranges_of c) -> P (fst r) (snd r)) ->
    labels_of (sources_of c) = Ok ls -> In l ls -> P (l_start l) (l_end l).
Proof.
  intros P parsed final c ls l Hp Hd H0 Hn Hr. apply label_wellformed; [|exact Hr].
  intros m Hm. destruct (Hd m (Hn m Hm)) as [Hin|[-> ->]]; [apply Hp; exact Hin|exact H0].
Qed.
