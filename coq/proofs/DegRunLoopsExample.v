(* C07: the hypotheses of Proofs.DegRunSegments.loops_runs_represented are satisfiable
   on a graph WITH A LOOP whose runs differ inside the loop body.

     i = 0;  while (i < 2) { if (a + i == 1) { b <-- i + 5; } else { b2 <-- i + 3; }  i = i + 1; }  b <-- i;

   in SSA form, blocks  0 -> 1(header) -> 2 -> 3 | 4 -> 5 -> 1 ... 1 -> 6.  Two valuations of the
   signal a (true: a = 1, false: a = 0): the first takes the then-arm in the first iteration and
   the else-arm in the second, the other one the other way round; both enter the header three
   times.  The schedule fires block 3 in the first ascending segment (for the first run only) and
   again in the second (for the second run only); the header phi is fired three times and
   overwrites its cell for both runs. *)
From Coq Require Import ZArith NArith List Bool Arith Lia Sorting.Sorted.
Require Import Model.Base Model.Ir Model.SsaCheck Model.Propagate Model.Justify Model.DegJustify Model.DegGraph Model.DegLoops.
Require Import Spec.DegSem Spec.DegRun Proofs.DegRunProofs Proofs.DegRunBranch Proofs.DegRunLoops.
Import ListNotations.
Local Open Scope Z_scope.

Definition lx_k : know := {| kval := None; kdeg := None |}.
Definition lx_m : meta := {| m_start := 0%N; m_end := 0%N; m_file := None |}.
Definition lx_i (v : N) : vname := {| vn_name := [105%N]; vn_suffix := None; vn_version := Some v |}.
Definition lx_z : vname := {| vn_name := [122%N]; vn_suffix := None; vn_version := None |}.
Definition lx_a : vname := {| vn_name := [97%N]; vn_suffix := None; vn_version := None |}.
Definition lx_b : vname := {| vn_name := [98%N]; vn_suffix := None; vn_version := None |}.
Definition lx_num (z : Z) : expr := ENum z lx_k.
Definition lx_var (v : vname) : expr := EVar v lx_k.

Definition lx_g : cfg :=
  {| c_kind := KTemplate; c_params := [];
     c_decls := [(lx_i 0, TLocal); (lx_i 1, TLocal); (lx_i 2, TLocal); (lx_z, TSigOut); (lx_a, TSigIn); (lx_b, TSigOut)];
     c_blocks :=
       [ {| b_index := 0%N; b_depth := 0%N; b_preds := []; b_succs := [1%N];
            b_stmts := [ SSubst lx_m (lx_i 0) OpVar (lx_num 0) None (Some TLocal) ] |};
         {| b_index := 1%N; b_depth := 0%N; b_preds := [0%N; 5%N]; b_succs := [2%N; 6%N];
            b_stmts := [ SSubst lx_m (lx_i 1) OpVar (EPhi [lx_i 0; lx_i 2] lx_k) None (Some TLocal);
                         SIf lx_m (EInfix ILt (lx_var (lx_i 1)) (lx_num 2) lx_k) 2%N (Some 6%N) ] |};
         {| b_index := 2%N; b_depth := 1%N; b_preds := [1%N]; b_succs := [3%N; 4%N];
            b_stmts := [ SIf lx_m (EInfix IEq (EInfix IAdd (lx_var lx_a) (lx_var (lx_i 1)) lx_k) (lx_num 1) lx_k) 3%N (Some 4%N) ] |};
         {| b_index := 3%N; b_depth := 2%N; b_preds := [2%N]; b_succs := [5%N];
            b_stmts := [ SSubst lx_m lx_b OpSig (EInfix IAdd (lx_var (lx_i 1)) (lx_num 5) lx_k) None (Some TSigOut) ] |};
         {| b_index := 4%N; b_depth := 2%N; b_preds := [2%N]; b_succs := [5%N];
            b_stmts := [ SSubst lx_m lx_z OpSig (EInfix IAdd (lx_var (lx_i 1)) (lx_num 3) lx_k) None (Some TSigOut) ] |};
         {| b_index := 5%N; b_depth := 1%N; b_preds := [3%N; 4%N]; b_succs := [1%N];
            b_stmts := [ SSubst lx_m (lx_i 2) OpVar (EInfix IAdd (lx_var (lx_i 1)) (lx_num 1) lx_k) None (Some TLocal) ] |};
         {| b_index := 6%N; b_depth := 0%N; b_preds := [1%N]; b_succs := [];
            b_stmts := [ SSubst lx_m lx_b OpSig (lx_var (lx_i 1)) None (Some TSigOut) ] |} ] |}.

Definition lx_idom : list (option N) := [None; Some 0%N; Some 1%N; Some 2%N; Some 2%N; Some 2%N; Some 1%N].
Definition lx_infos : list binfo :=
  match compute_infos (c_params lx_g) lx_idom (c_blocks lx_g) [] with Some i => i | None => [] end.

Definition lx_sem2 (op : infix_op) (x y : Z) : Z :=
  match op with
  | IAdd => (x + y) mod 7
  | IEq => if x mod 7 =? y mod 7 then 1 else 0
  | ILt => if x <? y then 1 else 0
  | _ => 0
  end.
Definition lx_sem1 (op : prefix_op) (x : Z) : Z := 0.
Definition lx_call (n : ident) (args : list Z) : Z := 0.
Definition lx_code (n : ident) : Z := 0.

Definition lx_aval (rho : bool) : Z := if rho then 1 else 0.
Definition lx_S0 : fstore bool := fun x => if vname_eqb lx_a x then Some (fun _ rho => lx_aval rho) else None.
Definition lx_s0 (rho : bool) : cstore := fun x => if vname_eqb lx_a x then Some (fun _ => lx_aval rho) else None.
Definition lx_sg (rho : bool) : list (list nat) :=
  if rho then [[0; 1; 2; 3; 5]; [1; 2; 4; 5]; [1; 6]]%nat else [[0; 1; 2; 4; 5]; [1; 2; 3; 5]; [1; 6]]%nat.
Definition lx_heads : list nat := [0; 1; 1]%nat.
Definition lx_run (rho : bool) : option cstore :=
  cexec_path 7 lx_sem2 lx_sem1 lx_call lx_code lx_g (params_map (c_params lx_g)) (lx_s0 rho) (concat (lx_sg rho)).
Definition lx_s (rho : bool) : cstore := match lx_run rho with Some s => s | None => lx_s0 rho end.

Lemma lx_run_some rho : lx_run rho = Some (lx_s rho).
Proof.
  unfold lx_s. assert (H : match lx_run rho with Some _ => true | None => false end = true) by (destruct rho; vm_compute; reflexivity).
  destruct (lx_run rho); [reflexivity|discriminate].
Qed.

(* a check that [picks_decided_sched] asks nothing at a step: the two valuations arrive with the same
   argument at every leading phi of the block *)
Definition same_args (Lof : bool -> vmap) (phis : list stmt) : bool :=
  forallb (fun st => match phi_parts st with
                     | Some (x, args) => match arg_at bool Lof x args true, arg_at bool Lof x args false with
                                         | Some a, Some a' => vname_eqb a a'
                                         | None, None => true
                                         | _, _ => false
                                         end
                     | None => true
                     end) phis.

Definition same_args_sched (c : cfg) (sg : bool -> list (list nat)) (skip : nat -> bool) (NS : nat) : bool :=
  forallb (fun t => skip t ||
                    match nth_error (c_blocks c) (blk_s c t) with
                    | Some b => same_args (fun rho => Lats bool c (params_map (c_params c)) (blk_s c) (vis_s bool c sg) rho t)
                                          (fst (leading_phis (b_stmts b)))
                    | None => true
                    end) (seq 0 NS).

Lemma same_args_picks p sem2 sem1 call_sem name_code c idom vis Pv Lof b ent0 done0 phis :
  same_args Lof phis = true -> picks_decided_at bool p sem2 sem1 call_sem name_code c idom vis Pv Lof b ent0 done0 phis.
Proof.
  intros H pre m x op args k sv stt post E _ r1 r2 _ _ Hne. exfalso. apply Hne.
  unfold same_args in H. rewrite forallb_forall in H. specialize (H (SSubst m x op (EPhi args k) sv stt)).
  rewrite E in H. specialize (H (in_elt _ _ _)). cbn [phi_parts] in H.
  destruct r1, r2; try reflexivity;
    destruct (arg_at bool Lof x args true), (arg_at bool Lof x args false); try discriminate; try reflexivity;
    apply IrFacts.vname_eqb_eq in H; congruence.
Qed.

Lemma same_args_sched_picks c sg skip NS : same_args_sched c sg skip NS = true ->
  forall p sem2 sem1 call_sem name_code idom vis Pv ent0 t b, (t < NS)%nat -> skip t = false ->
  nth_error (c_blocks c) (blk_s c t) = Some b ->
  picks_decided_at bool p sem2 sem1 call_sem name_code c idom vis Pv
    (fun rho => Lats bool c (params_map (c_params c)) (blk_s c) (vis_s bool c sg) rho t) b ent0 [] (fst (leading_phis (b_stmts b))).
Proof.
  intros H p sem2 sem1 call_sem name_code idom vis Pv ent0 t b Ht Hs Hb. apply same_args_picks.
  unfold same_args_sched in H. rewrite forallb_forall in H. specialize (H t). rewrite Hs, Hb in H. apply H. apply in_seq. lia.
Qed.

Lemma lx_picks :
  picks_decided_sched bool 7 lx_sem2 lx_sem1 lx_call lx_code lx_g lx_idom (params_map (c_params lx_g)) lx_s0 [true; false]
                      (length lx_heads * length (c_blocks lx_g)) (blk_s lx_g) (vis_s bool lx_g lx_sg).
Proof.
  intros t b Ht Hb. apply (same_args_sched_picks lx_g lx_sg (fun _ => false) 21); [vm_compute; reflexivity|exact Ht|reflexivity|exact Hb].
Qed.

(* every hypothesis of loops_runs_represented, on a graph that is NOT loop-free *)
Theorem loops_example :
  compute_infos (c_params lx_g) lx_idom (c_blocks lx_g) [] = Some lx_infos /\
  infos_ok lx_infos lx_g = true /\ graph_consistent lx_g = true /\ idom_is_dominator_table lx_g lx_idom = true /\
  loops_ok lx_infos lx_g = true /\ forward_b lx_g = false /\
  (forall rho, map (hd 0%nat) (lx_sg rho) = lx_heads /\ Forall (fun seg => seg <> []) (lx_sg rho)) /\
  (forall rho, Forall (StronglySorted lt) (lx_sg rho)) /\
  (forall rho, exists r, In r [true; false] /\ lx_sg r = lx_sg rho) /\
  (forall rho, exists tl, concat (lx_sg rho) = 0%nat :: tl) /\
  (forall rho, rel_store bool rho (lx_s0 rho) lx_S0) /\
  (forall rho, cexec_path 7 lx_sem2 lx_sem1 lx_call lx_code lx_g (params_map (c_params lx_g)) (lx_s0 rho) (concat (lx_sg rho))
               = Some (lx_s rho)) /\
  picks_decided_sched bool 7 lx_sem2 lx_sem1 lx_call lx_code lx_g lx_idom (params_map (c_params lx_g)) lx_s0 [true; false]
                      (length lx_heads * length (c_blocks lx_g)) (blk_s lx_g) (vis_s bool lx_g lx_sg) /\
  (* the paths differ; both runs end with i.1 = 2 in the cell of the header phi, overwritten twice *)
  concat (lx_sg true) <> concat (lx_sg false) /\
  (forall rho, match lx_s rho (lx_i 1) with Some f => f [] | None => 0 end = 2).
Proof.
  split; [vm_compute; reflexivity|]. split; [vm_compute; reflexivity|]. split; [vm_compute; reflexivity|].
  split; [vm_compute; reflexivity|]. split; [vm_compute; reflexivity|]. split; [vm_compute; reflexivity|].
  split.
  { intros [|]; (split; [reflexivity|]); repeat constructor; discriminate. }
  split.
  { intros [|]; cbn; repeat constructor; lia. }
  split.
  { intros [|]; [exists true|exists false]; cbn; auto. }
  split.
  { intros [|]; eexists; reflexivity. }
  split.
  { intros rho x. unfold lx_s0, lx_S0. destruct (vname_eqb lx_a x); cbn; [intros i; reflexivity|exact I]. }
  split; [exact lx_run_some|]. split; [exact lx_picks|].
  split; [discriminate|].
  intros [|]; vm_compute; reflexivity.
Qed.

(* the conjunct update_bases_fresh on an array that is updated element-wise TWICE
     var u[2];  u[0] = a;  u[1] = 1;      i.e.   u.1 = update(u.0, [0], a);  u.2 = update(u.1, [1], 1)
   the base u.0 of the first update is read without a running version and is assigned by no
   statement; the base u.1 of the second is assigned by the first, but it is the running version
   there: loops_ok holds *)
Definition lu_u (v : N) : vname := {| vn_name := [117%N]; vn_suffix := None; vn_version := Some v |}.
Definition lu_g : cfg :=
  {| c_kind := KTemplate; c_params := [];
     c_decls := [(lu_u 0, TLocal); (lu_u 1, TLocal); (lu_u 2, TLocal); (lx_a, TSigIn)];
     c_blocks :=
       [ {| b_index := 0%N; b_depth := 0%N; b_preds := []; b_succs := [];
            b_stmts := [ SSubst lx_m (lu_u 1) OpVar (EUpdate (lu_u 0) [AIdx (lx_num 0)] (lx_var lx_a) lx_k) None (Some TLocal);
                         SSubst lx_m (lu_u 2) OpVar (EUpdate (lu_u 1) [AIdx (lx_num 1)] (lx_num 1) lx_k) None (Some TLocal) ] |} ] |}.
Definition lu_infos : list binfo :=
  match compute_infos (c_params lu_g) [None] (c_blocks lu_g) [] with Some i => i | None => [] end.

Theorem twice_updated_example :
  compute_infos (c_params lu_g) [None] (c_blocks lu_g) [] = Some lu_infos /\ infos_ok lu_infos lu_g = true /\
  existsb (vname_eqb (lu_u 1)) (local_targets_m lu_g) = true /\
  update_bases_fresh lu_infos lu_g = true /\ loops_ok lu_infos lu_g = true.
Proof. vm_compute. repeat split; reflexivity. Qed.

(* a loop header with TWO back edges
     var k = 0; var x = 0;  while (k < 3) { k = k + 1; if (a == x) { x = k; } else { x = 2; } }  o <-- x;
   as the implementation lifts and renames it (declaration statements left out): the `if` is the
   last statement of the body, so both arms jump back to the header, block 1, which has the
   predecessors 0, 3, 4 and the phis  k.1 = phi(k.0, k.2);  x.1 = phi(x.0, x.2, x.3).  Two runs
   that took different arms arrive with different arguments for x.1; the condition that parted
   them, `a == x.1`, reads the target of that very phi - but of no EARLIER phi of the header, and
   in the store of the phi step x.1 still holds the values the condition was evaluated on. *)
Definition hx_k (v : N) : vname := {| vn_name := [107%N]; vn_suffix := None; vn_version := Some v |}.
Definition hx_x (v : N) : vname := {| vn_name := [120%N]; vn_suffix := None; vn_version := Some v |}.
Definition hx_cond : expr := EInfix IEq (lx_var lx_a) (lx_var (hx_x 1)) lx_k.
Definition hx_g : cfg :=
  {| c_kind := KTemplate; c_params := [];
     c_decls := [(lx_a, TSigIn); (hx_k 0, TLocal); (hx_k 1, TLocal); (hx_k 2, TLocal); (lx_b, TSigOut);
                 (hx_x 0, TLocal); (hx_x 1, TLocal); (hx_x 2, TLocal); (hx_x 3, TLocal)];
     c_blocks :=
       [ {| b_index := 0%N; b_depth := 0%N; b_preds := []; b_succs := [1%N];
            b_stmts := [ SSubst lx_m (hx_k 0) OpVar (lx_num 0) None (Some TLocal);
                         SSubst lx_m (hx_x 0) OpVar (lx_num 0) None (Some TLocal) ] |};
         {| b_index := 1%N; b_depth := 0%N; b_preds := [0%N; 3%N; 4%N]; b_succs := [2%N; 5%N];
            b_stmts := [ SSubst lx_m (hx_k 1) OpVar (EPhi [hx_k 0; hx_k 2] lx_k) None (Some TLocal);
                         SSubst lx_m (hx_x 1) OpVar (EPhi [hx_x 0; hx_x 2; hx_x 3] lx_k) None (Some TLocal);
                         SIf lx_m (EInfix ILt (lx_var (hx_k 1)) (lx_num 3) lx_k) 2%N (Some 5%N) ] |};
         {| b_index := 2%N; b_depth := 1%N; b_preds := [1%N]; b_succs := [3%N; 4%N];
            b_stmts := [ SSubst lx_m (hx_k 2) OpVar (EInfix IAdd (lx_var (hx_k 1)) (lx_num 1) lx_k) None (Some TLocal);
                         SIf lx_m hx_cond 3%N (Some 4%N) ] |};
         {| b_index := 3%N; b_depth := 1%N; b_preds := [2%N]; b_succs := [1%N];
            b_stmts := [ SSubst lx_m (hx_x 3) OpVar (lx_var (hx_k 2)) None (Some TLocal) ] |};
         {| b_index := 4%N; b_depth := 1%N; b_preds := [2%N]; b_succs := [1%N];
            b_stmts := [ SSubst lx_m (hx_x 2) OpVar (lx_num 2) None (Some TLocal) ] |};
         {| b_index := 5%N; b_depth := 0%N; b_preds := [1%N]; b_succs := [];
            b_stmts := [ SSubst lx_m lx_b OpSig (lx_var (hx_x 1)) None (Some TSigOut) ] |} ] |}.
Definition hx_idom : list (option N) := [None; Some 0%N; Some 1%N; Some 2%N; Some 2%N; Some 1%N].
Definition hx_infos : list binfo :=
  match compute_infos (c_params hx_g) hx_idom (c_blocks hx_g) [] with Some i => i | None => [] end.
(* the signal a: 0 for the valuation true (then-arm in the first iteration, else-arm afterwards), 5 for false (always else) *)
Definition hx_aval (rho : bool) : Z := if rho then 0 else 5.
Definition hx_S0 : fstore bool := fun x => if vname_eqb lx_a x then Some (fun _ rho => hx_aval rho) else None.
Definition hx_s0 (rho : bool) : cstore := fun x => if vname_eqb lx_a x then Some (fun _ => hx_aval rho) else None.
Definition hx_sg (rho : bool) : list (list nat) :=
  if rho then [[0; 1; 2; 3]; [1; 2; 4]; [1; 2; 4]; [1; 5]]%nat else [[0; 1; 2; 4]; [1; 2; 4]; [1; 2; 4]; [1; 5]]%nat.
Definition hx_heads : list nat := [0; 1; 1; 1]%nat.
Definition hx_run (rho : bool) : option cstore :=
  cexec_path 7 lx_sem2 lx_sem1 lx_call lx_code hx_g (params_map (c_params hx_g)) (hx_s0 rho) (concat (hx_sg rho)).
Definition hx_s (rho : bool) : cstore := match hx_run rho with Some s => s | None => hx_s0 rho end.

Lemma hx_run_some rho : hx_run rho = Some (hx_s rho).
Proof.
  unfold hx_s. assert (H : match hx_run rho with Some _ => true | None => false end = true) by (destruct rho; vm_compute; reflexivity).
  destruct (hx_run rho); [reflexivity|discriminate].
Qed.

Notation hx_ents := (ents bool 7 lx_sem2 lx_sem1 lx_call lx_code hx_g (params_map (c_params hx_g)) hx_s0 (blk_s hx_g) (vis_s bool hx_g hx_sg)).
Notation hx_valid := (Valid bool hx_g [true; false] (blk_s hx_g) (vis_s bool hx_g hx_sg)).

(* a name whose defining block, whenever it fired before step t, was executed by the run is valid at t *)
Lemma hx_valid_check rho t y :
  forallb (fun t1 => negb (existsb (vname_eqb y) (tgts hx_g (blk_s hx_g t1))) || vis_s bool hx_g hx_sg rho t1) (seq 0 t) = true ->
  hx_valid rho t y.
Proof.
  intros H t1 Hlt Hin _ Hv. rewrite forallb_forall in H. specialize (H t1 (proj2 (in_seq _ _ _) (conj (Nat.le_0_l _) Hlt))).
  rewrite Hv, orb_false_r in H. apply negb_true_iff in H.
  rewrite (proj2 (existsb_exists _ _) (ex_intro _ y (conj Hin (IrFacts.vname_eqb_refl y)))) in H. discriminate.
Qed.

Lemma hx_cond_values rho :
  exists v, cval 7 lx_sem2 lx_sem1 lx_call lx_code (hx_ents rho 7%nat) hx_cond = Some v /\ v [] = (if rho then 1 else 0).
Proof.
  assert (H : match cval 7 lx_sem2 lx_sem1 lx_call lx_code (hx_ents rho 7%nat) hx_cond with Some v => v [] | None => 2 end = (if rho then 1 else 0))
    by (destruct rho; vm_compute; reflexivity).
  destruct (cval 7 lx_sem2 lx_sem1 lx_call lx_code (hx_ents rho 7%nat) hx_cond) as [v|]; [eauto|destruct rho; discriminate].
Qed.

Lemma hx_decides b1 : nth_error (c_blocks hx_g) 1 = Some b1 -> decides hx_g hx_idom b1 hx_cond.
Proof.
  intros [= <-]. exists 3%N, 2%N. eexists. exists lx_m, 3%N, (Some 4%N). split; [right; left; reflexivity|]. split; [|split; reflexivity].
  cbn. eapply ab_up; [discriminate|reflexivity|apply ab_here].
Qed.

Lemma hx_picks :
  picks_decided_sched bool 7 lx_sem2 lx_sem1 lx_call lx_code hx_g hx_idom (params_map (c_params hx_g)) hx_s0 [true; false]
                      (length hx_heads * length (c_blocks hx_g)) (blk_s hx_g) (vis_s bool hx_g hx_sg).
Proof.
  intros t b Ht Hb. destruct (Nat.eqb t 7) eqn:E7.
  - (* the second entry of the header: the runs arrive from different arms *)
    apply Nat.eqb_eq in E7. subst t. pose proof (hx_decides b Hb) as Hdec. injection Hb as <-.
    intros pre m x op args k sv stt post E Hl r1 r2 _ _ Hne.
    destruct pre as [|s1 [|s2 pre]]; cbn in E.
    + (* the phi of k: the same argument k.2 for both *)
      injection E as <- <- <- <- <- <- <-. exfalso. apply Hne. destruct r1, r2; vm_compute; reflexivity.
    + (* the phi of x *)
      injection E as <- <- <- <- <- <- <- <-. split; [cbn; lia|].
      assert (Hr : r1 <> r2) by (intros ->; apply Hne; reflexivity). clear Hne.
      destruct (hx_cond_values r1) as (v1 & Hc1 & Hv1). destruct (hx_cond_values r2) as (v2 & Hc2 & Hv2).
      exists hx_cond, v1, v2. split; [exact Hdec|]. split; [exact Hc1|]. split; [exact Hc2|]. split.
      { rewrite Hv1, Hv2. clear -Hr. destruct r1, r2; [destruct (Hr eq_refl)|discriminate|discriminate|destruct (Hr eq_refl)]. }
      intros y Hy. assert (Hval : forall rho, hx_valid rho 7%nat y).
      { intros rho. apply hx_valid_check. destruct rho, Hy as [<-|[<-|[]]]; vm_compute; reflexivity. }
      split; [apply Hval|]. split; [apply Hval|]. split; [intros []|].
      destruct Hy as [<-|[<-|[]]]; vm_compute; intros [Hq|[]]; discriminate Hq.
    + exfalso. injection E as _ _ E. destruct pre; discriminate E.
  - apply (same_args_sched_picks hx_g hx_sg (fun t => Nat.eqb t 7) 24); [vm_compute; reflexivity|exact Ht|exact E7|exact Hb].
Qed.

Theorem header_two_back_edges_example :
  compute_infos (c_params hx_g) hx_idom (c_blocks hx_g) [] = Some hx_infos /\
  infos_ok hx_infos hx_g = true /\ graph_consistent hx_g = true /\ idom_is_dominator_table hx_g hx_idom = true /\
  loops_ok hx_infos hx_g = true /\
  (forall rho, map (hd 0%nat) (hx_sg rho) = hx_heads /\ Forall (fun seg => seg <> []) (hx_sg rho)) /\
  (forall rho, Forall (StronglySorted lt) (hx_sg rho)) /\
  (forall rho, exists r, In r [true; false] /\ hx_sg r = hx_sg rho) /\
  (forall rho, exists tl, concat (hx_sg rho) = 0%nat :: tl) /\
  (forall rho, rel_store bool rho (hx_s0 rho) hx_S0) /\
  (forall rho, cexec_path 7 lx_sem2 lx_sem1 lx_call lx_code hx_g (params_map (c_params hx_g)) (hx_s0 rho) (concat (hx_sg rho))
               = Some (hx_s rho)) /\
  picks_decided_sched bool 7 lx_sem2 lx_sem1 lx_call lx_code hx_g hx_idom (params_map (c_params hx_g)) hx_s0 [true; false]
                      (length hx_heads * length (c_blocks hx_g)) (blk_s hx_g) (vis_s bool hx_g hx_sg) /\
  (* the header has three predecessors, two of them back edges; the deciding condition reads the header's phi target *)
  (exists b1, nth_error (c_blocks hx_g) 1 = Some b1 /\ b_preds b1 = [0%N; 3%N; 4%N] /\
              decides hx_g hx_idom b1 hx_cond /\ In (hx_x 1) (expr_reads hx_cond) /\ In (hx_x 1) (local_targets hx_g (b_stmts b1))).
Proof.
  split; [vm_compute; reflexivity|]. split; [vm_compute; reflexivity|]. split; [vm_compute; reflexivity|].
  split; [vm_compute; reflexivity|]. split; [vm_compute; reflexivity|].
  split.
  { intros [|]; (split; [reflexivity|]); repeat constructor; discriminate. }
  split.
  { intros [|]; cbn; repeat constructor; lia. }
  split.
  { intros [|]; [exists true|exists false]; cbn; auto. }
  split.
  { intros [|]; eexists; reflexivity. }
  split.
  { intros rho x. unfold hx_s0, hx_S0. destruct (vname_eqb lx_a x); cbn; [intros i; reflexivity|exact I]. }
  split; [exact hx_run_some|]. split; [exact hx_picks|].
  eexists. split; [reflexivity|]. split; [reflexivity|]. split; [apply hx_decides; reflexivity|].
  split; [right; left; reflexivity|]. vm_compute. right. left. reflexivity.
Qed.
