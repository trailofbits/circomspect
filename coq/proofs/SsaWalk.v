(* The skeleton of the SSA construction mirror Model.Ssa.into_ssa, shared by the theorems
   about it:
     - equations for the nested loops of [ssa_expr] and for one level of [rename_tree];
     - [ssa_expr_ind], an induction principle with one case per equation of [ssa_expr]
       (P relates environment and expression before and after), and [ssa_stmt_cases];
     - one invariant rule for each loop over the block list: [insert_phis_keeps] for the
       work list of phi insertion, [rename_tree_inv] for the walk of the dominator tree. *)
From Coq Require Import ZArith NArith List Bool Lia Arith.
Require Import Model.Base Model.Ir Model.SsaCheck Model.Ssa Proofs.IrInd.
Require Export Model.SsaPre.
Require Export Proofs.BaseFacts.
Import ListNotations.

Lemma sbind_ok {A B} (m : ssa_result A) (f : A -> ssa_result B) b :
  sbind m f = SOk b -> exists a, m = SOk a /\ f a = SOk b.
Proof. destruct m; simpl; try discriminate. eauto. Qed.

Lemma andb_mono a a' b b' : (a = true -> a' = true) -> (b = true -> b' = true) -> a && b = true -> a' && b' = true.
Proof. destruct a, b; cbn; intros Ha Hb H; try discriminate. rewrite Ha, Hb; reflexivity. Qed.

(* H : sbind m f = SOk _  where m returns a pair *)
Ltac sb2 H :=
  match type of H with
  | sbind ?m _ = SOk _ =>
      let x := fresh "x" in let e := fresh "env" in let E := fresh "E" in
      destruct m as [[x e]| | |] eqn:E; cbn [sbind] in H; [|discriminate H..]
  end.
(* ... where m returns a single value *)
Ltac sb1 H :=
  match type of H with
  | sbind ?m _ = SOk _ =>
      let x := fresh "x" in let E := fresh "E" in
      destruct m as [x| | |] eqn:E; cbn [sbind] in H; [|discriminate H..]
  end.

Section Rename.
Variable decls : list (vname * vtype).

(* the inner loops of ssa_expr as top-level functions *)
Fixpoint ssa_list (env : senv) (es : list expr) : ssa_result (list expr * senv) :=
  match es with
  | [] => SOk ([], env)
  | x :: tl =>
    r <~ ssa_expr decls env x ;; let '(x', env1) := r in
    t <~ ssa_list env1 tl ;; let '(tl', env2) := t in SOk (x' :: tl', env2)
  end.
Fixpoint ssa_acc (env : senv) (acc : list (access expr)) : ssa_result (list (access expr) * senv) :=
  match acc with
  | [] => SOk ([], env)
  | AComp n :: tl => t <~ ssa_acc env tl ;; let '(tl', env2) := t in SOk (AComp n :: tl', env2)
  | AIdx x :: tl =>
    r <~ ssa_expr decls env x ;; let '(x', env1) := r in
    t <~ ssa_acc env1 tl ;; let '(tl', env2) := t in SOk (AIdx x' :: tl', env2)
  end.

Lemma ssa_expr_call env n args k :
  ssa_expr decls env (ECall n args k) =
  (a <~ ssa_list env args ;; let '(args', env1) := a in SOk (ECall n args' k, env1)).
Proof. reflexivity. Qed.
Lemma ssa_expr_array env vs k :
  ssa_expr decls env (EArray vs k) =
  (a <~ ssa_list env vs ;; let '(vs', env1) := a in SOk (EArray vs' k, env1)).
Proof. reflexivity. Qed.
Lemma ssa_expr_access env v acc k :
  ssa_expr decls env (EAccess v acc k) =
  (a <~ ssa_acc env acc ;; let '(acc', env1) := a in
   if is_local_in decls v then (v' <~ rename_read decls env1 v ;; SOk (EAccess v' acc' k, env1))
   else SOk (EAccess v acc' k, env1)).
Proof. reflexivity. Qed.
Lemma ssa_expr_update env v acc rhe k :
  ssa_expr decls env (EUpdate v acc rhe k) =
  (a <~ ssa_expr decls env rhe ;; let '(rhe', env1) := a in
   b <~ ssa_acc env1 acc ;; let '(acc', env2) := b in
   if is_local_in decls v then
     match vn_version v with
     | Some _ => SPanic
     | None =>
       match cur_version env2 v with
       | Some n => SOk (EUpdate (with_version v n) acc' rhe' k, env2)
       | None => let '(n, env3) := next_version env2 v in SOk (EUpdate (with_version v n) acc' rhe' k, env3)
       end
     end
   else SOk (EUpdate v acc' rhe' k, env2)).
Proof. reflexivity. Qed.

(* What a successful renaming does to a variable: one that is read gets the running version;
   the base of an element-wise update gets the running version, or a fresh one when there is
   none; an assignment target gets a fresh version.  Other variables than locals stay. *)
Definition read_as (env : senv) (v v' : vname) : Prop :=
  if is_local_in decls v then exists n, cur_version env v = Some n /\ v' = with_version v n else v' = v.
Definition fresh_as (env : senv) (v v' : vname) (env' : senv) : Prop :=
  v' = with_version v (fst (next_version env v)) /\ env' = snd (next_version env v).
Definition upd_as (env : senv) (v v' : vname) (env' : senv) : Prop :=
  if is_local_in decls v then
    match cur_version env v with
    | Some n => v' = with_version v n /\ env' = env
    | None => fresh_as env v v' env'
    end
  else v' = v /\ env' = env.
Definition def_as (env : senv) (v v' : vname) (env' : senv) : Prop :=
  if is_local_in decls v then fresh_as env v v' env' else v' = v /\ env' = env.

Lemma read_as_key env v v' : read_as env v v' -> key_of v' = key_of v.
Proof. unfold read_as. destruct (is_local_in decls v); [intros (n & _ & ->)|intros ->]; reflexivity. Qed.
Lemma upd_as_key env v v' env' : upd_as env v v' env' -> key_of v' = key_of v.
Proof.
  unfold upd_as, fresh_as. destruct (is_local_in decls v); [destruct (cur_version env v)|]; intros [-> _]; reflexivity.
Qed.
Lemma def_as_key env v v' env' : def_as env v v' env' -> key_of v' = key_of v.
Proof. unfold def_as, fresh_as. destruct (is_local_in decls v); intros [-> _]; reflexivity. Qed.

Lemma rename_read_as {A} env v (f : vname -> A) r :
  (if is_local_in decls v then (v' <~ rename_read decls env v ;; SOk (f v')) else SOk (f v)) = SOk r ->
  exists v', read_as env v v' /\ r = f v'.
Proof.
  unfold read_as, rename_read. destruct (is_local_in decls v).
  - destruct (vn_version v); [discriminate|]. destruct (cur_version env v) as [n|]; [|discriminate].
    intros [= <-]. eauto.
  - intros [= <-]. eauto.
Qed.

Section Ind.
Variable P : senv -> expr -> expr -> senv -> Prop.
Variable PL : senv -> list expr -> list expr -> senv -> Prop.
Variable PA : senv -> list (access expr) -> list (access expr) -> senv -> Prop.
Hypothesis L_nil : forall env, PL env [] [] env.
Hypothesis L_cons : forall env x x' env1 tl tl' env2,
  P env x x' env1 -> PL env1 tl tl' env2 -> PL env (x :: tl) (x' :: tl') env2.
Hypothesis A_nil : forall env, PA env [] [] env.
Hypothesis A_comp : forall env n tl tl' env2,
  PA env tl tl' env2 -> PA env (AComp n :: tl) (AComp n :: tl') env2.
Hypothesis A_idx : forall env x x' env1 tl tl' env2,
  P env x x' env1 -> PA env1 tl tl' env2 -> PA env (AIdx x :: tl) (AIdx x' :: tl') env2.
Hypothesis E_num : forall env z k, P env (ENum z k) (ENum z k) env.
Hypothesis E_phi : forall env args k, P env (EPhi args k) (EPhi args k) env.
Hypothesis E_var : forall env v v' k, read_as env v v' -> P env (EVar v k) (EVar v' k) env.
Hypothesis E_infix : forall env op l r k l' env1 r' env2,
  P env l l' env1 -> P env1 r r' env2 -> P env (EInfix op l r k) (EInfix op l' r' k) env2.
Hypothesis E_prefix : forall env op x k x' env1,
  P env x x' env1 -> P env (EPrefix op x k) (EPrefix op x' k) env1.
Hypothesis E_switch : forall env c t f k c' env1 t' env2 f' env3,
  P env c c' env1 -> P env1 t t' env2 -> P env2 f f' env3 ->
  P env (ESwitch c t f k) (ESwitch c' t' f' k) env3.
Hypothesis E_call : forall env n args k args' env1,
  PL env args args' env1 -> P env (ECall n args k) (ECall n args' k) env1.
Hypothesis E_array : forall env vs k vs' env1,
  PL env vs vs' env1 -> P env (EArray vs k) (EArray vs' k) env1.
Hypothesis E_access : forall env v acc k acc' env1 v',
  PA env acc acc' env1 -> read_as env1 v v' -> P env (EAccess v acc k) (EAccess v' acc' k) env1.
Hypothesis E_update : forall env v acc rhe k rhe' env1 acc' env2 v' env3,
  P env rhe rhe' env1 -> PA env1 acc acc' env2 -> upd_as env2 v v' env3 ->
  P env (EUpdate v acc rhe k) (EUpdate v' acc' rhe' k) env3.

Definition renames (e : expr) : Prop :=
  forall env e' env', ssa_expr decls env e = SOk (e', env') -> P env e e' env'.

Lemma ssa_list_renames : forall es, Forall renames es ->
  forall env es' env', ssa_list env es = SOk (es', env') -> PL env es es' env'.
Proof.
  induction 1 as [|x tl Hx _ IH]; intros env es' env' H; cbn [ssa_list] in H.
  - injection H as <- <-. apply L_nil.
  - apply sbind_ok in H as ([x' env1] & E1 & H). apply sbind_ok in H as ([tl' env2] & E2 & H).
    injection H as <- <-. eauto.
Qed.

Lemma ssa_acc_renames : forall acc, Forall renames (acc_exprs acc) ->
  forall env acc' env', ssa_acc env acc = SOk (acc', env') -> PA env acc acc' env'.
Proof.
  induction acc as [|[x|n] tl IH]; cbn [acc_exprs flat_map app ssa_acc]; intros HF env acc' env' H.
  - injection H as <- <-. apply A_nil.
  - apply Forall_cons_iff in HF as [Hx Htl].
    apply sbind_ok in H as ([x' env1] & E1 & H). apply sbind_ok in H as ([tl' env2] & E2 & H).
    injection H as <- <-. eauto.
  - apply sbind_ok in H as ([tl' env2] & E2 & H). injection H as <- <-. eauto.
Qed.

Lemma ssa_expr_renames : forall e, renames e.
Proof.
  induction e as [z k|v k|op l r k IHl IHr|op x k IHx|c t f k IHc IHt IHf|n args k IH|vs k IH
                 |v acc k IH|v acc rhe k IH IHr|args k] using expr_ind'; intros env e' env' H.
  - injection H as <- <-. apply E_num.
  - apply (rename_read_as env v (fun v' => (EVar v' k, env))) in H as (v' & Hv & [= -> ->]).
    apply E_var. exact Hv.
  - cbn [ssa_expr] in H. apply sbind_ok in H as ([l' env1] & E1 & H).
    apply sbind_ok in H as ([r' env2] & E2 & H). injection H as <- <-. eauto.
  - cbn [ssa_expr] in H. apply sbind_ok in H as ([x' env1] & E1 & H). injection H as <- <-. eauto.
  - cbn [ssa_expr] in H. apply sbind_ok in H as ([c' env1] & E1 & H).
    apply sbind_ok in H as ([t' env2] & E2 & H). apply sbind_ok in H as ([f' env3] & E3 & H).
    injection H as <- <-. eauto.
  - rewrite ssa_expr_call in H. apply sbind_ok in H as ([args' env1] & E1 & H). injection H as <- <-.
    apply E_call. eapply ssa_list_renames; eassumption.
  - rewrite ssa_expr_array in H. apply sbind_ok in H as ([vs' env1] & E1 & H). injection H as <- <-.
    apply E_array. eapply ssa_list_renames; eassumption.
  - rewrite ssa_expr_access in H. apply sbind_ok in H as ([acc' env1] & E1 & H).
    apply (rename_read_as env1 v (fun v' => (EAccess v' acc' k, env1))) in H as (v' & Hv & [= -> ->]).
    apply E_access; [eapply ssa_acc_renames; eassumption|exact Hv].
  - rewrite ssa_expr_update in H. apply sbind_ok in H as ([rhe' env1] & E1 & H).
    apply sbind_ok in H as ([acc' env2] & E2 & H).
    assert (U : exists v' env3, upd_as env2 v v' env3 /\ (e', env') = (EUpdate v' acc' rhe' k, env3)).
    { unfold upd_as, fresh_as. destruct (is_local_in decls v); [|injection H as <- <-; eauto].
      destruct (vn_version v); [discriminate|]. destruct (cur_version env2 v); [injection H as <- <-; eauto|].
      destruct (next_version env2 v). injection H as <- <-. eauto. }
    destruct U as (v' & env3 & Hv & [= -> ->]).
    eapply E_update; [apply IHr; exact E1|eapply ssa_acc_renames; eassumption|exact Hv].
  - injection H as <- <-. apply E_phi.
Qed.

Theorem ssa_expr_ind :
  (forall e env e' env', ssa_expr decls env e = SOk (e', env') -> P env e e' env') /\
  (forall es env es' env', ssa_exprs decls env es = SOk (es', env') -> PL env es es' env') /\
  (forall acc env acc' env', ssa_acc env acc = SOk (acc', env') -> PA env acc acc' env').
Proof.
  split; [exact ssa_expr_renames|].
  split; intros l; [apply ssa_list_renames|apply ssa_acc_renames]; apply Forall_forall; intros e _; apply ssa_expr_renames.
Qed.
End Ind.

(* the arguments of a log statement, given the fact about expressions *)
Lemma ssa_logargs_ind (P : senv -> expr -> expr -> senv -> Prop)
      (PG : senv -> list logarg -> list logarg -> senv -> Prop) :
  (forall e env e' env', ssa_expr decls env e = SOk (e', env') -> P env e e' env') ->
  (forall env, PG env [] [] env) ->
  (forall env tl tl' env2, PG env tl tl' env2 -> PG env (LStr :: tl) (LStr :: tl') env2) ->
  (forall env x x' env1 tl tl' env2, P env x x' env1 -> PG env1 tl tl' env2 ->
     PG env (LExpr x :: tl) (LExpr x' :: tl') env2) ->
  forall es env es' env', ssa_logargs decls env es = SOk (es', env') -> PG env es es' env'.
Proof.
  intros He G_nil G_str G_expr. induction es as [|[|x] tl IH]; intros env es' env' H; cbn [ssa_logargs] in H.
  - injection H as <- <-. apply G_nil.
  - apply sbind_ok in H as ([tl' env2] & E2 & H). injection H as <- <-. eauto.
  - apply sbind_ok in H as ([x' env1] & E1 & H). apply sbind_ok in H as ([tl' env2] & E2 & H).
    injection H as <- <-. eauto.
Qed.

(* one case per kind of statement *)
Section Cases.
Variable PS : senv -> stmt -> stmt -> senv -> Prop.
Hypothesis S_decl : forall env m names t dims dims' env1,
  ssa_exprs decls env dims = SOk (dims', env1) -> PS env (SDecl m names t dims) (SDecl m names t dims') env1.
Hypothesis S_if : forall env m c t f c' env1,
  ssa_expr decls env c = SOk (c', env1) -> PS env (SIf m c t f) (SIf m c' t f) env1.
Hypothesis S_ret : forall env m e e' env1,
  ssa_expr decls env e = SOk (e', env1) -> PS env (SRet m e) (SRet m e') env1.
Hypothesis S_subst : forall env m v op rhe sv st rhe' env1 v' env2,
  vn_version v = None -> ssa_expr decls env rhe = SOk (rhe', env1) -> def_as env1 v v' env2 ->
  PS env (SSubst m v op rhe sv st) (SSubst m v' op rhe' sv st) env2.
Hypothesis S_ceq : forall env m l r l' env1 r' env2,
  ssa_expr decls env l = SOk (l', env1) -> ssa_expr decls env1 r = SOk (r', env2) ->
  PS env (SCeq m l r) (SCeq m l' r') env2.
Hypothesis S_log : forall env m args args' env1,
  ssa_logargs decls env args = SOk (args', env1) -> PS env (SLog m args) (SLog m args') env1.
Hypothesis S_assert : forall env m e e' env1,
  ssa_expr decls env e = SOk (e', env1) -> PS env (SAssert m e) (SAssert m e') env1.

Lemma ssa_stmt_cases s env s' env' : ssa_stmt decls env s = SOk (s', env') -> PS env s s' env'.
Proof.
  destruct s as [m names t dims|m c t f|m e|m v op rhe sval stype|m l r|m args|m e]; cbn [ssa_stmt]; intros H.
  - apply sbind_ok in H as ([dims' env1] & E1 & H). injection H as <- <-. auto.
  - apply sbind_ok in H as ([c' env1] & E1 & H). injection H as <- <-. auto.
  - apply sbind_ok in H as ([e' env1] & E1 & H). injection H as <- <-. auto.
  - destruct (vn_version v) eqn:Ev; [discriminate|]. apply sbind_ok in H as ([rhe' env1] & E1 & H).
    assert (D : exists v' env2, def_as env1 v v' env2 /\ (s', env') = (SSubst m v' op rhe' sval stype, env2)).
    { unfold def_as, fresh_as. destruct (is_local_in decls v); [|injection H as <- <-; eauto].
      destruct (next_version env1 v). injection H as <- <-. eauto. }
    destruct D as (v' & env2 & Hv & [= -> ->]). eauto.
  - apply sbind_ok in H as ([l' env1] & E1 & H). apply sbind_ok in H as ([r' env2] & E2 & H).
    injection H as <- <-. eauto.
  - apply sbind_ok in H as ([args' env1] & E1 & H). injection H as <- <-. auto.
  - apply sbind_ok in H as ([e' env1] & E1 & H). injection H as <- <-. auto.
Qed.
End Cases.

(* a property of statements that renaming keeps, statement by statement *)
Lemma ssa_stmts_Forall (Q : stmt -> Prop) :
  (forall s env s' env', ssa_stmt decls env s = SOk (s', env') -> Q s -> Q s') ->
  forall ss env ss' env', ssa_stmts decls env ss = SOk (ss', env') -> Forall Q ss -> Forall Q ss'.
Proof.
  intros HQ. induction ss as [|s tl IH]; intros env ss' env' H HF; cbn [ssa_stmts] in H.
  - injection H as <- <-. constructor.
  - apply sbind_ok in H as ([s' env1] & E1 & H). apply sbind_ok in H as ([tl' env2] & E2 & H).
    injection H as <- <-. apply Forall_cons_iff in HF as [Hs Htl]. eauto.
Qed.
End Rename.

(* what does not look at the arguments of a phi statement is the same after [ensure_phi_arg];
   what does not look at the names a declaration of a local lists, after [update_decl_stmt] *)
Lemma ensure_phi_arg_same {A} (F : stmt -> A) :
  (forall m x op args args' k sv st, F (SSubst m x op (EPhi args k) sv st) = F (SSubst m x op (EPhi args' k) sv st)) ->
  forall env s, F (ensure_phi_arg env s) = F s.
Proof.
  intros HF env s. destruct s as [| | |m x op rhe sv st| | |]; try reflexivity. destruct rhe; try reflexivity.
  unfold ensure_phi_arg. destruct (cur_version env x);
    match goal with |- context [if ?c then _ else _] => destruct c end; auto.
Qed.

Lemma update_decl_stmt_same {A} (F : stmt -> A) :
  (forall m names names' dims, F (SDecl m names TLocal dims) = F (SDecl m names' TLocal dims)) ->
  forall env s, F (update_decl_stmt env s) = F s.
Proof. intros HF env s. destruct s as [m [|name rest] [] dims| | | | | |]; try reflexivity. apply HF. Qed.

Lemma update_phis_Forall (Q : stmt -> Prop) env :
  (forall s, Q s -> Q (ensure_phi_arg env s)) -> forall ss, Forall Q ss -> Forall Q (update_phis env ss).
Proof.
  intros HQ. induction 1 as [|s tl Hs Htl IH]; cbn [update_phis]; [constructor|].
  destruct (is_phi_stmt s); auto.
Qed.

Lemma update_nth_length {A} (f : A -> A) : forall l i, length (update_nth l i f) = length l.
Proof. induction l as [|x tl IH]; intros [|j]; simpl; auto. Qed.

Lemma update_nth_other {A} (f : A -> A) : forall l i j, i <> j -> nth_error (update_nth l i f) j = nth_error l j.
Proof.
  induction l as [|x tl IH]; intros [|i] [|j] H; simpl; auto; try congruence; try (apply IH; congruence).
Qed.

Lemma update_nth_same {A} (f : A -> A) : forall l i x, nth_error l i = Some x ->
  nth_error (update_nth l i f) i = Some (f x).
Proof.
  induction l as [|y tl IH]; intros [|i] x H; simpl in *; try discriminate.
  - inversion H. reflexivity.
  - apply IH. exact H.
Qed.

(* an element of the updated list is an element of the list, possibly under [f] *)
Lemma update_nth_inv {A} (f : A -> A) : forall l i j x, nth_error (update_nth l i f) j = Some x ->
  exists y, nth_error l j = Some y /\ (x = y \/ i = j /\ x = f y).
Proof.
  induction l as [|y tl IH]; intros [|i] [|j] x H; simpl in *; try discriminate; eauto.
  - injection H as <-. eauto.
  - destruct (IH i j x H) as (z & Hz & [->|[-> ->]]); eauto.
Qed.

Lemma Forall_update_nth {A} (P : A -> Prop) (f : A -> A) : forall l i,
  Forall P l -> (forall x, nth_error l i = Some x -> P x -> P (f x)) -> Forall P (update_nth l i f).
Proof.
  induction l as [|x l IH]; intros [|i] H Hf; simpl; inversion H; subst; constructor; auto.
Qed.

Lemma Forall_nth_error {A} (P : A -> Prop) l i x : Forall P l -> nth_error l i = Some x -> P x.
Proof. intros H Hx. rewrite Forall_forall in H. apply H. eapply nth_error_In. exact Hx. Qed.

Lemma forall2_update_nth {A B} (R : A -> B -> Prop) (f : B -> B) : forall l0 l i,
  Forall2 R l0 l ->
  (forall x0 x, nth_error l0 i = Some x0 -> nth_error l i = Some x -> R x0 x -> R x0 (f x)) ->
  Forall2 R l0 (update_nth l i f).
Proof.
  intros l0 l i H. revert i. induction H as [|x0 x t0 t Hx Ht IH]; intros [|i] Hf; simpl; constructor; auto.
Qed.

Lemma forall2_nth {A B} (R : A -> B -> Prop) : forall l0 l i x, Forall2 R l0 l -> nth_error l i = Some x ->
  exists x0, nth_error l0 i = Some x0 /\ R x0 x.
Proof.
  intros l0 l i x H. revert i. induction H as [|x0 y t0 t Hx Ht IH]; intros [|i] Hi; simpl in *; try discriminate.
  - inversion Hi; subst. eauto.
  - apply IH. exact Hi.
Qed.

Lemma forall2_nth_fwd {A B} (R : A -> B -> Prop) : forall l0 l i x0, Forall2 R l0 l -> nth_error l0 i = Some x0 ->
  exists x, nth_error l i = Some x /\ R x0 x.
Proof.
  intros l0 l i x0 H. revert i. induction H as [|a b t0 t Hx Ht IH]; intros [|i] Hi; simpl in *; try discriminate.
  - inversion Hi; subst. eauto.
  - apply IH. exact Hi.
Qed.

Lemma forall2_in {A B} (R : A -> B -> Prop) : forall l0 l x, Forall2 R l0 l -> In x l -> exists x0, In x0 l0 /\ R x0 x.
Proof.
  intros l0 l x H Hx. apply In_nth_error in Hx as [i Hi]. destruct (forall2_nth _ _ _ _ _ H Hi) as (x0 & H0 & Hr).
  exists x0. split; [eapply nth_error_In; exact H0|exact Hr].
Qed.


Lemma forall2_comp {A B C} (P : A -> B -> Prop) (Q : B -> C -> Prop) (S : A -> C -> Prop) :
  (forall x y z, P x y -> Q y z -> S x z) -> forall a b c, Forall2 P a b -> Forall2 Q b c -> Forall2 S a c.
Proof.
  intros H a b c Hab. revert c. induction Hab; intros c Hbc; inversion Hbc; subst; constructor; eauto.
Qed.

Lemma forall2_length {A B} (R : A -> B -> Prop) : forall l0 l, Forall2 R l0 l -> length l = length l0.
Proof. intros l0 l H. symmetry. exact (Forall2_len R l0 l H). Qed.


(* a property of the elements of one list as a relation to any list of the same length *)
Lemma forall2_of_Forall {A} (P : A -> Prop) l : Forall P l -> Forall2 (fun _ y : A => P y) l l.
Proof. induction 1; constructor; auto. Qed.

Lemma Forall_of_forall2 {A B} (P : B -> Prop) (l0 : list A) l : Forall2 (fun _ y => P y) l0 l -> Forall P l.
Proof. induction 1; constructor; auto. Qed.

Lemma dedup_v_in : forall l v, In v (dedup_v l) -> In v l.
Proof.
  induction l as [|x tl IH]; simpl; intros v H; [exact H|].
  destruct (existsb (vname_eqb x) tl); [right; apply IH; exact H|].
  destruct H as [->|H]; [left; reflexivity|right; apply IH; exact H].
Qed.

(* A relation between a fixed list and the blocks that is kept when a phi statement is put
   in front of a block is kept by the work list.  The variable of the phi statement is one
   that some block of the list writes: [W] is what the relation knows of such variables. *)
Section PhiRule.
Context {A : Type} (W : vname -> Prop) (R : A -> block -> Prop).
Hypothesis R_written : forall a b v, R a b -> In v (vars_written b) -> W v.
Hypothesis R_phi : forall a b v, W v -> R a b -> R a (set_stmts b (phi_stmt_for v :: b_stmts b)).

Lemma add_phis_keeps a : forall vars b n, Forall W vars -> R a b -> R a (fst (add_phis vars b n)).
Proof.
  induction vars as [|v tl IH]; intros b n HW H; cbn [add_phis]; [exact H|].
  apply Forall_cons_iff in HW as [Hv Htl]. destruct (existsb (is_phi_for v) (b_stmts b)); auto.
Qed.

Lemma process_frontier_keeps l0 vars : Forall W vars -> forall fr bs work,
  Forall2 R l0 bs -> Forall2 R l0 (fst (process_frontier vars fr bs work)).
Proof.
  intros HW. induction fr as [|f tl IH]; intros bs work H; cbn [process_frontier]; [exact H|].
  destruct (nth_error bs (N.to_nat f)) as [b|] eqn:E; [|auto].
  pose proof (add_phis_keeps) as K. specialize K with (vars := vars) (b := b) (n := 0).
  destruct (add_phis vars b 0) as [b' pushes]. apply IH.
  apply forall2_update_nth; [exact H|]. intros x0 x _ Hx Hr. rewrite E in Hx. injection Hx as <-. auto.
Qed.

Lemma insert_phis_keeps l0 frontier : forall fuel bs work bs',
  insert_phis fuel frontier bs work = SOk bs' -> Forall2 R l0 bs -> Forall2 R l0 bs'.
Proof.
  induction fuel as [|fuel IH]; intros bs [|cur rest] bs' H Hi; cbn [insert_phis] in H;
    try discriminate; try (injection H as <-; exact Hi).
  destruct (nth_error bs cur) as [b|] eqn:Eb; [|discriminate].
  destruct (forall2_nth _ _ _ _ _ Hi Eb) as (a & _ & Hb).
  destruct (vars_written b) as [|v vs] eqn:Ev; [eauto|].
  assert (HW : Forall W (v :: vs)).
  { apply Forall_forall. intros u Hu. apply (R_written a b); [exact Hb|]. rewrite Ev. exact Hu. }
  pose proof (process_frontier_keeps l0 _ HW (nth cur frontier []) bs rest Hi) as Hp.
  destruct (process_frontier (v :: vs) (nth cur frontier []) bs rest) as [bs1 work1]. eauto.
Qed.
End PhiRule.

Fixpoint rename_kids (fuel' : nat) (decls : list (vname * vtype)) (children : list (list N))
         (kids : list N) (bs : list block) (env : senv) : ssa_result (list block * senv) :=
  match kids with
  | [] => SOk (bs, env)
  | k :: tl =>
    r <~ rename_tree fuel' decls children (N.to_nat k) bs (push_scope env) ;;
    let '(bs', env') := r in
    rename_kids fuel' decls children tl bs' (pop_scope env')
  end.

Lemma rename_tree_unfold fuel' decls children cur bs env :
  rename_tree (S fuel') decls children cur bs env =
  match nth_error bs cur with
  | None => SPanic
  | Some b =>
    r <~ ssa_stmts decls env (b_stmts b) ;;
    let '(ss', env1) := r in
    rename_kids fuel' decls children (nth cur children [])
                (update_succ_phis env1 (b_succs b) (update_nth bs cur (fun b0 => set_stmts b0 ss'))) env1
  end.
Proof.
  simpl. destruct (nth_error bs cur) as [b|]; [|reflexivity].
  destruct (ssa_stmts decls env (b_stmts b)) as [[ss' env1]| | |]; simpl; try reflexivity.
  generalize (update_succ_phis env1 (b_succs b) (update_nth bs cur (fun b0 => set_stmts b0 ss'))).
  generalize env1. induction (nth cur children []) as [|k tl IH]; intros e l; simpl; [reflexivity|].
  destruct (rename_tree fuel' decls children (N.to_nat k) l (push_scope e)) as [[bs' env']| | |]; simpl; try reflexivity.
  apply IH.
Qed.

(* The walk keeps every invariant [I] of environment and block list that its four kinds of
   step keep: renaming the statements of a block (one of [T], the blocks of the subtree),
   adding the arguments of the phi statements of a successor, opening and closing a scope.
   [V] is a property of the renamed statements of a block that adding phi arguments keeps:
   it holds of every block the walk has visited. *)
Section TreeRule.
Variable decls : list (vname * vtype).
Variable children : list (list N).
Variable T : nat -> Prop.
Variable I : senv -> list block -> Prop.
Variable V : list stmt -> Prop.
Hypothesis I_block : forall env bs cur b ss env1, T cur -> I env bs -> nth_error bs cur = Some b ->
  ssa_stmts decls env (b_stmts b) = SOk (ss, env1) ->
  I env1 (update_nth bs cur (fun b0 => set_stmts b0 ss)) /\ V ss.
Hypothesis I_phis : forall env bs s, I env bs ->
  I env (update_nth bs s (fun b => set_stmts b (update_phis env (b_stmts b)))).
Hypothesis I_push : forall env bs, I env bs -> I (push_scope env) bs.
Hypothesis I_pop : forall env bs, I env bs -> I (pop_scope env) bs.
Hypothesis V_phis : forall env ss, V ss -> V (update_phis env ss).

Definition holds_at (bs : list block) (i : nat) : Prop :=
  forall b, nth_error bs i = Some b -> V (b_stmts b).

Lemma holds_at_update bs i (f : block -> block) j :
  (forall b, V (b_stmts b) -> V (b_stmts (f b))) -> holds_at bs j -> holds_at (update_nth bs i f) j.
Proof.
  intros Hf H b Hb. destruct (update_nth_inv f bs i j b Hb) as (y & Hy & [->|[_ ->]]); auto.
Qed.

Lemma update_succ_phis_inv env : forall succs bs, I env bs ->
  I env (update_succ_phis env succs bs) /\
  forall i, holds_at bs i -> holds_at (update_succ_phis env succs bs) i.
Proof.
  induction succs as [|s tl IH]; intros bs Hi; cbn [update_succ_phis]; [auto|].
  destruct (IH _ (I_phis env bs (N.to_nat s) Hi)) as [I1 H1]. split; [exact I1|].
  intros i H. apply H1. apply holds_at_update; [|exact H]. intros b. apply V_phis.
Qed.

Theorem rename_tree_inv : forall fuel cur bs env bs' env',
  (forall i, In i (preorder fuel children cur) -> T i) ->
  rename_tree fuel decls children cur bs env = SOk (bs', env') -> I env bs ->
  I env' bs' /\ (forall i, holds_at bs i -> holds_at bs' i) /\
  (forall i, In i (preorder fuel children cur) -> holds_at bs' i).
Proof.
  induction fuel as [|fuel IH]; intros cur bs env bs' env' HT H Hi; [discriminate H|].
  rewrite rename_tree_unfold in H. cbn [preorder] in HT.
  destruct (nth_error bs cur) as [b|] eqn:Eb; [|discriminate].
  apply sbind_ok in H as ([ss env1] & Es & H).
  destruct (I_block _ _ _ _ _ _ (HT _ (or_introl eq_refl)) Hi Eb Es) as [I1 Vss].
  destruct (update_succ_phis_inv env1 (b_succs b) _ I1) as [I2 H2].
  assert (K : forall kids l e l' e',
             (forall i, In i (flat_map (fun k => preorder fuel children (N.to_nat k)) kids) -> T i) ->
             rename_kids fuel decls children kids l e = SOk (l', e') -> I e l ->
             I e' l' /\ (forall i, holds_at l i -> holds_at l' i) /\
             (forall i, In i (flat_map (fun k => preorder fuel children (N.to_nat k)) kids) -> holds_at l' i)).
  { induction kids as [|k tl IHk]; intros l e l' e' Hkt Hk Hl; cbn [rename_kids flat_map] in Hk, Hkt |- *.
    - injection Hk as <- <-. split; [exact Hl|]. split; [auto|intros i []].
    - apply sbind_ok in Hk as ([l1 e1] & E1 & Hk).
      destruct (IH _ _ _ _ _ (fun i Hin => Hkt i (in_or_app _ _ i (or_introl Hin))) E1 (I_push _ _ Hl)) as (J1 & M1 & P1).
      destruct (IHk _ _ _ _ (fun i Hin => Hkt i (in_or_app _ _ i (or_intror Hin))) Hk (I_pop _ _ J1)) as (J2 & M2 & P2).
      split; [exact J2|]. split; [auto|]. intros i Hin. apply in_app_or in Hin as [Hin|Hin]; auto. }
  destruct (K _ _ _ _ _ (fun i Hin => HT i (or_intror Hin)) H I2) as (I3 & M & P). split; [exact I3|].
  set (f := fun b0 => set_stmts b0 ss) in *.
  assert (C : holds_at (update_nth bs cur f) cur).
  { intros b1 Hb1. rewrite (update_nth_same f bs cur b Eb) in Hb1. injection Hb1 as <-. exact Vss. }
  split.
  - intros i Hb. apply M, H2. destruct (Nat.eq_dec cur i) as [<-|Hne]; [exact C|].
    intros b1 Hb1. rewrite update_nth_other in Hb1 by exact Hne. auto.
  - intros i [<-|Hin]; auto.
Qed.
End TreeRule.

(* the same for a relation between a fixed list and the blocks *)
Section BlockRule.
Context {A : Type} (decls : list (vname * vtype)) (R : A -> block -> Prop).
Hypothesis R_ssa : forall a b env ss env', R a b ->
  ssa_stmts decls env (b_stmts b) = SOk (ss, env') -> R a (set_stmts b ss).
Hypothesis R_upd : forall a b env, R a b -> R a (set_stmts b (update_phis env (b_stmts b))).

Lemma rename_tree_keeps l0 children fuel cur bs env bs' env' :
  rename_tree fuel decls children cur bs env = SOk (bs', env') -> Forall2 R l0 bs -> Forall2 R l0 bs'.
Proof.
  intros H Hi.
  refine (proj1 (rename_tree_inv decls children (fun _ => True) (fun _ => Forall2 R l0) (fun _ => True)
                  _ _ _ _ _ _ _ _ _ _ _ _ H Hi)); auto.
  - intros e l i b ss e1 _ Hl Hb Hs. split; [|exact I].
    apply forall2_update_nth; [exact Hl|]. intros x0 x _ Hx Hr. rewrite Hb in Hx. injection Hx as <-. eauto.
  - intros e l s Hl. apply forall2_update_nth; [exact Hl|]. intros x0 x _ _ Hr. apply R_upd. exact Hr.
Qed.
End BlockRule.

Lemma into_ssa_stages frontier children c c' :
  into_ssa frontier children c = SOk c' ->
  exists fuel bs1 env0 bs2 env,
    insert_phis fuel frontier (c_blocks c) (rev (seq 0 (length (c_blocks c)))) = SOk bs1 /\
    env0 = fold_left (fun env x => snd (next_version env x)) (c_params c) {| se_global := []; se_scoped := [[]] |} /\
    rename_tree (S (length (c_blocks c))) (c_decls c) children 0 bs1 env0 = SOk (bs2, env) /\
    c' = {| c_kind := c_kind c; c_params := map (fun x => with_version x 0%N) (c_params c); c_decls := [];
            c_blocks := map (fun b => set_stmts b (map (update_decl_stmt env) (b_stmts b))) bs2 |}.
Proof.
  intros H. unfold into_ssa in H. sb1 H. sb2 H. inversion H; subst c'. do 5 eexists. split; [exact E|].
  split; [reflexivity|]. split; [exact E0|reflexivity].
Qed.

(* a relation that all three stages keep *)
Section Stages.
Context {A : Type} (W : vname -> Prop) (R : A -> block -> Prop) (frontier children : list (list N)) (c c' : cfg).
Hypothesis R_written : forall a b v, R a b -> In v (vars_written b) -> W v.
Hypothesis R_phi : forall a b v, W v -> R a b -> R a (set_stmts b (phi_stmt_for v :: b_stmts b)).
Hypothesis R_ssa : forall a b env ss env', R a b ->
  ssa_stmts (c_decls c) env (b_stmts b) = SOk (ss, env') -> R a (set_stmts b ss).
Hypothesis R_upd : forall a b env, R a b -> R a (set_stmts b (update_phis env (b_stmts b))).
Hypothesis R_decl : forall a b env, R a b -> R a (set_stmts b (map (update_decl_stmt env) (b_stmts b))).

Lemma into_ssa_keeps l0 :
  into_ssa frontier children c = SOk c' -> Forall2 R l0 (c_blocks c) -> Forall2 R l0 (c_blocks c').
Proof.
  intros H H0. destruct (into_ssa_stages _ _ _ _ H) as (fuel & bs1 & env0 & bs2 & env & H1 & _ & H2 & ->).
  pose proof (rename_tree_keeps _ R R_ssa R_upd l0 _ _ _ _ _ _ _ H2
                (insert_phis_keeps W R R_written R_phi l0 _ _ _ _ _ H1 H0)) as H3.
  cbn [c_blocks]. clear - H3 R_decl. induction H3; cbn [map]; constructor; auto.
Qed.
End Stages.
