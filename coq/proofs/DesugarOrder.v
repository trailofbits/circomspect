(* The loops of remove_syntactic_sugar (parser/src/syntax_sugar_remover.rs)
   iterate `templates` and `functions`, two std
   HashMaps, in per-process random order.  Over the mirror Model.Desugar (whose
   correspondence with the real desugarer is checked by C18) it is proved here,
   for property C17, that EVERY iteration order gives the same set of surviving
   definitions and the same multiset of reports: the lookup table that
   remove_anonymous_from_statement consults is the immutable input map, which
   is read by name only.  A variant of the loop that removes dropped templates
   from the lookup table while iterating (seeded/C17-desugar-known-templates-
   hash-order) is shown NOT to have this property. *)
From Coq Require Import ZArith NArith List Bool String Permutation Lia.
Require Import Model.Ast Model.Desugar Proofs.DesugarProofs.
Import ListNotations.
Local Open Scope list_scope.

Definition env_agree (e1 e2 : tenv) : Prop := forall id, lookup_template id e1 = lookup_template id e2.

Section EnvExt.
  Variables e1 e2 : tenv.
  Variable lib : file_library.
  Hypothesis Hagree : env_agree e1 e2.

  Lemma anon_component_env : forall va m id par ps ss names results,
    anon_component e1 lib va m id par ps ss names results =
    anon_component e2 lib va m id par ps ss names results.
  Proof. intros. unfold anon_component. rewrite Hagree. reflexivity. Qed.

  Lemma rae_env : forall va e,
    remove_anonymous_from_expression e1 lib va e = remove_anonymous_from_expression e2 lib va e.
  Proof.
    intros va. induction e using expression_ind_par; try reflexivity.
    - rewrite !rae_parallel, IHe0. reflexivity.
    - simpl. rewrite (map_ext_Forall _ _ H0), anon_component_env. reflexivity.
    - simpl. rewrite (map_ext_Forall _ _ H). reflexivity.
  Qed.

  Lemma ras_list_ext : forall f g l, Forall (fun s => f s = g s) l ->
    forall a b, ras_list f l a b = ras_list g l a b.
  Proof.
    intros f g l H. induction H as [|x l Hx _ IH]; intros a b; simpl; auto.
    rewrite Hx. destruct (g x) as [[s d]| | |]; simpl; auto.
  Qed.

  Lemma ras_env : forall s va,
    remove_anonymous_from_statement e1 lib va s = remove_anonymous_from_statement e2 lib va s.
  Proof.
    induction s using statement_ind'; intros va; simpl; try reflexivity.
    - rewrite IHs. destruct e as [e'|]; auto. rewrite (H e' eq_refl). reflexivity.
    - destruct (contains_anon c); auto. destruct (gen_name lib "anon_var" m); simpl; auto.
      rewrite IHs. reflexivity.
    - rewrite (ras_list_ext _ (remove_anonymous_from_statement e2 lib va) l); auto.
      eapply Forall_impl; [|exact H]. intros x Hx. apply Hx.
    - rewrite rae_env. reflexivity.
    - rewrite rae_env. reflexivity.
    - rewrite (ras_list_ext _ (remove_anonymous_from_statement e2 lib va) l); auto.
      eapply Forall_impl; [|exact H]. intros x Hx. apply Hx.
  Qed.

  Lemma desugar_template_env : forall body, desugar_template e1 lib body = desugar_template e2 lib body.
  Proof. intros. unfold desugar_template. rewrite ras_env. reflexivity. Qed.
End EnvExt.

(* a map enumerated in two orders answers every lookup alike *)
Lemma env_agree_perm : forall env env', NoDup (map fst env) -> Permutation env env' -> env_agree env env'.
Proof.
  intros env env' Hnd Hp id.
  induction Hp as [|[n t] l l' Hp IH|[n t] [n' t'] l|l l' l'' Hp1 IH1 Hp2 IH2]; simpl in *.
  - reflexivity.
  - inversion Hnd; subst. rewrite IH; auto.
  - destruct (String.eqb n' id) eqn:E1, (String.eqb n id) eqn:E2; auto.
    apply String.eqb_eq in E1, E2. subst. inversion Hnd; subst. elim H1. left. reflexivity.
  - rewrite IH1, IH2; auto. eapply Permutation_NoDup; [|exact Hnd]. apply Permutation_map. exact Hp1.
Qed.

Lemma env_of_perm : forall ts ts', NoDup (map fst ts) -> Permutation ts ts' -> env_agree (env_of ts) (env_of ts').
Proof.
  intros ts ts' Hnd Hp. apply env_agree_perm.
  - unfold env_of. rewrite map_map. simpl. exact Hnd.
  - unfold env_of. apply Permutation_map. exact Hp.
Qed.

Lemma existsb_perm : forall (A : Type) (f : A -> bool) l l', Permutation l l' -> existsb f l = existsb f l'.
Proof.
  intros A f l l' H. induction H; simpl; auto.
  - rewrite IHPermutation. reflexivity.
  - destruct (f x), (f y); reflexivity.
  - congruence.
Qed.

(* both runs fail to produce a result, or both produce the same definitions and reports *)
Definition same_up_to_order {A B : Type} (a b : dres (list A * list B)) : Prop :=
  match a, b with
  | DOk (x, r), DOk (x', r') => Permutation x x' /\ Permutation r r'
  | DOk _, _ | _, DOk _ => False
  | _, _ => True
  end.

Lemma not_ok : forall {A} (a : dres A),
  (forall x, a <> DOk x) -> match a with DOk _ => False | _ => True end.
Proof. intros A [x| | |] H; auto. exact (H x eq_refl). Qed.

Theorem desugar_templates_order_independent : forall env lib ts ts',
  Permutation ts ts' ->
  same_up_to_order (desugar_templates env lib ts [] []) (desugar_templates env lib ts' [] []).
Proof.
  intros env lib ts ts' Hp.
  pose proof (desugar_templates_spec env lib ts [] []) as H1.
  pose proof (desugar_templates_spec env lib ts' [] []) as H2.
  rewrite <- (existsb_perm _ (t_stuck env lib) ts ts' Hp) in H2.
  destruct (existsb (t_stuck env lib) ts).
  - apply not_ok in H1, H2.
    destruct (desugar_templates env lib ts [] []), (desugar_templates env lib ts' [] []); try contradiction; exact I.
  - rewrite H1, H2. simpl. split; apply Permutation_flat_map; assumption.
Qed.

Definition same_desugared (a b : dres desugared) : Prop :=
  match a, b with
  | DOk x, DOk y =>
      Permutation (d_templates x) (d_templates y) /\ Permutation (d_functions x) (d_functions y) /\
      Permutation (d_reports x) (d_reports y)
  | DOk _, _ | _, DOk _ => False
  | _, _ => True
  end.

Lemma desugar_templates_env : forall e1 e2 lib, env_agree e1 e2 -> forall ts acc reps,
  desugar_templates e1 lib ts acc reps = desugar_templates e2 lib ts acc reps.
Proof.
  intros e1 e2 lib H ts. induction ts as [|[name body] ts IH]; intros acc reps; simpl; auto.
  rewrite (desugar_template_env e1 e2 lib H body).
  destruct (desugar_template e2 lib body); auto.
Qed.

Theorem remove_syntactic_sugar_order_independent : forall lib ts ts' fs fs',
  NoDup (map fst ts) -> Permutation ts ts' -> Permutation fs fs' ->
  same_desugared (remove_syntactic_sugar lib ts fs) (remove_syntactic_sugar lib ts' fs').
Proof.
  intros lib ts ts' fs fs' Hnd Hpt Hpf. unfold remove_syntactic_sugar.
  rewrite (desugar_templates_env (env_of ts') (env_of ts) lib).
  2: { intros id. symmetry. apply env_of_perm; assumption. }
  pose proof (desugar_templates_spec (env_of ts) lib ts [] []) as H1.
  pose proof (desugar_templates_spec (env_of ts) lib ts' [] []) as H2.
  rewrite <- (existsb_perm _ (t_stuck (env_of ts) lib) ts ts' Hpt) in H2.
  destruct (existsb (t_stuck (env_of ts) lib) ts).
  - apply not_ok in H1, H2.
    destruct (desugar_templates (env_of ts) lib ts [] []), (desugar_templates (env_of ts) lib ts' [] []);
      try contradiction; exact I.
  - rewrite H1, H2. simpl.
    pose proof (desugar_functions_spec fs [] (flat_map (t_err (env_of ts) lib) ts)) as F1.
    pose proof (desugar_functions_spec fs' [] (flat_map (t_err (env_of ts) lib) ts')) as F2.
    rewrite <- (existsb_perm _ f_stuck fs fs' Hpf) in F2.
    destruct (existsb f_stuck fs).
    + apply not_ok in F1, F2.
      destruct (desugar_functions fs [] _), (desugar_functions fs' [] _); try contradiction; exact I.
    + rewrite F1, F2. simpl. split; [|split].
      * apply Permutation_flat_map; assumption.
      * apply Permutation_flat_map; assumption.
      * apply Permutation_app; apply Permutation_flat_map; assumption.
Qed.

(* NOT the code of /repo: the variant of seeded/C17-desugar-known-templates-hash-order,
   in which a dropped template is also removed from the table consulted for the
   templates visited later.  It is here to show that the theorems above
   distinguish: the same statement is false for it. *)
Definition remove_key (n : string) (env : tenv) : tenv :=
  filter (fun e => negb (String.eqb (fst e) n)) env.

Fixpoint desugar_templates_tracking (known : tenv) (lib : file_library) (ts : list (string * statement))
  (acc : list (string * statement)) (reports : list report)
  : dres (list (string * statement) * list report) :=
  match ts with
  | [] => DOk (acc, reports)
  | (name, body) :: rest =>
      match desugar_template known lib body with
      | DOk new_body => desugar_templates_tracking known lib rest (acc ++ [(name, new_body)]) reports
      | DErr r => desugar_templates_tracking (remove_key name known) lib rest acc (reports ++ [r])
      | DPanic s => DPanic s
      | DOutOfFuel => DOutOfFuel
      end
  end.

Local Open Scope string_scope.
Definition wm : meta := Meta 0 1 (Some 0%N).
Definition wlib : file_library := [[0%N]].
(* B is dropped: an anonymous component inside an assert *)
Definition wB : statement :=
  Block wm [Declaration wm (VSignal SOutput []) "out" [] false;
            Assert wm (AnonymousComponent wm "Q" false [] [] None)].
(* U instantiates B anonymously *)
Definition wU : statement :=
  Block wm [Declaration wm (VSignal SOutput []) "b" [] false;
            Substitution wm "b" [] AssignConstraintSignal (AnonymousComponent wm "B" false [] [] None)].
Definition wts : list (string * statement) := [("B", wB); ("U", wU)].

Theorem tracking_variant_order_dependent :
  exists lib ts ts',
    NoDup (map fst ts) /\ Permutation ts ts' /\
    ~ same_up_to_order (desugar_templates_tracking (env_of ts) lib ts [] [])
                       (desugar_templates_tracking (env_of ts) lib ts' [] []) /\
    same_up_to_order (desugar_templates (env_of ts) lib ts [] [])
                     (desugar_templates (env_of ts) lib ts' [] []).
Proof.
  exists wlib, wts, (rev wts).
  split. { simpl. repeat constructor; simpl; intuition discriminate. }
  split. { apply Permutation_rev. }
  split.
  - vm_compute. intros [H _]. apply Permutation_length in H. discriminate.
  - apply desugar_templates_order_independent. apply Permutation_rev.
Qed.
