(* C07: the hypotheses of Proofs.CtlChain.chain_split_decides are satisfiable.  The body
     var x = 0; if (x < 3) { x = 1; } else { x = 2; }  x = x + 4;
   is lifted by the mirror of try_lift_impl, converted to SSA with the children and frontier
   lists of its dominator tree (a phi for x appears at the join, block 3), annotated by
   propagation (the mirror of into_ssa hands its declarations over through the statements
   and leaves the table empty, so no degree claim is made here: the example is about the
   GRAPH); on the annotated graph block 0 can change the edge along which the join is
   entered and the theorem yields that its condition is a deciding condition of the join. *)
From Coq Require Import ZArith NArith List Bool String Ascii.
Require Import Model.Ast.
Require Model.Base Model.Ir Model.Dom Model.Ssa Model.SsaPre Model.LiftFull Model.Lift Model.Propagate Model.DegGraph Model.DegJustify.
Require Spec.CfgSpec Spec.CtlSpec Spec.DegSem.
Require Proofs.CtlStructure Proofs.CtlChain Proofs.CtlChainExampleGraph.
From stdpp Require base numbers list.
Import ListNotations.
Local Open Scope string_scope.

Definition cm (a b : N) : meta := Meta a b (Some 0%N).
Definition cx (a b : N) : expression := Variable_ (cm a b) "x" [].

Definition cc_body : statement :=
  Block (cm 0 90)
    [InitializationBlock (cm 1 10) VVar
       [Declaration (cm 1 6) VVar "x" [] true; Substitution (cm 5 10) "x" [] AssignVar (Number (cm 9 10) 0)];
     IfThenElse (cm 12 60) (InfixOp (cm 16 21) (cx 16 17) ILesser (Number (cm 20 21) 3))
       (Block (cm 23 35) [Substitution (cm 25 31) "x" [] AssignVar (Number (cm 29 30) 1)])
       (Some (Block (cm 41 53) [Substitution (cm 43 49) "x" [] AssignVar (Number (cm 47 48) 2)]));
     Substitution (cm 62 72) "x" [] AssignVar (InfixOp (cm 66 71) (cx 66 67) IAdd (Number (cm 70 71) 4))].

Definition cc_key (m : Ir.meta) : nat := N.to_nat (Ir.m_start m).

Definition cc_lifted : option LiftFull.lifted :=
  match LiftFull.try_lift_impl Ir.KTemplate [] (Some 0%N) (10%N, 12%N) cc_body with Base.Ok r => Some r | _ => None end.

Definition cc_children : list (list N) := [[1%N; 2%N; 3%N]; []; []; []].
Definition cc_frontier : list (list N) := [[]; [3%N]; [3%N]; []].
Definition cc_idom : list (option N) := [None; Some 0%N; Some 0%N; Some 0%N].

Definition cc_ok : bool :=
  match cc_lifted with
  | Some r =>
    let c0 := LiftFull.erase_cfg (LiftFull.l_cfg r) in
    SsaPre.phi_free c0 && SsaPre.decls_ok c0 &&
    match Ssa.into_ssa cc_frontier cc_children c0 with
    | Ssa.SOk c1 =>
      match Propagate.propagate 9 9 7 cc_idom c1 with
      | Base.Ok c2 =>
        DegGraph.graph_consistent c2 && DegGraph.idom_is_dominator_table c2 cc_idom && DegJustify.idom_shape c2 cc_idom &&
        (* the join holds a phi with two arguments, block 0 ends with a condition *)
        match nth_error (Ir.c_blocks c2) 3, nth_error (Ir.c_blocks c2) 0 with
        | Some bj, Some b0 =>
          existsb (fun s => match s with Ir.SSubst _ _ _ (Ir.EPhi (_ :: _ :: _) _) _ _ => true | _ => false end) (Ir.b_stmts bj) &&
          match last (Ir.b_stmts b0) (Ir.SLog (Ir.Build_meta 0 0 None) []) with Ir.SIf _ _ _ _ => true | _ => false end
        | _, _ => false
        end
      | _ => false
      end
    | _ => false
    end
  | None => false
  end.

Lemma cc_ok_true : cc_ok = true.
Proof. vm_compute. reflexivity. Qed.

Definition cc_r : LiftFull.lifted :=
  match cc_lifted with Some r => r | None => {| LiftFull.l_cfg := LiftFull.Build_xcfg Ir.KTemplate [] None (0%N, 0%N) [] []; LiftFull.l_reports := [] |} end.
Definition cc_c0 : Ir.cfg := LiftFull.erase_cfg (LiftFull.l_cfg cc_r).
Definition cc_c1 : Ir.cfg := match Ssa.into_ssa cc_frontier cc_children cc_c0 with Ssa.SOk c => c | _ => cc_c0 end.
Definition cc_c2 : Ir.cfg := match Propagate.propagate 9 9 7 cc_idom cc_c1 with Base.Ok c => c | _ => cc_c1 end.
Definition cc_g : list Lift.block := map (LiftFull.skel_block cc_key) (LiftFull.xc_blocks (LiftFull.l_cfg cc_r)).
Definition cc_join : Ir.block := nth 3 (Ir.c_blocks cc_c2) (Ir.Build_block 0 0 [] [] []).
Definition cc_cond : Ir.expr :=
  match last (Ir.b_stmts (nth 0 (Ir.c_blocks cc_c2) (Ir.Build_block 0 0 [] [] []))) (Ir.SLog (Ir.Build_meta 0 0 None) []) with
  | Ir.SIf _ c _ _ => c
  | _ => Ir.ENum 0 Ir.know0
  end.

Lemma chain_example :
  LiftFull.try_lift_impl Ir.KTemplate [] (Some 0%N) (10%N, 12%N) cc_body = Base.Ok cc_r /\
  SsaPre.phi_free cc_c0 = true /\ SsaPre.decls_ok cc_c0 = true /\
  Ssa.into_ssa cc_frontier cc_children cc_c0 = Ssa.SOk cc_c1 /\
  Propagate.propagate 9 9 7 cc_idom cc_c1 = Base.Ok cc_c2 /\
  DegGraph.graph_consistent cc_c2 = true /\ DegGraph.idom_is_dominator_table cc_c2 cc_idom = true /\
  DegJustify.idom_shape cc_c2 cc_idom = true /\
  CtlSpec.can_split cc_g 0 3 /\ CtlSpec.is_join cc_g 3 /\
  DegSem.decides cc_c2 cc_idom cc_join cc_cond.
Proof.
  assert (H1 : LiftFull.try_lift_impl Ir.KTemplate [] (Some 0%N) (10%N, 12%N) cc_body = Base.Ok cc_r) by (vm_compute; reflexivity).
  assert (H2 : SsaPre.phi_free cc_c0 = true) by (vm_compute; reflexivity).
  assert (H3 : SsaPre.decls_ok cc_c0 = true) by (vm_compute; reflexivity).
  assert (H4 : Ssa.into_ssa cc_frontier cc_children cc_c0 = Ssa.SOk cc_c1) by (vm_compute; reflexivity).
  assert (H5 : Propagate.propagate 9 9 7 cc_idom cc_c1 = Base.Ok cc_c2) by (vm_compute; reflexivity).
  assert (H6 : DegGraph.graph_consistent cc_c2 = true) by (vm_compute; reflexivity).
  assert (H7 : DegGraph.idom_is_dominator_table cc_c2 cc_idom = true) by (vm_compute; reflexivity).
  assert (H8 : DegJustify.idom_shape cc_c2 cc_idom = true) by (vm_compute; reflexivity).
  assert (Eg : cc_g = CtlChainExampleGraph.cc_g_lit) by (vm_compute; reflexivity).
  assert (Hc : CtlSpec.can_split cc_g 0 3) by (rewrite Eg; apply CtlChainExampleGraph.cc_g_lit_facts).
  assert (Hj : CtlSpec.is_join cc_g 3) by (rewrite Eg; apply CtlChainExampleGraph.cc_g_lit_facts).
  repeat (split; [assumption|]).
  eapply (CtlChain.chain_split_decides cc_key Ir.KTemplate [] (Some 0%N) (10%N, 12%N) cc_body cc_r cc_frontier cc_children cc_c1
            9 9 7%Z cc_idom cc_c2 H1 H2 H3 H4 H5 H6 H7 H8 3 cc_join 0 _ _ cc_cond _ _);
    [vm_compute; reflexivity|vm_compute; reflexivity|exact Hc|exact Hj|vm_compute; reflexivity].
Qed.
