(* C13: the walk of the lifted graph contains the structured execution, and is
   equal to it when the execution runs to its end: a block that never got an
   exit has no successor, so the walk is stuck where the simulation leaves it. *)
From stdpp Require Import list sets.
Require Import Model.Lift Spec.CfgSpec Proofs.LiftBasics Proofs.LiftInv Proofs.LiftSteps Proofs.LiftProofs
  Proofs.LiftTheorems Proofs.LiftSim.
Import Base(outcome, Ok, Err, Panic, OutOfFuel, bind).

(* ps: what the visit of the body returned; the blocks of [pend g ps] never got an exit *)
Lemma lifted_lands body g ds :
  lift body = Ok g ->
  exists ps, wf g (fun i => i ∈ pend g ps) /\ lands g (exits g ps g) (0, 0) ds (run body ds).
Proof.
  intros Hl. destruct (lift_post _ _ Hl) as (ss & ps & -> & Hv & [_ _ _ Q4 _ _ _]).
  assert (Hwf : wf g (fun i => i ∈ pend g ps)).
  { unfold pend. destruct (is_nil ps); (eapply wf_ext; [|first [exact Q4|apply (pre_wf _ _ _ Q4)]]);
      intros i; simpl; rewrite ?elem_of_list_singleton; tauto. }
  exists ps. split; [done|].
  exact (sim_lands_all (SBlock ss) 0 g_init _ g ps g _ ds pre_init Hv (gext_refl g) Hwf).
Qed.

Theorem cfg_contains_source_walks body g ds :
  lift body = Ok g -> exists q ds', walks g (0, 0) ds (trace body ds) q ds'.
Proof.
  intros Hl. destruct (lifted_lands body g ds Hl) as (ps & _ & H).
  unfold trace. destruct (run body ds) as [[tr ds'] st]. destruct H as (q & Hw & _). eauto.
Qed.

Lemma walks_walk_from g p ds tr q ds' :
  walks g p ds tr q ds' -> exists n0, forall n, n0 <= n -> tr `prefix_of` walk_from n g p ds.
Proof.
  induction 1 as [|p ds o p1 ds1 tr p2 ds2 Hs Hw (n0 & IH)].
  - exists 0. intros n _. apply prefix_nil.
  - exists (S n0). intros n Hn. destruct n as [|n]; [lia|]. simpl. rewrite Hs.
    apply prefix_app, IH. lia.
Qed.

Theorem cfg_contains_source body g ds :
  lift body = Ok g -> exists n0, forall n, n0 <= n -> trace body ds `prefix_of` walk n g ds.
Proof.
  intros Hl. destruct (cfg_contains_source_walks body g ds Hl) as (q & ds' & Hw).
  by apply walks_walk_from in Hw.
Qed.

Lemma pending_stuck g (P : nat -> Prop) i q ds :
  wf g P -> P i -> exit_pos g g i q -> stuck g q ds.
Proof.
  intros Hwf HP (b & Hb & Hq). pose proof (wf_blk _ _ Hwf _ _ Hb) as Hok.
  pose proof (ok_shape _ _ _ _ Hok) as Hs. unfold shape in Hs. unfold stuck.
  assert (Hplain : ends_plain b -> q = (i, length (b_items b)) -> step g q ds = None).
  { intros Hpl ->. apply (shape_plain _ _ _ _ Hpl) in Hs. destruct Hs as [[_ Hs]|[? _]]; [|done].
    unfold step. rewrite Hb. rewrite (lookup_ge_None_2 (b_items b)) by lia.
    rewrite decide_True by done. rewrite Hs.
    destruct (last (b_items b)) as [[|c t f]|] eqn:E; try done. }
  destruct (last (b_items b)) as [[id|c t f]|] eqn:E.
  - apply Hplain; [|done]. intros c t f. by rewrite E.
  - destruct Hq as (B & c' & t' & f' & HB & EB & ->). rewrite Hb in HB. injection HB as <-.
    rewrite E in EB. injection EB as <- <- <-.
    destruct Hs as (-> & _ & [(_ & -> & Hs)|[? _]]); [|done].
    assert (b_succs b = [S i]) as Hsucc.
    { apply nodup_singleton_ext; [apply ssorted_NoDup, (ok_ss _ _ _ _ Hok)|done]. }
    unfold false_target. rewrite Hsucc. rewrite filter_cons_False by (intros H; by apply H).
    rewrite filter_nil.
    unfold step. rewrite Hb. rewrite (lookup_ge_None_2 (b_items b)) by lia.
    rewrite decide_True by done. by rewrite E.
  - apply Hplain; [|done]. intros c t f. by rewrite E.
Qed.

Lemma walks_stuck_walk_from g p ds tr q ds' :
  walks g p ds tr q ds' -> stuck g q ds' -> exists n0, forall n, n0 <= n -> walk_from n g p ds = tr.
Proof.
  induction 1 as [p ds|p ds o p1 ds1 tr p2 ds2 Hs Hw IH]; intros Hst.
  - exists 1. intros n Hn. destruct n as [|n]; [lia|]. simpl. unfold stuck in Hst. by rewrite Hst.
  - destruct (IH Hst) as (n0 & Hn0). exists (S n0). intros n Hn. destruct n as [|n]; [lia|]. simpl.
    rewrite Hs. f_equal. apply Hn0. lia.
Qed.

Theorem cfg_equals_source_at_end body g ds :
  lift body = Ok g -> final_status body ds = Running ->
  exists n0, forall n, n0 <= n -> walk n g ds = trace body ds.
Proof.
  intros Hl Hfin. destruct (lifted_lands body g ds Hl) as (ps & Hwf & H).
  unfold trace, final_status in *. destruct (run body ds) as [[tr ds'] st]. simpl in *.
  destruct H as (q & Hw & Hq). destruct (Hq Hfin) as (i & Hi & Hex).
  eapply walks_stuck_walk_from; [exact Hw|]. eapply pending_stuck; [exact Hwf|exact Hi|exact Hex].
Qed.
