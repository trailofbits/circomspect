(* NoSilentMerger — C02: the program handed to the desugarer and
   the runner is TIED to the files that were read.

   * the mirrors of Merger::add_definitions ([merger_items]) and of
     TemplateLibrary::new ([keep_first]) in Model.FrontStages: the second of two
     definitions of one name is reported, with the first definition of that
     name as the other label; the first definition of every name is kept, the
     names kept are pairwise different, nothing is invented.
   * [tied_event_general]: the events of the tied project
     ([FrontStages.tied_project]) are events of the general one; the
     DuplicateDefinition event is a fact about the definitions of the files
     read ([failure_event_tied]), its report is the one the Merger mirror makes.
   * [clean_only_if_every_definition_analysed]: exit status 0 only if every
     definition the parser yields for a named file that parses was taken up
     by the runner.
   * [tied_project_is_wf]: the project of a run is well formed
     ([wf_project]: one definition per key) whenever [name_id] is injective —
     `remove_syntactic_sugar` hands back a selection of the names that went in,
     [survivors] makes at most one definition per name handed back, and no
     name is both a function and a template of [keep_first].  The theorems
     of props/C02.v about a run take the injectivity of [name_id] as their
     hypothesis where those here take [wf_project] of the tied project. *)
From Coq Require Import ZArith NArith Lia Permutation.
Require Coq.Strings.String.
Require Import Gen.Category Model.Runner Spec.RunnerSpec Proofs.RunnerProofs.
From stdpp Require Import list.
Require Import Model.Includes Model.Front Spec.IncludesSpec Model.FrontStages Spec.NoSilentSpec Proofs.IncludesProofs.
Require Model.Ast Model.Desugar Model.LiftFull Model.PipelineMirrors Spec.ExpandSpec.
Require Import Proofs.NoSilentStages Proofs.NoSilentProofs.
Require Proofs.DesugarProofs.

Lemma find_definition_cons n x seen :
  find_definition n (x :: seen) = if String.eqb (PM.d_name x) n then Some x else find_definition n seen.
Proof. reflexivity. Qed.

Lemma find_definition_some n d seen :
  find_definition n seen = Some d -> In d seen /\ PM.d_name d = n.
Proof.
  unfold find_definition. intros H. apply List.find_some in H as [H1 H2]. split; [done|]. by apply String.eqb_eq.
Qed.

Lemma find_definition_none n l :
  find_definition n l = None <-> forall x, In x l -> PM.d_name x <> n.
Proof.
  split.
  - intros H x Hx. apply (List.find_none _ _ H) in Hx. by apply String.eqb_neq.
  - intros H. destruct (find_definition n l) as [d|] eqn:E; [|done].
    apply find_definition_some in E as [E1 E2]. by destruct (H d E1).
Qed.

(* the definition found under a name is the first of that name *)
Lemma find_definition_first n l d :
  find_definition n l = Some d <->
  exists l1 l2, l = l1 ++ d :: l2 /\ PM.d_name d = n /\ forall x, In x l1 -> PM.d_name x <> n.
Proof.
  split.
  - induction l as [|x l IH]; [done|]. rewrite find_definition_cons.
    destruct (String.eqb_spec (PM.d_name x) n) as [Hx|Hx].
    + intros [= ->]. exists [], l. split; [done|]. split; [done|]. intros ? [].
    + intros (l1 & l2 & -> & Hn & Hl)%IH. exists (x :: l1), l2. split; [done|]. split; [done|].
      intros y [<-|Hy]; auto.
  - intros (l1 & l2 & -> & Hn & Hl). induction l1 as [|x l1 IH]; cbn [app]; rewrite find_definition_cons.
    + by rewrite Hn, String.eqb_refl.
    + destruct (String.eqb_spec (PM.d_name x) n) as [Hx|_]; [destruct (Hl x); [by left|done]|].
      apply IH. intros y Hy. apply Hl. by right.
Qed.

(* in a list with pairwise different names the definition found under the name of a member is that member *)
Lemma find_definition_member : forall (l : list PM.definition) d,
  In d l -> List.NoDup (map PM.d_name l) -> find_definition (PM.d_name d) l = Some d.
Proof.
  induction l as [|x l IH]; intros d Hin Hnd; [destruct Hin|].
  rewrite find_definition_cons. simpl in Hnd. inversion Hnd as [|? ? Hx Hl]; subst.
  destruct Hin as [->|Hin]; [by rewrite String.eqb_refl|].
  destruct (String.eqb_spec (PM.d_name x) (PM.d_name d)) as [E|_]; [|by apply IH].
  destruct Hx. rewrite E. by apply in_map.
Qed.

Section Merger.
  Context {path : Type}.

  (* ---- Merger::add_definitions ----
     after a prefix [l1] the fold goes on from a list of entered definitions under which a name finds what it found
     before, or else its first definition in [l1] *)
  Lemma merger_from_app l1 l2 : forall seen, exists seen',
    (forall n, find_definition n seen' =
               match find_definition n seen with Some f => Some f | None => find_definition n l1 end) /\
    merger_from (path:=path) seen (l1 ++ l2) = merger_from seen l1 ++ merger_from seen' l2.
  Proof.
    induction l1 as [|x l1 IH]; intros seen; cbn [app merger_from].
    - exists seen. split; [|done]. intros n. by destruct (find_definition n seen).
    - destruct (find_definition (PM.d_name x) seen) as [f|] eqn:E.
      + destruct (IH seen) as (seen' & HS & ->). exists seen'. split; [|done].
        intros n. rewrite HS, find_definition_cons. destruct (find_definition n seen) eqn:En; [done|].
        destruct (String.eqb_spec (PM.d_name x) n) as [Hx|_]; [congruence|done].
      + destruct (IH (x :: seen)) as (seen' & HS & ->). exists seen'. split; [|done].
        intros n. rewrite HS, !find_definition_cons.
        destruct (String.eqb_spec (PM.d_name x) n) as [<-|_]; [by rewrite E|done].
  Qed.

  (* the second of two definitions of one name is reported, the first definition of that name is the other label *)
  Theorem merger_reports_duplicates : forall all l1 d1 l2 d2 l3,
    all = l1 ++ d1 :: l2 ++ d2 :: l3 ->
    PM.d_name d1 = PM.d_name d2 -> (forall x, In x l1 -> PM.d_name x <> PM.d_name d1) ->
    In (SIDuplicate d2 d1) (merger_items (path:=path) all).
  Proof.
    intros all l1 d1 l2 d2 l3 -> Hn Hl. unfold merger_items.
    destruct (merger_from_app (l1 ++ d1 :: l2) (d2 :: l3) []) as (seen & HS & HM).
    rewrite app_comm_cons, app_assoc, HM. apply in_or_app. right. simpl. rewrite <- Hn, HS. simpl.
    rewrite (proj2 (find_definition_first _ _ d1)); [by left|]. by exists l1, l2.
  Qed.

  (* ... and nothing else is reported: every item is the report of a definition whose name an earlier one has *)
  Lemma merger_from_sound : forall all seen it,
    In it (merger_from (path:=path) seen all) ->
    exists d first, it = SIDuplicate d first /\ In d all /\ In first (seen ++ all) /\ PM.d_name first = PM.d_name d.
  Proof.
    induction all as [|x all IH]; intros seen it Hin; simpl in Hin; [destruct Hin|].
    destruct (find_definition (PM.d_name x) seen) as [f|] eqn:E.
    - destruct Hin as [<-|Hin].
      + apply find_definition_some in E as [E1 E2]. exists x, f. split; [done|]. split; [by left|].
        split; [|done]. apply in_or_app. by left.
      + destruct (IH _ _ Hin) as (d & first & -> & Hd & Hf & Hn). exists d, first. split; [done|]. split; [by right|].
        split; [|done]. apply in_app_or in Hf as [Hf|Hf]; apply in_or_app; [by left|right; by right].
    - destruct (IH _ _ Hin) as (d & first & -> & Hd & Hf & Hn). exists d, first. split; [done|]. split; [by right|].
      split; [|done]. apply in_app_or in Hf as [[<-|Hf]|Hf]; apply in_or_app; [right; by left|by left|right; by right].
  Qed.
End Merger.

(* ---- TemplateLibrary::new ----
   a definition is kept iff no definition of its name was entered before and it is the first of its name *)
Lemma keep_first_from_spec : forall all seen,
  List.NoDup (map PM.d_name (keep_first_from seen all)) /\
  forall d, In d (keep_first_from seen all) <->
            find_definition (PM.d_name d) seen = None /\ find_definition (PM.d_name d) all = Some d.
Proof.
  induction all as [|x all IH]; intros seen; cbn [keep_first_from].
  - split; [constructor|]. intros d. split; [intros []|]. by intros [_ ?].
  - destruct (find_definition (PM.d_name x) seen) as [f|] eqn:E.
    + destruct (IH seen) as [H1 H2]. split; [done|]. intros d. rewrite H2, find_definition_cons.
      destruct (String.eqb_spec (PM.d_name x) (PM.d_name d)) as [Hx|_]; [|done].
      rewrite <- Hx, E. split; by intros [? _].
    + destruct (IH (x :: seen)) as [H1 H2]. split.
      * simpl. constructor; [|done]. intros (y & Hn & Hy)%in_map_iff. apply H2 in Hy as [Hy _].
        by rewrite find_definition_cons, Hn, String.eqb_refl in Hy.
      * intros d. simpl. rewrite H2, !find_definition_cons.
        destruct (String.eqb_spec (PM.d_name x) (PM.d_name d)) as [Hx|Hx].
        -- rewrite <- Hx, E. split; [by intros [->|[? _]]|]. intros [_ [= ->]]. by left.
        -- split; [by intros [->|?]|]. intros ?. by right.
Qed.

(* the library keeps the first definition of every name, the names kept are pairwise different, and every
   definition kept is one of those that went in *)
Theorem library_keeps_first : forall all,
  (forall l1 d1 l3, all = l1 ++ d1 :: l3 -> (forall x, In x l1 -> PM.d_name x <> PM.d_name d1) ->
                    In d1 (keep_first all)) /\
  List.NoDup (map PM.d_name (keep_first all)) /\
  (forall x, In x (keep_first all) -> In x all).
Proof.
  intros all. destruct (keep_first_from_spec all []) as [H1 H2]. split; [|split; [done|]].
  - intros l1 d1 l3 -> Hl. apply H2. split; [done|]. apply find_definition_first. by exists l1, l3.
  - intros x [_ Hx]%H2. by apply find_definition_some in Hx as [Hx _].
Qed.

(* a definition of one of the two maps of the library whose name the desugarer hands back is handed to the runner,
   with the new body *)
Lemma kept_is_handed_on (lib : list PM.definition) p (kept : list (String.string * Ast.statement)) d :
  In d lib -> p d = true -> List.NoDup (map PM.d_name lib) -> In (PM.d_name d) (map fst kept) ->
  exists b, In (with_body d b) (survivors (List.filter p lib) kept).
Proof.
  intros Hin Hp Hnd ([n b] & Hn & Hk)%in_map_iff. simpl in Hn. subst n.
  exists b. apply in_flat_map. exists (PM.d_name d, b). split; [done|]. simpl.
  rewrite (find_definition_member (List.filter p lib) d); [by left|by apply filter_In|by apply NoDup_map_filter].
Qed.

(* `remove_syntactic_sugar` goes over the two maps in order and drops the rejected entries: the names handed back
   are a selection of those that went in *)
Lemma desugar_templates_names env lib : forall ts acc reps acc' reps',
  Desugar.desugar_templates env lib ts acc reps = Desugar.DOk (acc', reps') ->
  map fst acc' `sublist_of` map fst acc ++ map fst ts.
Proof.
  induction ts as [|[n b] rest IH]; intros acc reps acc' reps' H; simpl in H.
  - inversion H; subst. by rewrite app_nil_r.
  - destruct (Desugar.desugar_template env lib b); try discriminate H; apply IH in H.
    + by rewrite map_app, <- app_assoc in H.
    + etrans; [exact H|]. apply sublist_app; [done|]. by apply sublist_cons.
Qed.

Lemma desugar_functions_names : forall fs acc reps acc' reps',
  Desugar.desugar_functions fs acc reps = Desugar.DOk (acc', reps') ->
  map fst acc' `sublist_of` map fst acc ++ map fst fs.
Proof.
  induction fs as [|[n b] rest IH]; intros acc reps acc' reps' H; simpl in H.
  - inversion H; subst. by rewrite app_nil_r.
  - apply DesugarProofs.dbind_ok in H as ([rs|] & _ & H); apply IH in H.
    + etrans; [exact H|]. apply sublist_app; [done|]. by apply sublist_cons.
    + by rewrite map_app, <- app_assoc in H.
Qed.

Theorem remove_syntactic_sugar_selects : forall lib ts fs d,
  Desugar.remove_syntactic_sugar lib ts fs = Desugar.DOk d ->
  map fst (Desugar.d_templates d) `sublist_of` map fst ts /\
  map fst (Desugar.d_functions d) `sublist_of` map fst fs.
Proof.
  intros lib ts fs d H. unfold Desugar.remove_syntactic_sugar in H.
  apply DesugarProofs.dbind_ok in H as ([ts' reps1] & Ht & H).
  apply DesugarProofs.dbind_ok in H as ([fs' reps2] & Hf & H). inversion H; subst; clear H. simpl.
  split; [exact (desugar_templates_names _ _ _ _ _ _ _ Ht)|exact (desugar_functions_names _ _ _ _ _ Hf)].
Qed.

Lemma sublist_selection {A} (l k : list A) :
  l `sublist_of` k -> List.NoDup k -> List.NoDup l /\ forall x, In x l -> In x k.
Proof.
  intros (k' & Hk)%sublist_submseteq%submseteq_Permutation Hnd%NoDup_ListNoDup. rewrite Hk in Hnd.
  split; [apply NoDup_ListNoDup; by apply NoDup_app in Hnd as [? _]|].
  intros x Hx%elem_of_list_In. apply elem_of_list_In. rewrite Hk. apply elem_of_app. by left.
Qed.

(* the entries of the new map: at most one per name handed back, under that name *)
Lemma survivors_names (defs : list PM.definition) (kept : list (String.string * Ast.statement)) :
  map PM.d_name (survivors defs kept) `sublist_of` map fst kept.
Proof.
  induction kept as [|[n b] kept IH]; simpl; [done|].
  destruct (find_definition n defs) as [d|] eqn:E; simpl; [|by apply sublist_cons].
  apply find_definition_some in E as [_ ->]. by apply sublist_skip.
Qed.

Lemma named_bodies_names (l : list PM.definition) : map fst (PM.named_bodies l) = map PM.d_name l.
Proof. unfold PM.named_bodies. rewrite map_map. reflexivity. Qed.

(* one name space: no name is the name of a function and of a template of the library *)
Theorem handed_on_names_NoDup lib all sd :
  sugar_input (program_of lib all) = Desugar.DOk sd ->
  List.NoDup (map PM.d_name (handed_on (program_of lib all) sd)).
Proof.
  intros Hs. destruct (library_keeps_first all) as (_ & Hnd & _).
  destruct (remove_syntactic_sugar_selects _ _ _ _ Hs) as [HT HF]. rewrite named_bodies_names in HT, HF.
  unfold handed_on. rewrite map_app. eapply sublist_selection.
  { apply sublist_app; (etrans; [apply survivors_names|done]). }
  simpl. apply NoDup_ListNoDup, NoDup_app. rewrite !NoDup_ListNoDup.
  split; [by apply NoDup_map_filter|]. split; [|by apply NoDup_map_filter].
  intros n (d1 & Hn1 & [Hd1 Hk1]%filter_In)%elem_of_list_In%in_map_iff
           (d2 & Hn2 & [Hd2 Hk2]%filter_In)%elem_of_list_In%in_map_iff.
  pose proof (find_definition_member _ _ Hd1 Hnd) as E1. pose proof (find_definition_member _ _ Hd2 Hnd) as E2.
  rewrite Hn1 in E1. rewrite Hn2 in E2. rewrite E1 in E2. inversion E2; subst. by rewrite Hk1 in Hk2.
Qed.

Section Tied.
  Context {path : Type} `{EqDecision path}.
  Variable canon : path -> option path.
  Variable is_dir : path -> bool.
  Variable is_file : path -> bool.
  Variable read_dir : path -> option (list path).
  Variable join : path -> path -> path.
  Variable parent : path -> path.
  Variable file_name : path -> option path.
  Variable ext_circom : path -> bool.
  Variable starts_dot : path -> bool.
  Variable has_sep : path -> bool.
  Variable content : path -> file_content path.
  Hypothesis canon_idem : forall p c, canon p = Some c -> canon c = Some c.

  Variable pf_id pf_name : Z.
  Variable payload : Includes.report (path:=path) -> Z.
  Variable pragma : path -> option version.
  Variable has_main : path -> bool.
  Variable cv : version.
  Variable cs : codes.
  Variable spay : stage_item path -> Z.
  Variable ord : nat -> list nat -> list nat.
  Variable horder : list nat -> list nat.
  Variable prime : Z.
  Variable kv kd : nat.
  Variable err_file : PM.definition -> option N.
  Variable name_id : String.string -> Z.
  Variable after : PM.definition -> def.

  Notation parse_files :=
    (parse_files canon is_dir is_file read_dir join parent file_name ext_circom starts_dot has_sep content).
  Notation named := (named canon is_dir read_dir join ext_circom).
  Notation item_report := (item_report pf_id pf_name cs spay).
  Notation parses := (parses content).
  Notation stage_project :=
    (stage_project content pragma has_main cv pf_id pf_name cs spay ord horder prime kv kd err_file name_id after payload).
  Notation tied_project :=
    (tied_project content pragma has_main cv pf_id pf_name cs spay ord horder prime kv kd err_file name_id after payload).
  Notation failure_event :=
    (failure_event canon is_dir is_file read_dir join parent file_name ext_circom starts_dot has_sep content
                   pf_id pf_name payload pragma has_main cv cs spay ord horder prime kv kd err_file).
  Notation failure_event_tied :=
    (failure_event_tied canon is_dir is_file read_dir join parent file_name ext_circom starts_dot has_sep content
                        pf_id pf_name payload pragma has_main cv cs spay ord horder prime kv kd err_file).
  Notation file_is_named := (file_is_named canon is_dir read_dir join ext_circom).
  Notation def_in_named_file := (def_in_named_file canon is_dir read_dir join ext_circom).

  (* the boolean of the extracted instance (sv_defs_file_ok) decides the hypothesis [defs_file_ok] *)
  Lemma defs_file_ok_from_spec defs_of : forall (files : list (path * bool)) k,
    defs_file_ok_from content defs_of k files = true ->
    forall j f u, files !! j = Some (f, u) -> parses f = true ->
      forall d, In d (defs_of f) -> PM.d_pfile d = Some (N.of_nat (k + j)).
  Proof.
    induction files as [|[g w] files IH]; intros k Hok j f u Hj Hp d Hd; [by rewrite lookup_nil in Hj|].
    simpl in Hok. apply andb_true_iff in Hok as [H1 H2]. destruct j as [|j]; simpl in Hj.
    - inversion Hj; subst. rewrite Hp in H1. rewrite forallb_forall in H1. specialize (H1 d Hd).
      destruct (PM.d_pfile d) as [g'|]; [|discriminate]. apply N.eqb_eq in H1. subst. by rewrite Nat.add_0_r.
    - replace (k + S j) with (S k + j) by lia. by eapply IH.
  Qed.

  Lemma defs_file_ok_decided (s : parse_state (path:=path)) defs_of :
    defs_file_ok_from content defs_of 0 (ps_files s) = true -> defs_file_ok content s defs_of.
  Proof. intros Hok i f u Hi Hp d Hd. by apply (defs_file_ok_from_spec defs_of _ 0 Hok i f u). Qed.

  Section Run.
    Variable dfuel fuel : nat.
    Variable argv libs : list path.
    Variable s : parse_state (path:=path).
    Hypothesis Hrun : parse_files false dfuel fuel argv libs = Base.Ok s.
    (* no directory was met twice while the command line was expanded (Model.Includes.dirs_revisited, evaluated on
       every run) *)
    Hypothesis Hrev : dirs_revisited canon is_dir read_dir join ext_circom dfuel argv libs = false.

    Variable lib : list (list N).
    Variable defs_of : path -> list PM.definition.
    Variable sd : Desugar.desugared.
    Variable rest' : list Runner.report.

    Notation all := (all_definitions content defs_of (ps_files s)).
    Notation pr := (program_of lib all).
    Notation rest := (map item_report (merger_items all) ++ rest').
    Hypothesis Hsugar : sugar_input pr = Desugar.DOk sd.

    Lemma tied_project_is : tied_project s lib defs_of sd rest' = stage_project s pr sd rest.
    Proof. reflexivity. Qed.

    (* the tied event is an instance of the general one: for DuplicateDefinition the report is the one the
       Merger mirror makes, it is error level, and one of its two labels is the file of the definition that
       lives in a named file *)
    Lemma tied_event_general c r :
      failure_event_tied argv libs s lib defs_of sd rest' c r -> failure_event argv libs s pr sd rest c r.
    Proof.
      destruct c; try exact id. simpl.
      intros (l1 & d1 & l2 & d2 & l3 & Hall & Hn & Hl1 & Hnamed & ->). unfold tied_all in Hall.
      split; [done|]. split.
      - apply in_or_app. left. apply (in_map item_report _ (SIDuplicate d2 d1)). by eapply merger_reports_duplicates.
      - simpl. destruct Hnamed as [(fid & Hp & Hf)|(fid & Hp & Hf)]; exists (Z.of_N fid); (split; [|done]).
        + right. left. unfold def_file. by rewrite Hp.
        + left. unfold def_file. by rewrite Hp.
    Qed.

    (* the form of the report per class *)
    Lemma failure_event_tied_shape c r :
      failure_event_tied argv libs s lib defs_of sd rest' c r ->
      match class_shape c with
      | ShOsError => exists q, r = report_of pf_id pf_name payload (FileOsError q)
      | ShParseError => exists i, r = report_of pf_id pf_name payload (ParsingError i)
      | ShIncludeError => exists p i a b, r = report_of pf_id pf_name payload (IncludeError p (Some i) a b)
      | ShVersionError => exists f v, r = item_report (SIVersionError f v)
      | ShMultipleMain => r = item_report SIMultipleMain
      | ShSugarError => exists r0, r = item_report (SISugar r0)
      | ShParamCollision => exists dd, r = item_report (SILiftError dd LEParamCollision (PM.d_pfile dd))
      | ShLiftError => exists dd e, e <> LEParamCollision /\ r = item_report (SILiftError dd e (err_file dd))
      | ShDuplicate => exists d first, In d all /\ In first all /\ r = item_report (SIDuplicate d first)
      | ShOtherInNamedFile => False
      end.
    Proof.
      destruct c; try (intros Hev%tied_event_general%failure_event_shape; exact Hev).
      intros (l1 & d1 & l2 & d2 & l3 & Hall & _ & _ & _ & ->). unfold tied_all in Hall.
      exists d2, d1. rewrite Hall. split; [|split; [apply in_elt|done]].
      rewrite app_comm_cons, app_assoc. apply in_elt.
    Qed.

    (* C02: exit status 0 only if every definition the parser yields for a named file that parses was taken up by
       the runner.  A definition whose name an earlier definition has would have been reported by the Merger, with a
       label in the named file; so it is the first of its name, TemplateLibrary::new keeps it, the desugarer hands
       it on (clean_only_if_stages_passed), and the runner takes it up. *)
    Theorem clean_only_if_every_definition_analysed o order :
      wf_project (tied_project s lib defs_of sd rest') ->
      analysis_order (tied_project s lib defs_of sd rest') order ->
      res_exit (run_keys (tied_project s lib defs_of sd rest') o order) = 0%Z ->
      (forall z, In z (stage_ids cs) -> ~ In z (o_allow o)) ->
      ~ In (c_id (c_same_symbol cs)) (o_allow o) ->
      defs_file_ok content s defs_of ->
      bodies_in_file content s defs_of ->
      forall i f u d,
        ps_files s !! i = Some (f, u) -> named argv f -> parses f = true -> In d (defs_of f) ->
        In (MAnalyzing (runner_kind (PM.d_kind d), name_id (PM.d_name d)))
           (res_log (run_keys (tied_project s lib defs_of sd rest') o order)).
    Proof.
      intros Hwf Hord Hex Hal Hsame Hfile Hbody i f u d Hi Hnamed Hp Hd.
      assert (Hd_all : In d all).
      { apply in_flat_map. exists (f, u). split; [apply elem_of_list_In; by eapply elem_of_list_lookup_2|].
        simpl. by rewrite Hp. }
      pose proof (Hfile i f u Hi Hp d Hd) as Hpf.
      assert (Hfn : file_is_named argv s (Z.of_N (N.of_nat i))).
      { exists i, f, u. split; [apply nat_N_Z|done]. }
      assert (Hdn : def_in_named_file argv s d) by (by exists (N.of_nat i)).
      destruct (in_split _ _ Hd_all) as (l1 & l3 & Hsplit).
      destruct (find_definition (PM.d_name d) l1) as [x|] eqn:Ex.
      { apply find_definition_first in Ex as (a & b & -> & Hx & Ha).
        assert (Hev : failure_event_tied argv libs s lib defs_of sd rest' DuplicateDefinition
                        (item_report (SIDuplicate d x))).
        { simpl. exists a, x, b, d, l3. unfold tied_all. rewrite Hsplit, <- app_assoc. simpl.
          split; [done|]. split; [done|]. split; [by rewrite Hx|]. split; [by right|done]. }
        apply tied_event_general in Hev. eapply clean_event_allowed in Hev; eauto. destruct (Hsame Hev). }
      rewrite find_definition_none in Ex.
      destruct (library_keeps_first all) as (Hkf & Hnd & _).
      pose proof (Hkf l1 d l3 Hsplit Ex) as Hkept.
      destruct (clean_only_if_stages_passed canon is_dir is_file read_dir join parent file_name ext_circom starts_dot
                  has_sep content canon_idem pf_id pf_name payload pragma has_main cv cs spay ord horder prime kv kd
                  err_file name_id after dfuel fuel argv libs s Hrun Hrev pr sd rest Hsugar o order Hwf Hord Hex Hal)
        as [(_ & _ & HT & HF) Hdefs].
      assert (Hb : body_in_file (N.of_nat i) (PM.d_body d)) by (by apply Hbody).
      pose proof (in_map (fun d => (PM.d_name d, PM.d_body d))) as Hnb.
      assert (Hon : exists b, In (with_body d b) (handed_on pr sd)).
      { destruct (is_function d) eqn:Efn.
        - destruct (kept_is_handed_on (keep_first all) is_function (Desugar.d_functions sd) d Hkept Efn Hnd)
            as (b0 & Hb0).
          + apply (HF _ (PM.d_body d) (N.of_nat i)); [|done|done]. apply Hnb, filter_In. done.
          + exists b0. apply in_or_app. by left.
        - destruct (kept_is_handed_on (keep_first all) (fun d => negb (is_function d)) (Desugar.d_templates sd) d Hkept)
            as (b0 & Hb0); [by rewrite Efn|done| |].
          + apply (HT _ (PM.d_body d) (N.of_nat i)); [|done|done]. apply Hnb, filter_In. by rewrite Efn.
          + exists b0. apply in_or_app. by right. }
      destruct Hon as (b0 & Hon).
      assert (Hdn' : def_in_named_file argv s (with_body d b0)) by (by exists (N.of_nat i)).
      destruct (Hdefs (with_body d b0) Hon Hdn') as (Hlog & _). exact Hlog.
    Qed.

    (* ---- the project of a run is well formed ----
       one definition per (kind, name) key: the keys are the images under [name_id] of the names handed on, which
       are pairwise different (handed_on_names_NoDup) *)
    Theorem tied_project_is_wf :
      (forall a b : String.string, name_id a = name_id b -> a = b) ->
      wf_project (tied_project s lib defs_of sd rest').
    Proof.
      intros Hinj. unfold wf_project. simpl. unfold stage_defs. rewrite map_map.
      apply (List.NoDup_map_inv snd). rewrite map_map. simpl. rewrite <- (map_map PM.d_name name_id).
      apply FinFun.Injective_map_NoDup; [exact Hinj|]. by apply handed_on_names_NoDup.
    Qed.
  End Run.
End Tied.
