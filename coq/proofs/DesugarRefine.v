(* The desugarer computes exactly the specified expansion (C18): at the level
   of options -- an error report is a rejection -- the two passes of
   remove_syntactic_sugar composed equal Spec.ExpandSpec.expand_spec, with the
   implementation's naming scheme for the introduced components and counters.
   Hence refinement (accepted output = expand_spec) and exactness of errors. *)
From Coq Require Import ZArith NArith List Bool String Lia.
Require Import Model.Ast Model.Desugar Spec.ExpandSpec Proofs.DesugarProofs Proofs.DesugarMetas Proofs.DesugarTotal.
Import ListNotations.
Local Open Scope list_scope.

Definition to_opt {A} (r : dres A) : option A := match r with DOk a => Some a | _ => None end.
Definition obind {A B} (o : option A) (f : A -> option B) : option B :=
  match o with Some a => f a | None => None end.
Definition mapO {A B} (f : A -> option B) (l : list A) : option (list B) := all_some (map f l).

Lemma to_opt_dbind : forall {A B} (m : dres A) (f : A -> dres B),
  to_opt (dbind m f) = obind (to_opt m) (fun a => to_opt (f a)).
Proof. intros A B [a|r|s|] f; reflexivity. Qed.

Lemma to_opt_fail : forall {A} c m msg, to_opt (@fail A c m msg) = None.
Proof. intros. unfold fail, mk_report. destruct (m_file m); reflexivity. Qed.

Lemma to_opt_guard : forall {A} (b : bool) c m msg (r : dres A),
  to_opt (if b then fail c m msg else r) = if b then None else to_opt r.
Proof. intros A [|] c m msg r; [apply to_opt_fail | reflexivity]. Qed.

Lemma obind_assoc : forall {A B C} (o : option A) (f : A -> option B) (g : B -> option C),
  obind (obind o f) g = obind o (fun a => obind (f a) g).
Proof. intros A B C [a|] f g; reflexivity. Qed.

Lemma obind_ext : forall {A B} (o : option A) (f g : A -> option B),
  (forall a, o = Some a -> f a = g a) -> obind o f = obind o g.
Proof. intros A B [a|] f g H; simpl; auto. Qed.

Lemma option_map_obind : forall {A B} (f : A -> B) (o : option A),
  option_map f o = obind o (fun a => Some (f a)).
Proof. intros A B f [a|]; reflexivity. Qed.

Lemma all_some_app : forall {A} (a b : list (option A)),
  all_some (a ++ b) = obind (all_some a) (fun x => option_map (app x) (all_some b)).
Proof.
  induction a as [|[x|] a IH]; intros b; simpl.
  - destruct (all_some b); reflexivity.
  - rewrite IH. destruct (all_some a); simpl; [|reflexivity]. destruct (all_some b); reflexivity.
  - reflexivity.
Qed.

Lemma mapO_app : forall {A B} (f : A -> option B) a b,
  mapO f (a ++ b) = obind (mapO f a) (fun x => option_map (app x) (mapO f b)).
Proof. intros. unfold mapO. rewrite map_app. apply all_some_app. Qed.

Lemma mapO_cons : forall {A B} (f : A -> option B) x l,
  mapO f (x :: l) = obind (f x) (fun y => option_map (cons y) (mapO f l)).
Proof. intros. unfold mapO. simpl. destruct (f x); reflexivity. Qed.

Lemma mapO_nil : forall {A B} (f : A -> option B), mapO f [] = Some [].
Proof. reflexivity. Qed.

Lemma mapO_length : forall {A B} (f : A -> option B) l r, mapO f l = Some r -> List.length r = List.length l.
Proof.
  induction l as [|x l IH]; intros r H.
  - inversion H; reflexivity.
  - rewrite mapO_cons in H. destruct (f x); [|discriminate]. simpl in H.
    destruct (mapO f l) eqn:E; [|discriminate]. inversion H; subst. simpl. f_equal. apply IH; auto.
Qed.

Lemma mapO_ext : forall {A B} (f g : A -> option B) l,
  Forall (fun x => f x = g x) l -> mapO f l = mapO g l.
Proof.
  induction 1; [reflexivity|]. rewrite !mapO_cons, H, IHForall. reflexivity.
Qed.

Lemma mapO_In : forall {A B} (f : A -> option B) l r x, mapO f l = Some r -> In x l -> exists y, f x = Some y /\ In y r.
Proof.
  induction l as [|a l IH]; intros r x H Hin; [destruct Hin|].
  rewrite mapO_cons in H. destruct (f a) eqn:Ea; [|discriminate]. simpl in H.
  destruct (mapO f l) eqn:E; [|discriminate]. inversion H; subst.
  destruct Hin as [<-|Hin]; [eexists; split; eauto; left; auto|].
  destruct (IH _ _ eq_refl Hin) as (y & Hy & Hiy). exists y. split; auto. right; auto.
Qed.

Lemma mapO_Forall : forall {A B} (f : A -> option B) (P : B -> Prop) l r,
  mapO f l = Some r -> Forall (fun x => forall y, f x = Some y -> P y) l -> Forall P r.
Proof.
  induction l as [|a l IH]; intros r H HF.
  - inversion H. constructor.
  - rewrite mapO_cons in H. inversion HF as [|? ? Ha Hl]; subst.
    destruct (f a); [|discriminate]. destruct (mapO f l); [|discriminate]. inversion H.
    constructor; [apply Ha; reflexivity | apply IH; [reflexivity | exact Hl]].
Qed.

Lemma mapO_option_map : forall {A B C} (f : B -> C) (g : A -> option B) l,
  mapO (fun x => option_map f (g x)) l = option_map (map f) (mapO g l).
Proof.
  induction l as [|x l IH]; [reflexivity|]. rewrite !mapO_cons, IH.
  destruct (g x); [|reflexivity]. destruct (mapO g l); reflexivity.
Qed.

Lemma mapO_flat_map : forall {A B C} (f : B -> option C) (g : A -> list B) l,
  mapO f (flat_map g l) = option_map (@List.concat C) (mapO (fun x => mapO f (g x)) l).
Proof.
  induction l as [|x l IH]; simpl; [reflexivity|].
  rewrite mapO_app, IH, mapO_cons. destruct (mapO f (g x)); simpl; [|reflexivity].
  destruct (mapO _ l); reflexivity.
Qed.

Lemma mapO_nth : forall {A B} (f : A -> option B) l r k x,
  mapO f l = Some r -> nth_error l k = Some x -> exists y, nth_error r k = Some y /\ f x = Some y.
Proof.
  induction l as [|a l IH]; intros r k x H Hk; [destruct k; discriminate|].
  rewrite mapO_cons in H. destruct (f a) as [b|] eqn:Ea; [|discriminate]. cbn [obind] in H.
  destruct (mapO f l) as [r'|] eqn:El; [|discriminate]. inversion H; subst.
  destruct k; simpl in *.
  - inversion Hk; subst. eauto.
  - eapply IH; eauto.
Qed.

Lemma mapO_none_ex : forall {A B} (f : A -> option B) l,
  mapO f l = None -> exists x, In x l /\ f x = None.
Proof.
  induction l as [|a l IH]; intros H; [discriminate|].
  rewrite mapO_cons in H. destruct (f a) eqn:Ea; [|exists a; split; [left; auto | auto]].
  cbn [obind] in H. destruct (mapO f l) eqn:El; [discriminate|].
  destruct (IH eq_refl) as (x & Hx & Hfx). exists x. split; [right; auto | auto].
Qed.

Lemma mapO_has_none : forall {A B} (f : A -> option B) l x, In x l -> f x = None -> mapO f l = None.
Proof.
  induction l as [|a l IH]; intros x Hin Hf; [destruct Hin|].
  rewrite mapO_cons. destruct Hin as [<-|Hin]; [rewrite Hf; reflexivity|].
  destruct (f a); [|reflexivity]. cbn [obind]. rewrite (IH _ Hin Hf). reflexivity.
Qed.

Lemma obind_comm : forall {A B C} (a : option A) (b : option B) (f : A -> B -> option C),
  obind a (fun x => obind b (fun y => f x y)) = obind b (fun y => obind a (fun x => f x y)).
Proof. intros A B C [x|] [y|] f; reflexivity. Qed.

Lemma all_some_map_Some : forall {A} (l : list A), all_some (map Some l) = Some l.
Proof. induction l; simpl; [reflexivity|]. rewrite IHl. reflexivity. Qed.

Lemma concat_concat' : forall {A} (l : list (list (list A))),
  List.concat (List.concat l) = List.concat (map (@List.concat A) l).
Proof.
  induction l as [|x l IH]; [reflexivity|]. cbn [List.concat map]. rewrite concat_app, IH. reflexivity.
Qed.

Lemma in_combine_seq : forall {A} (l : list A) i k x,
  In (k, x) (combine (seq i (List.length l)) l) -> exists j, k = i + j /\ nth_error l j = Some x.
Proof.
  induction l as [|a l IH]; intros i k x H; simpl in H; [destruct H|].
  destruct H as [H|H].
  - inversion H; subst. exists 0. split; [symmetry; apply Nat.add_0_r | reflexivity].
  - destruct (IH _ _ _ H) as (j & -> & Hj). exists (S j). split; [symmetry; apply Nat.add_succ_r | exact Hj].
Qed.

Lemma in_combine_seq_ex : forall {A} (l : list A) i x,
  In x l -> exists k, In (k, x) (combine (seq i (List.length l)) l).
Proof.
  induction l as [|a l IH]; intros i x H; [destruct H|]. simpl.
  destruct H as [<-|H]; [exists i; left; reflexivity|].
  destruct (IH (S i) x H) as [k Hk]. exists k. right. exact Hk.
Qed.

Lemma combine_seq_map : forall {A B} (f : A -> B) (l : list A) i,
  combine (seq i (List.length (map f l))) (map f l) =
  map (fun ki => (fst ki, f (snd ki))) (combine (seq i (List.length l)) l).
Proof.
  induction l as [|a l IH]; intros i; [reflexivity|]. simpl. rewrite IH. reflexivity.
Qed.

Lemma rts_list_opt : forall (f : statement -> dres statement) l acc,
  to_opt (rts_list f l acc) = option_map (app acc) (mapO (fun s => to_opt (f s)) l).
Proof.
  intros f. induction l as [|s l IH]; intros acc; simpl.
  - rewrite app_nil_r. reflexivity.
  - rewrite to_opt_dbind, mapO_cons. destruct (to_opt (f s)); simpl; [|reflexivity].
    rewrite IH. destruct (mapO _ l); simpl; [|reflexivity]. rewrite <- app_assoc. reflexivity.
Qed.

Lemma ras_list_opt : forall (f : statement -> dres (statement * list statement)) l ns ds,
  to_opt (ras_list f l ns ds) =
  option_map (fun rs => (ns ++ map fst rs, ds ++ flat_map snd rs)) (mapO (fun s => to_opt (f s)) l).
Proof.
  intros f. induction l as [|s l IH]; intros ns ds; simpl.
  - rewrite !app_nil_r. reflexivity.
  - rewrite to_opt_dbind, mapO_cons. destruct (to_opt (f s)) as [[s1 d1]|]; simpl; [|reflexivity].
    rewrite IH. destruct (mapO _ l); simpl; [|reflexivity]. rewrite <- !app_assoc. reflexivity.
Qed.

Definition vals_of (e : expression) : list expression :=
  match e with Tuple _ vs => vs | _ => [e] end.

Lemma unfold_values_opt : forall {X} (f : X -> dres expression) l acc,
  to_opt (unfold_values (map f l) acc) =
  option_map (fun vs => acc ++ flat_map vals_of vs) (mapO (fun x => to_opt (f x)) l).
Proof.
  induction l as [|x l IH]; intros acc; simpl.
  - rewrite app_nil_r. reflexivity.
  - rewrite to_opt_dbind, mapO_cons. destruct (to_opt (f x)) as [v|]; simpl; [|reflexivity].
    assert (E : to_opt (match v with Tuple _ inner => unfold_values (map f l) (acc ++ inner)
                                     | _ => unfold_values (map f l) (acc ++ [v]) end)
                = to_opt (unfold_values (map f l) (acc ++ vals_of v))) by (destruct v; reflexivity).
    rewrite E, IH. destruct (mapO _ l); simpl; [|reflexivity]. rewrite <- app_assoc. reflexivity.
Qed.

Lemma rte_tuple : forall m vs,
  to_opt (remove_tuple_from_expression (Tuple m vs)) =
  option_map (fun rs => Tuple m (flat_map vals_of rs)) (mapO (fun v => to_opt (remove_tuple_from_expression v)) vs).
Proof.
  intros. cbn [remove_tuple_from_expression]. rewrite to_opt_dbind, unfold_values_opt.
  destruct (mapO _ vs); reflexivity.
Qed.

Lemma collect_tuple_opt : forall {X} (f : X -> dres (list statement * list statement * expression)) l a b c,
  to_opt (collect_tuple (map f l) a b c) =
  option_map (fun ts => (a ++ flat_map (fun t => fst (fst t)) ts, b ++ flat_map (fun t => snd (fst t)) ts,
                         c ++ map snd ts))
             (mapO (fun x => to_opt (f x)) l).
Proof.
  induction l as [|x l IH]; intros a b c; simpl.
  - rewrite !app_nil_r. reflexivity.
  - rewrite to_opt_dbind, mapO_cons. destruct (to_opt (f x)) as [[[st nd] v]|]; simpl; [|reflexivity].
    rewrite IH. destruct (mapO _ l); simpl; [|reflexivity]. rewrite <- !app_assoc. reflexivity.
Qed.

Lemma forallb_negb_existsb : forall {A} (p q : A -> bool) l,
  forallb (fun x => negb (p x) && negb (q x)) l = negb (existsb q l) && negb (existsb p l).
Proof.
  induction l as [|x l IH]; simpl; [reflexivity|]. rewrite IH.
  destruct (p x), (q x), (existsb q l), (existsb p l); reflexivity.
Qed.

Lemma plain_spec : forall e, plain e = negb (contains_anon e) && negb (contains_tuple e).
Proof.
  intros e. unfold plain, contains_anon, contains_tuple. rewrite !contains_expr_existsb.
  apply forallb_negb_existsb.
Qed.

Lemma plain_NA : forall e, plain e = true -> NA e.
Proof. intros e H. rewrite plain_spec in H. apply andb_true_iff, proj1, negb_true_iff in H. exact H. Qed.

Lemma find_match : forall {A B} (p : A -> bool) l (f : A -> B) (b : B),
  (forall x y, f x = f y) ->
  match find p l with Some v => f v | None => b end =
  if existsb p l then match find p l with Some v => f v | None => b end else b.
Proof.
  intros A B p l f b _. destruct (find p l) eqn:E.
  - apply find_some in E. destruct E as [Hin Hp].
    assert (existsb p l = true) by (apply existsb_exists; eauto). rewrite H. reflexivity.
  - destruct (existsb p l); reflexivity.
Qed.

Lemma find_none_existsb : forall {A} (p : A -> bool) l, find p l = None <-> existsb p l = false.
Proof. intros. rewrite find_none_Forall, existsb_false_Forall. tauto. Qed.

Lemma to_opt_first_such : forall {A B} (p : A -> bool) l c (g : A -> meta) msg (r : dres B),
  to_opt (match first_such p l with Some v => fail c (g v) msg | None => r end) =
  if existsb p l then None else to_opt r.
Proof.
  intros. unfold first_such. destruct (find p l) as [v|] eqn:E.
  - apply find_some in E. rewrite (proj2 (existsb_exists p l)) by eauto. apply to_opt_fail.
  - apply find_none_existsb in E. rewrite E. reflexivity.
Qed.

Lemma contains_call : forall m mm id args, m (Call mm id args) = false ->
  contains_expr m (Call mm id args) = existsb (contains_expr m) args.
Proof. intros m mm id args H. simpl. rewrite H, fold_left_orb. apply orb_false_r. Qed.

Lemma contains_array : forall m mm vs, m (ArrayInLine mm vs) = false ->
  contains_expr m (ArrayInLine mm vs) = existsb (contains_expr m) vs.
Proof. intros m mm vs H. simpl. rewrite H, fold_left_orb. apply orb_false_r. Qed.

Definition sugar_top (e : expression) : bool :=
  match e with
  | Tuple _ _ | AnonymousComponent _ _ _ _ _ _ => true
  | ParallelOp _ (AnonymousComponent _ _ _ _ _ _) => true
  | _ => false
  end.

Definition ok0 (e : expression) : option (list statement * list statement * expression) := Some ([], [], e).

Lemma rae_plain_opt : forall env lib va e, sugar_top e = false ->
  to_opt (remove_anonymous_from_expression env lib va e) = if contains_anon e then None else ok0 e.
Proof.
  intros env lib va e Hs. unfold contains_anon.
  destruct e; try discriminate Hs; cbn [remove_anonymous_from_expression];
    rewrite ?to_opt_guard, ?to_opt_first_such, ?contains_call, ?contains_array by reflexivity;
    try reflexivity; unfold contains_anon.
  - simpl. destruct (contains_expr _ e1), (contains_expr _ e2); reflexivity.
  - simpl. destruct (contains_expr _ e1), (contains_expr _ e2), (contains_expr _ e3); reflexivity.
  - (* ParallelOp, not an anonymous component *)
    destruct e; try discriminate Hs; reflexivity.
Qed.

Lemma rte_plain_opt : forall e, is_tuple e = false -> is_anonymous_component e = false ->
  to_opt (remove_tuple_from_expression e) = if contains_tuple e then None else Some e.
Proof.
  intros e Ht Ha. unfold contains_tuple.
  destruct e; try discriminate; cbn [remove_tuple_from_expression];
    rewrite ?to_opt_guard, ?contains_call, ?contains_array by reflexivity;
    try reflexivity; unfold contains_tuple; simpl.
  - destruct (contains_expr _ e1), (contains_expr _ e2); reflexivity.
  - destruct (contains_expr _ e1), (contains_expr _ e2), (contains_expr _ e3); reflexivity.
Qed.

Lemma position_index_of : forall name names, position name names = index_of name names.
Proof.
  induction names as [|n names IH]; simpl; [reflexivity|].
  destruct (String.eqb n name); [reflexivity|]. rewrite IH. destruct (index_of name names); reflexivity.
Qed.

Lemma select_named_opt : forall m inputs names operators n sel,
  to_opt (select_named m inputs names operators n sel) =
  option_map (app sel)
    (mapO (fun inp : string * nat =>
             obind (position (fst inp) names)
                   (fun pos => if (pos <? n)%nat then option_map (pair pos) (nth_error operators pos) else None))
          inputs).
Proof.
  intros m inputs names operators n. induction inputs as [|inp rest IH]; intros sel; simpl.
  - rewrite app_nil_r. reflexivity.
  - rewrite mapO_cons. destruct (position (fst inp) names) as [pos|]; simpl; [|apply to_opt_fail].
    destruct (pos <? n)%nat; [|reflexivity].
    destruct (nth_error operators pos) as [o|]; simpl; [|reflexivity].
    rewrite IH. destruct (mapO _ rest); simpl; [|reflexivity]. rewrite <- app_assoc. reflexivity.
Qed.

Section AI.
  Variable va : option expression.
  Variable m : meta.
  Variable c : string.
  Variable results : list (dres (list statement * list statement * expression)).
  Variable sel : list (nat * assign_op).

  Definition feedI (ki : nat * (string * nat)) : option (list statement * list statement) :=
    let '(k, inp) := ki in
    obind (nth_error sel k) (fun po =>
    obind (nth_error results (fst po)) (fun r =>
    obind (to_opt r) (fun t =>
      let '(st, nd, ne) := t in
      if contains_anon ne then None
      else Some (st ++ [Substitution m c (acc_prefix va ++ [ComponentAccess (fst inp)]) (snd po) ne], nd)))).

  Lemma assign_inputs_opt : forall inputs i ss ds,
    to_opt (assign_inputs va m c results sel inputs i ss ds) =
    option_map (fun fed => (ss ++ flat_map fst fed, ds ++ flat_map snd fed))
               (mapO feedI (combine (seq i (List.length inputs)) inputs)).
  Proof.
    induction inputs as [|inp rest IH]; intros i ss ds; simpl.
    - rewrite !app_nil_r. reflexivity.
    - rewrite mapO_cons. unfold feedI at 1.
      destruct (nth_error sel i) as [[pos o]|]; simpl; [|reflexivity].
      destruct (nth_error results pos) as [r|]; simpl; [|reflexivity].
      rewrite to_opt_dbind. destruct (to_opt r) as [[[st nd] ne]|]; simpl; [|reflexivity].
      destruct (contains_anon ne); [apply to_opt_fail|].
      rewrite IH. destruct (mapO feedI _); simpl; [|reflexivity].
      rewrite <- !app_assoc. reflexivity.
  Qed.
End AI.

Definition name_opt (lib : file_library) (prefix : string) (m : meta) : option string :=
  to_opt (gen_name lib prefix m).

Definition va_form (va : option expression) : Prop :=
  va = None \/ exists m k, va = Some (Variable_ m k []).

Definition rtsO (s : statement) : option statement := to_opt (remove_tuples_from_statement s).

(* generated names are never `_` *)
Lemma append_nonempty : forall a b, b <> EmptyString -> (a ++ b)%string <> EmptyString.
Proof. intros a b H. destruct a; simpl; [exact H | discriminate]. Qed.

Lemma underscore_name : forall p x, x <> EmptyString -> String.eqb (p ++ "_" ++ x)%string "_" = false.
Proof.
  intros p x Hx. apply String.eqb_neq. destruct p as [|a p]; simpl.
  - intros E. inversion E. contradiction.
  - intros E. inversion E. destruct p; discriminate.
Qed.

Lemma name_not_underscore : forall lib p m c, name_opt lib p m = Some c -> String.eqb c "_" = false.
Proof.
  intros lib p m c H. unfold name_opt, gen_name in H. destruct (m_file m); [|discriminate].
  destruct (get_line lib (m_start m) n); [|discriminate]. inversion H; subst.
  apply underscore_name. apply append_nonempty. discriminate.
Qed.

(* pass 2 on generated statements *)
Lemma rtsO_block : forall m l, rtsO (Block m l) = option_map (Block m) (mapO rtsO l).
Proof.
  intros. unfold rtsO. cbn [remove_tuples_from_statement]. rewrite to_opt_dbind, rts_list_opt. simpl.
  destruct (mapO _ l); reflexivity.
Qed.

Lemma rtsO_init : forall m t l, rtsO (InitializationBlock m t l) = option_map (InitializationBlock m t) (mapO rtsO l).
Proof.
  intros. unfold rtsO. cbn [remove_tuples_from_statement]. rewrite to_opt_dbind, rts_list_opt. simpl.
  destruct (mapO _ l); reflexivity.
Qed.

Definition acc_tuple_free (acc : list access) : bool :=
  negb (existsb (fun a => match a with ArrayAccess i => contains_tuple i | ComponentAccess _ => false end) acc).

Lemma access_first_such_existsb : forall p acc,
  match access_first_such p acc with Some _ => true | None => false end =
  existsb (fun a => match a with ArrayAccess i => p i | ComponentAccess _ => false end) acc.
Proof.
  intros p acc. unfold access_first_such.
  destruct (find _ acc) as [a|] eqn:Ef.
  - apply find_some in Ef. destruct Ef as [Hin Hp]. destruct a; [discriminate|].
    symmetry. apply existsb_exists. eauto.
  - apply find_none_existsb in Ef. rewrite Ef. reflexivity.
Qed.

Lemma rtsO_sub : forall m v acc o e,
  rtsO (Substitution m v acc o e) =
  obind (to_opt (remove_tuple_from_expression e)) (fun e2 =>
    if is_tuple e2 then None
    else if acc_tuple_free acc
         then Some (if String.eqb v "_" then Block m [] else Substitution m v acc o e2)
         else None).
Proof.
  intros. unfold rtsO, acc_tuple_free. cbn [remove_tuples_from_statement]. rewrite to_opt_dbind.
  destruct (to_opt (remove_tuple_from_expression e)) as [e2|]; simpl; [|reflexivity].
  destruct (is_tuple e2); [apply to_opt_fail|].
  rewrite <- access_first_such_existsb.
  destruct (access_first_such contains_tuple acc); simpl; [apply to_opt_fail|].
  destruct (String.eqb v "_"); reflexivity.
Qed.

Lemma acc_prefix_tuple_free : forall va x, va_form va ->
  acc_tuple_free (acc_prefix va ++ x) = acc_tuple_free x.
Proof.
  intros va x [->|(m & k & ->)]; unfold acc_tuple_free; simpl; reflexivity.
Qed.

Lemma rte_var_plain : forall m c acc, acc_tuple_free acc = true ->
  to_opt (remove_tuple_from_expression (Variable_ m c acc)) = Some (Variable_ m c acc).
Proof.
  intros m c acc H.
  assert (E : contains_tuple (Variable_ m c acc) = false).
  { unfold contains_tuple. simpl. rewrite access_fold_existsb. unfold acc_tuple_free in H.
    apply negb_true_iff in H. exact H. }
  rewrite rte_plain_opt; [rewrite E; reflexivity | reflexivity | reflexivity].
Qed.

Lemma rte_out_tuple : forall m (outs : list expression),
  Forall (fun o => to_opt (remove_tuple_from_expression o) = Some o /\ is_tuple o = false) outs ->
  to_opt (remove_tuple_from_expression (Tuple m outs)) = Some (Tuple m outs).
Proof.
  intros m outs H. rewrite rte_tuple, (mapO_ext _ Some) by (eapply Forall_impl; [|exact H]; intros o Ho; apply Ho).
  unfold mapO. rewrite all_some_map_Some. cbn [option_map]. do 2 f_equal.
  induction H as [|x l [_ Ht] _ IH]; simpl; [reflexivity|]. rewrite IH.
  destruct x; try discriminate Ht; reflexivity.
Qed.

(* stage fusion: run [f] on all elements, then [g] on all produced statements
   = run [f] then [g] element by element *)
Lemma fuse : forall {X S S' D} (f : X -> option (list S * list D)) (g : S -> option S') L,
  obind (mapO f L) (fun fed => option_map (fun s2 => (s2, flat_map snd fed)) (mapO g (flat_map fst fed))) =
  option_map (fun fed' => (flat_map fst fed', flat_map snd fed'))
    (mapO (fun x => obind (f x) (fun sd => option_map (fun s2 => (s2, snd sd)) (mapO g (fst sd)))) L).
Proof.
  induction L as [|x L IH]; [reflexivity|].
  rewrite !mapO_cons. destruct (f x) as [[sts d]|]; [|reflexivity].
  cbn [obind fst snd].
  destruct (mapO f L) as [fed|]; cbn [obind option_map flat_map fst snd] in *.
  - rewrite mapO_app. destruct (mapO g sts) as [a|]; cbn [obind option_map]; [|reflexivity].
    destruct (mapO g (flat_map fst fed)) as [b|]; destruct (mapO _ L) as [g'|]; cbn [obind option_map flat_map fst snd] in *;
      try discriminate IH; [|reflexivity].
    inversion IH; subst. reflexivity.
  - destruct (mapO _ L); [discriminate IH|]. destruct (mapO g sts); reflexivity.
Qed.

Lemma forallb_plain_spec : forall ps,
  forallb plain ps = negb (existsb contains_anon ps) && negb (existsb contains_tuple ps).
Proof.
  induction ps as [|p ps IH]; [reflexivity|]. simpl. rewrite IH, plain_spec.
  destruct (contains_anon p), (contains_tuple p), (existsb contains_anon ps), (existsb contains_tuple ps); reflexivity.
Qed.

Lemma fuse2 : forall {X S S' D} (f : X -> option (S * list D)) (g : S -> option S') L,
  obind (mapO f L) (fun rs => option_map (fun ns2 => (ns2, flat_map snd rs)) (mapO g (map fst rs))) =
  option_map (fun cs => (map fst cs, flat_map snd cs))
    (mapO (fun x => obind (f x) (fun sd => option_map (fun s2 => (s2, snd sd)) (g (fst sd)))) L).
Proof.
  induction L as [|x L IH]; [reflexivity|].
  rewrite !mapO_cons. destruct (f x) as [[s1 d]|]; [|reflexivity]. cbn [obind fst snd].
  destruct (mapO f L) as [rs|]; cbn [obind option_map map flat_map fst snd] in *.
  - rewrite mapO_cons. destruct (g s1) as [s2|]; cbn [obind option_map]; [|reflexivity].
    destruct (mapO g (map fst rs)) as [b|]; destruct (mapO _ L) as [g'|]; cbn [obind option_map map flat_map fst snd] in *;
      try discriminate IH; [|reflexivity].
    inversion IH; subst. reflexivity.
  - destruct (mapO _ L); [discriminate IH|]. destruct (g s1); reflexivity.
Qed.

Definition LVe (r : option expression) : option (list expression) :=
  obind r (fun v2 => if forallb is_variable (vals_of v2) then Some (vals_of v2) else None).

Lemma lvalues_list : forall vs,
  Forall (fun v => LVe (to_opt (remove_tuple_from_expression v)) = lvalues v) vs ->
  option_map (@List.concat _) (all_some (map lvalues vs)) =
  obind (mapO (fun v => to_opt (remove_tuple_from_expression v)) vs)
        (fun rs => if forallb is_variable (flat_map vals_of rs) then Some (flat_map vals_of rs) else None).
Proof.
  induction 1 as [|v vs Hv Hvs IH]; [reflexivity|].
  rewrite mapO_cons. cbn [map all_some]. rewrite <- Hv. unfold LVe at 1.
  destruct (to_opt (remove_tuple_from_expression v)) as [r|]; cbn [obind]; [|reflexivity].
  destruct (mapO _ vs) as [rs|]; cbn [obind option_map flat_map] in *.
  - rewrite forallb_app. destruct (forallb is_variable (vals_of r)); cbn [andb].
    + destruct (all_some (map lvalues vs)) as [ls|]; cbn [option_map] in *.
      * destruct (forallb is_variable (flat_map vals_of rs)); inversion IH; subst; reflexivity.
      * destruct (forallb is_variable (flat_map vals_of rs)); [discriminate IH | reflexivity].
    + reflexivity.
  - destruct (forallb is_variable (vals_of r)); [|reflexivity].
    destruct (all_some (map lvalues vs)); [discriminate IH | reflexivity].
Qed.

Lemma lvalues_rte : forall v, NA v -> LVe (to_opt (remove_tuple_from_expression v)) = lvalues v.
Proof.
  induction v using expression_ind'; intros Hna;
    try (rewrite rte_plain_opt by reflexivity; unfold LVe;
         match goal with |- context [contains_tuple ?e] => destruct (contains_tuple e) end; reflexivity).
  - rewrite rte_plain_opt by reflexivity. cbn [lvalues]. rewrite plain_spec.
    unfold CL in Hna. fold (contains_anon (Variable_ m n acc)) in Hna. rewrite Hna. cbn [negb andb].
    destruct (contains_tuple (Variable_ m n acc)); reflexivity.
  - reflexivity.
  - cbn [lvalues]. rewrite rte_tuple. apply CL_tuple_inv in Hna.
    assert (HF : Forall (fun v => LVe (to_opt (remove_tuple_from_expression v)) = lvalues v) vs).
    { rewrite Forall_forall in *. intros x Hx. apply H; auto. }
    rewrite (lvalues_list vs HF). unfold LVe.
    destruct (mapO (fun x => to_opt (remove_tuple_from_expression x)) vs); reflexivity.
Qed.

Lemma lvalues_NA : forall l ls, lvalues l = Some ls -> NA l.
Proof.
  induction l using expression_ind'; intros ls Hl; cbn [lvalues] in Hl; try discriminate.
  - destruct (plain (Variable_ m n acc)) eqn:Ep; [apply plain_NA; exact Ep | discriminate].
  - apply NA_tuple. destruct (all_some (map lvalues vs)) as [lss|] eqn:Ea; [|discriminate].
    rewrite Forall_forall in *. intros v Hv. destruct (mapO_In _ _ _ _ Ea Hv) as (y & Hy & _). eauto.
Qed.

Lemma tuple_substs_opt : forall m o ls rs acc, List.length ls = List.length rs ->
  to_opt (tuple_substs m o ls rs acc) =
  if forallb is_variable ls then Some (acc ++ assignments o ls rs) else None.
Proof.
  intros m o. induction ls as [|l ls IH]; intros rs acc Hlen.
  - destruct rs; [|discriminate]. simpl. rewrite app_nil_r. reflexivity.
  - destruct rs as [|r rs]; [discriminate|]. simpl in Hlen. injection Hlen as Hlen.
    destruct l; try (simpl; apply to_opt_fail).
    cbn [tuple_substs forallb is_variable andb]. rewrite IH by exact Hlen.
    unfold assignments. cbn [combine flat_map].
    destruct (forallb is_variable ls); [|reflexivity].
    destruct (String.eqb name "_"); cbn [app]; [reflexivity|]. rewrite <- app_assoc. reflexivity.
Qed.

Definition MM (m : meta) (o : assign_op) (l2 e2 : expression) : option statement :=
  match l2, e2 with
  | Tuple _ ls, Tuple _ rs =>
      if (List.length ls =? List.length rs)%nat
      then if forallb is_variable ls then Some (Block m (assignments o ls rs)) else None
      else None
  | _, _ => None
  end.

Lemma rtsO_msub : forall m lhe o e1,
  rtsO (MultiSubstitution m lhe o e1) =
  obind (to_opt (remove_tuple_from_expression e1)) (fun e2 =>
    obind (to_opt (remove_tuple_from_expression lhe)) (fun l2 => MM m o l2 e2)).
Proof.
  intros m lhe o e1. unfold rtsO. cbn [remove_tuples_from_statement]. rewrite to_opt_dbind.
  rewrite obind_comm.
  destruct (to_opt (remove_tuple_from_expression lhe)) as [l2|]; cbn [obind].
  2:{ destruct (to_opt (remove_tuple_from_expression e1)); reflexivity. }
  rewrite to_opt_dbind. destruct (to_opt (remove_tuple_from_expression e1)) as [e2|]; cbn [obind]; [|reflexivity].
  unfold MM.
  destruct l2; try (destruct (_ || _); apply to_opt_fail).
  destruct e2; try (destruct (_ || _); apply to_opt_fail).
  destruct (List.length values =? List.length values0)%nat eqn:El.
  - rewrite to_opt_dbind, tuple_substs_opt by (apply Nat.eqb_eq; exact El).
    destruct (forallb is_variable values); reflexivity.
  - destruct (negb (is_nil values)); apply to_opt_fail.
Qed.

Lemma rtsO_if : forall m c i1 eo,
  rtsO (IfThenElse m c i1 eo) =
  if contains_tuple c then None
  else obind (rtsO i1) (fun i2 =>
         match eo with
         | Some e1 => option_map (fun e2 => IfThenElse m c i2 (Some e2)) (rtsO e1)
         | None => Some (IfThenElse m c i2 None)
         end).
Proof.
  intros. unfold rtsO. cbn [remove_tuples_from_statement].
  destruct (contains_tuple c); [apply to_opt_fail|]. rewrite to_opt_dbind.
  destruct (to_opt (remove_tuples_from_statement i1)); cbn [obind]; [|reflexivity].
  destruct eo; [|reflexivity]. rewrite to_opt_dbind.
  destruct (to_opt (remove_tuples_from_statement s0)); reflexivity.
Qed.

Lemma rtsO_while : forall m c x,
  rtsO (While m c x) = if contains_tuple c then None else option_map (While m c) (rtsO x).
Proof.
  intros. unfold rtsO. cbn [remove_tuples_from_statement].
  destruct (contains_tuple c); [apply to_opt_fail|]. rewrite to_opt_dbind.
  destruct (to_opt (remove_tuples_from_statement x)); reflexivity.
Qed.

Definition norm (a : log_argument) : list log_argument :=
  match a with
  | LogStr s => if String.eqb s "" then [] else [LogStr s]
  | LogExp e => [LogExp e]
  end.

Definition good_arg (a : log_argument) : Prop :=
  match a with LogStr s => s <> EmptyString /\ String.length s <= 230 | LogExp _ => True end.

Lemma build_log_args_short_eq : forall args, Forall short_arg args ->
  build_log_args args = DOk (flat_map norm args).
Proof.
  induction 1 as [|a args Ha Hargs IH]; [reflexivity|]. cbn [build_log_args flat_map].
  destruct a as [s|e].
  - simpl in Ha. rewrite (split_string_short s (String.length s) Ha), IH. cbn [dbind norm].
    destruct s; reflexivity.
  - rewrite IH. reflexivity.
Qed.

Lemma norm_good : forall l, Forall good_arg l -> flat_map norm l = l.
Proof.
  induction 1 as [|a l Ha Hl IH]; [reflexivity|]. cbn [flat_map]. rewrite IH.
  destruct a as [s|e]; [|reflexivity]. destruct Ha as [Hne _]. cbn [norm].
  destruct s; [contradiction|reflexivity].
Qed.

Lemma good_short : forall l, Forall good_arg l -> Forall short_arg l.
Proof. apply Forall_impl. intros [s|e]; simpl; tauto. Qed.

Definition stepL (a : log_argument) : option (list log_argument) :=
  match a with
  | LogStr s => Some [LogStr s]
  | LogExp e => obind (to_opt (check_log_args (sep_log e))) (fun _ => Some (sep_log e))
  end.

Lemma log_new_args_opt : forall args acc,
  to_opt (log_new_args args acc) = option_map (fun ls => acc ++ List.concat ls) (mapO stepL args).
Proof.
  induction args as [|a args IH]; intros acc.
  - simpl. rewrite app_nil_r. reflexivity.
  - rewrite mapO_cons. cbn [log_new_args]. destruct a as [s|e]; cbn [stepL obind].
    + rewrite IH. destruct (mapO stepL args); cbn [option_map List.concat]; [|reflexivity].
      rewrite <- app_assoc. reflexivity.
    + unfold separate_tuple_for_log_call. cbn [flat_map]. rewrite app_nil_r, to_opt_dbind.
      destruct (to_opt (check_log_args (sep_log e))); cbn [obind]; [|reflexivity].
      rewrite IH. destruct (mapO stepL args); cbn [option_map List.concat]; [|reflexivity].
      rewrite <- app_assoc. reflexivity.
Qed.

Lemma check_log_args_app : forall a b,
  to_opt (check_log_args (a ++ b)) = obind (to_opt (check_log_args a)) (fun _ => to_opt (check_log_args b)).
Proof.
  induction a as [|x a IH]; intros b; [reflexivity|]. cbn [app check_log_args].
  destruct x as [s|e]; [apply IH|]. rewrite !to_opt_dbind.
  destruct (to_opt (remove_tuple_from_expression e)); cbn [obind]; [apply IH | reflexivity].
Qed.

Definition stepE (e : expression) : option (list log_argument) := stepL (LogExp e).

Lemma stepE_list : forall vs,
  obind (to_opt (check_log_args (flat_map sep_log vs))) (fun _ => Some (flat_map sep_log vs)) =
  option_map (@List.concat _) (mapO stepE vs).
Proof.
  induction vs as [|v vs IH]; [reflexivity|]. cbn [flat_map]. rewrite check_log_args_app, mapO_cons.
  unfold stepE at 1. cbn [stepL].
  destruct (to_opt (check_log_args (sep_log v))) as [[]|]; cbn [obind]; [|reflexivity].
  destruct (to_opt (check_log_args (flat_map sep_log vs))) as [[]|]; cbn [obind] in *.
  - destruct (mapO stepE vs); cbn [option_map] in *; [|discriminate IH]. inversion IH as [H0]. cbn [List.concat]. rewrite H0. reflexivity.
  - destruct (mapO stepE vs); [discriminate IH | reflexivity].
Qed.

Lemma stepE_log_values : forall e, NA e -> stepE e = log_values e.
Proof.
  induction e using expression_ind'; intros Hna;
    try (unfold stepE, stepL; cbn [sep_log check_log_args log_values]; rewrite to_opt_dbind, rte_plain_opt by reflexivity;
         rewrite plain_spec; unfold CL in Hna;
         match goal with |- context [contains_tuple ?x] => fold (contains_anon x) in Hna; rewrite Hna; destruct (contains_tuple x) end;
         reflexivity).
  - apply CL_node in Hna. discriminate Hna.
  - apply CL_tuple_inv in Hna. unfold stepE, stepL. cbn [sep_log log_values app check_log_args].
    rewrite check_log_args_app. cbn [check_log_args to_opt].
    assert (E : all_some (map log_values vs) = mapO stepE vs).
    { unfold mapO. f_equal. apply map_ext_in. intros v Hv. rewrite Forall_forall in *. symmetry. apply H; auto. }
    rewrite E. pose proof (stepE_list vs) as SL.
    destruct (to_opt (check_log_args (flat_map sep_log vs))) as [[]|]; cbn [obind] in *.
    + destruct (mapO stepE vs); cbn [option_map] in *; [|discriminate SL]. inversion SL; subst. reflexivity.
    + destruct (mapO stepE vs); [discriminate SL | reflexivity].
Qed.

Lemma log_values_NA : forall e l, log_values e = Some l -> NA e.
Proof.
  induction e using expression_ind'; intros l0 Hl; cbn [log_values] in Hl;
    try (apply plain_NA; destruct (plain _); [reflexivity | discriminate Hl]).
  apply NA_tuple. destruct (all_some (map log_values vs)) as [ls|] eqn:Ea; [|discriminate Hl].
  rewrite Forall_forall in *. intros v Hv. destruct (mapO_In _ _ _ _ Ea Hv) as (y & Hy & _). eauto.
Qed.

Lemma log_values_good : forall e l, log_values e = Some l -> Forall good_arg l.
Proof.
  induction e using expression_ind'; intros l0 Hl; cbn [log_values] in Hl;
    try (match type of Hl with (if plain ?x then _ else _) = _ => destruct (plain x); [|discriminate Hl];
           inversion Hl; subst; constructor; [exact I | constructor] end).
  destruct (all_some (map log_values vs)) as [ls|] eqn:Ea; [|discriminate Hl]. inversion Hl; subst.
  constructor; [split; [discriminate | simpl; lia]|]. apply Forall_app. split; [|constructor; [split; [discriminate | simpl; lia] | constructor]].
  apply Forall_concat. exact (mapO_Forall _ _ _ _ Ea H).
Qed.

(* the list traversal inside [xstmt] is a [mapO] *)
Lemma xlist_mapO : forall {X Y D} (F : X -> option (Y * list D)) (go : list X -> option (list Y * list D)),
  go [] = Some ([], []) ->
  (forall x r, go (x :: r) = match F x, go r with
                             | Some (x', d), Some (r', d') => Some (x' :: r', d ++ d')
                             | _, _ => None
                             end) ->
  forall l, go l = option_map (fun rs => (map fst rs, flat_map snd rs)) (mapO F l).
Proof.
  intros X Y D F go H0 HS. induction l as [|x r IH]; [exact H0|]. rewrite HS, IH, mapO_cons.
  destruct (F x) as [[x' d]|]; [|reflexivity]. destruct (mapO F r); reflexivity.
Qed.

Lemma xstmt_block_gen : forall sig_of cx kx ix m l,
  xstmt sig_of cx kx ix (Block m l) =
  option_map (fun rs => (Block m (map fst rs), flat_map snd rs)) (mapO (xstmt sig_of cx kx ix) l).
Proof.
  intros. cbn [xstmt]. erewrite (xlist_mapO (xstmt sig_of cx kx ix)); [|reflexivity|reflexivity].
  destruct (mapO _ l); reflexivity.
Qed.

Lemma xstmt_init_gen : forall sig_of cx kx ix m t l,
  xstmt sig_of cx kx ix (InitializationBlock m t l) =
  option_map (fun rs => (InitializationBlock m t (map fst rs), flat_map snd rs)) (mapO (xstmt sig_of cx kx ix) l).
Proof.
  intros. cbn [xstmt]. erewrite (xlist_mapO (xstmt sig_of cx kx ix)); [|reflexivity|reflexivity].
  destruct (mapO _ l); reflexivity.
Qed.

Definition dfix (d : statement) : Prop := rtsO d = Some d /\ dshape d.

Section Refine.
  Variable lib : file_library.
  Variable env : tenv.
  Variable sig_of : string -> option (list string * list string).
  Hypothesis Hsig : forall id, sig_of id =
    option_map (fun ti => (map fst (ti_inputs ti), map fst (ti_outputs ti))) (lookup_template id env).

  Notation cname := (name_opt lib).
  Notation XV := (xvals sig_of cname).
  Notation RAE := (remove_anonymous_from_expression env lib).

  Definition C_e (va : option expression) (e : expression)
    : option (list statement * list statement * expression) :=
    obind (to_opt (RAE va e)) (fun t =>
      obind (mapO rtsO (fst (fst t))) (fun pre2 =>
        option_map (fun e2 => (pre2, snd (fst t), e2)) (to_opt (remove_tuple_from_expression (snd t))))).

  Definition V3 (t : list statement * list statement * expression) :=
    (fst (fst t), snd (fst t), vals_of (snd t)).

  Definition T_e (e : expression) : Prop :=
    forall va, va_form va ->
      option_map V3 (C_e va e) = XV (acc_prefix va) e /\
      forall p d e2, C_e va e = Some (p, d, e2) ->
        is_tuple e2 = tuple_valued sig_of e /\
        (is_tuple e2 = true -> is_tuple e = false -> List.length (vals_of e2) <> 1) /\
        (is_tuple e = true -> is_tuple e2 = true) /\
        Forall dfix d.

  Lemma C_e_plain : forall va e, sugar_top e = false ->
    C_e va e = if plain e then Some ([], [], e) else None.
  Proof.
    intros va e Hs. unfold C_e. rewrite rae_plain_opt by exact Hs. rewrite plain_spec.
    destruct (contains_anon e) eqn:Ea; [reflexivity|]. unfold ok0. cbn [obind fst snd mapO map all_some option_map negb andb].
    rewrite rte_plain_opt by (destruct e; try reflexivity; discriminate Hs). destruct (contains_tuple e); reflexivity.
  Qed.

  Lemma XV_plain : forall ix e, sugar_top e = false ->
    XV ix e = if plain e then Some ([], [], [e]) else None.
  Proof.
    intros ix e Hs. destruct e; try discriminate Hs; try reflexivity.
    destruct e; try discriminate Hs; reflexivity.
  Qed.

  Lemma tuple_valued_plain : forall e, sugar_top e = false -> tuple_valued sig_of e = false.
  Proof.
    intros e Hs. destruct e; try discriminate Hs; try reflexivity.
    destruct e; try discriminate Hs; reflexivity.
  Qed.

  Lemma T_e_plain : forall e, sugar_top e = false -> T_e e.
  Proof.
    intros e Hs va Hva. rewrite C_e_plain, XV_plain by exact Hs.
    assert (Ht : is_tuple e = false) by (destruct e; try reflexivity; discriminate Hs).
    split.
    - destruct (plain e); [|reflexivity]. unfold V3. simpl. destruct e; try reflexivity; discriminate Ht.
    - intros p d e2 H. destruct (plain e); [|discriminate]. inversion H; subst.
      rewrite tuple_valued_plain by exact Hs. repeat split; auto; try congruence; constructor.
  Qed.

  Lemma tuple_fuse : forall va vs,
    obind (mapO (fun v => to_opt (RAE va v)) vs) (fun ts =>
      obind (mapO rtsO (flat_map (fun t => fst (fst t)) ts)) (fun pre2 =>
        option_map (fun vs2 => (pre2, flat_map (fun t => snd (fst t)) ts, vs2))
                   (mapO (fun t => to_opt (remove_tuple_from_expression (snd t))) ts)))
    = option_map (fun cs => (flat_map (fun c => fst (fst c)) cs, flat_map (fun c => snd (fst c)) cs, map snd cs))
                 (mapO (C_e va) vs).
  Proof.
    intros va. induction vs as [|v vs IH]; [reflexivity|].
    rewrite !mapO_cons. unfold C_e at 1.
    destruct (to_opt (RAE va v)) as [[[pre dec] e1]|]; [|reflexivity].
    cbn [obind fst snd].
    destruct (mapO (fun v0 => to_opt (RAE va v0)) vs) as [ts|]; cbn [obind option_map flat_map fst snd map] in *.
    - rewrite mapO_app, mapO_cons. cbn [fst snd].
      destruct (mapO rtsO pre) as [pre2|]; cbn [obind option_map]; [|reflexivity].
      destruct (to_opt (remove_tuple_from_expression e1)) as [e2|]; cbn [obind option_map].
      + destruct (mapO rtsO (flat_map (fun t => fst (fst t)) ts)) as [b|]; cbn [obind option_map] in *.
        * destruct (mapO (fun t => to_opt (remove_tuple_from_expression (snd t))) ts) as [vs2|];
            destruct (mapO (C_e va) vs) as [g'|]; cbn [obind option_map flat_map fst snd map] in *; try discriminate IH; [|reflexivity].
          inversion IH; subst. reflexivity.
        * destruct (mapO (C_e va) vs) as [g'|]; cbn [obind option_map] in *; [discriminate IH | reflexivity].
      + destruct (mapO rtsO (flat_map (fun t => fst (fst t)) ts)); reflexivity.
    - destruct (mapO (C_e va) vs); [discriminate IH|].
      destruct (mapO rtsO pre); cbn [obind option_map]; [|reflexivity].
      destruct (to_opt (remove_tuple_from_expression e1)); reflexivity.
  Qed.

  Lemma C_e_tuple : forall va m vs,
    C_e va (Tuple m vs) =
    option_map (fun cs => (flat_map (fun c => fst (fst c)) cs, flat_map (fun c => snd (fst c)) cs,
                           Tuple m (flat_map (fun c => vals_of (snd c)) cs)))
               (mapO (C_e va) vs).
  Proof.
    intros va m vs. pose proof (tuple_fuse va vs) as TF. unfold C_e at 1. cbn [remove_anonymous_from_expression].
    rewrite to_opt_dbind, collect_tuple_opt.
    destruct (mapO (fun v => to_opt (RAE va v)) vs) as [ts|]; cbn [obind option_map fst snd app to_opt] in *.
    2:{ destruct (mapO (C_e va) vs); [discriminate TF | reflexivity]. }
    rewrite rte_tuple. unfold mapO at 2. rewrite map_map. fold (mapO (fun t => to_opt (remove_tuple_from_expression (snd t))) ts).
    destruct (mapO rtsO _) as [pre2|]; cbn [obind] in *.
    2:{ destruct (mapO (C_e va) vs); [discriminate TF | reflexivity]. }
    destruct (mapO _ ts) as [vs2|]; destruct (mapO (C_e va) vs) as [cs|]; try discriminate TF; [|reflexivity].
    injection TF as -> -> ->. cbn [option_map]. rewrite !flat_map_concat_map, map_map. reflexivity.
  Qed.

  Lemma T_e_tuple : forall m vs, Forall T_e vs -> T_e (Tuple m vs).
  Proof.
    intros m vs IH va Hva. rewrite C_e_tuple. split.
    - cbn [xvals]. unfold xconcat. fold (mapO (XV (acc_prefix va)) vs).
      rewrite (mapO_ext _ (fun v => option_map V3 (C_e va v))), mapO_option_map
        by (eapply Forall_impl; [|exact IH]; intros v Hv; symmetry; apply (Hv va Hva)).
      destruct (mapO (C_e va) vs) as [cs|]; [|reflexivity]. cbn [option_map]. unfold V3 at 1. cbn [fst snd vals_of].
      f_equal. f_equal; [f_equal|]; rewrite !flat_map_concat_map, map_map; reflexivity.
    - intros p d e2 H. destruct (mapO (C_e va) vs) as [cs|] eqn:Ecs; [|discriminate]. inversion H; subst.
      repeat split; auto; try discriminate.
      apply Forall_flat_map. apply (mapO_Forall _ _ _ _ Ecs). rewrite Forall_forall in *.
      intros v Hv [[cp cd] ce] Ev. apply (proj2 (IH v Hv va Hva) _ _ _ Ev).
  Qed.

  (* the value of an expression used where a single value is required *)
  Lemma single_equiv : forall e va, T_e e -> va_form va ->
    is_single e (XV (acc_prefix va) e) =
    obind (C_e va e) (fun t => if is_tuple (snd t) then None else Some t).
  Proof.
    intros e va HT Hva. destruct (HT va Hva) as [Heq Hf]. rewrite <- Heq.
    destruct (C_e va e) as [[[p d] e2]|]; cbn [option_map obind snd].
    - destruct (Hf _ _ _ eq_refl) as (F1 & F2 & F3 & _). unfold V3. cbn [fst snd].
      destruct (is_tuple e) eqn:Et.
      + rewrite (F3 eq_refl). destruct e; try discriminate Et. reflexivity.
      + destruct (is_tuple e2) eqn:Et2.
        * specialize (F2 eq_refl eq_refl). destruct e; try discriminate Et;
            (destruct (vals_of e2) as [|v1 [|v2 vr]]; [reflexivity | exfalso; apply F2; reflexivity | reflexivity]).
        * assert (Ev : vals_of e2 = [e2]) by (destruct e2; try reflexivity; discriminate Et2).
          rewrite Ev. destruct e; try discriminate Et; reflexivity.
    - destruct e; reflexivity.
  Qed.

  Section Anon.
    Variable va : option expression.
    Hypothesis Hva : va_form va.
    Variable m : meta.
    Variable id : string.
    Variable par : bool.
    Variable ps ss : list expression.
    Variable nm : option (list (assign_op * string)).
    Hypothesis Hnm : match nm with Some n => List.length n = List.length ss | None => True end.
    Hypothesis IHss : Forall T_e ss.

    Notation prefix := (acc_prefix va).
    Definition callE : expression := if par then ParallelOp m (Call m id ps) else Call m id ps.
    Definition initS (c : string) : statement := Substitution m c prefix AssignVar callE.
    Definition declS (c : string) : statement :=
      match va with
      | None => build_declaration m VComponent c []
      | Some v => build_declaration m VAnonymousComponent c [v]
      end.
    Definition outV (c : string) (o : string) : expression := Variable_ m c (prefix ++ [ComponentAccess o]).
    Definition outE (t : template_info) (c : string) : expression :=
      match ti_outputs t with
      | [o] => outV c (fst o)
      | outs => Tuple m (map (fun o => outV c (fst o)) outs)
      end.
    Definition selO (t : template_info) : option (list (nat * assign_op)) :=
      to_opt (match nm with
              | Some n => select_named m (ti_inputs t) (map snd n) (map fst n) (List.length ss) []
              | None => DOk (map (fun k => (k, AssignConstraintSignal)) (seq 0 (List.length ss)))
              end).
    Definition lens_bad (t : template_info) (sel : list (nat * assign_op)) : bool :=
      negb (List.length (ti_inputs t) =? List.length sel)%nat || negb (List.length (ti_inputs t) =? List.length ss)%nat.

    Lemma va_NA : va_ok va.
    Proof. destruct Hva as [->|(m0 & k & ->)]; simpl; auto. reflexivity. Qed.

    Lemma anon_opt : forall results,
      to_opt (anon_component env lib va m id par ps ss nm results) =
      obind (lookup_template id env) (fun t =>
      obind (cname id m) (fun c =>
        if contains_anon (Call m id ps) then None else
        obind (selO t) (fun sel =>
          if lens_bad t sel then None else
          obind (to_opt (assign_inputs va m c results sel (ti_inputs t) 0 [initS c] [declS c])) (fun sd =>
            Some ([Block m (fst sd)], snd sd, outE t c))))).
    Proof.
      intros results. unfold anon_component.
      destruct (lookup_template id env) as [t|]; cbn [obind].
      2:{ rewrite to_opt_dbind. unfold mk_report. destruct (m_file m); reflexivity. }
      rewrite to_opt_dbind. unfold name_opt. destruct (to_opt (gen_name lib id m)) as [c|]; cbn [obind]; [|reflexivity].
      destruct (contains_anon (Call m id ps)); [apply to_opt_fail|].
      rewrite to_opt_dbind. fold (selO t). destruct (selO t) as [sel|]; cbn [obind]; [|reflexivity].
      fold (lens_bad t sel). destruct (lens_bad t sel); [apply to_opt_fail|].
      rewrite to_opt_dbind. unfold initS, callE, declS, outE, outV.
      destruct va; cbv iota; (destruct (to_opt (assign_inputs _ _ _ _ _ _ _ _ _)) as [[sq dc]|]; [|reflexivity]);
        destruct (ti_outputs t) as [|o [|o2 outs]]; reflexivity.
    Qed.

    (* pass 2 on the initialisation `c = T(p..)` *)
    Lemma rtsO_initS : forall c, String.eqb c "_" = false ->
      rtsO (initS c) = if existsb contains_tuple ps then None else Some (initS c).
    Proof.
      intros c Hc. unfold initS, callE. rewrite rtsO_sub, Hc.
      assert (Ep : acc_tuple_free prefix = true) by (destruct Hva as [->|(? & ? & ->)]; reflexivity).
      rewrite Ep.
      destruct par; rewrite rte_plain_opt by reflexivity; unfold contains_tuple;
        [change (contains_expr is_tuple (ParallelOp m ?e)) with (contains_expr is_tuple e)|];
        rewrite contains_call by reflexivity; destruct (existsb _ ps); reflexivity.
    Qed.

    Lemma rte_outE : forall t c,
      to_opt (remove_tuple_from_expression (outE t c)) = Some (outE t c).
    Proof.
      intros t c.
      assert (Hv : forall o, to_opt (remove_tuple_from_expression (outV c o)) = Some (outV c o)).
      { intros o. apply rte_var_plain. rewrite acc_prefix_tuple_free by exact Hva. reflexivity. }
      assert (Ht : forall outs : list (string * nat),
                 to_opt (remove_tuple_from_expression (Tuple m (map (fun o => outV c (fst o)) outs))) =
                 Some (Tuple m (map (fun o => outV c (fst o)) outs))).
      { intros outs. apply rte_out_tuple. apply Forall_forall. intros x Hx. apply in_map_iff in Hx.
        destruct Hx as (o & <- & _). split; [apply Hv | reflexivity]. }
      unfold outE. destruct (ti_outputs t) as [|o [|o2 outs]]; [apply (Ht []) | apply Hv | apply (Ht (o :: o2 :: outs))].
    Qed.

    (* one input, both passes *)
    Definition feedC (c : string) (ki : nat * (string * nat)) : option (list statement * list statement) :=
      obind (argument_of nm (fst ki) (fst (snd ki))) (fun jo =>
      obind (nth_error ss (fst jo)) (fun a =>
      obind (C_e va a) (fun t =>
        if is_tuple (snd t) then None
        else Some (fst (fst t) ++ [Substitution m c (prefix ++ [ComponentAccess (fst (snd ki))]) (snd jo) (snd t)],
                   snd (fst t))))).

    Lemma feedK_feedC : forall c sel L, String.eqb c "_" = false ->
      (forall k inp, In (k, inp) L -> nth_error sel k = argument_of nm k (fst inp)) ->
      mapO (fun ki => obind (feedI va m c (map (RAE va) ss) sel ki)
                            (fun sd => option_map (fun s2 => (s2, snd sd)) (mapO rtsO (fst sd)))) L
      = mapO (feedC c) L.
    Proof.
      intros c sel L Hc Hsel. apply mapO_ext. apply Forall_forall. intros [k inp] Hin.
      unfold feedI, feedC. cbn [fst snd] in *. rewrite (Hsel k inp Hin).
      destruct (argument_of nm k (fst inp)) as [[j o]|]; cbn [obind fst snd]; [|reflexivity].
      rewrite nth_error_map. destruct (nth_error ss j) as [a|]; cbn [obind option_map]; [|reflexivity].
      unfold C_e. pose proof (rae_na env lib va a va_NA) as Hna.
      destruct (RAE va a) as [[[st nd] ne]| | |]; cbn [to_opt obind fst snd]; try reflexivity.
      destruct (Hna _ _ _ eq_refl) as [Hne _]. unfold CL in Hne. fold (contains_anon ne) in Hne. rewrite Hne.
      cbn [obind fst snd]. rewrite mapO_app. destruct (mapO rtsO st) as [st2|]; cbn [obind option_map]; [|reflexivity].
      rewrite mapO_cons, rtsO_sub, Hc.
      rewrite acc_prefix_tuple_free by exact Hva. cbn [acc_tuple_free existsb negb].
      destruct (to_opt (remove_tuple_from_expression ne)) as [e2|]; cbn [obind option_map fst snd]; [|reflexivity].
      destruct (is_tuple e2); reflexivity.
    Qed.

    Lemma feedC_dfix : forall c ki fd, feedC c ki = Some fd -> Forall dfix (snd fd).
    Proof.
      intros c ki fd Ef. unfold feedC in Ef.
      destruct (argument_of nm (fst ki) (fst (snd ki))) as [jo|]; [|discriminate]. cbn [obind] in Ef.
      destruct (nth_error ss (fst jo)) as [a|] eqn:Ea; [|discriminate]. cbn [obind] in Ef.
      destruct (C_e va a) as [[[pa da] ea]|] eqn:Eca; [|discriminate]. cbn [obind fst snd] in Ef.
      destruct (is_tuple ea); [discriminate|]. injection Ef as <-.
      apply nth_error_In in Ea. rewrite Forall_forall in IHss.
      apply (proj2 (IHss a Ea va Hva) _ _ _ Eca).
    Qed.

    Lemma selF_arg : forall n k (inp : string * nat), List.length n = List.length ss ->
      obind (position (fst inp) (map snd n))
            (fun pos => if (pos <? List.length ss)%nat then option_map (pair pos) (nth_error (map fst n) pos) else None)
      = argument_of (Some n) k (fst inp).
    Proof.
      intros n k inp Hlen. unfold argument_of. rewrite <- (position_index_of (fst inp) (map snd n)).
      destruct (position (fst inp) (map snd n)) as [pos|] eqn:Ep; cbn [obind]; [|reflexivity].
      apply position_lt in Ep. rewrite map_length, Hlen in Ep. apply Nat.ltb_lt in Ep. rewrite Ep.
      destruct (nth_error (map fst n) pos); reflexivity.
    Qed.

    Notation Lof t := (combine (seq 0 (List.length (ti_inputs t))) (ti_inputs t)).

    (* the selection of pass 1 agrees with [argument_of], input by input *)
    Lemma sel_arg : forall t,
      match selO t with
      | Some sel =>
          lens_bad t sel = negb (List.length (ti_inputs t) =? List.length ss)%nat /\
          (lens_bad t sel = false -> forall k inp, In (k, inp) (Lof t) -> nth_error sel k = argument_of nm k (fst inp))
      | None => exists k inp, In (k, inp) (Lof t) /\ argument_of nm k (fst inp) = None
      end.
    Proof.
      intros t. unfold selO, lens_bad. destruct nm as [n|].
      - rewrite select_named_opt. cbn [app]. destruct (mapO _ (ti_inputs t)) as [r|] eqn:Er; cbn [option_map].
        + rewrite (mapO_length _ _ _ Er), Nat.eqb_refl. split; [reflexivity|]. intros _ k inp Hin.
          apply in_combine_seq in Hin. destruct Hin as (j & -> & Hin).
          destruct (mapO_nth _ _ _ _ _ Er Hin) as (y & Hy & Hfy). cbn [Nat.add]. rewrite Hy, <- Hfy.
          apply selF_arg. exact Hnm.
        + apply mapO_none_ex in Er. destruct Er as (inp & Hin & Hf).
          destruct (in_combine_seq_ex (ti_inputs t) 0 inp Hin) as [k Hk]. exists k, inp. split; [exact Hk|].
          rewrite <- (selF_arg n k inp Hnm). exact Hf.
      - cbn [to_opt]. rewrite map_length, seq_length.
        split; [destruct (List.length (ti_inputs t) =? List.length ss)%nat; reflexivity|].
        intros Hl k inp Hin. apply in_combine_seq in Hin. destruct Hin as (j & -> & Hin). cbn [Nat.add].
        apply orb_false_iff, proj2, negb_false_iff, Nat.eqb_eq in Hl.
        assert (Hlt : j < List.length ss) by (rewrite <- Hl; apply nth_error_Some; congruence).
        unfold argument_of. rewrite nth_error_map, (nth_error_nth' _ 0), seq_nth by (rewrite ?seq_length; exact Hlt).
        reflexivity.
    Qed.

    Notation A := (AnonymousComponent m id par ps ss nm).

    (* both the composed passes and the specification, in the order of the
       specification's checks; [post] is what is made of the output expression *)
    Definition anonN {X} (post : expression -> X) : option (list statement * list statement * X) :=
      obind (lookup_template id env) (fun t =>
      obind (cname id m) (fun c =>
        if forallb plain ps && (List.length (ti_inputs t) =? List.length ss)%nat
        then option_map (fun fed => ([Block m (initS c :: flat_map fst fed)], declS c :: flat_map snd fed, post (outE t c)))
                        (mapO (feedC c) (Lof t))
        else None)).

    Lemma C_e_anonN : C_e va A = anonN (fun e => e).
    Proof.
      unfold C_e, anonN. cbn [remove_anonymous_from_expression]. rewrite anon_opt.
      destruct (lookup_template id env) as [t|]; cbn [obind]; [|reflexivity].
      destruct (cname id m) as [c|] eqn:Ec; cbn [obind]; [|reflexivity].
      pose proof (name_not_underscore _ _ _ _ Ec) as Hc.
      unfold contains_anon at 1. rewrite contains_call, forallb_plain_spec by reflexivity.
      change (contains_expr is_anonymous_component) with contains_anon.
      destruct (existsb contains_anon ps); [reflexivity|]. cbn [negb andb].
      pose proof (sel_arg t) as Hsel. destruct (selO t) as [sel|]; cbn [obind].
      2:{ destruct Hsel as (k & inp & Hin & Harg).
          rewrite (mapO_has_none _ _ _ Hin) by (unfold feedC; cbn [fst snd]; rewrite Harg; reflexivity).
          destruct (_ && _); reflexivity. }
      destruct Hsel as [-> Hsel].
      destruct (List.length (ti_inputs t) =? List.length ss)%nat; cbn [negb]; [|rewrite andb_false_r; reflexivity].
      rewrite andb_true_r, assign_inputs_opt.
      (* pass 2 over the statements of all inputs is pass 2 input by input *)
      pose proof (fuse (feedI va m c (map (RAE va) ss) sel) rtsO (Lof t)) as FU.
      rewrite (feedK_feedC c sel _ Hc (Hsel eq_refl)) in FU.
      destruct (mapO (feedI va m c (map (RAE va) ss) sel) (Lof t)) as [fed|]; cbn [obind option_map fst snd app] in *.
      - rewrite rte_outE. cbn [option_map]. rewrite mapO_cons, rtsO_block, mapO_cons, (rtsO_initS c Hc).
        destruct (existsb contains_tuple ps); [reflexivity|]. cbn [negb obind].
        destruct (mapO rtsO (flat_map fst fed)); destruct (mapO (feedC c) (Lof t)); try discriminate FU; [|reflexivity].
        injection FU as -> ->. reflexivity.
      - destruct (existsb contains_tuple ps), (mapO (feedC c) (Lof t)); try discriminate FU; reflexivity.
    Qed.

    Lemma XV_anonN : XV prefix A = anonN vals_of.
    Proof.
      cbn [xvals]. unfold xanon, anonN. rewrite Hsig.
      destruct (lookup_template id env) as [t|]; cbn [obind option_map]; [|reflexivity].
      destruct (cname id m) as [c|]; cbn [obind]; [|reflexivity].
      assert (Enm : match nm with Some n => (List.length n =? List.length ss)%nat | None => true end = true).
      { destruct nm; [apply Nat.eqb_eq; exact Hnm | reflexivity]. }
      rewrite Enm, andb_true_r, combine_seq_map, !map_length, map_map.
      destruct (_ && _); [|reflexivity].
      match goal with |- context [all_some (map ?F (Lof t))] =>
        replace (all_some (map F (Lof t))) with (mapO (feedC c) (Lof t)) end.
      - destruct (mapO (feedC c) (Lof t)); [|reflexivity]. rewrite map_map.
        unfold outE, outV, initS, callE, declS. destruct va, (ti_outputs t) as [|o [|o2 outs]]; reflexivity.
      - unfold mapO. f_equal. apply map_ext. intros [k inp]. unfold feedC. cbn [fst snd].
        destruct (argument_of nm k (fst inp)) as [[j o]|]; cbn [obind fst snd]; [|reflexivity].
        rewrite nth_error_map. destruct (nth_error ss j) as [a|] eqn:Ea; cbn [obind option_map]; [|reflexivity].
        apply nth_error_In in Ea. rewrite Forall_forall in IHss.
        rewrite (single_equiv a va (IHss a Ea) Hva).
        destruct (C_e va a) as [[[p d] e2]|]; cbn [obind snd fst]; [|reflexivity].
        destruct (is_tuple e2); reflexivity.
    Qed.

    Lemma T_e_anon :
      option_map V3 (C_e va A) = XV prefix A /\
      forall p d e2, C_e va A = Some (p, d, e2) ->
        is_tuple e2 = tuple_valued sig_of A /\
        (is_tuple e2 = true -> is_tuple A = false -> List.length (vals_of e2) <> 1) /\
        (is_tuple A = true -> is_tuple e2 = true) /\
        Forall dfix d.
    Proof.
      rewrite C_e_anonN, XV_anonN. unfold anonN. cbn [tuple_valued]. rewrite Hsig.
      destruct (lookup_template id env) as [t|]; cbn [obind option_map]; [|split; [reflexivity | intros; discriminate]].
      destruct (cname id m) as [c|]; cbn [obind]; [|split; [reflexivity | intros; discriminate]].
      destruct (_ && _); [|split; [reflexivity | intros; discriminate]].
      destruct (mapO (feedC c) (Lof t)) as [fed|] eqn:Efed; cbn [option_map]; [|split; [reflexivity | intros; discriminate]].
      split; [reflexivity|]. intros p d e2 H. inversion H; subst. unfold outE.
      repeat split; try (destruct (ti_outputs t) as [|o [|o2 outs]]; simpl; congruence).
      constructor.
      - unfold declS, dfix. destruct Hva as [->|(m0 & k & ->)]; split; try (left; reflexivity); reflexivity.
      - apply Forall_flat_map. apply (mapO_Forall _ _ _ _ Efed). apply Forall_forall. intros ki _. apply feedC_dfix.
    Qed.
  End Anon.

  Theorem T_e_all : forall e, WA e -> T_e e.
  Proof.
    induction e using expression_ind_par; intros Hwa; try (apply T_e_plain; reflexivity).
    - (* ParallelOp: of an anonymous component it is that component, made parallel *)
      destruct e; try (apply T_e_plain; reflexivity).
      apply IHe0. apply WA_par in Hwa. inversion Hwa. constructor; assumption.
    - destruct (WA_anon _ _ _ _ _ _ Hwa) as [Hss Hn]. intros va Hva. apply T_e_anon; auto.
      rewrite Forall_forall in *. intros a Ha. apply H0; auto.
    - apply WA_tuple in Hwa. apply T_e_tuple. rewrite Forall_forall in *. intros a Ha. apply H; auto.
  Qed.

  Notation kname := (name_opt lib "anon_var").
  Notation XS := (xstmt sig_of cname kname).
  Notation RAS := (remove_anonymous_from_statement env lib).

  Definition C_s (va : option expression) (s : statement) : option (statement * list statement) :=
    obind (to_opt (RAS va s)) (fun t => option_map (fun s2 => (s2, snd t)) (rtsO (fst t))).

  Definition T_s (s : statement) : Prop :=
    forall va, va_form va ->
      C_s va s = XS (acc_prefix va) s /\
      forall s2 d, C_s va s = Some (s2, d) -> Forall dfix d.

  (* statements whose right-hand side is desugared by pass 1 *)
  Lemma with_rhs : forall va m rhe (mk : expression -> statement) (K : expression -> option statement),
    (forall e1, rtsO (mk e1) = obind (to_opt (remove_tuple_from_expression e1)) K) ->
    obind (to_opt ('(stmts, declarations, new_rhe) <- RAE va rhe ;;
                   if is_nil stmts then DOk (mk new_rhe, declarations)
                   else DOk (Block m (stmts ++ [mk new_rhe]), declarations)))
          (fun t => option_map (fun s2 => (s2, snd t)) (rtsO (fst t)))
    = obind (C_e va rhe) (fun c => option_map (fun s2 => (seq_block m (fst (fst c)) s2, snd (fst c))) (K (snd c))).
  Proof.
    intros va m rhe mk K HK. rewrite to_opt_dbind. unfold C_e.
    destruct (to_opt (RAE va rhe)) as [[[[|x st] dec] e1]|]; cbn [is_nil to_opt obind fst snd]; [| |reflexivity].
    - rewrite HK. destruct (to_opt (remove_tuple_from_expression e1)) as [e2|]; [|reflexivity].
      cbn [obind mapO map all_some option_map fst snd]. destruct (K e2); reflexivity.
    - rewrite rtsO_block, mapO_app.
      destruct (mapO rtsO (x :: st)) as [st2|] eqn:E; cbn [obind option_map]; [|reflexivity].
      rewrite mapO_cons, mapO_nil, HK.
      destruct (to_opt (remove_tuple_from_expression e1)) as [e2|]; cbn [obind option_map fst snd]; [|reflexivity].
      destruct (K e2); [|reflexivity]. apply mapO_length in E. destruct st2; [discriminate E | reflexivity].
  Qed.

  Lemma acc_plain_spec : forall acc,
    acc_plain acc =
    negb (existsb (fun a => match a with ArrayAccess i => contains_anon i | ComponentAccess _ => false end) acc)
    && acc_tuple_free acc.
  Proof.
    unfold acc_plain, acc_tuple_free. induction acc as [|a acc IH]; [reflexivity|]. simpl. rewrite IH.
    destruct a as [s|i]; simpl; [reflexivity|]. rewrite plain_spec.
    destruct (contains_anon i), (contains_tuple i), (existsb _ acc), (existsb _ acc); reflexivity.
  Qed.

  Lemma T_s_sub : forall m v acc o rhe, WA rhe -> T_s (Substitution m v acc o rhe).
  Proof.
    intros m v acc o rhe Hwa va Hva. pose proof (T_e_all rhe Hwa) as HT.
    unfold C_s. cbn [remove_anonymous_from_statement xstmt].
    rewrite acc_plain_spec, (single_equiv rhe va HT Hva), <- access_first_such_existsb.
    destruct (access_first_such contains_anon acc) as [idx|]; cbn [negb andb].
    { rewrite to_opt_fail. split; [reflexivity | intros; discriminate]. }
    rewrite (with_rhs va m rhe (fun e1 => Substitution m v acc o e1) _ (rtsO_sub m v acc o)).
    destruct (C_e va rhe) as [[[p d] e2]|] eqn:Ec; cbn [obind fst snd];
      [|split; [destruct (acc_tuple_free acc); reflexivity | intros; discriminate]].
    destruct (is_tuple e2), (acc_tuple_free acc); (split; [reflexivity|]); intros s2 d0 H; inversion H; subst.
    apply (proj2 (HT va Hva) _ _ _ Ec).
  Qed.

  Lemma T_s_msub : forall m lhe o rhe, WA rhe -> T_s (MultiSubstitution m lhe o rhe).
  Proof.
    intros m lhe o rhe Hwa va Hva. pose proof (T_e_all rhe Hwa) as HT.
    destruct (HT va Hva) as [Heq Hfacts].
    unfold C_s. cbn [remove_anonymous_from_statement xstmt].
    destruct (contains_anon lhe) eqn:Eal.
    { rewrite to_opt_fail. cbn [obind]. split; [|intros; discriminate].
      destruct lhe; try reflexivity.
      destruct (lvalues (Tuple m0 values)) as [ls|] eqn:El; [|reflexivity].
      apply lvalues_NA in El. unfold CL in El. fold (contains_anon (Tuple m0 values)) in El. congruence. }
    rewrite (with_rhs va m rhe (fun e1 => MultiSubstitution m lhe o e1) _ (rtsO_msub m lhe o)), <- Heq.
    pose proof (lvalues_rte lhe Eal) as HL. unfold LVe in HL.
    destruct (C_e va rhe) as [[[p d] e2]|] eqn:Ec; cbn [obind option_map fst snd].
    2:{ split; [|intros; discriminate]. destruct lhe; try reflexivity.
        destruct (lvalues (Tuple m0 values)); [|reflexivity]. destruct (tuple_valued sig_of rhe); reflexivity. }
    destruct (Hfacts _ _ _ eq_refl) as (F1 & _ & _ & F4). unfold V3. cbn [fst snd].
    split.
    2:{ intros s2 d0 H. destruct (obind _ (fun l2 => MM m o l2 e2)); [|discriminate H]. inversion H; subst. exact F4. }
    rewrite <- F1.
    destruct lhe as [| | | | | | | | |ml lvs];
      try (rewrite rte_plain_opt by reflexivity;
           match goal with |- context [contains_tuple ?e] => destruct (contains_tuple e) end; reflexivity).
    { (* anonymous component on the left: excluded *) unfold contains_anon in Eal. simpl in Eal. discriminate Eal. }
    rewrite <- HL, rte_tuple.
    destruct (mapO _ lvs) as [ls'|]; cbn [obind option_map vals_of MM]; [|reflexivity].
    destruct e2 as [| | | | | | | | |me rs]; cbn [is_tuple vals_of option_map];
      try (destruct (forallb is_variable _); reflexivity).
    destruct (forallb is_variable _), (List.length _ =? List.length rs)%nat; reflexivity.
  Qed.

  (* statements that both passes only check *)
  Lemma T_s_check : forall s s' (a t : bool),
    (forall va, to_opt (RAS va s) = if a then None else Some (s', [])) ->
    rtsO s' = (if t then None else Some s') ->
    (forall ix, XS ix s = if negb a && negb t then Some (s', []) else None) -> T_s s.
  Proof.
    intros s s' a t H1 H2 H3 va Hva. unfold C_s. rewrite H1, H3.
    destruct a; [split; [reflexivity | intros; discriminate]|]. cbn [obind fst snd negb andb]. rewrite H2.
    destruct t; (split; [reflexivity|]); intros s2 d H; inversion H. constructor.
  Qed.

  Ltac check_stmt :=
    intros; unfold rtsO; cbn [remove_anonymous_from_statement remove_tuples_from_statement xstmt];
    rewrite ?to_opt_guard, ?to_opt_first_such, ?plain_spec, ?forallb_plain_spec; try reflexivity.

  Lemma T_s_return : forall m v, T_s (Return m v).
  Proof. intros m v. apply (T_s_check _ (Return m v) (contains_anon v) (contains_tuple v)); check_stmt. Qed.

  Lemma T_s_assert : forall m v, T_s (Assert m v).
  Proof. intros m v. apply (T_s_check _ (Assert m v) (contains_anon v) (contains_tuple v)); check_stmt. Qed.

  Lemma T_s_ceq : forall m l r, T_s (ConstraintEquality m l r).
  Proof.
    intros m l r. apply (T_s_check _ (ConstraintEquality m l r) (contains_anon l || contains_anon r)
                                   (contains_tuple l || contains_tuple r)); check_stmt.
    destruct (contains_anon l), (contains_anon r), (contains_tuple l), (contains_tuple r); reflexivity.
  Qed.

  Lemma T_s_decl : forall m t n dims c, T_s (Declaration m t n dims c).
  Proof.
    intros m t n dims c. apply (T_s_check _ (Declaration m t n dims true) (existsb contains_anon dims)
                                          (existsb contains_tuple dims)); check_stmt.
  Qed.

  Lemma C_s_list : forall va (mk : list statement -> statement) l,
    (forall ns, rtsO (mk ns) = option_map mk (mapO rtsO ns)) ->
    obind (to_opt ('(new_stmts, declarations) <- ras_list (RAS va) l [] [] ;; DOk (mk new_stmts, declarations)))
          (fun t => option_map (fun s2 => (s2, snd t)) (rtsO (fst t)))
    = option_map (fun cs => (mk (map fst cs), flat_map snd cs)) (mapO (C_s va) l).
  Proof.
    intros va mk l Hmk. rewrite to_opt_dbind, ras_list_opt. cbn [app].
    pose proof (fuse2 (fun s => to_opt (RAS va s)) rtsO l) as FU. unfold C_s.
    destruct (mapO (fun s => to_opt (RAS va s)) l) as [rs|]; cbn [obind option_map fst snd to_opt] in *.
    - rewrite Hmk. destruct (mapO rtsO (map fst rs)) as [ns2|]; cbn [option_map] in *;
        (destruct (mapO _ l) as [cs|]; cbn [option_map] in *; [|discriminate FU || reflexivity]).
      + inversion FU; subst. reflexivity.
      + discriminate FU.
    - destruct (mapO _ l); [discriminate FU | reflexivity].
  Qed.

  Lemma T_s_list : forall (mk : list statement -> statement) l va,
    (forall ns, rtsO (mk ns) = option_map mk (mapO rtsO ns)) ->
    Forall T_s l -> va_form va ->
    let c := option_map (fun cs => (mk (map fst cs), flat_map snd cs)) (mapO (C_s va) l) in
    c = option_map (fun rs => (mk (map fst rs), flat_map snd rs)) (mapO (XS (acc_prefix va)) l) /\
    forall s2 d, c = Some (s2, d) -> Forall dfix d.
  Proof.
    intros mk l va Hmk HT Hva c. split.
    - unfold c. f_equal. apply mapO_ext. eapply Forall_impl; [|exact HT]. intros x Hx. apply (Hx va Hva).
    - unfold c. intros s2 d H. destruct (mapO (C_s va) l) as [cs|] eqn:Ecs; [|discriminate]. inversion H; subst.
      apply Forall_flat_map. apply (mapO_Forall _ _ _ _ Ecs). eapply Forall_impl; [|exact HT].
      intros x Hx [x2 dx] Ex. apply (proj2 (Hx va Hva) _ _ Ex).
  Qed.

  Lemma T_s_block : forall m l, Forall T_s l -> T_s (Block m l).
  Proof.
    intros m l HT va Hva. unfold C_s. cbn [remove_anonymous_from_statement].
    rewrite (C_s_list va (Block m) l (rtsO_block m)), xstmt_block_gen.
    apply (T_s_list (Block m)); [apply rtsO_block | exact HT | exact Hva].
  Qed.

  Lemma T_s_init : forall m t l, Forall T_s l -> T_s (InitializationBlock m t l).
  Proof.
    intros m t l HT va Hva. unfold C_s. cbn [remove_anonymous_from_statement].
    rewrite (C_s_list va (InitializationBlock m t) l (rtsO_init m t)), xstmt_init_gen.
    apply (T_s_list (InitializationBlock m t)); [apply rtsO_init | exact HT | exact Hva].
  Qed.

  (* conditionals and loops: the composed passes satisfy the defining equations of [xstmt] *)
  Lemma C_s_if : forall va m c i e,
    C_s va (IfThenElse m c i e) =
    if plain c then
      match C_s va i, e with
      | Some (i', d), None => Some (IfThenElse m c i' None, d)
      | Some (i', d), Some e =>
          match C_s va e with
          | Some (e', d') => Some (IfThenElse m c i' (Some e'), d ++ d')
          | None => None
          end
      | None, _ => None
      end
    else None.
  Proof.
    intros va m c i e. unfold C_s. cbn [remove_anonymous_from_statement]. rewrite plain_spec, to_opt_guard.
    destruct (contains_anon c); [reflexivity|]. rewrite to_opt_dbind.
    destruct (to_opt (RAS va i)) as [[ni d]|]; cbn [obind fst snd negb andb];
      [|destruct (contains_tuple c); reflexivity].
    destruct e as [e|].
    - rewrite to_opt_dbind. destruct (to_opt (RAS va e)) as [[ne d2]|]; cbn [obind to_opt fst snd].
      + rewrite rtsO_if. destruct (contains_tuple c), (rtsO ni), (rtsO ne); reflexivity.
      + destruct (contains_tuple c), (rtsO ni); reflexivity.
    - cbn [to_opt obind fst snd]. rewrite rtsO_if. destruct (contains_tuple c), (rtsO ni); reflexivity.
  Qed.

  Lemma T_s_if : forall m c i e, T_s i -> (forall e', e = Some e' -> T_s e') -> T_s (IfThenElse m c i e).
  Proof.
    intros m c i e Hi He va Hva. rewrite C_s_if. cbn [xstmt]. destruct (Hi va Hva) as [<- Fi].
    destruct e as [e'|]; [destruct (He e' eq_refl va Hva) as [<- Fe]|]; (split; [reflexivity|]);
      intros s2 d0 H; destruct (plain c); try discriminate;
      destruct (C_s va i) as [[i' d]|]; try discriminate.
    - destruct (C_s va e') as [[e2 d']|]; [|discriminate]. inversion H; subst. apply Forall_app. eauto.
    - inversion H; subst. eauto.
  Qed.

  Lemma rtsO_incr : forall m k, String.eqb k "_" = false ->
    rtsO (Substitution m k [] AssignVar (InfixOp m (Variable_ m k []) IAdd (Number m 1))) =
    Some (Substitution m k [] AssignVar (InfixOp m (Variable_ m k []) IAdd (Number m 1))).
  Proof. intros m k Hk. rewrite rtsO_sub, Hk. reflexivity. Qed.

  Lemma rtsO_init0 : forall m k, String.eqb k "_" = false ->
    rtsO (Substitution m k [] AssignVar (Number m 0)) = Some (Substitution m k [] AssignVar (Number m 0)).
  Proof. intros m k Hk. rewrite rtsO_sub, Hk. reflexivity. Qed.

  Lemma C_s_while : forall va m c b,
    C_s va (While m c b) =
    if plain c then
      match kname m with
      | Some k =>
          let kv := Variable_ m k [] in
          match C_s (Some kv) b with
          | Some (b', d) =>
              if existsb (counted_by k) d then
                Some (While m c (Block m [b'; Substitution m k [] AssignVar (InfixOp m kv IAdd (Number m 1))]),
                      [Declaration m VVar k [] true; Substitution m k [] AssignVar (Number m 0)] ++ d)
              else Some (While m c b', d)
          | None => None
          end
      | None => None
      end
    else None.
  Proof.
    intros va m c b. unfold C_s. cbn [remove_anonymous_from_statement]. rewrite plain_spec, to_opt_guard.
    destruct (contains_anon c); [reflexivity|]. rewrite to_opt_dbind. fold (kname m).
    destruct (kname m) as [k|] eqn:Ek; cbn [obind negb andb]; [|destruct (contains_tuple c); reflexivity].
    pose proof (name_not_underscore _ _ _ _ Ek) as Hk. rewrite to_opt_dbind.
    destruct (to_opt (RAS (Some (Variable_ m k [])) b)) as [[nb nd]|]; cbn [obind fst snd];
      [|destruct (contains_tuple c); reflexivity].
    change (existsb (decl_uses_counter k)) with (existsb (counted_by k)).
    destruct (existsb (counted_by k) nd) eqn:Euse; cbn [to_opt obind fst snd].
    - rewrite rtsO_while, rtsO_block, !mapO_cons, mapO_nil, (rtsO_incr m k Hk).
      destruct (contains_tuple c), (rtsO nb); cbn [obind option_map]; rewrite ?Euse; reflexivity.
    - rewrite rtsO_while. destruct (contains_tuple c), (rtsO nb); cbn [option_map]; rewrite ?Euse; reflexivity.
  Qed.

  Lemma T_s_while : forall m c b, T_s b -> T_s (While m c b).
  Proof.
    intros m c b Hb va Hva. rewrite C_s_while. cbn [xstmt].
    destruct (plain c); [|split; [reflexivity | intros; discriminate]].
    destruct (kname m) as [k|] eqn:Ek; [|split; [reflexivity | intros; discriminate]].
    pose proof (name_not_underscore _ _ _ _ Ek) as Hk.
    destruct (Hb (Some (Variable_ m k [])) (or_intror (ex_intro _ m (ex_intro _ k eq_refl)))) as [Eb Fb].
    cbn [acc_prefix] in Eb. rewrite <- Eb. split; [reflexivity|]. cbv zeta. intros s2 d0 H.
    destruct (C_s _ b) as [[b' d]|]; [|discriminate].
    destruct (existsb (counted_by k) d); inversion H; subst; [|eauto].
    constructor; [split; [reflexivity | right; reflexivity]|].
    constructor; [split; [apply rtsO_init0; exact Hk | exact I]|]. eauto.
  Qed.

  Lemma xlog_arg : forall a, short_arg a ->
    (match a with LogExp e => NA e | LogStr _ => True end) ->
    option_map (@List.concat _) (mapO stepL (norm a)) = xlog a.
  Proof.
    intros [s|e] Hs Hna; cbn [norm xlog].
    - destruct (String.eqb s ""); reflexivity.
    - rewrite mapO_cons, mapO_nil. fold (stepE e). rewrite (stepE_log_values e Hna).
      destruct (log_values e); cbn [obind option_map List.concat]; [rewrite app_nil_r|]; reflexivity.
  Qed.

  Lemma xlog_good : forall a l, short_arg a -> xlog a = Some l -> Forall good_arg l.
  Proof.
    intros [s|e] l Hs H; cbn [xlog] in H.
    - destruct (String.eqb s "") eqn:E; inversion H; subst; constructor; [|constructor].
      split; [intros ->; discriminate E | exact Hs].
    - eapply log_values_good; eauto.
  Qed.

  Lemma T_s_log : forall m args, Forall short_arg args -> T_s (LogCall m args).
  Proof.
    intros m args Hshort va Hva.
    cbn [xstmt]. unfold C_s. cbn [remove_anonymous_from_statement]. rewrite to_opt_guard.
    destruct (existsb (log_arg_contains is_anonymous_component) args) eqn:Ean.
    { split; [|intros; discriminate].
      apply existsb_exists in Ean. destruct Ean as (a & Hin & Ha).
      assert (En : mapO xlog args = None).
      { eapply mapO_has_none; [exact Hin|]. destruct a as [s|e]; [discriminate Ha|]. cbn [xlog].
        destruct (log_values e) eqn:El; [|reflexivity]. apply log_values_NA in El. simpl in Ha. unfold CL in El. congruence. }
      unfold mapO in En. rewrite En. reflexivity. }
    unfold build_log_call. rewrite (build_log_args_short_eq args Hshort). cbn [dbind to_opt obind fst snd].
    unfold rtsO. cbn [remove_tuples_from_statement]. rewrite to_opt_dbind, log_new_args_opt. cbn [app].
    rewrite mapO_flat_map.
    assert (Hna : Forall (fun a => match a with LogExp e => NA e | LogStr _ => True end) args).
    { apply existsb_false_Forall in Ean. eapply Forall_impl; [|exact Ean]. intros [s|e]; simpl; auto. }
    fold (mapO xlog args).
    rewrite (mapO_ext xlog (fun a => option_map (@List.concat _) (mapO stepL (norm a)))), mapO_option_map.
    2:{ rewrite Forall_forall in *. intros a Ha. symmetry. apply xlog_arg; [apply Hshort | apply Hna]; exact Ha. }
    destruct (mapO (fun x => mapO stepL (norm x)) args) as [X|] eqn:EX; cbn [option_map obind]; [|split; [reflexivity | intros; discriminate]].
    rewrite concat_concat'.
    (* the second build_log_call is the identity *)
    assert (Hgood : Forall good_arg (List.concat (map (@List.concat _) X))).
    { apply Forall_concat. apply Forall_map. apply (mapO_Forall _ _ _ _ EX). rewrite Forall_forall in *.
      intros a Ha Y EY. apply (xlog_good a _ (Hshort a Ha)). rewrite <- (xlog_arg a (Hshort a Ha) (Hna a Ha)), EY. reflexivity. }
    unfold build_log_call. rewrite (build_log_args_short_eq _ (good_short _ Hgood)), (norm_good _ Hgood).
    cbn [dbind to_opt option_map]. split; [reflexivity|]. intros s2 d H. inversion H; subst. constructor.
  Qed.

  Theorem T_s_all : forall s, WAs s -> LS s -> T_s s.
  Proof.
    induction s using statement_ind'; intros Hwa Hls.
    - apply WAs_if in Hwa. destruct Hwa as [Wi We]. simpl in Hls. destruct Hls as [Li Le].
      apply T_s_if; auto. intros e' ->. apply (H e' eq_refl); auto.
    - apply WAs_while in Hwa. simpl in Hls. apply T_s_while; auto.
    - apply T_s_return.
    - apply WAs_init in Hwa. simpl in Hls. apply allP_Forall in Hls. apply T_s_init.
      rewrite Forall_forall in *. intros x Hx. apply H; auto.
    - apply T_s_decl.
    - apply WAs_sub in Hwa. apply T_s_sub; auto.
    - apply WAs_msub in Hwa. apply T_s_msub; auto.
    - apply T_s_ceq.
    - simpl in Hls. apply allP_Forall in Hls. apply T_s_log; auto.
    - apply WAs_block in Hwa. simpl in Hls. apply allP_Forall in Hls. apply T_s_block.
      rewrite Forall_forall in *. intros x Hx. apply H; auto.
    - apply T_s_assert.
  Qed.

  Lemma separate_filter : forall decls c v su, Forall dshape decls ->
    separate_declarations decls c v su =
    DOk (c ++ filter (is_decl_of (fun t => match t with VComponent | VAnonymousComponent => true | _ => false end)) decls,
         v ++ filter (is_decl_of (fun t => match t with VVar => true | _ => false end)) decls,
         su ++ filter (fun s => match s with Substitution _ _ _ _ _ => true | _ => false end) decls).
  Proof.
    induction decls as [|d rest IH]; intros c v su H; [simpl; rewrite !app_nil_r; reflexivity|].
    inversion H; subst. cbn [separate_declarations]. destruct d; simpl in H2; try contradiction.
    - destruct xtype; simpl in *; try (destruct H2; discriminate);
        rewrite IH by assumption; cbn [filter is_decl_of]; rewrite <- ?app_assoc; reflexivity.
    - rewrite IH by assumption. cbn [filter is_decl_of]. rewrite <- ?app_assoc. reflexivity.
  Qed.

  Lemma mapO_fix : forall l, Forall dfix l -> mapO rtsO l = Some l.
  Proof.
    induction 1 as [|d l [Hd _] Hl IH]; [reflexivity|]. rewrite mapO_cons, Hd. cbn [obind]. rewrite IH. reflexivity.
  Qed.

  Theorem desugar_template_opt : forall m l,
    WAs (Block m l) -> LS (Block m l) ->
    to_opt (desugar_template env lib (Block m l)) = expand_spec sig_of cname kname (Block m l).
  Proof.
    intros m l Hwa Hls. pose proof (T_s_all (Block m l) Hwa Hls None (or_introl eq_refl)) as [Heq Hf].
    cbn [acc_prefix] in Heq. unfold expand_spec. rewrite <- Heq. unfold desugar_template, C_s in *.
    rewrite to_opt_dbind.
    destruct (to_opt (RAS None (Block m l))) as [[nb decls]|] eqn:Er; cbn [obind fst snd] in *; [|reflexivity].
    assert (Hb : exists l1, nb = Block m l1).
    { destruct (RAS None (Block m l)) as [[x y]| | |] eqn:E; try discriminate. inversion Er; subst. eapply ras_block; eauto. }
    destruct Hb as [l1 ->]. rewrite rtsO_block in *.
    destruct (mapO rtsO l1) as [l2|] eqn:E2; cbn [option_map] in *.
    - pose proof (Hf _ _ eq_refl) as Hd.
      assert (Hsh : Forall dshape decls) by (eapply Forall_impl; [|exact Hd]; intros a [_ Ha]; exact Ha).
      rewrite (separate_filter decls [] [] [] Hsh). cbn [dbind app].
      change (to_opt (remove_tuples_from_statement ?x)) with (rtsO x).
      rewrite rtsO_block, mapO_cons, rtsO_init, (mapO_fix _ (incl_Forall (incl_filter _ _) Hd)). cbn [option_map obind].
      rewrite mapO_app, (mapO_fix _ (incl_Forall (incl_filter _ _) Hd)). cbn [obind].
      rewrite mapO_cons, rtsO_init, (mapO_fix _ (incl_Forall (incl_filter _ _) Hd)), E2. reflexivity.
    - (* pass 2 fails on the body: it fails on the assembled block as well *)
      destruct (separate_declarations decls [] [] []) as [[[c v] su]| | |]; cbn [dbind to_opt]; try reflexivity.
      change (to_opt (remove_tuples_from_statement ?x)) with (rtsO x).
      rewrite rtsO_block, !mapO_app, E2.
      destruct (mapO rtsO [_]), (mapO rtsO su), (mapO rtsO [_]); reflexivity.
  Qed.
End Refine.

(* the signature table of the specification is the environment of the implementation *)
Lemma fill_io_spec : forall s io,
  map fst (fst (fill_io s io)) = map fst (fst io) ++ declared_signals SInput s /\
  map fst (snd (fill_io s io)) = map fst (snd io) ++ declared_signals SOutput s.
Proof.
  induction s using statement_ind'; intros io; cbn [fill_io declared_signals]; rewrite ?app_nil_r; auto.
  (* both block forms fold over their statements *)
  2,4: revert io; induction H as [|x l Hx Hl IHl]; intros io; cbn [fold_left flat_map]; rewrite ?app_nil_r; auto.
  2,3: destruct (IHl (fill_io x io)) as [E1 E2]; destruct (Hx io) as [X1 X2]; rewrite E1, E2, X1, X2, <- !app_assoc; auto.
  - destruct (IHs io) as [I1 I2]. destruct e as [e'|].
    + destruct (H e' eq_refl (fill_io s io)) as [E1 E2]. rewrite E1, E2, I1, I2, <- !app_assoc. auto.
    + rewrite !app_nil_r. auto.
  - destruct t as [|st tags| |]; rewrite ?app_nil_r; auto.
    destruct st; cbn [fst snd]; rewrite ?map_app, ?app_nil_r; auto.
Qed.

Lemma sig_env : forall ts id,
  sig_table ts id =
  option_map (fun ti => (map fst (ti_inputs ti), map fst (ti_outputs ti))) (lookup_template id (env_of ts)).
Proof.
  intros ts id. unfold sig_table, env_of. induction ts as [|[n b] ts IH]; [reflexivity|].
  cbn [map find lookup_template fst snd]. destruct (String.eqb n id); [|exact IH].
  cbn [option_map]. unfold template_info_of. cbn [ti_inputs ti_outputs].
  destruct (fill_io_spec b ([], [])) as [E1 E2]. rewrite E1, E2. reflexivity.
Qed.

(* the two passes compute exactly the specified expansion *)
Theorem desugar_is_expand : forall (lib : file_library) ts m l,
  Forall wf_node (stmt_exprs (Block m l)) ->
  Forall short_node (sub_stmts (Block m l)) ->
  to_opt (desugar_template (env_of ts) lib (Block m l)) =
  expand_spec (sig_table ts) (name_opt lib) (name_opt lib "anon_var") (Block m l).
Proof.
  intros lib ts m l Hw Hs. apply desugar_template_opt.
  - apply sig_env.
  - exact Hw.
  - apply LS_of_nodes. exact Hs.
Qed.

Theorem desugar_refines_expand : forall (lib : file_library) ts m l body',
  Forall wf_node (stmt_exprs (Block m l)) ->
  Forall short_node (sub_stmts (Block m l)) ->
  desugar_template (env_of ts) lib (Block m l) = DOk body' ->
  expand_spec (sig_table ts) (name_opt lib) (name_opt lib "anon_var") (Block m l) = Some body'.
Proof.
  intros lib ts m l body' Hw Hs H. rewrite <- (desugar_is_expand lib ts m l Hw Hs), H. reflexivity.
Qed.

Theorem desugar_errors_exact : forall (lib : file_library) ts m l,
  Forall wf_node (stmt_exprs (Block m l)) ->
  Forall short_node (sub_stmts (Block m l)) ->
  (exists r, desugar_template (env_of ts) lib (Block m l) = DErr r) ->
  expand_spec (sig_table ts) (name_opt lib) (name_opt lib "anon_var") (Block m l) = None.
Proof.
  intros lib ts m l Hw Hs [r H]. rewrite <- (desugar_is_expand lib ts m l Hw Hs), H. reflexivity.
Qed.

(* with panic freedom: the desugarer accepts exactly the valid uses of the sugar *)
Theorem desugar_accepts_iff : forall (lib : file_library) ts body,
  wf_template lib body ->
  (forall b', desugar_template (env_of ts) lib body = DOk b' <->
              expand_spec (sig_table ts) (name_opt lib) (name_opt lib "anon_var") body = Some b') /\
  ((exists r, desugar_template (env_of ts) lib body = DErr r) <->
   expand_spec (sig_table ts) (name_opt lib) (name_opt lib "anon_var") body = None).
Proof.
  intros lib ts body Hwf. pose proof (desugar_template_total lib (env_of ts) body Hwf) as Hnc.
  destruct Hwf as (_ & Hs & Hw & (m & l & ->)).
  pose proof (desugar_is_expand lib ts m l Hw Hs) as E.
  destruct (desugar_template (env_of ts) lib (Block m l)) as [b|r|s|]; simpl in *; try contradiction; rewrite <- E; split.
  - intros b'. split; intros H; inversion H; reflexivity.
  - split; [intros [r H]; discriminate | intros H; discriminate].
  - intros b'. split; intros H; discriminate.
  - split; [reflexivity | intros _; eauto].
Qed.
