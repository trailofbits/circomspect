(* C01: Model.PipelineMirrors.run_pipeline_mirrors never ends in a panic of any composed
   stage, and out of fuel only when the file stage (whose fuel is an argument of the run)
   does -- assembled from

     files      Proofs.IncludesNoPanic.parse_files_no_panic          (C01_includes_never_panic)
     desugar    Proofs.DesugarTotal.desugar_template_total / check_function_total   (C18_desugar_never_panics)
     shape      Proofs.MirrorsShape.desugar_output_shape              (bridge: C18_desugar_refines_expand)
                Proofs.MirrorsShape.stmt_sugar_free_of_spec           (bridge: C18_desugar_output_sugar_free,
                                                                       C18_function_kept_iff)
     lift       Proofs.LiftFullTotal.lift_to_ir_never_panics          (C01_lift_to_ir_never_panics: renaming,
                                                                       lifting, IR lifting, declarations)
     lifted     Proofs.LiftFullIr.lifted_unversioned / lifted_written_declared / lifted_clean / lifted_dom
                                                                      (what the lifted graph hands on; C13_liftfull_skeleton)
     dom tree   Proofs.MirrorsDom.lifted_tree                         (bridge: C12 theorems -> rooted; C15_no_panic)
     ssa        Proofs.SsaNoPanic.into_ssa_never_panics_tree          (C01_into_ssa_never_panics)
                Proofs.SsaFuel.into_ssa_never_out_of_fuel             (C01_into_ssa_fuel_suffices)
                with Proofs.MirrorsDom.lifted_children_facts          (bridge: C15_idom_exact, C15_idom_unique, C12_dom_implies_le)
     clean      Proofs.SsaClean.into_ssa_keeps_clean                  (bridge: no value claim before / after SSA)
     unique     Proofs.SsaLocalDefs.into_ssa_ldefs_unique             (bridge: C14_construction_unique_defs + the tree walk
                                                                       reaches every block (Proofs.SsaDomBridge, C15) + the tag
                                                                       invariant => one defining assignment per local)
     propagate  Proofs.PropagateTotal.propagate_completes             (C20_propagate_completes)

   What remains a hypothesis is collected in [program_ok] below. *)
From Coq Require Import ZArith NArith List Bool Lia Znumtheory.
Require Import Model.Ast Model.Desugar Spec.ExpandSpec Proofs.DesugarTotal.
Require Model.Base Model.PipelineMirrors Model.Lift Model.LiftFull Model.Dom Model.Ir Model.Ssa Model.Propagate Model.Justify
        Model.Clean Model.Includes Spec.DomSpec.
Require Proofs.DesugarProofs Proofs.LiftTotalFlat Proofs.MirrorsShape Proofs.MirrorsDom Proofs.SsaNoPanic
        Proofs.SsaFuel Proofs.SsaClean Proofs.PropagateTotal Proofs.IncludesNoPanic Proofs.LiftFullTotal Proofs.LiftFullIr
        Proofs.SsaConstruction Proofs.SsaLocalDefs Proofs.SsaDomBridge Model.SsaPre.
Import ListNotations.
Local Open Scope list_scope.

Module PM := Model.PipelineMirrors.

(* the outcomes a definition may end with *)
Definition fine (d : PM.def_result) : Prop :=
  match d with PM.DROk _ | PM.DRReport _ => True | PM.DRPanic _ _ | PM.DRFuel _ => False end.

Section Chain.
  Variable ord : nat -> list nat -> list nat.
  Variable horder : list nat -> list nat.
  Variable p : Z.
  Variable kv kd : nat.

  Notation ssa_of := (PM.ssa_of ord horder).
  Notation analyse_cfg := (PM.analyse_cfg ord horder p kv kd).
  Notation analyse_body := (PM.analyse_body ord horder p kv kd).
  Notation analyse_template := (PM.analyse_template ord horder p kv kd).
  Notation analyse_function := (PM.analyse_function ord horder p kv kd).
  Notation analyse_program := (PM.analyse_program ord horder p kv kd).
  Notation body_ok := PM.body_ok.

  (* [PM.body_ok] (Model.PipelineMirrors; decidable, extracted, evaluated on every explored
     definition) is what remains a hypothesis about a body handed to lifting:
       names_distinct  the declaration keys after the renaming pass are pairwise different
       stmt_lits_ok    number literals are non-negative
     (one defining assignment per local in the graph into_ssa returns, a statement about the
     mirror's own output, is proved: [lifted_ssa_output_ok]) *)

  (* a template as the parser hands it on: C18's wf_template, initialisation blocks
     hold declarations and (multi-)substitutions, and the desugared body meets [body_ok] *)
  Definition template_ok (ts : list PM.definition) (lib : file_library) (t : PM.definition) : Prop :=
    wf_template lib (PM.d_body t) /\ PM.ast_init_ok (PM.d_body t) = true /\
    forall b', desugar_template (env_of (PM.named_bodies ts)) lib (PM.d_body t) = DOk b' -> body_ok t b' = true.

  (* a function: metas known, the body is a block with well-shaped initialisation blocks,
     and -- when it is handed on (no tuple, no anonymous component) -- it meets [body_ok] *)
  Definition function_ok (lib : file_library) (f : PM.definition) : Prop :=
    Forall (meta_known lib) (stmt_metas (PM.d_body f)) /\ (exists m l, PM.d_body f = Block m l) /\
    PM.ast_init_ok (PM.d_body f) = true /\
    (check_function (PM.d_body f) = DOk None -> body_ok f (PM.d_body f) = true).

  Definition program_ok (pr : PM.program) : Prop :=
    Forall (template_ok (PM.pr_templates pr) (PM.pr_lib pr)) (PM.pr_templates pr) /\
    Forall (function_ok (PM.pr_lib pr)) (PM.pr_functions pr).

  Hypothesis Hord : DomSpec.order_ok ord.
  Hypothesis Hh : forall l, Permutation.Permutation (horder l) l.
  Hypothesis Hp1 : prime p.
  Hypothesis Hp2 : (2 < p)%Z.
  Hypothesis Hp3 : (Z.log2 p < 2 ^ 64)%Z.

  (* what the SSA stage is handed and what it hands on, for a graph the lifting mirror returned *)
  Lemma lifted_ssa_facts kind params pfile ploc body r :
    LiftFull.try_lift_impl kind params pfile ploc body = Base.Ok r ->
    let c := LiftFull.erase_cfg (LiftFull.l_cfg r) in
    exists t, let r := Ssa.into_ssa (PM.sets_of horder (Dom.dt_frontier t)) (PM.sets_of horder (Dom.dt_children t)) c in
              ssa_of c = Base.Ok (PM.idom_table t, r) /\ r <> Ssa.SPanic /\ r <> Ssa.SFuel /\
              forall c1, r = Ssa.SOk c1 -> Justify.ldefs_unique (Justify.all_stmts (Ir.c_blocks c1)) = true.
  Proof.
    intros Er c.
    assert (Ec : LiftFull.lift_to_ir kind params pfile ploc body = Base.Ok c).
    { unfold LiftFull.lift_to_ir. rewrite Er. reflexivity. }
    set (key := fun _ : Ir.meta => 0%nat).
    destruct (LiftFullIr.lifted_dom key _ _ _ _ _ _ Er) as (Hg & Hdom & Hlen).
    set (g := map (LiftFull.skel_block key) (LiftFull.xc_blocks (LiftFull.l_cfg r))) in *.
    fold c in Hdom, Hlen.
    destruct (MirrorsDom.lifted_tree _ g Hg ord Hord) as (t & Ht).
    exists t.
    set (frontier := PM.sets_of horder (Dom.dt_frontier t)).
    set (children := PM.sets_of horder (Dom.dt_children t)).
    split; [unfold PM.ssa_of; rewrite Hdom, Ht; reflexivity|].
    destruct (MirrorsDom.lifted_children_facts _ g Hg ord Hord t Ht horder Hh) as (K1 & K2 & K3).
    fold children in K1, K2, K3. rewrite <- Hlen in K1.
    assert (Hn : (0 < length (Ir.c_blocks c))%nat).
    { rewrite Hlen. exact (MirrorsDom.lifted_nonempty _ g Hg). }
    pose proof (LiftFullIr.lifted_unversioned _ _ _ _ _ _ Ec) as Hu.
    pose proof (LiftFullIr.lifted_written_declared _ _ _ _ _ _ Ec) as Hd.
    split; [exact (SsaNoPanic.into_ssa_never_panics_tree frontier children c Hu Hn K1 K2 K3)|].
    split; [exact (SsaFuel.into_ssa_never_out_of_fuel frontier children c Hu Hd Hn K1)|].
    intros c1 Essa.
    (* the tree walk reaches every block: the pre-order of an immediate-dominator tree holds every block (C15 via
       Proofs.SsaDomBridge.c15_children_tree); graph_of / sets_of there are dom_of_ir / sets_of here *)
    assert (Hroot : DomSpec.rooted (SsaDomBridge.graph_of c)).
    { change (SsaDomBridge.graph_of c) with (PM.dom_of_ir c). rewrite Hdom. exact (MirrorsDom.lifted_rooted _ g Hg). }
    assert (Ht' : Dom.dominator_tree (Dom.dom_fuel (SsaDomBridge.graph_of c)) ord (SsaDomBridge.graph_of c) = Base.Ok t).
    { change (SsaDomBridge.graph_of c) with (PM.dom_of_ir c). rewrite Hdom. exact Ht. }
    pose proof (SsaDomBridge.c15_children_tree c Hroot ord Hord t Ht' horder Hh) as Htree.
    change (SsaDomBridge.sets_of horder (Dom.dt_children t)) with children in Htree.
    unfold SsaPre.children_treeb in Htree. apply andb_prop in Htree. destruct Htree as [_ Hcov].
    apply SsaConstruction.children_coverb_spec in Hcov.
    exact (SsaLocalDefs.into_ssa_ldefs_unique frontier children c c1 Hu (LiftFullIr.lifted_tags_ok _ _ _ _ _ _ Ec) Hcov Essa).
  Qed.

  (* ssa_output_ok holds of every body *)
  Theorem lifted_ssa_output_ok d body : PM.ssa_output_ok ord horder d body = true.
  Proof.
    unfold PM.ssa_output_ok, LiftFull.lift_to_ir.
    destruct (LiftFull.try_lift_impl (PM.d_kind d) (PM.d_params d) (PM.d_pfile d) (PM.d_ploc d) body) as [r|e|s|] eqn:Er;
      cbn [Base.bind]; try reflexivity.
    destruct (lifted_ssa_facts _ _ _ _ _ _ Er) as (t & E2 & _ & _ & Hu). cbv zeta in E2, Hu. rewrite E2.
    destruct (Ssa.into_ssa _ _ _) as [c1| | |] eqn:Essa; try reflexivity. exact (Hu c1 eq_refl).
  Qed.

  Lemma analyse_lifted_fine d body r :
    LiftFull.try_lift_impl (PM.d_kind d) (PM.d_params d) (PM.d_pfile d) (PM.d_ploc d) body = Base.Ok r ->
    PM.stmt_lits_ok body = true ->
    fine (analyse_cfg (LiftFull.erase_cfg (LiftFull.l_cfg r))).
  Proof.
    intros Er Hlits.
    assert (Ec : LiftFull.lift_to_ir (PM.d_kind d) (PM.d_params d) (PM.d_pfile d) (PM.d_ploc d) body
                 = Base.Ok (LiftFull.erase_cfg (LiftFull.l_cfg r))).
    { unfold LiftFull.lift_to_ir. rewrite Er. reflexivity. }
    destruct (lifted_ssa_facts _ _ _ _ _ _ Er) as (t & E2 & NP & NF & Hu). cbv zeta in E2, NP, NF, Hu.
    set (c := LiftFull.erase_cfg (LiftFull.l_cfg r)) in *.
    unfold PM.analyse_cfg. rewrite E2.
    destruct (Ssa.into_ssa (PM.sets_of horder (Dom.dt_frontier t)) (PM.sets_of horder (Dom.dt_children t)) c)
      as [c1| | |] eqn:Essa; [|exact I|contradiction|contradiction].
    pose proof (SsaClean.into_ssa_keeps_clean _ _ c c1 (LiftFullIr.lifted_clean _ _ _ _ _ _ Hlits Ec) Essa) as Hclean.
    destruct (PropagateTotal.propagate_completes p Hp1 Hp2 Hp3 kv kd (PM.idom_table t) c1 Hclean (Hu c1 eq_refl)) as (c2 & ->). exact I.
  Qed.

  Lemma analyse_body_fine d body :
    LiftFull.is_block body = true -> LiftFull.stmt_sugar_free body = true -> LiftFull.ast_init_flat body = true ->
    body_ok d body = true -> fine (analyse_body d body).
  Proof.
    intros Hb Hsf Hflat Hok. unfold PM.body_ok in Hok.
    apply andb_prop in Hok. destruct Hok as [Hn Hlits].
    assert (Hwf : LiftFull.definition_wf (PM.d_params d) (PM.d_pfile d) (PM.d_ploc d) body = true).
    { unfold LiftFull.definition_wf. rewrite Hb, Hsf, Hflat. exact Hn. }
    destruct (LiftFullTotal.liftfull_never_panics' (PM.d_kind d) _ _ _ _ Hwf) as [NP NF].
    unfold PM.analyse_body, LiftFull.lift_to_ir.
    destruct (LiftFull.try_lift_impl (PM.d_kind d) (PM.d_params d) (PM.d_pfile d) (PM.d_ploc d) body) as [r|e|s|] eqn:Er;
      cbn [Base.bind].
    - exact (analyse_lifted_fine d body r Er Hlits).
    - exact I.
    - exact (NP s eq_refl).
    - exact (NF eq_refl).
  Qed.

  Lemma analyse_template_fine ts lib t : template_ok ts lib t -> fine (analyse_template (env_of (PM.named_bodies ts)) lib t).
  Proof.
    intros (Hwf & Hinit & Hbody). unfold PM.analyse_template.
    pose proof (desugar_template_total lib (env_of (PM.named_bodies ts)) (PM.d_body t) Hwf) as Hnc.
    destruct (desugar_template (env_of (PM.named_bodies ts)) lib (PM.d_body t)) as [b'| | |] eqn:Ed;
      cbn [no_crash] in Hnc; try contradiction; [|exact I].
    pose proof (DesugarProofs.desugar_output_sugar_free _ _ _ _ Ed) as Hsf.
    destruct Hwf as (_ & Hshort & Hnode & (m & l & Eb)). rewrite Eb in *.
    destruct (MirrorsShape.desugar_output_shape lib (PM.named_bodies ts) m l b' Hnode Hshort Hinit Ed) as (Hb & Hflat & _).
    apply analyse_body_fine; [exact Hb|exact (MirrorsShape.stmt_sugar_free_of_spec _ Hsf)|exact Hflat|exact (Hbody b' eq_refl)].
  Qed.

  Lemma analyse_function_fine lib f : function_ok lib f -> fine (analyse_function f).
  Proof.
    intros (Hk & (m & l & Eb) & Hinit & Hok). unfold PM.analyse_function.
    pose proof (check_function_total lib (PM.d_body f) Hk) as Hnc.
    pose proof (DesugarProofs.check_function_kept (PM.d_body f)) as Hsf.
    destruct (check_function (PM.d_body f)) as [[rs|]| | |]; cbn [no_crash] in Hnc; try contradiction; try exact I.
    apply analyse_body_fine.
    - rewrite Eb. reflexivity.
    - exact (MirrorsShape.stmt_sugar_free_of_spec _ (Hsf eq_refl)).
    - rewrite <- MirrorsShape.ast_init_ok_flat. exact Hinit.
    - exact (Hok eq_refl).
  Qed.

  Theorem analyse_program_fine pr : program_ok pr -> Forall fine (analyse_program pr).
  Proof.
    intros [Ht Hf]. unfold PM.analyse_program. apply Forall_app. split.
    - apply Forall_forall. intros d Hd. apply in_map_iff in Hd. destruct Hd as (t & <- & Hin).
      apply analyse_template_fine. rewrite Forall_forall in Ht. exact (Ht t Hin).
    - apply Forall_forall. intros d Hd. apply in_map_iff in Hd. destruct Hd as (f & <- & Hin).
      apply (analyse_function_fine (PM.pr_lib pr)). rewrite Forall_forall in Hf. exact (Hf f Hin).
  Qed.

  (* with the file stage in front *)
  Section Files.
    Context {path : Type} `{EqDecision0 : stdpp.base.EqDecision path}.
    Variables (canon : path -> option path) (is_dir is_file : path -> bool)
              (read_dir : path -> option (list path)) (join : path -> path -> path)
              (parent : path -> path) (file_name : path -> option path)
              (ext_circom starts_dot has_sep : path -> bool)
              (content : path -> Includes.file_content path).
    Variable parse : @Includes.parse_state path -> PM.program.

    Notation parse_files := (Includes.parse_files canon is_dir is_file read_dir join parent file_name
                                                  ext_circom starts_dot has_sep content).
    Notation run := (PM.run_pipeline_mirrors ord horder p kv kd canon is_dir is_file
                                             read_dir join parent file_name ext_circom starts_dot has_sep
                                             content parse).

    Hypothesis canonical_file_has_name :
      forall q c, is_dir q = false -> canon q = Some c -> file_name c <> None.

    Theorem run_pipeline_mirrors_never_panics d23 dfuel fuel paths libs :
      (forall st, parse_files d23 dfuel fuel paths libs = Base.Ok st -> program_ok (parse st)) ->
      match run d23 dfuel fuel paths libs with
      | Base.Ok ds => Forall fine ds
      | Base.Err _ => True
      | Base.Panic _ => False
      | Base.OutOfFuel => parse_files d23 dfuel fuel paths libs = Base.OutOfFuel
      end.
    Proof.
      intros Hok. unfold PM.run_pipeline_mirrors.
      pose proof (fun s => IncludesNoPanic.parse_files_no_panic canon is_dir is_file read_dir join parent file_name
                             ext_circom starts_dot has_sep content canonical_file_has_name d23 dfuel fuel paths libs s) as NP.
      destruct (parse_files d23 dfuel fuel paths libs) as [st|e|s|] eqn:E; cbn [Base.bind].
      - apply analyse_program_fine. apply Hok. reflexivity.
      - exact I.
      - exact (NP s eq_refl).
      - reflexivity.
    Qed.
  End Files.
End Chain.
