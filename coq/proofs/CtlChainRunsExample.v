(* C07: the hypotheses of Proofs.CtlChainRuns.chain_loop_free_claims_true are satisfiable, END TO
   END: the body
       signal input a;  var x = 0;  if (a == 1) { x = 1; } else { x = 2; }  x = x + 4;
   as an AST goes through the mirrors of lifting, SSA conversion (a phi for x at the join, under
   a SIGNAL-DEPENDENT branch) and propagation; the annotated graph, with the declaration table
   read off its declaration statements, passes every validator; and the family of concrete runs
   over the valuations rho of the signal a - those with rho = 1 (mod 7) through the then-branch,
   the others through the else-branch - meets the hypotheses about the family. *)
From Coq Require Import ZArith NArith List Bool String Ascii Lia.
Require Import Model.Ast.
Require Model.Base Model.Ir Model.Dom Model.Ssa Model.SsaPre Model.SsaCheck Model.LiftFull Model.Lift Model.Propagate
        Model.DegGraph Model.DegJustify Model.Justify.
Require Spec.PolyDeg Spec.DegSem Spec.DegRun Proofs.DegreeProofs Proofs.DegGraphProofs Proofs.DegRunProofs Proofs.DegSemTotal.
Require Import Proofs.CtlChainExample.
Import ListNotations.
Local Open Scope string_scope.

Definition cs_body : statement :=
  Block (cm 0 120)
    [InitializationBlock (cm 1 4) (VSignal SInput []) [Declaration (cm 1 4) (VSignal SInput []) "a" [] true];
     InitializationBlock (cm 5 14) VVar
       [Declaration (cm 5 10) VVar "x" [] true; Substitution (cm 9 14) "x" [] AssignVar (Number (cm 13 14) 0)];
     IfThenElse (cm 16 60) (InfixOp (cm 20 26) (Variable_ (cm 20 21) "a" []) IEq (Number (cm 25 26) 1))
       (Block (cm 28 40) [Substitution (cm 30 36) "x" [] AssignVar (Number (cm 34 35) 1)])
       (Some (Block (cm 46 58) [Substitution (cm 48 54) "x" [] AssignVar (Number (cm 52 53) 2)]));
     Substitution (cm 62 72) "x" [] AssignVar (InfixOp (cm 66 71) (cx 66 67) IAdd (Number (cm 70 71) 4))].

(* the declaration table the implementation keeps, read off the declaration statements *)
Definition decls_of_stmts (ss : list Ir.stmt) : list (Ir.vname * Ir.vtype) :=
  flat_map (fun st => match st with Ir.SDecl _ names t _ => map (fun n => (n, t)) names | _ => [] end) ss.
Definition with_decls (c : Ir.cfg) : Ir.cfg :=
  {| Ir.c_kind := Ir.c_kind c; Ir.c_params := Ir.c_params c;
     Ir.c_decls := decls_of_stmts (Justify.all_stmts (Ir.c_blocks c)); Ir.c_blocks := Ir.c_blocks c |}.

Definition cs_r : LiftFull.lifted :=
  match LiftFull.try_lift_impl Ir.KTemplate [] (Some 0%N) (10%N, 12%N) cs_body with
  | Base.Ok r => r
  | _ => cc_r
  end.
Definition cs_c0 : Ir.cfg := LiftFull.erase_cfg (LiftFull.l_cfg cs_r).
Definition cs_c1 : Ir.cfg := match Ssa.into_ssa cc_frontier cc_children cs_c0 with Ssa.SOk c => c | _ => cs_c0 end.
Definition cs_c2 : Ir.cfg := match Propagate.propagate 9 9 7 cc_idom cs_c1 with Base.Ok c => c | _ => cs_c1 end.
Definition cs_c : Ir.cfg := Eval vm_compute in with_decls cs_c2.
Definition cs_infos : list SsaCheck.binfo :=
  match SsaCheck.compute_infos (Ir.c_params cs_c) cc_idom (Ir.c_blocks cs_c) [] with Some i => i | None => [] end.

Local Open Scope Z_scope.
Definition cs_sem2 (op : Ir.infix_op) (x y : Z) : Z :=
  match op with
  | Ir.IAdd => (x + y) mod 7 | Ir.ISub => (x - y) mod 7 | Ir.IMul => (x * y) mod 7
  | Ir.IDiv => (x * (y ^ 5 mod 7)) mod 7
  | Ir.IEq => if x mod 7 =? y mod 7 then 1 else 0
  | _ => 0
  end.
Definition cs_sem1 (op : Ir.prefix_op) (x : Z) : Z := match op with Ir.PNeg => (x * -1) mod 7 | _ => 0 end.
Definition cs_a : Ir.vname := {| Ir.vn_name := [97%N]; Ir.vn_suffix := None; Ir.vn_version := None |}.
Definition cs_S0 : DegSem.fstore Z := fun x => if Ir.vname_eqb cs_a x then Some (fun _ rho => rho) else None.
Definition cs_s0 (rho : Z) : DegRun.cstore := fun x => if Ir.vname_eqb cs_a x then Some (fun _ => rho) else None.
Definition cs_then (rho : Z) : bool := rho mod 7 =? 1.
Definition cs_pth (rho : Z) : list nat := if cs_then rho then [0; 1; 3]%nat else [0; 2; 3]%nat.
Definition cs_run (rho : Z) : option DegRun.cstore :=
  DegRun.cexec_path 7 cs_sem2 cs_sem1 (fun _ _ => 0) (fun _ => 0) cs_c (SsaCheck.params_map (Ir.c_params cs_c)) (cs_s0 rho) (cs_pth rho).
Definition cs_s (rho : Z) : DegRun.cstore := match cs_run rho with Some s => s | None => cs_s0 rho end.

Lemma chain_runs_example :
  LiftFull.try_lift_impl Ir.KTemplate [] (Some 0%N) (10%N, 12%N) cs_body = Base.Ok cs_r /\
  SsaPre.phi_free cs_c0 = true /\ SsaPre.decls_ok cs_c0 = true /\
  Ssa.into_ssa cc_frontier cc_children cs_c0 = Ssa.SOk cs_c1 /\
  Propagate.propagate 9 9 7 cc_idom cs_c1 = Base.Ok cs_c2 /\
  Ir.c_blocks cs_c = Ir.c_blocks cs_c2 /\
  DegJustify.djust_cfg cs_c cc_idom = true /\ SsaCheck.infos_ok cs_infos cs_c = true /\
  DegGraph.deg_graph_ok cs_c cc_idom = true /\ DegGraph.loop_free_ok cs_c = true /\
  (forall op, DegreeProofs.op_den 7 op (cs_sem2 op)) /\ (forall op, DegreeProofs.prefix_den 7 op (cs_sem1 op)) /\
  DegGraphProofs.finit_ok Z DegSemTotal.zline 7 cs_c cs_S0 /\
  (forall rho, exists tl, cs_pth rho = 0%nat :: tl) /\
  (forall rho, exists r0, In r0 [1; 0] /\ cs_pth r0 = cs_pth rho) /\
  (forall rho, DegRunProofs.rel_store Z rho (cs_s0 rho) cs_S0) /\
  (forall rho, cs_run rho = Some (cs_s rho)).
Proof.
  split; [vm_compute; reflexivity|]. split; [vm_compute; reflexivity|]. split; [vm_compute; reflexivity|].
  split; [vm_compute; reflexivity|]. split; [vm_compute; reflexivity|]. split; [vm_compute; reflexivity|].
  split; [vm_compute; reflexivity|]. split; [vm_compute; reflexivity|]. split; [vm_compute; reflexivity|].
  split; [vm_compute; reflexivity|].
  split; [intros []; cbn; auto; exists (fun y => y ^ 5 mod 7); reflexivity|].
  split; [intros []; cbn; auto|].
  split.
  { intros x F Hx. unfold cs_S0 in Hx. destruct (Ir.vname_eqb cs_a x) eqn:E; [|discriminate].
    apply IrFacts.vname_eqb_eq in E. subst x. injection Hx as <-.
    right. left. split; [reflexivity|]. split; [exists Ir.TSigIn; split; [reflexivity|discriminate]|].
    intros i rho delta t. cbn [PolyDeg.Dn]. unfold PolyDeg.Dd, DegSemTotal.zline. replace (_ - _) with 0 by ring. reflexivity. }
  split; [intros rho; unfold cs_pth; destruct (cs_then rho); eauto|].
  split.
  { intros rho. unfold cs_pth. destruct (cs_then rho) eqn:E.
    - exists 1. split; [left; reflexivity|reflexivity].
    - exists 0. split; [right; left; reflexivity|reflexivity]. }
  split.
  { intros rho x. unfold cs_s0, cs_S0. destruct (Ir.vname_eqb cs_a x); cbn; [intros i; reflexivity|exact I]. }
  intros rho. unfold cs_s. destruct (cs_run rho) as [sr|] eqn:E; [reflexivity|exfalso].
  unfold cs_run, cs_pth in E. destruct (cs_then rho) eqn:Et; unfold cs_then in Et;
    cbn in E; change ((1 mod 7) mod 7) with 1 in E; rewrite Et in E; discriminate.
Qed.
