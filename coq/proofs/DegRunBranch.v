(* C07: concrete runs whose paths DIFFER between valuations - what the loop-free setting
   (Proofs.DegRunDecided) and the setting with loops (Proofs.DegRunLoops) share.

   Setting of the loop-free theorem.  Blocks are numbered so that every run visits them in
   increasing order (the paths are strictly increasing: no block is visited twice); every local is
   assigned by at most one statement.  A family of concrete runs of Spec.DegRun, one per valuation
   rho, each along its own path  pth rho ; finitely many path classes, each with a
   representative valuation ([reps]).

   What has to be assumed of the family ([picks_decided]): two runs that enter a block
   with DIFFERENT arriving arguments for one of its phis enter a join, and differ on the
   value of a condition that Spec.DegSem.decides names for the block, evaluated in the
   stores with which they enter it.  This is the control-dependence assumption of the
   semantics in concrete terms; Proofs.CtlBridge gives the graph half of it (the block
   where two runs part is named by [decides]). *)
From Coq Require Import ZArith NArith List Bool Arith Lia Sorting.Sorted.
Require Import Model.Base Model.Ir Model.SsaCheck Model.Propagate Model.Justify Model.DegJustify.
Require Import Spec.PolyDeg Spec.DegSem Spec.DegRun Proofs.IrInd Proofs.ValueProofs Proofs.DegGraphProofs Proofs.DegRunProofs.
Import ListNotations.
Local Open Scope Z_scope.

Lemma NoDup_app_r {A} (l1 l2 : list A) : NoDup (l1 ++ l2) -> NoDup l2.
Proof. induction l1 as [|x l1 IH]; cbn; [auto|]. intros H. apply NoDup_cons_iff in H as [_ H]. auto. Qed.
Lemma NoDup_app_disj {A} (l1 l2 : list A) : NoDup (l1 ++ l2) -> forall x, In x l1 -> In x l2 -> False.
Proof.
  induction l1 as [|y l1 IH]; cbn; [contradiction|]. intros H x [->|Hx] H2.
  - apply NoDup_cons_iff in H as [Hy _]. apply Hy. apply in_or_app. right. exact H2.
  - apply NoDup_cons_iff in H as [_ H]. eapply IH; eauto.
Qed.

(* a name listed once belongs to one position *)
Lemma nodup_flat_map_nth {A B} (f : A -> list B) (l : list A) : NoDup (flat_map f l) ->
  forall i j a b x, nth_error l i = Some a -> nth_error l j = Some b -> In x (f a) -> In x (f b) -> i = j.
Proof.
  induction l as [|y l IH]; cbn [flat_map]; intros Hnd [|i] [|j] a b x Ha Hb Hxa Hxb; cbn in Ha, Hb; try discriminate.
  - reflexivity.
  - exfalso. injection Ha as ->. apply (NoDup_app_disj _ _ Hnd x Hxa). apply in_flat_map. exists b. split; [eapply nth_error_In; eauto|exact Hxb].
  - exfalso. injection Hb as ->. apply (NoDup_app_disj _ _ Hnd x Hxb). apply in_flat_map. exists a. split; [eapply nth_error_In; eauto|exact Hxa].
  - f_equal. exact (IH (NoDup_app_r _ _ Hnd) i j a b x Ha Hb Hxa Hxb).
Qed.

Section Mono.
Variable V : Type.
Variable p : Z.
Variable sem2 : infix_op -> Z -> Z -> Z.
Variable sem1 : prefix_op -> Z -> Z.
Variable call_sem : ident -> list Z -> Z.
Variable name_code : ident -> Z.
Notation den := (den V p sem2 sem1 call_sem name_code).

Definition fsub (S S' : fstore V) : Prop := forall x F, S x = Some F -> S' x = Some F.

Lemma den_fsub S S' : fsub S S' -> forall e F, den S e = Some F -> den S' e = Some F.
Proof.
  intros Hsub.
  induction e as [z k|v k|op l r k IHl IHr|op e k IHe|cd t f k IHc IHt IHf|n args k IHargs|vs k IHvs
                  |v acc k IHacc|v acc rhe k IHacc IHrhe|args k] using expr_ind'; intros F.
  - auto.
  - apply Hsub.
  - cbn [DegSem.den]. destruct (den S l) as [Fl|]; [|discriminate]. destruct (den S r) as [Fr|]; [|discriminate].
    rewrite (IHl Fl eq_refl), (IHr Fr eq_refl). auto.
  - cbn [DegSem.den]. destruct (den S e) as [Fe|]; [|discriminate]. rewrite (IHe Fe eq_refl). auto.
  - cbn [DegSem.den]. destruct (den S cd) as [Fc|]; [|discriminate]. destruct (den S t) as [Ft|]; [|discriminate].
    destruct (den S f) as [Ff|]; [|discriminate]. rewrite (IHc Fc eq_refl), (IHt Ft eq_refl), (IHf Ff eq_refl). auto.
  - rewrite !den_call. destruct (omap (den S) args) as [Fs|] eqn:E; [|discriminate]. rewrite (omap_mono _ _ _ IHargs Fs E). auto.
  - rewrite !den_array. destruct (omap (den S) vs) as [Fs|] eqn:E; [|discriminate]. rewrite (omap_mono _ _ _ IHvs Fs E). auto.
  - rewrite !den_access. destruct (S v) as [A|] eqn:Ev; [|discriminate]. rewrite (Hsub v A Ev).
    destruct (oacc (den S) _ _ acc) as [Is|] eqn:E; [|discriminate]. rewrite (oacc_mono _ _ _ _ _ IHacc Is E). auto.
  - rewrite !den_update. destruct (S v) as [A|] eqn:Ev; [|discriminate]. rewrite (Hsub v A Ev).
    destruct (oacc (den S) _ _ acc) as [Is|] eqn:E; [|discriminate]. rewrite (oacc_mono _ _ _ _ _ IHacc Is E).
    destruct (den S rhe) as [R|]; [|discriminate]. rewrite (IHrhe R eq_refl). auto.
  - discriminate.
Qed.

(* the concrete store knows no more than the family store says at rho *)
Definition sub_store (rho : V) (s : cstore) (S : fstore V) : Prop :=
  forall x v, s x = Some v -> exists F, S x = Some F /\ rel_cell V rho v F.

Lemma rel_sub_store rho s S : rel_store V rho s S -> sub_store rho s S.
Proof.
  intros H x v Hx. specialize (H x). rewrite Hx in H. destruct (S x) as [F|]; cbn in H; [eauto|contradiction].
Qed.

Lemma cval_den_sub rho s S e v : sub_store rho s S ->
  cval p sem2 sem1 call_sem name_code s e = Some v ->
  exists F, den S e = Some F /\ rel_cell V rho v F.
Proof.
  intros Hs Hv.
  set (S1 := fun x => match s x with Some _ => S x | None => None end).
  assert (Hrel : rel_store V rho s S1).
  { intros x. unfold S1. destruct (s x) as [w|] eqn:Ex; [|exact I].
    destruct (Hs x w Ex) as (F & HF & Hr). rewrite HF. exact Hr. }
  assert (Hf : fsub S1 S).
  { intros x F. unfold S1. destruct (s x); [auto|discriminate]. }
  pose proof (cval_den V p sem2 sem1 call_sem name_code rho s S1 Hrel e) as H.
  rewrite Hv in H. destruct (den S1 e) as [F|] eqn:EF; cbn in H; [|contradiction].
  exists F. split; [exact (den_fsub S1 S Hf e F EF)|exact H].
Qed.
End Mono.

(* the blocks of an increasing path below index a *)
Definition below (a : nat) (pi : list nat) : list nat := filter (fun i => (i <? a)%nat) pi.

Lemma below_app a l1 l2 : below a (l1 ++ l2) = below a l1 ++ below a l2.
Proof. apply filter_app. Qed.

Lemma below_none a pi : Forall (fun i => (a <= i)%nat) pi -> below a pi = [].
Proof.
  induction 1 as [|x tl Hx _ IH]; [reflexivity|]. cbn [below filter].
  destruct (x <? a)%nat eqn:E; [apply Nat.ltb_lt in E; lia|exact IH].
Qed.

Lemma below_all n pi : (forall i, In i pi -> (i < n)%nat) -> below n pi = pi.
Proof.
  induction pi as [|x tl IH]; intros H; [reflexivity|]. cbn [below filter].
  rewrite (proj2 (Nat.ltb_lt x n) (H x (or_introl eq_refl))). f_equal. apply IH. intros i Hi. apply H. right. exact Hi.
Qed.

Lemma below_S_notin a pi : ~ In a pi -> below (S a) pi = below a pi.
Proof.
  intros Hn. apply filter_ext_in. intros x Hx. assert (x <> a) by (intros ->; exact (Hn Hx)).
  apply eq_true_iff_eq. rewrite !Nat.ltb_lt. lia.
Qed.

Lemma sorted_app_lt (l1 l2 : list nat) : StronglySorted lt (l1 ++ l2) ->
  (forall x y, In x l1 -> In y l2 -> (x < y)%nat) /\ StronglySorted lt l1 /\ StronglySorted lt l2.
Proof.
  induction l1 as [|a l1 IH]; cbn [app]; intros H.
  - split; [intros x y []|]. split; [constructor|exact H].
  - apply StronglySorted_inv in H as [Hs Ha]. destruct (IH Hs) as (H1 & H2 & H3). rewrite Forall_forall in Ha.
    split; [|split; [|exact H3]].
    + intros x y [<-|Hx] Hy; [|auto]. apply Ha. apply in_or_app. right. exact Hy.
    + constructor; [exact H2|]. apply Forall_forall. intros x Hx. apply Ha. apply in_or_app. left. exact Hx.
Qed.

Lemma below_split l1 a l2 : StronglySorted lt (l1 ++ a :: l2) ->
  below a (l1 ++ a :: l2) = l1 /\ below (S a) (l1 ++ a :: l2) = l1 ++ [a].
Proof.
  intros H. destruct (sorted_app_lt _ _ H) as (H1 & _ & H3). apply StronglySorted_inv in H3 as [_ H2].
  assert (Hl1 : forall b, (a <= b)%nat -> below b l1 = l1).
  { intros b Hb. apply below_all. intros i Hi. specialize (H1 i a Hi (or_introl eq_refl)). lia. }
  assert (Hl2 : forall b, (b <= S a)%nat -> below b l2 = []).
  { intros b Hb. apply below_none. eapply Forall_impl; [|exact H2]. cbn. intros; lia. }
  rewrite !below_app, !Hl1, (below_app _ [a] l2), (below_app _ [a] l2), !Hl2 by lia. cbn [below filter].
  rewrite Nat.ltb_irrefl, (proj2 (Nat.ltb_lt a (S a)) (Nat.lt_succ_diag_r a)), !app_nil_r. auto.
Qed.

Lemma below_S_in a pi : StronglySorted lt pi -> In a pi -> below (S a) pi = below a pi ++ [a].
Proof. intros Hs Hin. apply in_split in Hin as (l1 & l2 & ->). destruct (below_split l1 a l2 Hs) as [-> ->]. reflexivity. Qed.

Lemma below_prefix a pi : StronglySorted lt pi -> exists rest, pi = below a pi ++ rest.
Proof.
  induction 1 as [|x tl Hs IH Hx]; [exists []; reflexivity|]. cbn [below filter].
  destruct (x <? a)%nat eqn:E.
  - destruct IH as (rest & Er). exists rest. cbn [app]. f_equal. exact Er.
  - exists (x :: tl). apply Nat.ltb_ge in E. fold (below a tl). rewrite (below_none a tl); [reflexivity|].
    eapply Forall_impl; [|exact Hx]. cbn. intros; lia.
Qed.

Section Paths.
Variable p : Z.
Variable sem2 : infix_op -> Z -> Z -> Z.
Variable sem1 : prefix_op -> Z -> Z.
Variable call_sem : ident -> list Z -> Z.
Variable name_code : ident -> Z.
Variable c : cfg.
Notation cexec_block := (cexec_block p sem2 sem1 call_sem name_code).
Notation cexec_path := (cexec_path p sem2 sem1 call_sem name_code).

(* the running version map after a path *)
Definition vmap_after (L : vmap) (pi : list nat) : vmap :=
  fold_left (fun L i => match nth_error (c_blocks c) i with Some b => block_vmap L b | None => L end) pi L.

Fixpoint cexec_nocheck (L : vmap) (s : cstore) (pi : list nat) : option cstore :=
  match pi with
  | [] => Some s
  | i :: tl =>
    match nth_error (c_blocks c) i with
    | None => None
    | Some b => match cexec_block c L s b with
                | None => None
                | Some s1 => cexec_nocheck (block_vmap L b) s1 tl
                end
    end
  end.

Lemma cexec_path_nocheck pi : forall L s s', cexec_path c L s pi = Some s' -> cexec_nocheck L s pi = Some s'.
Proof.
  induction pi as [|i tl IH]; intros L s s' H; [exact H|].
  destruct (cexec_path_cons p sem2 sem1 call_sem name_code c _ _ _ _ _ H) as (b & s1 & Hb & Hblk & _ & Htl).
  cbn [cexec_nocheck]. rewrite Hb, Hblk. exact (IH _ _ _ Htl).
Qed.

Lemma nocheck_app p1 : forall L s p2,
  cexec_nocheck L s (p1 ++ p2) =
  match cexec_nocheck L s p1 with Some s1 => cexec_nocheck (vmap_after L p1) s1 p2 | None => None end.
Proof.
  induction p1 as [|i tl IH]; intros L s p2; cbn [app cexec_nocheck]; [reflexivity|].
  unfold vmap_after. cbn [fold_left].
  destruct (nth_error (c_blocks c) i) as [b|]; [|reflexivity].
  destruct (cexec_block c L s b) as [s1|]; [|reflexivity].
  apply IH.
Qed.

Lemma nocheck_below a pi L s : StronglySorted lt pi -> cexec_nocheck L s pi <> None ->
  exists s1, cexec_nocheck L s (below a pi) = Some s1.
Proof.
  intros Hs H. destruct (below_prefix a pi Hs) as (rest & E). rewrite E, nocheck_app in H.
  destruct (cexec_nocheck L s (below a pi)) as [s1|]; [eauto|congruence].
Qed.
End Paths.

Section Targets.
Variable c : cfg.

Definition local_targets (ss : list stmt) : list vname :=
  flat_map (fun st => match st with
                      | SSubst _ x _ _ _ _ => if stores_local c x then [x] else []
                      | _ => []
                      end) ss.

Lemma local_targets_app l1 l2 : local_targets (l1 ++ l2) = local_targets l1 ++ local_targets l2.
Proof. apply flat_map_app. Qed.

Lemma local_targets_blocks bs :
  local_targets (all_stmts bs) = flat_map (fun blk => local_targets (b_stmts blk)) bs.
Proof.
  induction bs as [|blk tl IH]; [reflexivity|]. unfold all_stmts in *. cbn [flat_map].
  rewrite local_targets_app, IH. reflexivity.
Qed.

Lemma in_local_targets m x op rhe sv stt ss : In (SSubst m x op rhe sv stt) ss -> stores_local c x = true ->
  In x (local_targets ss).
Proof.
  intros Hin Hl. apply in_flat_map. eexists. split; [exact Hin|]. cbn. rewrite Hl. left. reflexivity.
Qed.

Lemma local_targets_local x ss : In x (local_targets ss) -> stores_local c x = true.
Proof.
  unfold local_targets. rewrite in_flat_map. intros (st & _ & Hx). destruct st; try contradiction.
  destruct (stores_local c v) eqn:E1; [|contradiction]. destruct Hx as [<-|[]]. exact E1.
Qed.

(* single assignment: the phi that defines a target stands in one block only *)
Lemma phi_block_unique b x : NoDup (local_targets (all_stmts (c_blocks c))) -> In b (c_blocks c) ->
  In x (local_targets (b_stmts b)) -> forall bq, phi_block_of c x bq -> bq = b.
Proof.
  intros Hnd Hb Hx bq (Hbq & m & op & args & k & sv & stt & Hphi). rewrite local_targets_blocks in Hnd.
  apply In_nth_error in Hb as (j & Hj). apply In_nth_error in Hbq as (i & Hi).
  assert (i = j); [|congruence]. apply (nodup_flat_map_nth _ _ Hnd i j bq b x Hi Hj); [|exact Hx].
  eapply in_local_targets; [exact Hphi|]. eapply local_targets_local; eauto.
Qed.
End Targets.

Section Block.
Variable V : Type.
Variable p : Z.
Variable sem2 : infix_op -> Z -> Z -> Z.
Variable sem1 : prefix_op -> Z -> Z.
Variable call_sem : ident -> list Z -> Z.
Variable name_code : ident -> Z.
Variable c : cfg.
Variable idom : list (option N).
Notation cval := (cval p sem2 sem1 call_sem name_code).
Variable vis : V -> bool.          (* the valuations that visit the block *)
Variable Lof : V -> vmap.          (* the running maps with which they enter it *)
Variable b : block.
Variable ent : V -> cstore.        (* the stores with which they enter it *)

Definition arg_of (x : vname) (args : list vname) (r : V) : option vname :=
  match vget (Lof r) (key_of x) with Some n => phi_arg x n args | None => None end.

(* two visitors with different arriving arguments enter a join and differ on a deciding condition *)
Definition picks_decided_here (phis : list stmt) : Prop :=
  forall m x op args k sv stt, In (SSubst m x op (EPhi args k) sv stt) phis -> stores_local c x = true ->
  forall r1 r2, vis r1 = true -> vis r2 = true -> arg_of x args r1 <> arg_of x args r2 ->
    (2 <= length (b_preds b))%nat /\
    exists cond v1 v2, decides c idom b cond /\ cval (ent r1) cond = Some v1 /\ cval (ent r2) cond = Some v2 /\
                       v1 [] <> v2 [].
End Block.

Section Family.
Variable V : Type.
Variable p : Z.
Variable sem2 : infix_op -> Z -> Z -> Z.
Variable sem1 : prefix_op -> Z -> Z.
Variable call_sem : ident -> list Z -> Z.
Variable name_code : ident -> Z.
Variable c : cfg.
Variable idom : list (option N).
Variable L0 : vmap.
Variable pth : V -> list nat.
Variable s0 : V -> cstore.
Notation cexec_block := (cexec_block p sem2 sem1 call_sem name_code).
Notation cexec_nocheck := (cexec_nocheck p sem2 sem1 call_sem name_code c).

Definition E (rho : V) (a : nat) : option cstore := cexec_nocheck L0 (s0 rho) (below a (pth rho)).
Definition ent (rho : V) (a : nat) : cstore := match E rho a with Some s => s | None => s0 rho end.
Definition Lat (rho : V) (a : nat) : vmap := vmap_after c L0 (below a (pth rho)).
Definition visits (rho : V) (a : nat) : bool := existsb (Nat.eqb a) (pth rho).

Definition picks_decided : Prop :=
  forall a b, nth_error (c_blocks c) a = Some b ->
    picks_decided_here V p sem2 sem1 call_sem name_code c idom (fun rho => visits rho a) (fun rho => Lat rho a) b
                       (fun rho => ent rho a) (fst (leading_phis (b_stmts b))).

Lemma ent_0 rho : ent rho 0 = s0 rho.
Proof. unfold ent, E. rewrite below_none; [reflexivity|]. apply Forall_forall. intros; lia. Qed.

Hypothesis Hsorted : forall rho, StronglySorted lt (pth rho).
Hypothesis Hrun : forall rho, cexec_nocheck L0 (s0 rho) (pth rho) <> None.

Lemma visits_in rho a : visits rho a = true <-> In a (pth rho).
Proof.
  unfold visits. rewrite existsb_exists. split.
  - intros (x & Hx & E1). apply Nat.eqb_eq in E1. subst x. exact Hx.
  - intros H. exists a. split; [exact H|apply Nat.eqb_refl].
Qed.

Lemma E_ent rho a : E rho a = Some (ent rho a).
Proof.
  unfold ent. destruct (nocheck_below p sem2 sem1 call_sem name_code c a (pth rho) L0 (s0 rho) (Hsorted rho) (Hrun rho)) as (s & Es).
  fold (E rho a) in Es. rewrite Es. reflexivity.
Qed.

Lemma E_step_in rho a b : visits rho a = true -> nth_error (c_blocks c) a = Some b ->
  cexec_block c (Lat rho a) (ent rho a) b = Some (ent rho (S a)).
Proof.
  intros Hv Hb. rewrite <- E_ent. unfold E at 1. rewrite (below_S_in a (pth rho) (Hsorted rho) (proj1 (visits_in rho a) Hv)).
  rewrite nocheck_app. fold (E rho a). rewrite E_ent. fold (Lat rho a).
  cbn [DegRunBranch.cexec_nocheck]. rewrite Hb. destruct (cexec_block c (Lat rho a) (ent rho a) b); reflexivity.
Qed.

Lemma E_step_out rho a : visits rho a = false -> ent rho (S a) = ent rho a.
Proof.
  intros Hv. unfold ent, E. rewrite below_S_notin; [reflexivity|].
  intros Hin. apply visits_in in Hin. congruence.
Qed.
End Family.

(* every local is assigned by at most one statement; what the steps can assign starts undefined *)
Definition single_assignment (c : cfg) : Prop := NoDup (local_targets c (all_stmts (c_blocks c))).
Section StartStore.
Variable V : Type.
Definition targets_start_undefined (c : cfg) (S0 : fstore V) : Prop :=
  forall x, In x (local_targets c (all_stmts (c_blocks c))) -> S0 x = None.
End StartStore.
