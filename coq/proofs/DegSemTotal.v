(* C07: what "no denotation" means in the stores of Spec.DegSem that start total
   (DegSem.finit_total: every name the steps cannot assign has a denotation from the
   start).  The steps only ever ADD denotations, so in every reachable store a cell is
   None only if it is an assignable local (a declared local, not a parameter, assigned
   by some statement) whose assignment has not fired yet; and an expression is
   undenotable only if it reads such a cell - or holds a phi below the top of a
   statement, which the graphs handed to propagation never do (DegWf.phi_top_stmt, a
   hypothesis evaluated by the check).  This is what makes "an undenotable deciding
   condition does not vary" (DegSem.cond_fixed) an over-approximation: the condition has
   not been evaluated by any run the store represents. *)
From Coq Require Import ZArith NArith List Bool Lia.
Require Import Model.Base Model.Ir Model.SsaCheck Model.Propagate Model.Justify Model.DegJustify Model.DegWf.
Require Import Spec.DegSem Proofs.IrInd Proofs.ValueProofs Proofs.DegGraphProofs.
Require Spec.PolyDeg Proofs.PolyDegProofs.
Import ListNotations.
Local Open Scope Z_scope.

Section Total.
Variable V : Type.
Variable p : Z.
Variable sem2 : infix_op -> Z -> Z -> Z.
Variable sem1 : prefix_op -> Z -> Z.
Variable call_sem : ident -> list Z -> Z.
Variable name_code : ident -> Z.
Notation den := (den V p sem2 sem1 call_sem name_code).
Notation den_acc S := (oacc (den S) (fun F : fam V => F []) (fun n _ => name_code n)).
Variable c : cfg.
Variable idom : list (option N).

Definition none_only_assignable (S : fstore V) : Prop := forall x, S x = None -> assignable c x = true.

Lemma total_none_only_assignable S0 : finit_total V c S0 -> none_only_assignable S0.
Proof.
  intros H x Hx. destruct (assignable c x) eqn:E; [reflexivity|]. exfalso. exact (H x E Hx).
Qed.

Lemma fstep_keeps S S' : fstep V p sem2 sem1 call_sem name_code c idom S S' ->
  none_only_assignable S -> none_only_assignable S'.
Proof.
  intros Hst H y Hy. destruct Hst; unfold fupd in Hy; (destruct (vname_eqb x y); [discriminate|exact (H y Hy)]).
Qed.

Lemma freachable_keeps S0 S : finit_total V c S0 -> freachable V p sem2 sem1 call_sem name_code c idom S0 S ->
  none_only_assignable S.
Proof.
  intros H0 Hr. induction Hr as [|S1 S2 _ IH Hst]; [apply total_none_only_assignable; exact H0|].
  eapply fstep_keeps; eauto.
Qed.

Section Cause.
Variable S : fstore V.
Local Notation reads_none e := (exists x, In x (expr_reads e) /\ S x = None).
Local Notation cause e := (den S e = None -> phi_free e = true -> reads_none e).

Lemma cause_in (es : list expr) e : Forall (fun e => cause e) es -> In e es -> den S e = None ->
  forallb phi_free es = true -> exists x, In x (flat_map expr_reads es) /\ S x = None.
Proof.
  intros IH He Hd Hp. rewrite Forall_forall in IH. rewrite forallb_forall in Hp.
  destruct (IH e He Hd (Hp e He)) as (x & Hx & Hs). exists x. split; [apply in_flat_map; eauto|exact Hs].
Qed.

Lemma den_none_cause : forall e, cause e.
Proof.
  induction e as [z k|v k|op l r k IHl IHr|op e k IHe|cd t f k IHc IHt IHf|n args k IHargs|vs k IHvs
                  |v acc k IHacc|v acc rhe k IHacc IHrhe|args k] using expr_ind';
    intros Hn Hp.
  - discriminate.
  - exists v. split; [left; reflexivity|exact Hn].
  - cbn [DegSem.den] in Hn. cbn [phi_free] in Hp. apply andb_true_iff in Hp as [Hpl Hpr]. cbn [expr_reads].
    destruct (den S l) as [Fl|].
    + destruct (den S r) as [Fr|]; [discriminate|]. destruct (IHr eq_refl Hpr) as (x & Hx & Hs).
      exists x. split; [apply in_or_app; right; exact Hx|exact Hs].
    + destruct (IHl eq_refl Hpl) as (x & Hx & Hs). exists x. split; [apply in_or_app; left; exact Hx|exact Hs].
  - cbn [DegSem.den] in Hn. destruct (den S e) as [Fe|]; [discriminate|]. exact (IHe eq_refl Hp).
  - cbn [DegSem.den] in Hn. cbn [phi_free] in Hp. apply andb_true_iff in Hp as [Hp Hpf]. apply andb_true_iff in Hp as [Hpc Hpt].
    cbn [expr_reads]. destruct (den S cd) as [Fc|].
    + destruct (den S t) as [Ft|].
      * destruct (den S f) as [Ff|]; [discriminate|]. destruct (IHf eq_refl Hpf) as (x & Hx & Hs).
        exists x. split; [apply in_or_app; right; apply in_or_app; right; exact Hx|exact Hs].
      * destruct (IHt eq_refl Hpt) as (x & Hx & Hs).
        exists x. split; [apply in_or_app; right; apply in_or_app; left; exact Hx|exact Hs].
    + destruct (IHc eq_refl Hpc) as (x & Hx & Hs). exists x. split; [apply in_or_app; left; exact Hx|exact Hs].
  - rewrite den_call in Hn. destruct (omap (den S) args) as [Fs|] eqn:El; [discriminate|].
    destruct (omap_none _ _ El) as (e & He & Hd). exact (cause_in args e IHargs He Hd Hp).
  - rewrite den_array in Hn. destruct (omap (den S) vs) as [Fs|] eqn:El; [discriminate|].
    destruct (omap_none _ _ El) as (e & He & Hd). exact (cause_in vs e IHvs He Hd Hp).
  - rewrite den_access in Hn. cbn [phi_free] in Hp. rewrite (acc_forallb phi_free) in Hp.
    cbn [expr_reads]. rewrite (acc_flat_map expr_reads).
    destruct (S v) as [A|] eqn:Ev; [|exists v; split; [left; reflexivity|exact Ev]].
    destruct (den_acc S acc) as [Is|] eqn:Ea; [discriminate|]. destruct (oacc_none _ _ _ _ Ea) as (e & He & Hd).
    destruct (cause_in _ e IHacc He Hd Hp) as (x & Hx & Hs). exists x. split; [right; exact Hx|exact Hs].
  - rewrite den_update in Hn. cbn [phi_free] in Hp. apply andb_true_iff in Hp as [Hpr Hpa]. rewrite (acc_forallb phi_free) in Hpa.
    cbn [expr_reads]. rewrite (acc_flat_map expr_reads).
    destruct (S v) as [A|] eqn:Ev; [|exists v; split; [left; reflexivity|exact Ev]].
    destruct (den_acc S acc) as [Is|] eqn:Ea.
    + destruct (den S rhe) as [R|]; [discriminate|]. destruct (IHrhe eq_refl Hpr) as (x & Hx & Hs).
      exists x. split; [right; apply in_or_app; left; exact Hx|exact Hs].
    + destruct (oacc_none _ _ _ _ Ea) as (e & He & Hd). destruct (cause_in _ e IHacc He Hd Hpa) as (x & Hx & Hs).
      exists x. split; [right; apply in_or_app; right; exact Hx|exact Hs].
  - discriminate.
Qed.
End Cause.

(* in a store reachable from a total initial store, an undenotable expression reads a
   local whose assignment has not fired yet (or holds a phi below the top) *)
Theorem den_none_reads_unassigned S0 S e :
  finit_total V c S0 -> freachable V p sem2 sem1 call_sem name_code c idom S0 S ->
  den S e = None ->
  phi_free e = false \/ exists x, In x (expr_reads e) /\ S x = None /\ assignable c x = true.
Proof.
  intros H0 Hr Hn. destruct (phi_free e) eqn:Hp; [right|left; reflexivity].
  destruct (den_none_cause S e Hn Hp) as (x & Hx & Hs).
  exists x. split; [exact Hx|]. split; [exact Hs|]. exact (freachable_keeps S0 S H0 Hr x Hs).
Qed.
End Total.

(* total initial stores exist: over valuations Z (one indeterminate, the line rho + t * delta): signals and component
   ports hold the valuation, parameters and never-assigned locals hold zeros, assignable
   locals are not assigned yet *)
Definition zline (r d t : Z) : Z := r + t * d.

Definition total_init (c : cfg) : fstore Z :=
  fun x => if assignable c x then None
           else if is_param c x then Some (fun _ _ => 0)
           else match decl_of c x with
                | Some TLocal | None => Some (fun _ _ => 0)
                | Some _ => Some (fun _ rho => rho)
                end.

(* every assigned name is a parameter or declared *)
Definition assigned_declared (c : cfg) : bool :=
  forallb (fun st => match st with
                     | SSubst _ x _ _ _ _ => is_param c x || match decl_of c x with Some _ => true | None => false end
                     | _ => true
                     end) (all_stmts (c_blocks c)).

Lemma total_init_total c : finit_total Z c (total_init c).
Proof.
  intros x Hx. unfold total_init. rewrite Hx. destruct (is_param c x); [discriminate|].
  destruct (decl_of c x) as [[]|]; discriminate.
Qed.

Lemma zline_linear p : Spec.PolyDeg.Deg Z zline p 1 (fun rho => rho).
Proof.
  intros rho delta t. cbn [Spec.PolyDeg.Dn]. unfold Spec.PolyDeg.Dd, zline. replace (_ - _) with 0 by ring. apply Zmod_0_l.
Qed.

Lemma total_init_ok c p : assigned_declared c = true -> Proofs.DegGraphProofs.finit_ok Z zline p c (total_init c).
Proof.
  intros Had x F Hx. unfold total_init in Hx. destruct (assignable c x) eqn:Ea; [discriminate|].
  destruct (is_param c x) eqn:Ep.
  - injection Hx as <-. left. split; [reflexivity|]. intros i.
    destruct (c_kind c); [apply Proofs.PolyDegProofs.Constant_Deg|..]; intros r r'; reflexivity.
  - right. unfold assignable in Ea. rewrite Ep, andb_true_r in Ea. unfold unassigned. rewrite Ep, andb_true_r.
    destruct (decl_of c x) as [t|] eqn:Ed.
    + destruct t; injection Hx as <-;
        try (left; split; [reflexivity|]; split; [eexists; split; [reflexivity|discriminate]|intros i; apply zline_linear]).
      right. cbn in Ea. rewrite Ea. split; reflexivity.
    + injection Hx as <-. right. split; [|reflexivity]. rewrite andb_true_r. apply negb_true_iff.
      destruct (existsb (defines x) (all_stmts (c_blocks c))) eqn:Ee; [|reflexivity].
      apply existsb_exists in Ee as (st & Hin & Hdef). unfold assigned_declared in Had. rewrite forallb_forall in Had.
      specialize (Had st Hin). destruct st; try discriminate Hdef. apply vname_eqb_eq in Hdef as ->.
      rewrite Ep, Ed in Had. discriminate.
Qed.
