(* The SSA construction (mirror Model.Ssa) prepends phi statements and renames.  For a
   function T of a statement that depends on its [frame] only - what is left when names
   and expressions are taken away - block i of the output carries the value of a fresh
   phi some number of times and then the values of T on block i of the input, in order.
   For all graphs, tables and outcomes of the fuelled loops. *)
From Coq Require Import ZArith NArith List Bool.
Require Import Model.Base Model.Ir Model.SsaCheck Model.Ssa Proofs.SsaNoPanic.
Import ListNotations.

(* what renaming cannot touch: a statement without its names and expressions *)
Definition frame (s : stmt) : stmt :=
  let x0 := {| vn_name := []; vn_suffix := None; vn_version := None |} in
  let e0 := ENum 0 know0 in
  match s with
  | SDecl m _ t _ => SDecl m [] t []
  | SIf m _ t f => SIf m e0 t f
  | SRet m _ => SRet m e0
  | SSubst m _ op _ sv st => SSubst m x0 op e0 sv st
  | SCeq m _ _ => SCeq m e0 e0
  | SLog m _ => SLog m []
  | SAssert m _ => SAssert m e0
  end.

Lemma ssa_stmt_frame decls env s s' env' : ssa_stmt decls env s = SOk (s', env') -> frame s' = frame s.
Proof. apply (ssa_stmt_cases decls (fun _ s s' _ => frame s' = frame s)); reflexivity. Qed.

Section Tag.
Context {A : Type} (T : stmt -> A) (pt : A).
Hypothesis T_frame : forall s, T s = T (frame s).
Hypothesis T_phi : forall v, T (phi_stmt_for v) = pt.

Definition tagged_from (b b' : block) : Prop :=
  exists k, map T (b_stmts b') = repeat pt k ++ map T (b_stmts b).

Lemma tagged_same a b b' : tagged_from a b -> map T (b_stmts b') = map T (b_stmts b) -> tagged_from a b'.
Proof. intros [k Hk] H. exists k. rewrite H. exact Hk. Qed.

Lemma ssa_stmts_tags decls : forall ss env ss' env',
  ssa_stmts decls env ss = SOk (ss', env') -> map T ss' = map T ss.
Proof.
  induction ss as [|s tl IH]; intros env ss' env' H; simpl in H; [inversion H; reflexivity|].
  sb2 H. sb2 H. inversion H; subst. simpl.
  rewrite (T_frame x), (ssa_stmt_frame _ _ _ _ _ E), <- T_frame, (IH _ _ _ E0). reflexivity.
Qed.

Lemma update_phis_tags env : forall ss, map T (update_phis env ss) = map T ss.
Proof.
  induction ss as [|s tl IH]; simpl; [reflexivity|].
  destruct (is_phi_stmt s); [|reflexivity]. simpl. rewrite IH. f_equal.
  apply (ensure_phi_arg_same T). intros. rewrite T_frame, (T_frame (SSubst _ _ _ (EPhi args' _) _ _)). reflexivity.
Qed.

(* block by block: inserted phis, then the tags of the input *)
Theorem into_ssa_tagged frontier children c c' :
  into_ssa frontier children c = SOk c' -> Forall2 tagged_from (c_blocks c) (c_blocks c').
Proof.
  intros H. apply (into_ssa_keeps (fun _ => True) tagged_from frontier children c c'); auto.
  - intros a b v _ [k Hk]. exists (S k). simpl. rewrite T_phi, Hk. reflexivity.
  - intros a b env ss env' Hab Hs. apply (tagged_same a b _ Hab). exact (ssa_stmts_tags _ _ _ _ _ Hs).
  - intros a b env Hab. apply (tagged_same a b _ Hab). apply update_phis_tags.
  - intros a b env Hab. apply (tagged_same a b _ Hab). simpl. rewrite map_map. apply map_ext. intros s.
    apply (update_decl_stmt_same T). intros. rewrite T_frame, (T_frame (SDecl _ names' _ _)). reflexivity.
  - apply forall2_refl. intros b. exists 0. reflexivity.
Qed.

(* the statements that a predicate on tags selects, phis not among them *)
Lemma tagged_filter (q : stmt -> bool) (p : A -> bool) : (forall s, q s = p (T s)) -> p pt = false ->
  forall bs bs', Forall2 tagged_from bs bs' ->
  map T (filter q (flat_map b_stmts bs')) = map T (filter q (flat_map b_stmts bs)).
Proof.
  intros Hq Hp. assert (E : forall ss, map T (filter q ss) = filter p (map T ss)).
  { induction ss as [|s ss IH]; [reflexivity|]. simpl. rewrite Hq. destruct (p (T s)); simpl; rewrite IH; reflexivity. }
  induction 1 as [|b b' tl tl' [k Hk] _ IH]; [reflexivity|].
  simpl. rewrite !filter_app, !map_app, IH, !E, Hk, filter_app. f_equal.
  clear -Hp. induction k; simpl; [reflexivity|]. rewrite Hp. exact IHk.
Qed.
End Tag.
