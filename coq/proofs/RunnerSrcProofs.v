From Coq Require Import ZArith List Bool Arith Permutation Lia.
Require Import Model.Base Gen.Category Model.Runner Model.RunnerSrc
               Spec.RunnerSpec Spec.RunnerSrcSpec Proofs.RunnerProofs.
Import ListNotations.

Lemma map_d_key_inst : forall ds l, map d_key (map (inst ds) l) = map s_key l.
Proof. intros. rewrite map_map. apply map_ext. reflexivity. Qed.

Lemma find_def_inst : forall ds l k, find_def (map (inst ds) l) k = option_map (inst ds) (find_sdef l k).
Proof.
  intros ds l k. induction l as [|a l IH]; simpl; auto.
  change (d_key (inst ds a)) with (s_key a). destruct (key_eqb k (s_key a)); auto.
Qed.

Lemma filter_user_inst : forall user ds l,
  filter (user_def_b user) (map (inst ds) l) = map (inst ds) (filter (s_user_b user) l).
Proof.
  intros user ds l. induction l as [|a l IH]; simpl; auto.
  change (user_def_b user (inst ds a)) with (s_user_b user a).
  destruct (s_user_b user a); simpl; rewrite IH; reflexivity.
Qed.

Lemma wf_inst_project : forall sp, wf_sproject sp -> wf_project (inst_project sp).
Proof. intros sp H. unfold wf_project, inst_project. simpl. rewrite map_d_key_inst. exact H. Qed.

Lemma find_sdef_In : forall ds k d, find_sdef ds k = Some d -> In d ds /\ s_key d = k.
Proof.
  intros ds k d. induction ds as [|a ds IH]; simpl; intros H; [discriminate|].
  destruct (key_eqb k (s_key a)) eqn:E.
  - inversion H; subst. apply key_eqb_eq in E. auto.
  - destruct (IH H). auto.
Qed.

Lemma find_sdef_NoDup : forall ds d, NoDup (map s_key ds) -> In d ds -> find_sdef ds (s_key d) = Some d.
Proof.
  intros ds d. induction ds as [|a ds IH]; simpl; intros Hnd Hin; [contradiction|].
  inversion Hnd as [|? ? Hnotin Hnd']; subst. destruct Hin as [->|Hin].
  - rewrite key_eqb_refl. reflexivity.
  - destruct (key_eqb (s_key d) (s_key a)) eqn:E.
    + apply key_eqb_eq in E. exfalso. apply Hnotin. rewrite <- E. apply in_map. assumption.
    + apply IH; assumption.
Qed.

Lemma find_sdef_app : forall a b k,
  find_sdef (a ++ b) k = match find_sdef a k with Some d => Some d | None => find_sdef b k end.
Proof.
  intros a b k. induction a as [|x a IH]; simpl; auto. destruct (key_eqb k (s_key x)); auto.
Qed.

Lemma find_sdef_perm : forall ds ds' k, NoDup (map s_key ds) -> Permutation ds ds' ->
  find_sdef ds k = find_sdef ds' k.
Proof.
  intros ds ds' k Hnd Hp.
  assert (Hnd' : NoDup (map s_key ds')).
  { eapply Permutation_NoDup; [|exact Hnd]. apply Permutation_map. exact Hp. }
  destruct (find_sdef ds k) as [d|] eqn:E.
  - apply find_sdef_In in E. destruct E as [Hin <-]. symmetry. apply find_sdef_NoDup; auto.
    eapply Permutation_in; eauto.
  - destruct (find_sdef ds' k) as [d'|] eqn:E'; auto.
    apply find_sdef_In in E'. destruct E' as [Hin <-].
    rewrite find_sdef_NoDup in E; [discriminate|assumption|].
    eapply Permutation_in; [apply Permutation_sym; exact Hp|exact Hin].
Qed.

Lemma answer_of_add : forall ds extra n,
  (forall x, In x extra -> s_key x <> (KTemplate, n)) ->
  answer_of (ds ++ extra) n = answer_of ds n.
Proof.
  intros ds extra n H. unfold answer_of. rewrite find_sdef_app.
  destruct (find_sdef ds (KTemplate, n)); auto.
  destruct (find_sdef extra (KTemplate, n)) as [x|] eqn:E; auto.
  apply find_sdef_In in E. destruct E as [Hin Hk]. exfalso. exact (H x Hin Hk).
Qed.

Lemma answer_of_perm : forall ds ds' n, NoDup (map s_key ds) -> Permutation ds ds' ->
  answer_of ds n = answer_of ds' n.
Proof. intros. unfold answer_of. rewrite (find_sdef_perm ds ds'); auto. Qed.

Lemma not_looked_up_key : forall d x n, ~ looks_up d x -> In n (s_refs d) -> s_key x <> (KTemplate, n).
Proof.
  intros d x n Hn Hin Hk. apply Hn. unfold s_key in Hk. inversion Hk; subst. split; auto.
Qed.

(* the findings of a definition are a function of its own source and of the
   answers to the lookups its passes make.  DEFINITIONAL: [inst] hands [s_pass]
   nothing but [map (answer_of ds) (s_refs d)]; this is the interface of
   Model.RunnerSrc restated, a lemma for what follows and not a property theorem
   (the assumption it restates is evaluated by check (3) of lib/props/C17.py). *)
Lemma findings_function_of_answers : forall ds1 ds2 d,
  same_answers ds1 ds2 d -> findings ds1 d = findings ds2 d.
Proof.
  intros ds1 ds2 d H. unfold findings, produced_def, inst. simpl.
  rewrite (map_ext_in (answer_of ds1) (answer_of ds2) (s_refs d) H). reflexivity.
Qed.

Theorem findings_unchanged_by_unreferenced : forall ds extra d,
  (forall x, In x extra -> ~ looks_up d x) ->
  findings (ds ++ extra) d = findings ds d.
Proof.
  intros ds extra d H. apply findings_function_of_answers. intros n Hn.
  apply answer_of_add. intros x Hx. eapply not_looked_up_key; eauto.
Qed.

Lemma not_reached_not_looked_up : forall ds d x, In x ds -> ~ reaches ds d x -> ~ looks_up d x.
Proof. intros ds d x Hin Hn Hl. apply Hn. apply reach_step; assumption. Qed.

(* weaker than the previous statement (a definition outside the transitive lookup
   set is in particular not looked up directly): a lemma, not an obligation *)
Lemma findings_unchanged_outside_transitive_lookups : forall ds extra d,
  (forall x, In x extra -> ~ reaches (ds ++ extra) d x) ->
  findings (ds ++ extra) d = findings ds d.
Proof.
  intros ds extra d H. apply findings_unchanged_by_unreferenced. intros x Hx.
  eapply not_reached_not_looked_up; [|apply H; exact Hx]. apply in_or_app. right. exact Hx.
Qed.

Theorem findings_unchanged_by_reordering : forall ds ds' d,
  NoDup (map s_key ds) -> Permutation ds ds' -> findings ds d = findings ds' d.
Proof.
  intros ds ds' d Hnd Hp. apply findings_function_of_answers. intros n _. apply answer_of_perm; auto.
Qed.

Lemma lifts_inst : forall ds n, lifts (map (inst ds) ds) (KTemplate, n) <-> answer_of ds n <> None.
Proof.
  intros ds n. unfold lifts, answer_of. rewrite find_def_inst. split.
  - intros [d [Hf He]]. destruct (find_sdef ds (KTemplate, n)) as [x|]; simpl in Hf; [|discriminate].
    inversion Hf; subst. simpl in He. rewrite He. discriminate.
  - intros H. destruct (find_sdef ds (KTemplate, n)) as [x|]; [|contradiction].
    destruct (s_err x) eqn:E; [contradiction|]. exists (inst ds x). split; auto.
Qed.

Theorem runner_answer_is_source_answer : forall ds P s n,
  Inv (map (inst ds) ds) P s ->
  (snd (cache (map (inst ds) ds) (KTemplate, n) s) = true <-> answer_of ds n <> None).
Proof.
  intros ds P s n HI. rewrite <- lifts_inst. eapply cache_result. exact HI.
Qed.

(* ---- what analysing one definition displays, in any state the runner can be in - *)

Lemma skipn_length_app : forall (A : Type) (l l' : list A), skipn (length l) (l ++ l') = l'.
Proof. intros A l l'. induction l; simpl; auto. Qed.

Theorem shown_by_analysis_is_findings : forall ds o user (P : key -> Prop) s k d,
  Inv (map (inst ds) ds) P s -> P k -> find_sdef ds k = Some d ->
  shown_by (map (inst ds) ds) o user s k = filter (passes_filters o user) (findings ds d).
Proof.
  intros ds o user P s k d HI Pk Hf.
  assert (Hd : find_def (map (inst ds) ds) k = Some (inst ds d)) by (rewrite find_def_inst, Hf; reflexivity).
  destruct (analyze_spec _ o user P s k _ HI Pk Hd) as [A _].
  unfold shown_by. rewrite A. apply skipn_length_app.
Qed.

(* in a run of main: whatever was analysed (and looked up) before *)
Theorem definition_findings_in_any_run : forall sp o pre k post d,
  wf_sproject sp -> analysis_order (inst_project sp) (pre ++ k :: post) ->
  find_sdef (sp_defs sp) k = Some d ->
  let ds := p_defs (inst_project sp) in
  let s0 := write_reports o (sp_user sp) (sp_parse sp) init in
  shown_by ds o (sp_user sp) (fold_left (analyze ds o (sp_user sp)) pre s0) k
  = filter (passes_filters o (sp_user sp)) (findings (sp_defs sp) d).
Proof.
  intros sp o pre k post d Hwf Hord Hf ds s0.
  destruct (analysis_order_ok _ _ (wf_inst_project sp Hwf) Hord) as [Hnd Hdef].
  destruct (fold_analyze_spec ds o (sp_user sp) pre (k :: post) s0 Hnd) as (_ & _ & HI).
  - intros x Hx. apply Hdef. apply in_or_app. left. exact Hx.
  - apply (Inv_same_caches _ _ init); [split; reflexivity|apply Inv_init].
  - eapply shown_by_analysis_is_findings; [exact HI | left; reflexivity | exact Hf].
Qed.

Lemma produced_inst_project : forall sp,
  produced (inst_project sp) =
  sp_parse sp ++ flat_map (findings (sp_defs sp)) (s_user_defs sp).
Proof.
  intros sp. unfold produced, user_defs, inst_project, s_user_defs. simpl.
  rewrite filter_user_inst, flat_map_concat_map, map_map, <- flat_map_concat_map. reflexivity.
Qed.

Theorem unreferenced_definitions_irrelevant_src : forall sp extra o order order',
  wf_sproject (sadd sp extra) ->
  analysis_order (inst_project sp) order -> analysis_order (inst_project (sadd sp extra)) order' ->
  (forall d x, In d (s_user_defs sp) -> In x extra -> ~ looks_up d x) ->
  Permutation (res_shown (run_src (sadd sp extra) o order'))
              (res_shown (run_src sp o order)
               ++ filter (keep_b o (sp_user sp))
                    (flat_map (findings (sp_defs sp ++ extra)) (filter (s_user_b (sp_user sp)) extra))).
Proof.
  intros sp extra o order order' Hwf' Hord Hord' Hun.
  assert (Hwf : wf_sproject sp).
  { unfold wf_sproject, sadd in *. simpl in Hwf'. rewrite map_app in Hwf'. eapply NoDup_app_l. exact Hwf'. }
  unfold run_src.
  eapply Permutation_trans. apply conservation; auto using wf_inst_project.
  eapply Permutation_trans.
  2: { apply Permutation_app_tail. apply Permutation_sym. apply conservation; auto using wf_inst_project. }
  rewrite !produced_inst_project. unfold s_user_defs, sadd. simpl.
  rewrite (filter_app (s_user_b (sp_user sp)) (sp_defs sp) extra), flat_map_app.
  rewrite (flat_map_ext_in _ _ (findings (sp_defs sp ++ extra)) (findings (sp_defs sp))
             (filter (s_user_b (sp_user sp)) (sp_defs sp))).
  - rewrite app_assoc, (filter_app (keep_b o (sp_user sp))). apply Permutation_refl.
  - intros d Hd. apply findings_unchanged_by_unreferenced. intros x Hx. apply Hun; auto.
Qed.

Corollary included_unreferenced_definitions_irrelevant : forall sp extra o order,
  wf_sproject (sadd sp extra) -> analysis_order (inst_project sp) order ->
  (forall x, In x extra -> s_user_b (sp_user sp) x = false) ->
  (forall d x, In d (s_user_defs sp) -> In x extra -> ~ looks_up d x) ->
  analysis_order (inst_project (sadd sp extra)) order /\
  Permutation (res_shown (run_src (sadd sp extra) o order)) (res_shown (run_src sp o order)).
Proof.
  intros sp extra o order Hwf' Hord Hnu Hun.
  pose proof (filter_nil _ _ extra Hnu) as Hf.
  assert (Hord' : analysis_order (inst_project (sadd sp extra)) order).
  { unfold analysis_order, user_defs, inst_project, sadd in *. simpl in *.
    rewrite filter_user_inst, map_d_key_inst in *. rewrite filter_app, Hf, app_nil_r. exact Hord. }
  split; auto.
  eapply Permutation_trans. apply (unreferenced_definitions_irrelevant_src sp extra o order order); auto.
  rewrite Hf. simpl. rewrite app_nil_r. apply Permutation_refl.
Qed.

(* the maps enumerated in another order (definitions of a file reordered) *)
Theorem definitions_reordered : forall sp ds' o order order',
  wf_sproject sp -> Permutation (sp_defs sp) ds' ->
  analysis_order (inst_project sp) order -> analysis_order (inst_project (swith sp ds')) order' ->
  Permutation (res_shown (run_src sp o order)) (res_shown (run_src (swith sp ds') o order')) /\
  res_exit (run_src sp o order) = res_exit (run_src (swith sp ds') o order').
Proof.
  intros sp ds' o order order' Hwf Hp Hord Hord'.
  assert (Hwf' : wf_sproject (swith sp ds')).
  { unfold wf_sproject, swith. simpl. rewrite <- Hp. exact Hwf. }
  apply same_findings_same_display; auto using wf_inst_project.
  rewrite !produced_inst_project. unfold swith, s_user_defs. simpl. apply Permutation_app_head.
  rewrite (flat_map_ext_in _ _ (findings (sp_defs sp)) (findings ds') (filter (s_user_b (sp_user sp)) (sp_defs sp))).
  - apply Permutation_flat_map, Permutation_filter', Hp.
  - intros d _. apply findings_unchanged_by_reordering; auto.
Qed.

Definition w_report : report := mkReport Warning 21 21 [0%Z] 500.
(* U instantiates T without using its output: unused_output_signal reports iff the lookup of T
   answers Ok with at least one output signal *)
Definition w_U : sdef :=
  mkSDef KTemplate 2 0 [] None [(7%Z, 0%nat)] [1%Z]
         (fun a => match a with [Some (_ :: _)] => [w_report] | _ => [] end).
(* T lives in an included file (1 is not a user input) and has one output signal *)
Definition w_T : sdef := mkSDef KTemplate 1 1 [] None [(9%Z, 0%nat)] [] (fun _ => []).
Definition w_sp : sproject := mkSProject [] [w_U] [0%Z].
Definition w_opts : opts := mkOpts Info [] false false.

Theorem referenced_definition_matters :
  exists sp extra o order,
    wf_sproject (sadd sp extra) /\
    analysis_order (inst_project sp) order /\ analysis_order (inst_project (sadd sp extra)) order /\
    (forall x, In x extra -> s_user_b (sp_user sp) x = false) /\
    (exists d x, In d (s_user_defs sp) /\ In x extra /\ looks_up d x) /\
    ~ Permutation (res_shown (run_src (sadd sp extra) o order))
                  (res_shown (run_src sp o order)
                   ++ filter (keep_b o (sp_user sp))
                        (flat_map (findings (sp_defs sp ++ extra)) (filter (s_user_b (sp_user sp)) extra))).
Proof.
  exists w_sp, [w_T], w_opts, [(KTemplate, 2%Z)].
  split. { unfold wf_sproject. simpl. repeat constructor; simpl; intuition discriminate. }
  split. { vm_compute. apply Permutation_refl. }
  split. { vm_compute. apply Permutation_refl. }
  split. { intros x [<-|[]]. reflexivity. }
  split. { exists w_U, w_T. split. left; reflexivity. split. left; reflexivity. split. reflexivity. left; reflexivity. }
  vm_compute. intro H. apply Permutation_length in H. discriminate.
Qed.
