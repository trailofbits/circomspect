(* The CS0009 finding says what the value claim says, and (on a graph accepted by
   the verified validator) what it says is true in every reachable state. *)
From Coq Require Import ZArith List Bool String Znumtheory Lia.
Require Import Model.Base Model.Field Model.Ir Model.Justify Model.ConstCond.
Require Import Spec.ValueSem Proofs.ValueProofs.
Import ListNotations.

Local Open Scope N_scope.

Lemma cc_stmt_spec s b : cc_stmt s = Some b <-> exists m e t f, s = SIf m e t f /\ expr_val e = Some (VBool b).
Proof.
  split.
  - destruct s; try discriminate. cbn. destruct (expr_val c) as [[]|] eqn:Hv; try discriminate. intros [= ->]. eauto 6.
  - intros (m & e & t & f & -> & Hv). cbn. rewrite Hv. reflexivity.
Qed.

Lemma cc_stmts_spec ss : forall bi si0 i b,
  In (bi, i, b) (cc_stmts bi si0 ss) <->
  exists k m e t f, i = si0 + N.of_nat k /\ nth_error ss k = Some (SIf m e t f) /\ expr_val e = Some (VBool b).
Proof.
  induction ss as [|s rest IH]; intros bi si0 i b; cbn [cc_stmts].
  - split; [intros []|]. intros (k & m & e & t & f & _ & Hn & _). destruct k; discriminate.
  - (* the head is reported iff it is such an if statement; the tail by induction *)
    assert (Hhd : In (bi, i, b) (match cc_stmt s with Some b' => (bi, si0, b') :: cc_stmts bi (si0 + 1) rest | None => cc_stmts bi (si0 + 1) rest end) <->
                  (i = si0 /\ cc_stmt s = Some b) \/ In (bi, i, b) (cc_stmts bi (si0 + 1) rest)).
    { destruct (cc_stmt s) as [b'|]; cbn [In]; [|split; [auto|intros [[_ [=]]|H]; exact H]].
      split; (intros [H|H]; [left|right; exact H]); [injection H as <- <-; auto|destruct H as [-> [= ->]]; reflexivity]. }
    rewrite Hhd, IH, cc_stmt_spec. split.
    + intros [(-> & m & e & t & f & -> & Hv)|(k & m & e & t & f & -> & Hn & Hv)].
      * exists 0%nat, m, e, t, f. split; [lia|auto].
      * exists (S k), m, e, t, f. split; [lia|auto].
    + intros (k & m & e & t & f & -> & Hn & Hv). destruct k as [|k].
      * left. injection Hn as ->. split; [lia|eauto 6].
      * right. exists k, m, e, t, f. split; [lia|auto].
Qed.

Lemma cc_stmts_block ss : forall bi bi' si i b, In (bi', i, b) (cc_stmts bi si ss) -> bi' = bi.
Proof.
  induction ss as [|s r IH]; intros bi bi' si i b; cbn [cc_stmts]; [intros []|].
  destruct (cc_stmt s).
  - intros [H|H]; [congruence|eapply IH; exact H].
  - intros H. eapply IH; exact H.
Qed.

(* exactness: the reported positions are exactly the if statements whose condition
   carries a boolean claim, with that boolean *)
Theorem find_constant_conditional_exact c bi i b :
  In (bi, i, b) (find_constant_conditional c) <->
  exists blk k m e t f, In blk (c_blocks c) /\ b_index blk = bi /\ i = N.of_nat k /\
                        nth_error (b_stmts blk) k = Some (SIf m e t f) /\ expr_val e = Some (VBool b).
Proof.
  unfold find_constant_conditional. rewrite in_flat_map. split.
  - intros (blk & Hb & Hin).
    assert (b_index blk = bi) as Hbi by (symmetry; eapply cc_stmts_block; exact Hin).
    rewrite Hbi in Hin. apply cc_stmts_spec in Hin as (k & m & e & t & f & Hi & Hn & Hv).
    exists blk, k, m, e, t, f. repeat split; auto; lia.
  - intros (blk & k & m & e & t & f & Hb & Hbi & Hi & Hn & Hv). exists blk. split; [exact Hb|].
    rewrite Hbi. apply cc_stmts_spec. exists k, m, e, t, f. repeat split; auto; lia.
Qed.

(* the label text states the claimed boolean *)
Lemma cc_label_message_true b : cc_label_message b = "This condition is always true."%string <-> b = true.
Proof. destruct b; cbn; split; intros; congruence. Qed.
Lemma cc_label_message_false b : cc_label_message b = "This condition is always false."%string <-> b = false.
Proof. destruct b; cbn; split; intros; congruence. Qed.

Local Open Scope Z_scope.

(* soundness of the finding: on a validated graph, the reported condition never
   evaluates to the other truth value, in any reachable state *)
Theorem constant_condition_finding_true p c s0 s bi i b :
  prime p -> 2 < p -> Z.log2 p < 2 ^ 64 ->
  vjust_cfg p c = true ->
  init_ok (all_stmts (c_blocks c)) p s0 -> reachable (all_stmts (c_blocks c)) p s0 s ->
  In (bi, i, b) (find_constant_conditional c) ->
  exists blk k m e t f, In blk (c_blocks c) /\ b_index blk = bi /\ i = N.of_nat k /\
                        nth_error (b_stmts blk) k = Some (SIf m e t f) /\
                        forall v, evalR p s e v -> (v <> 0 <-> b = true).
Proof.
  intros Hprime Hp Hlog Hv Hi Hr Hin.
  apply find_constant_conditional_exact in Hin as (blk & k & m & e & t & f & Hb & Hbi & Hik & Hn & Hval).
  exists blk, k, m, e, t, f. split; [exact Hb|]. split; [exact Hbi|]. split; [exact Hik|]. split; [exact Hn|].
  intros v Hev.
  exact (constant_condition_claim_true p c s0 s e v b Hprime Hp Hlog Hv Hi Hr (cond_occurs c blk m e t f Hb (nth_error_In _ _ Hn)) Hev Hval).
Qed.
