(* Proofs for C09 about Model.BranchRegion (the mirror of Cfg::get_successors / get_interval /
   get_true_branch / get_false_branch): the `while !update.is_subset(&result)` loops never run out
   of the fuel the model gives them, on any block list; what they return is characterised with
   paths only; on a closed graph whose dominator tree the C15 mirror computes, the table of branch
   regions exists and holds, for a block that ends in a branch, the blocks of its two branches. *)
From Coq Require Import ZArith NArith List Bool Relations Lia.
Require Import Model.Base Model.Ir Model.VarUse Model.Taint Model.SideEffect Model.BranchRegion Proofs.TaintProofs Proofs.SideEffectProofs.
Require Model.Dom.
Import ListNotations.

(* index -> successor / predecessor, as the blocks list them *)
Definition sedge (bs : list block) (a b : N) : Prop := exists blk, In blk bs /\ b_index blk = a /\ In b (b_succs blk).
Definition pedge (bs : list block) (a b : N) : Prop := exists blk, In blk bs /\ b_index blk = a /\ In b (b_preds blk).

Lemma block_edges_In (f : block -> list N) bs u v :
  In (u, v) (flat_map (fun b => map (fun s => (b_index b, s)) (f b)) bs) <->
  exists blk, In blk bs /\ b_index blk = u /\ In v (f blk).
Proof.
  rewrite in_flat_map. split.
  - intros [blk [Hblk H]]. apply in_map_iff in H. destruct H as [s [Heq Hs]]. injection Heq as <- <-.
    exists blk. repeat split; assumption.
  - intros [blk [Hblk [<- Hv]]]. exists blk. split; [assumption|]. apply in_map_iff. exists v. split; [reflexivity | assumption].
Qed.

Lemma succ_edges_In bs u v : In (u, v) (succ_edges bs) <-> sedge bs u v.
Proof. apply block_edges_In. Qed.

Lemma pred_edges_In bs u v : In (u, v) (pred_edges bs) <-> pedge bs u v.
Proof. apply block_edges_In. Qed.

Lemma reach_total m x : exists r, reach m x = Ok r.
Proof. apply fuel_suffices_refl. apply N.eqb_eq. Qed.

Lemma reach_exact m (E : N -> N -> Prop) x r : (forall u v, In (u, v) m <-> E u v) ->
  reach m x = Ok r -> forall y, In y r <-> clos_refl_trans N E x y.
Proof.
  intros HE H y. unfold reach in H. rewrite (closure_exact_refl N N.eqb N.eqb_eq _ _ _ H y).
  split; apply clos_rt_mono; intros u v Huv; apply HE; exact Huv.
Qed.

Lemma get_successors_total bs x : exists r, get_successors bs x = Ok r.
Proof. unfold get_successors. destruct (reach_total (succ_edges bs) x) as [r ->]. eexists. reflexivity. Qed.

Theorem get_successors_exact bs x r :
  get_successors bs x = Ok r -> forall y, In y r <-> clos_refl_trans N (sedge bs) x y /\ y <> x.
Proof.
  unfold get_successors. intros H y. apply bind_ok in H. destruct H as [r0 [Hr0 H]]. injection H as <-.
  rewrite filter_In, negb_true_iff, N.eqb_neq, (reach_exact _ _ _ _ (succ_edges_In bs) Hr0 y). tauto.
Qed.

Lemma get_interval_total bs s e : exists r, get_interval bs s e = Ok r.
Proof.
  unfold get_interval. destruct (reach_total (succ_edges bs) s) as [r1 ->], (reach_total (pred_edges bs) e) as [r2 ->].
  eexists. reflexivity.
Qed.

Theorem get_interval_exact bs s e r :
  get_interval bs s e = Ok r ->
  forall y, In y r <-> clos_refl_trans N (sedge bs) s y /\ clos_refl_trans N (pedge bs) e y /\ y <> e.
Proof.
  unfold get_interval. intros H y.
  apply bind_ok in H. destruct H as [su [Hsu H]]. apply bind_ok in H. destruct H as [pr [Hpr H]]. injection H as <-.
  unfold nmem. rewrite filter_In, nmem_In, filter_In, negb_true_iff, N.eqb_neq,
    (reach_exact _ _ _ _ (succ_edges_In bs) Hsu y), (reach_exact _ _ _ _ (pred_edges_In bs) Hpr y). tauto.
Qed.

Lemma mapM_o_total {A B} (f : A -> outcome B) l : (forall x, exists y, f x = Ok y) -> exists ys, mapM_o f l = Ok ys.
Proof.
  intro H. induction l as [|x r [ys IH]]; [exists []; reflexivity|].
  destruct (H x) as [y Hy]. exists (y :: ys). cbn [mapM_o]. rewrite Hy. cbn [bind]. rewrite IH. reflexivity.
Qed.

(* [mapM_o] is [SideEffect.mapM] under another name *)
Lemma mapM_o_In {A B} (f : A -> outcome B) l ys :
  mapM_o f l = Ok ys -> forall y, In y ys <-> exists x, In x l /\ f x = Ok y.
Proof.
  intros H y. split; [apply (mapM_Ok_In_rev f l ys H)|].
  intros [x [Hx Hf]]. destruct (mapM_Ok_In f l ys H x Hx) as [y' [Hy' Hin]]. congruence.
Qed.

Lemma branch_from_total bs t start : exists r, branch_from bs t start = Ok r.
Proof.
  unfold branch_from. destruct (frontier_of t start) as [|e0 es].
  - destruct (get_successors_total bs start) as [r ->]. eexists. reflexivity.
  - destruct (mapM_o_total (get_interval bs start) (e0 :: es)) as [l Hl]; [intro x; apply get_interval_total|].
    rewrite Hl. eexists. reflexivity.
Qed.

(* the blocks of a branch that starts at [start]: everything reachable when the frontier of the start block is
   empty, else the union of the intervals to the blocks of the frontier *)
Theorem branch_from_exact bs t start r :
  branch_from bs t start = Ok r ->
  forall y, In y r <->
    (frontier_of t start = [] /\ clos_refl_trans N (sedge bs) start y) \/
    (exists e, In e (frontier_of t start) /\
               clos_refl_trans N (sedge bs) start y /\ clos_refl_trans N (pedge bs) e y /\ y <> e).
Proof.
  unfold branch_from. intros H y. destruct (frontier_of t start) as [|e0 es] eqn:Hf.
  - apply bind_ok in H. destruct H as [r0 [Hr0 H]]. injection H as <-.
    rewrite in_app_iff, (get_successors_exact bs start r0 Hr0 y). cbn [In]. split.
    + intros [[Hr _]|[<-|[]]]; left; (split; [reflexivity|]); [assumption | apply rt_refl].
    + intros [[_ Hr]|[e [[] _]]]. destruct (N.eq_dec y start) as [->|Hne]; [right; left; reflexivity | left; split; assumption].
  - apply bind_ok in H. destruct H as [l [Hl H]]. injection H as <-.
    rewrite in_concat. split.
    + intros [iv [Hiv Hy]]. apply (mapM_o_In _ _ _ Hl) in Hiv. destruct Hiv as [e [He Hiv]].
      right. exists e. split; [assumption|]. apply (get_interval_exact bs start e iv Hiv y). assumption.
    + intros [[Hnil _]|[e [He Hy]]]; [discriminate|].
      destruct (get_interval_total bs start e) as [iv Hiv]. exists iv. split.
      * apply (mapM_o_In _ _ _ Hl). exists e. split; assumption.
      * apply (get_interval_exact bs start e iv Hiv y). assumption.
Qed.

Lemma true_branch_total bs t ti : exists r, true_branch bs t ti = Ok r.
Proof. apply branch_from_total. Qed.
Lemma false_branch_total bs t ti fi : exists r, false_branch bs t ti fi = Ok r.
Proof.
  unfold false_branch. destruct fi as [f|]; [|eexists; reflexivity].
  destruct (nmem f (frontier_of t ti)); [eexists; reflexivity | apply branch_from_total].
Qed.

Lemma ninsert_In x l y : In y (ninsert x l) <-> y = x \/ In y l.
Proof.
  assert (E : y = x <-> x = y) by (split; congruence). rewrite E.
  induction l as [|z r IH]; cbn [ninsert]; [reflexivity|].
  destruct (N.compare x z) eqn:C; cbn [In]; [|reflexivity|rewrite IH; tauto].
  apply N.compare_eq in C. subst z. tauto.
Qed.
Lemma ncanon_In l y : In y (ncanon l) <-> In y l.
Proof.
  unfold ncanon. induction l as [|x r IH]; cbn [fold_right]; [reflexivity|].
  rewrite ninsert_In, IH. cbn [In]. split; (intros [E|H]; [left; congruence|right; exact H]).
Qed.

(* block k has index k: indices are distinct *)
Lemma indices_from_ge k bs : indices_from k bs = true -> forall b, In b bs -> (k <= b_index b)%N.
Proof.
  revert k. induction bs as [|b0 r IH]; intros k H b Hb; [destruct Hb|].
  cbn [indices_from] in H. apply andb_true_iff in H. destruct H as [H0 Hr]. apply N.eqb_eq in H0.
  destruct Hb as [<-|Hb]; [lia|]. specialize (IH _ Hr b Hb). lia.
Qed.
Lemma indices_from_nodup k bs : indices_from k bs = true -> NoDup (map b_index bs).
Proof.
  revert k. induction bs as [|b0 r IH]; intros k H; [constructor|].
  cbn [indices_from] in H. apply andb_true_iff in H. destruct H as [H0 Hr]. apply N.eqb_eq in H0.
  cbn [map]. constructor; [|eapply IH; eassumption].
  intro Hin. apply in_map_iff in Hin. destruct Hin as [b [Hb Hin]].
  pose proof (indices_from_ge _ _ Hr b Hin). lia.
Qed.
Lemma graph_closed_nodup bs : graph_closed bs = true -> NoDup (map b_index bs).
Proof. unfold graph_closed. intro H. apply andb_true_iff in H. destruct H as [H _]. eapply indices_from_nodup; eassumption. Qed.

Definition region_entry (bs : list block) (t : Dom.dom_tree) (b : block) : outcome branches :=
  match last_if b with
  | None => Ok []
  | Some (ti, fi) =>
    tb <- true_branch bs t ti ;;
    fb <- false_branch bs t ti fi ;;
    Ok [(b_index b, (ncanon tb, ncanon fb))]
  end.

Lemma branches_of_unfold g br :
  branches_of g = Ok br ->
  graph_closed (c_blocks g) = true /\
  exists t l, Dom.dominator_tree (Dom.dom_fuel (dom_graph (c_blocks g))) Dom.id_order (dom_graph (c_blocks g)) = Ok t /\
              mapM_o (region_entry (c_blocks g) t) (c_blocks g) = Ok l /\ br = concat l.
Proof.
  unfold branches_of. intro H. destruct (graph_closed (c_blocks g)); [|discriminate]. cbn [negb] in H.
  split; [reflexivity|].
  apply bind_ok in H. destruct H as [t [Ht H]]. apply bind_ok in H. destruct H as [l [Hl H]]. injection H as <-.
  exists t, l. repeat split; assumption.
Qed.

Theorem branches_of_total g t :
  graph_closed (c_blocks g) = true ->
  Dom.dominator_tree (Dom.dom_fuel (dom_graph (c_blocks g))) Dom.id_order (dom_graph (c_blocks g)) = Ok t ->
  exists br, branches_of g = Ok br.
Proof.
  intros Hc Ht. unfold branches_of. rewrite Hc. cbn [negb]. rewrite Ht. cbn [bind].
  destruct (mapM_o_total (region_entry (c_blocks g) t) (c_blocks g)) as [l Hl].
  - intro b. unfold region_entry. destruct (last_if b) as [[ti fi]|]; [|eexists; reflexivity].
    destruct (true_branch_total (c_blocks g) t ti) as [tb ->], (false_branch_total (c_blocks g) t ti fi) as [fb ->].
    eexists. reflexivity.
  - exists (concat l). unfold region_entry in Hl. rewrite Hl. reflexivity.
Qed.

Lemma find_entry (F : block -> outcome branches) bs :
  (forall b, In b bs -> forall e, F b = Ok e -> e = [] \/ exists v, e = [(b_index b, v)]) ->
  NoDup (map b_index bs) ->
  forall l, mapM_o F bs = Ok l ->
  forall b v, In b bs -> F b = Ok [(b_index b, v)] ->
  find (fun e => N.eqb (fst e) (b_index b)) (concat l) = Some (b_index b, v).
Proof.
  induction bs as [|b0 r IH]; intros Hshape Hnd l Hl b v Hb Hv; [destruct Hb|].
  cbn [mapM_o] in Hl. apply bind_ok in Hl. destruct Hl as [e0 [He0 Hl]]. apply bind_ok in Hl. destruct Hl as [l' [Hl' Hl]].
  injection Hl as <-. cbn [concat]. cbn [map] in Hnd. inversion Hnd as [|? ? Hn Hr]; subst.
  destruct Hb as [<-|Hb].
  - rewrite Hv in He0. injection He0 as <-. cbn [app find fst]. rewrite N.eqb_refl. reflexivity.
  - assert (Hne : b_index b0 <> b_index b).
    { intro E. apply Hn. rewrite E. apply in_map. assumption. }
    destruct (Hshape b0 (or_introl eq_refl) e0 He0) as [->|[v0 ->]]; cbn [app find fst].
    + apply IH; try assumption. intros b' Hb'. apply Hshape. right. assumption.
    + apply N.eqb_neq in Hne. rewrite Hne. apply IH; try assumption. intros b' Hb'. apply Hshape. right. assumption.
Qed.

Theorem branches_of_entry g br :
  branches_of g = Ok br ->
  exists t, Dom.dominator_tree (Dom.dom_fuel (dom_graph (c_blocks g))) Dom.id_order (dom_graph (c_blocks g)) = Ok t /\
  forall b ti fi, In b (c_blocks g) -> last_if b = Some (ti, fi) ->
    exists tb fb, true_branch (c_blocks g) t ti = Ok tb /\ false_branch (c_blocks g) t ti fi = Ok fb /\
                  forall y, In y (branch_blocks br (b_index b)) <-> In y tb \/ In y fb.
Proof.
  intro H. destruct (branches_of_unfold g br H) as [Hc (t & l & Ht & Hl & ->)].
  exists t. split; [assumption|]. intros b ti fi Hb Hlast.
  destruct (true_branch_total (c_blocks g) t ti) as [tb Htb], (false_branch_total (c_blocks g) t ti fi) as [fb Hfb].
  exists tb, fb. split; [assumption|]. split; [assumption|].
  assert (Hf : find (fun e => N.eqb (fst e) (b_index b)) (concat l) = Some (b_index b, (ncanon tb, ncanon fb))).
  { apply (find_entry (region_entry (c_blocks g) t) (c_blocks g)); try assumption.
    - intros b' _ e He. unfold region_entry in He. destruct (last_if b') as [[ti' fi']|]; [|injection He as <-; left; reflexivity].
      apply bind_ok in He. destruct He as [tb' [_ He]]. apply bind_ok in He. destruct He as [fb' [_ He]]. injection He as <-.
      right. eexists. reflexivity.
    - apply graph_closed_nodup. assumption.
    - unfold region_entry. rewrite Hlast, Htb. cbn [bind]. rewrite Hfb. reflexivity. }
  intro y. unfold branch_blocks. rewrite Hf. rewrite in_app_iff, !ncanon_In. reflexivity.
Qed.
