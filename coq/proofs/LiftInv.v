(* The invariant of lifting (C12): what complete_basic_block and the back-edge
   loop do to the blocks, the well-formedness of a graph under construction
   ([wf], with the set of blocks that still wait for their exit edge), how
   single blocks keep it, and the monotone evolution of the graph ([gext]). *)
From stdpp Require Import list sets.
Require Import Model.Lift Spec.CfgSpec Proofs.LiftBasics.
Import Base(outcome, Ok, Err, Panic, OutOfFuel, bind).

Definition close (j : nat) (b : block) : block := patch_false j (add_succ j b).

Definition add_preds (ps : list nat) (b : block) : block :=
  fold_left (fun b i => add_pred i b) ps b.

Lemma add_preds_eq ps b :
  add_preds ps b = Block (b_index b) (b_depth b) (b_items b) (iunion (b_preds b) ps) (b_succs b).
Proof.
  unfold add_preds, iunion. revert b. induction ps as [|i r IH]; intros b; simpl; [by destruct b|].
  by rewrite IH.
Qed.

Lemma link_ok j g i :
  i < length g -> j < length g -> i <> j ->
  link j (Ok g) i = Ok (alter (add_pred i) j (alter (close j) i g)).
Proof.
  intros Hi Hj Hne. unfold link. simpl.
  rewrite upd_ok by done. simpl.
  rewrite upd_ok by (by rewrite alter_length). simpl.
  rewrite upd_ok by (by rewrite !alter_length). f_equal.
  apply list_eq. intros k. rewrite !lookup_alter_case.
  repeat case_decide; subst; try done; destruct (g !! k); done.
Qed.

Lemma back_edge_ok h g i :
  i < length g -> h < length g ->
  back_edge h (Ok g) i = Ok (alter (add_pred i) h (alter (add_succ h) i g)).
Proof.
  intros Hi Hh. unfold back_edge. simpl.
  rewrite upd_ok by done. simpl. rewrite upd_ok by (by rewrite alter_length). done.
Qed.

(* g' is g with fb applied to the blocks of ps, and these added as predecessors of block t *)
Definition alters (fb : block -> block) (g : graph) (t : nat) (ps : list nat) (g' : graph) : Prop :=
  length g' = length g /\
  forall i b, g !! i = Some b ->
    g' !! i = Some (if decide (i = t) then add_preds ps b
                    else if decide (i ∈ ps) then fb b else b).

(* both loops over a set of blocks do that *)
Lemma edges_fold (step : outcome graph -> nat -> outcome graph) (fb : block -> block) t ps :
  (forall g i, i < length g -> t < length g -> i <> t ->
     step (Ok g) i = Ok (alter (add_pred i) t (alter fb i g))) ->
  forall g, t < length g -> (forall i, i ∈ ps -> i < length g /\ i <> t) -> NoDup ps ->
  exists g', fold_left step ps (Ok g) = Ok g' /\ alters fb g t ps g'.
Proof.
  intros Hstep. induction ps as [|i r IH]; intros g Ht Hps Hnd; cbn [fold_left].
  - exists g. split; [done|]. split; [done|]. intros i b Hb.
    rewrite (decide_False (P := i ∈ [])) by apply not_elem_of_nil. by case_decide.
  - destruct (Hps i) as [Hi Hit]; [apply elem_of_list_here|].
    rewrite Hstep by done.
    apply NoDup_cons in Hnd as [Hni Hnd].
    destruct (IH (alter (add_pred i) t (alter fb i g))) as (g' & Hf & Hlen & Hlk).
    { by rewrite !alter_length. }
    { intros k Hk. rewrite !alter_length. apply Hps. by apply elem_of_list_further. }
    { done. }
    exists g'. split; [done|]. split; [by rewrite Hlen, !alter_length|].
    intros k b Hb. specialize (Hlk k). rewrite !lookup_alter_case, Hb in Hlk.
    destruct (decide (k = t)) as [->|Hkt].
    + rewrite (decide_True (P := t = t)), (decide_False (P := i = t)) in Hlk by done.
      rewrite (Hlk _ eq_refl). done.
    + rewrite (decide_False (P := t = k)) in Hlk by done.
      destruct (decide (i = k)) as [->|Hik].
      * rewrite (Hlk _ eq_refl).
        rewrite (decide_False (P := k ∈ r)) by done.
        rewrite (decide_True (P := k ∈ k :: r)) by apply elem_of_list_here. done.
      * rewrite (Hlk _ eq_refl). f_equal. apply decide_ext. rewrite elem_of_cons. naive_solver.
Qed.

(* complete_basic_block: a new empty block, towards which the blocks of ps are closed *)
Lemma complete_alters g ps d :
  (forall i, i ∈ ps -> i < length g) -> NoDup ps ->
  exists g', complete g ps d = Ok g' /\
    alters (close (length g)) (g ++ [new_block (length g) d]) (length g) ps g'.
Proof.
  intros Hlt Hnd. apply (edges_fold (link (length g)) _ _ _ (link_ok (length g))); [..|done].
  - rewrite app_length. simpl. lia.
  - intros i Hi. specialize (Hlt _ Hi). rewrite app_length. simpl. lia.
Qed.

Lemma complete_spec g ps d :
  (forall i, i ∈ ps -> i < length g) -> NoDup ps ->
  exists h nb, complete g ps d = Ok (h ++ [nb]) /\ length h = length g /\ (forall i b, g !! i = Some b -> h !! i = Some (if decide (i ∈ ps) then close (length g) b else b)) /\ b_index nb = length g /\ b_depth nb = d /\ b_items nb = [] /\ b_succs nb = [] /\ (forall x, x ∈ b_preds nb <-> x ∈ ps) /\ ssorted (b_preds nb).
Proof.
  intros Hlt Hnd. destruct (complete_alters g ps d Hlt Hnd) as (g' & -> & Hlen & Hlk).
  set (j := length g) in *. set (nb := new_block j d) in *.
  rewrite app_length in Hlen. simpl in Hlen.
  assert (Hg' : g' = take j g' ++ [add_preds ps nb]).
  { rewrite <- (take_ge g' (S j)) at 1 by lia. apply take_S_r.
    rewrite (Hlk j nb), decide_True; [done..|]. by apply list_lookup_middle. }
  exists (take j g'), (add_preds ps nb). split; [by rewrite <- Hg'|].
  split; [rewrite take_length; lia|]. split.
  - intros i b Hb. apply lookup_lt_Some in Hb as Hi. rewrite lookup_take by done.
    rewrite (Hlk i b), decide_False; [done|lia|]. by apply lookup_app_l_Some.
  - rewrite add_preds_eq. simpl. do 4 (split; [done|]). split; [|by apply ssorted_iunion].
    intros x. rewrite elem_of_iunion, elem_of_nil. tauto.
Qed.

Lemma back_fold h ps : forall g,
  h < length g -> (forall i, i ∈ ps -> i < length g /\ i <> h) -> NoDup ps ->
  exists g', fold_left (back_edge h) ps (Ok g) = Ok g' /\ length g' = length g /\
    forall i b, g !! i = Some b ->
      g' !! i = Some (if decide (i = h) then add_preds ps b
                      else if decide (i ∈ ps) then add_succ h b else b).
Proof. apply edges_fold. intros g i Hi Hh _. by apply back_edge_ok. Qed.

Definition ends_plain (b : block) : Prop :=
  forall c t f, last (b_items b) <> Some (IBranch c t f).

(* n: number of blocks; P: the blocks that still wait for their exit edge *)
Definition shape (n : nat) (P : nat -> Prop) (i : nat) (b : block) : Prop :=
  match last (b_items b) with
  | Some (IBranch c t f) =>
      t = S i /\ S i < n /\
      ((P i /\ f = None /\ forall y, y ∈ b_succs b <-> y = S i) \/
       (~ P i /\ exists x, x <> S i /\ (f = None \/ f = Some x) /\
                 forall y, y ∈ b_succs b <-> y = S i \/ y = x))
  | _ => (P i /\ b_succs b = []) \/ (~ P i /\ exists x, forall y, y ∈ b_succs b <-> y = x)
  end.

Record blk_ok (n : nat) (P : nat -> Prop) (i : nat) (b : block) : Prop := {
  ok_index : b_index b = i;
  ok_ss : ssorted (b_succs b);
  ok_sp : ssorted (b_preds b);
  ok_branch_last : forall k c t f, b_items b !! k = Some (IBranch c t f) -> S k = length (b_items b);
  ok_entry : i = 0 -> b_preds b = [];
  ok_spred : 0 < i -> exists p, p < i /\ p ∈ b_preds b;
  ok_shape : shape n P i b;
}.

Record wf (g : graph) (P : nat -> Prop) : Prop := {
  wf_blk : forall i b, g !! i = Some b -> blk_ok (length g) P i b;
  wf_m1 : forall i j bi, g !! i = Some bi -> j ∈ b_succs bi ->
            exists bj, g !! j = Some bj /\ i ∈ b_preds bj;
  wf_m2 : forall i j bj, g !! j = Some bj -> i ∈ b_preds bj ->
            exists bi, g !! i = Some bi /\ j ∈ b_succs bi;
  wf_P : forall i, P i -> i < length g;
}.

(* the state in which a statement is entered: the last block is open *)
Record pre (g : graph) (d : nat) (P0 : nat -> Prop) : Prop := {
  pre_wf : wf g (fun i => P0 i \/ i = length g - 1);
  pre_P0 : forall i, P0 i -> i < length g - 1;
  pre_last : exists b, g !! (length g - 1) = Some b /\ ends_plain b /\ b_depth b = d;
}.

Lemma pre_length g d P0 : pre g d P0 -> 0 < length g.
Proof. intros [_ _ (b & Hb & _)]. apply lookup_lt_Some in Hb. lia. Qed.

Lemma shape_plain n P i b :
  ends_plain b ->
  shape n P i b <-> (P i /\ b_succs b = []) \/ (~ P i /\ exists x, forall y, y ∈ b_succs b <-> y = x).
Proof.
  intros Hp. unfold shape. destruct (last (b_items b)) as [[|c t f]|] eqn:E; try done.
  by destruct (Hp c t f).
Qed.

Lemma shape_ext n n' P P' i b :
  n <= n' -> (P i <-> P' i) -> shape n P i b -> shape n' P' i b.
Proof.
  intros Hn HP. unfold shape. destruct (last (b_items b)) as [[|c t f]|]; try (rewrite HP; done).
  intros (-> & Hlt & H). split; [done|]. split; [lia|]. rewrite <- HP. done.
Qed.

Lemma blk_ok_ext n n' P P' i b :
  n <= n' -> (P i <-> P' i) -> blk_ok n P i b -> blk_ok n' P' i b.
Proof.
  intros Hn HP [H1 H2 H3 H4 H5 H6 H7]. split; try done. by eapply shape_ext.
Qed.

Lemma wf_ext g P P' : (forall i, P i <-> P' i) -> wf g P -> wf g P'.
Proof.
  intros HP [H1 H2 H3 H4]. split; try done.
  - intros i b Hb. eapply blk_ok_ext; [done|apply HP|by apply H1].
  - intros i Hi. apply H4, HP, Hi.
Qed.

Lemma pending_plain_succs n P i b : blk_ok n P i b -> P i -> ends_plain b -> b_succs b = [].
Proof.
  intros Hok HP Hpl. pose proof (ok_shape _ _ _ _ Hok) as Hs.
  apply (shape_plain n P i b Hpl) in Hs. destruct Hs as [[_ ?]|[? _]]; done.
Qed.

Lemma last_is_lookup {A} (l : list A) x : last l = Some x -> l !! (length l - 1) = Some x.
Proof. by rewrite last_lookup'. Qed.

Lemma blk_ok_close n n' P P' i j b :
  blk_ok n P i b -> P i -> ~ P' i -> n <= j -> j < n' ->
  blk_ok n' P' i (close j b).
Proof.
  intros [H1 H2 H3 H4 H5 H6 H7] HP HP' Hnj Hjn.
  split; simpl; try done.
  - by apply ssorted_ins.
  - intros k c t f. rewrite lookup_patch_last, patch_last_length.
    destruct (b_items b !! k) as [it|] eqn:E; [|done]. simpl.
    intros Heq. destruct it as [|c0 t0 f0].
    + case_decide; simpl in Heq; discriminate.
    + by eapply H4.
  - unfold shape in *. simpl. rewrite last_patch_last.
    destruct (last (b_items b)) as [[id|c t f]|] eqn:E; simpl.
    + destruct H7 as [[_ Hs]|[? _]]; [|done]. right. split; [done|].
      exists j. intros y. rewrite elem_of_ins, Hs. set_solver.
    + destruct H7 as (-> & Hlt & [(_ & -> & Hs)|[? _]]); [|done].
      assert (j =? S i = false) as -> by (apply Nat.eqb_neq; lia). simpl.
      split; [done|]. split; [lia|]. right. split; [done|].
      exists j. split; [lia|]. split; [by right|].
      intros y. rewrite elem_of_ins, Hs. naive_solver.
    + destruct H7 as [[_ Hs]|[? _]]; [|done]. right. split; [done|].
      exists j. intros y. rewrite elem_of_ins, Hs. set_solver.
Qed.

Lemma blk_ok_back n P P' i h b :
  blk_ok n P i b -> P i -> ~ P' i -> h < i ->
  blk_ok n P' i (add_succ h b).
Proof.
  intros [H1 H2 H3 H4 H5 H6 H7] HP HP' Hh.
  split; simpl; try done.
  - by apply ssorted_ins.
  - unfold shape in *. simpl.
    destruct (last (b_items b)) as [[id|c t f]|] eqn:E; simpl.
    + destruct H7 as [[_ Hs]|[? _]]; [|done]. right. split; [done|].
      exists h. intros y. rewrite elem_of_ins, Hs. set_solver.
    + destruct H7 as (-> & Hlt & [(_ & -> & Hs)|[? _]]); [|done].
      split; [done|]. split; [lia|]. right. split; [done|].
      exists h. split; [lia|]. split; [by left|].
      intros y. rewrite elem_of_ins, Hs. naive_solver.
    + destruct H7 as [[_ Hs]|[? _]]; [|done]. right. split; [done|].
      exists h. intros y. rewrite elem_of_ins, Hs. set_solver.
Qed.

Lemma blk_ok_add_preds n P i ps b :
  blk_ok n P i b -> 0 < i -> blk_ok n P i (add_preds ps b).
Proof.
  intros [H1 H2 H3 H4 H5 H6 H7] Hi. rewrite add_preds_eq.
  split; simpl; try done.
  - by apply ssorted_iunion.
  - lia.
  - intros _. destruct (H6 Hi) as (p & Hp & Hin). exists p. split; [done|]. apply elem_of_iunion. by left.
Qed.

Definition bitems (b : block) : list (key * nat) :=
  map (fun it => (item_key it, b_depth b)) (b_items b).

Lemma graph_items_eq g : graph_items g = concat (map bitems g).
Proof. done. Qed.

Lemma graph_items_same g g' :
  length g = length g' ->
  (forall i b, g !! i = Some b -> exists b', g' !! i = Some b' /\ bitems b' = bitems b) ->
  graph_items g' = graph_items g.
Proof.
  intros Hl H. rewrite !graph_items_eq. f_equal.
  apply list_eq. intros i. rewrite !list_lookup_fmap.
  destruct (g !! i) as [b|] eqn:E.
  - destruct (H _ _ E) as (b' & -> & Hb). simpl. by rewrite Hb.
  - apply lookup_ge_None in E. rewrite (proj2 (lookup_ge_None g' i)) by lia. done.
Qed.

Lemma graph_items_app g h : graph_items (g ++ h) = graph_items g ++ graph_items h.
Proof. rewrite !graph_items_eq, map_app, concat_app. done. Qed.

Lemma bitems_close j b : bitems (close j b) = bitems b.
Proof.
  unfold bitems. simpl. rewrite <- !(map_map item_key (fun k => (k, b_depth b))).
  by rewrite map_key_patch_last.
Qed.

Definition iext (a b : item) : Prop :=
  match a, b with
  | ILeaf x, ILeaf y => x = y
  | IBranch c t f, IBranch c' t' f' => c = c' /\ t = t' /\ (f = None \/ f = f')
  | _, _ => False
  end.

Definition bext (b B : block) : Prop :=
  (forall x, x ∈ b_succs b -> x ∈ b_succs B) /\
  (forall k it, b_items b !! k = Some it -> exists it', b_items B !! k = Some it' /\ iext it it') /\
  (b_succs b <> [] -> length (b_items B) = length (b_items b)).

Definition gext (g G : graph) : Prop :=
  forall i b, g !! i = Some b -> exists B, G !! i = Some B /\ bext b B.

Lemma iext_refl a : iext a a.
Proof. destruct a as [|c t [f|]]; simpl; naive_solver. Qed.

Lemma iext_trans a b c : iext a b -> iext b c -> iext a c.
Proof.
  destruct a as [|? ? fa], b as [|? ? fb], c as [|? ? fc]; simpl; try done; try congruence.
  intros (-> & -> & H1) (-> & -> & H2). split; [done|]. split; [done|].
  destruct H1 as [-> | ->]; [by left|done].
Qed.

Lemma bext_refl b : bext b b.
Proof. split; [done|]. split; [|done]. intros k it H. exists it. split; [done|apply iext_refl]. Qed.

Lemma bext_trans a b c : bext a b -> bext b c -> bext a c.
Proof.
  intros (A1 & A2 & A3) (B1 & B2 & B3). split; [auto|]. split.
  - intros k it H. destruct (A2 _ _ H) as (it' & H' & E1).
    destruct (B2 _ _ H') as (it'' & H'' & E2). exists it''. split; [done|by eapply iext_trans].
  - intros Hne. rewrite B3, A3; [done..|].
    destruct (b_succs a) as [|x r] eqn:E; [done|].
    intros Hb. specialize (A1 x). rewrite Hb in A1. set_solver.
Qed.

Lemma gext_refl g : gext g g.
Proof. intros i b H. exists b. split; [done|apply bext_refl]. Qed.

Lemma gext_trans a b c : gext a b -> gext b c -> gext a c.
Proof.
  intros H1 H2 i x Hx. destruct (H1 _ _ Hx) as (y & Hy & E1).
  destruct (H2 _ _ Hy) as (z & Hz & E2). exists z. split; [done|by eapply bext_trans].
Qed.

Lemma bext_add_succ j b : bext b (add_succ j b).
Proof.
  split; [intros x Hx; simpl; rewrite elem_of_ins; by right|]. split; [|done].
  intros k it H. exists it. split; [done|apply iext_refl].
Qed.

Lemma bext_add_preds ps b : bext b (add_preds ps b).
Proof. rewrite add_preds_eq. exact (bext_refl b). Qed.

Lemma iext_patch j it : iext it (patch_item j it).
Proof.
  destruct it as [|c t [f|]]; simpl; [done|naive_solver|].
  destruct (negb (j =? t)); simpl; naive_solver.
Qed.

Lemma bext_patch j b : bext b (patch_false j b).
Proof.
  split; [done|]. split; simpl.
  - intros k it H. rewrite lookup_patch_last, H. simpl.
    case_decide; eexists; (split; [done|]); [apply iext_patch|apply iext_refl].
  - intros _. apply patch_last_length.
Qed.

Lemma bext_close j b : bext b (close j b).
Proof. eapply bext_trans; [apply bext_add_succ|apply bext_patch]. Qed.

Lemma bext_push it b : b_succs b = [] -> bext b (push_item it b).
Proof.
  intros Hs. split; [done|]. split; [|done]. simpl.
  intros k x H. exists x. split; [|apply iext_refl].
  rewrite lookup_app_l; [done|by eapply lookup_lt_Some].
Qed.
