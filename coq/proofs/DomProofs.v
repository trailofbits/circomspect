(* Proofs for C15: the mirror Model.Dom computes dominators, immediate
   dominators, dominator-tree children and dominance frontiers as defined in
   Spec.DomSpec, for every rooted graph. *)
From Coq Require Import ZArith Lia.
From stdpp Require Import list list_numbers sets.
Require Import Model.Dom Spec.DomSpec.

Global Instance node_inhabited : Inhabited node := populate (Node [] []).

Lemma of_nat_eqb i j : (N.of_nat i =? N.of_nat j)%N = bool_decide (i = j).
Proof.
  case_bool_decide; [apply N.eqb_eq; congruence|].
  apply N.eqb_neq. intros ?%Nat2N.inj. done.
Qed.

Lemma mem_ins i j s : mem i (ins j s) = bool_decide (i = j) || mem i s.
Proof.
  unfold mem, ins. rewrite N.setbit_eqb, of_nat_eqb.
  f_equal. apply bool_decide_ext. naive_solver.
Qed.

Lemma mem_del i j s : mem i (del j s) = mem i s && negb (bool_decide (i = j)).
Proof.
  unfold mem, del. rewrite N.clearbit_eqb, of_nat_eqb.
  do 2 f_equal. apply bool_decide_ext. naive_solver.
Qed.

Lemma mem_full i n : mem i (full n) = bool_decide (i < n).
Proof.
  unfold mem, full. case_bool_decide.
  - apply N.ones_spec_low. lia.
  - apply N.ones_spec_high. lia.
Qed.

Lemma mem_land i s t : mem i (N.land s t) = mem i s && mem i t.
Proof. apply N.land_spec. Qed.
Lemma mem_lor i s t : mem i (N.lor s t) = mem i s || mem i t.
Proof. apply N.lor_spec. Qed.
Lemma mem_ldiff i s t : mem i (N.ldiff s t) = mem i s && negb (mem i t).
Proof. apply N.ldiff_spec. Qed.
Lemma mem_0 i : mem i 0 = false.
Proof. apply N.bits_0. Qed.

Lemma mask_ext s t : (∀ i, mem i s = mem i t) → s = t.
Proof.
  intros H. apply N.bits_inj. intros k.
  specialize (H (N.to_nat k)). unfold mem in H. by rewrite N2Nat.id in H.
Qed.

Lemma testbit_S p m :
  Pos.testbit p (N.of_nat (S m)) =
  match p with (q~1 | q~0)%positive => Pos.testbit q (N.of_nat m) | xH => false end.
Proof.
  assert (Pos.pred_N (Pos.of_succ_nat m) = N.of_nat m) as Hm.
  { change (N.pred (N.of_nat (S m)) = N.of_nat m). by rewrite Nat2N.inj_succ, N.pred_succ. }
  destruct p; simpl; by rewrite ?Hm.
Qed.

Lemma elem_of_pos_members p k i :
  i ∈ pos_members p k ↔ k ≤ i ∧ Pos.testbit p (N.of_nat (i - k)) = true.
Proof.
  revert k. induction p as [p IH|p IH|]; intros k; cbn [pos_members];
    rewrite ?elem_of_cons, ?IH, ?elem_of_nil.
  (* whatever the shape of p: below k nothing is a member; k is one iff bit 0
     is set; above k, bit i - k of p is bit i - S k of its tail (testbit_S),
     which is what the induction hypothesis at S k speaks of *)
  all: destruct (lt_eq_lt_dec i k) as [[?| ->]|?].
  all: try (rewrite Nat.sub_diag; simpl).
  all: try (replace (i - k) with (S (i - S k)) by lia; rewrite testbit_S).
  all: naive_solver lia.
Qed.

Lemma elem_of_members i s : i ∈ members s ↔ mem i s = true.
Proof.
  unfold members, mem. destruct s as [|p]; simpl.
  - rewrite elem_of_nil. done.
  - rewrite elem_of_pos_members, Nat.sub_0_r. naive_solver lia.
Qed.

Lemma NoDup_pos_members p k : NoDup (pos_members p k).
Proof.
  revert k. induction p as [p IH|p IH|]; intros k; simpl; [|apply IH|apply NoDup_singleton].
  apply NoDup_cons. split; [|apply IH].
  rewrite elem_of_pos_members. lia.
Qed.

Lemma NoDup_members s : NoDup (members s).
Proof. destruct s; simpl; [constructor|apply NoDup_pos_members]. Qed.

Lemma members_submseteq s t :
  (∀ i, mem i s = true → mem i t = true) → members s ⊆+ members t.
Proof.
  intros H. apply NoDup_submseteq; [apply NoDup_members|].
  intros x. rewrite !elem_of_members. apply H.
Qed.

Lemma card_le s t : (∀ i, mem i s = true → mem i t = true) → card s ≤ card t.
Proof. intros H. by apply submseteq_length, members_submseteq. Qed.

Lemma card_eq_subset s t :
  (∀ i, mem i s = true → mem i t = true) → card t ≤ card s → s = t.
Proof.
  intros H Hc.
  pose proof (submseteq_Permutation_length_le _ _ Hc (members_submseteq s t H)) as HP.
  apply mask_ext. intros i. apply eq_true_iff_eq. by rewrite <- !elem_of_members, HP.
Qed.

Lemma card_lt s t :
  (∀ i, mem i s = true → mem i t = true) → s ≠ t → card s < card t.
Proof.
  intros H Hne. destruct (decide (card t ≤ card s)); [|lia].
  destruct Hne. by apply card_eq_subset.
Qed.

Lemma card_bounded n s : (∀ i, mem i s = true → i < n) → card s ≤ n.
Proof.
  intros H. rewrite <- (seq_length n 0).
  apply submseteq_length, NoDup_submseteq; [apply NoDup_members|].
  intros x Hx%elem_of_members. apply elem_of_seq. specialize (H _ Hx). lia.
Qed.

Lemma card_0 s : card s = 0 ↔ s = 0%N.
Proof.
  split; [|by intros ->].
  intros H. apply mask_ext. intros i. rewrite mem_0.
  destruct (mem i s) eqn:E; [|done].
  apply elem_of_members in E. unfold card in H.
  destruct (members s); [by apply elem_of_nil in E|done].
Qed.

Lemma card_le_1_eq c x y : card c ≤ 1 → mem x c = true → mem y c = true → x = y.
Proof.
  intros Hc Hx%elem_of_members Hy%elem_of_members. unfold card in Hc.
  destruct (members c) as [|a [|b l]]; simpl in Hc; [set_solver|set_solver|lia].
Qed.

Lemma card_le_1_intro c : (∀ x y, mem x c = true → mem y c = true → x = y) → card c ≤ 1.
Proof.
  intros H. unfold card. pose proof (NoDup_members c) as Hnd.
  destruct (members c) as [|a [|b l]] eqn:E; simpl; [lia|lia|exfalso].
  assert (a = b) as ->.
  { apply H; apply elem_of_members; rewrite E; set_solver. }
  apply NoDup_cons in Hnd as [Hnd _]. set_solver.
Qed.

Lemma get_ok {A} `{!Inhabited A} site (l : list A) i :
  i < length l → get site l i = Ok (l !!! i).
Proof.
  intros H. unfold get. apply list_lookup_lookup_total_lt in H. by rewrite H.
Qed.

Lemma bind_get_ok {A B} `{!Inhabited A} site (l : list A) i (f : A → outcome B) :
  i < length l → Base.bind (get site l i) f = f (l !!! i).
Proof. intros H. by rewrite get_ok. Qed.

Definition tabulates (n : nat) (T : list N) (R : nat → nat → Prop) : Prop :=
  length T = n ∧ ∀ x y, x < n → (mem y (T !!! x) = true ↔ R x y).

Lemma tabulates_empty n : tabulates n (replicate n 0%N) (λ _ _, False).
Proof.
  split; [apply replicate_length|]. intros x y Hx.
  by rewrite lookup_total_replicate_2, mem_0.
Qed.

Lemma tabulates_iff {n T R R'} :
  tabulates n T R → (∀ x y, x < n → R x y ↔ R' x y) → tabulates n T R'.
Proof. intros [HL HT] HR. split; [done|]. intros x y Hx. by rewrite HT, HR. Qed.

Lemma tabulates_insert {n T R} k i :
  tabulates n T R → k < n →
  tabulates n (<[k:=ins i (T !!! k)]> T) (λ x y, R x y ∨ (x = k ∧ y = i)).
Proof.
  intros [HL HT] Hk. split; [by rewrite insert_length|]. intros x y Hx.
  destruct (decide (k = x)) as [->|Hne].
  - rewrite list_lookup_total_insert, mem_ins, orb_true_iff, bool_decide_eq_true, HT by lia. tauto.
  - rewrite list_lookup_total_insert_ne, HT by done. split; [by left|]. by intros [?|[-> _]].
Qed.

Lemma tabulates_lookup {n T R} x s y :
  tabulates n T R → T !! x = Some s → (mem y s = true ↔ R x y).
Proof. intros [<- HT] [Hx <-]%list_lookup_alt. by apply HT. Qed.

Section paths.
  Context (g : graph).

  Lemma edge_lt a b : edge g a b → a < length g.
  Proof. intros (x & Hx & _). by eapply lookup_lt_Some. Qed.

  Lemma path_start a b l : path g a b l → ∃ l', l = a :: l'.
  Proof. destruct 1; eauto. Qed.

  Lemma path_src_lt a b l : path g a b l → a < length g.
  Proof. destruct 1; eauto using edge_lt. Qed.

  Lemma path_dst_lt a b l : path g a b l → b < length g.
  Proof. induction 1; eauto. Qed.

  Lemma path_end a b l : path g a b l → ∃ l', l = l' ++ [b].
  Proof.
    induction 1 as [a|a c b l He Hp [l' ->]]; [by exists []|].
    by exists (a :: l').
  Qed.

  Lemma path_snoc a b c l : path g a b l → edge g b c → c < length g → path g a c (l ++ [c]).
  Proof.
    induction 1 as [a|a c' b l He Hp IH]; intros Hbc Hc; simpl.
    - apply path_cons with c; [done|by constructor].
    - apply path_cons with c'; auto.
  Qed.

  Lemma path_snoc_inv a c l :
    path g a c l → (l = [a] ∧ a = c) ∨ ∃ l' b, l = l' ++ [c] ∧ path g a b l' ∧ edge g b c.
  Proof.
    induction 1 as [a|a c' b l He Hp IH]; [by left|right].
    destruct IH as [[-> ->]|(l' & b' & -> & Hp' & He')].
    - exists [a], a. split_and!; [done| |done]. constructor. by eapply edge_lt.
    - exists (a :: l'), b'. split_and!; [done| |done]. by apply path_cons with c'.
  Qed.

  Lemma path_split a c l1 x l2 :
    path g a c (l1 ++ x :: l2) → path g a x (l1 ++ [x]) ∧ path g x c (x :: l2).
  Proof.
    revert a. induction l1 as [|y l1 IH]; intros a H; simpl in *.
    - pose proof (path_start _ _ _ H) as [l' [= -> ->]].
      split; [|done]. constructor. by eapply path_src_lt.
    - inversion H as [|? c' ? ? He Hp]; subst.
      { by destruct l1. }
      destruct (IH _ Hp) as [H1 H2]. split; [|done].
      by apply path_cons with c'.
  Qed.

  Lemma path_app a b c l1 l2 :
    path g a b (l1 ++ [b]) → path g b c (b :: l2) → path g a c (l1 ++ b :: l2).
  Proof.
    revert a. induction l1 as [|y l1 IH]; intros a H1 H2; simpl in *.
    - inversion H1; subst; [done|]. match goal with H : path _ _ _ [] |- _ => inversion H end.
    - inversion H1 as [|? c' ? ? He Hp]; subst.
      { by destruct l1. }
      apply path_cons with c'; [done|]. by apply IH.
  Qed.

  Lemma path_elem_lt a b l x : path g a b l → x ∈ l → x < length g.
  Proof.
    induction 1 as [a|a c' b l He Hp IH].
    - intros ->%elem_of_list_singleton. done.
    - intros [->|?]%elem_of_cons; [by eapply edge_lt|auto].
  Qed.
End paths.

Section dominance.
  Context (g : graph) (Hg : rooted g).
  Notation n := (length g).

  Lemma lookup_total_node i : i < n → g !! i = Some (g !!! i).
  Proof. apply list_lookup_lookup_total_lt. Qed.

  Lemma preds_lt i q : i < n → q ∈ preds (g !!! i) → q < n.
  Proof. intros Hi. eapply rooted_preds; [done|]. by apply lookup_total_node. Qed.

  Lemma edge_dst_lt a b : edge g a b → b < n.
  Proof. intros (x & Hx & Hb). by eapply rooted_succs. Qed.

  Lemma edge_preds q i : edge g q i ↔ i < n ∧ q ∈ preds (g !!! i).
  Proof.
    split.
    - intros He. pose proof (edge_dst_lt _ _ He) as Hi. split; [done|].
      destruct He as (x & Hx & He). by apply (rooted_mirror g Hg q i x _ Hx (lookup_total_node i Hi)).
    - intros [Hi Hq]. pose proof (lookup_total_node q (preds_lt i q Hi Hq)) as Hx.
      eexists. split; [done|]. by apply (rooted_mirror g Hg q i _ _ Hx (lookup_total_node i Hi)).
  Qed.

  Lemma dom_lt i j : j < n → dom g i j → i < n.
  Proof.
    intros Hj Hd. destruct (rooted_reach g Hg j Hj) as [l Hl].
    eapply path_elem_lt; [done|]. by apply Hd.
  Qed.

  Lemma dom_refl j : dom g j j.
  Proof.
    intros l Hl. destruct (path_end _ _ _ _ Hl) as [l' ->]. set_solver.
  Qed.

  Lemma dom_entry j : dom g 0 j.
  Proof.
    intros l Hl. destruct (path_start _ _ _ _ Hl) as [l' ->]. set_solver.
  Qed.

  Lemma dom_of_entry i : dom g i 0 → i = 0.
  Proof.
    intros H. specialize (H [0]). rewrite elem_of_list_singleton in H.
    apply H. constructor. apply (rooted_nonempty g Hg).
  Qed.

  Lemma entry_no_pred q : ¬ edge g q 0.
  Proof.
    intros [Hn Hq]%edge_preds.
    rewrite (rooted_entry g Hg _ (lookup_total_node 0 Hn)) in Hq.
    by apply elem_of_nil in Hq.
  Qed.

  Lemma dom_pred i j q : dom g i j → i ≠ j → edge g q j → dom g i q.
  Proof.
    intros Hd Hne He l Hl.
    assert (i ∈ l ++ [j]) as Hin.
    { apply Hd. eapply path_snoc; eauto using edge_dst_lt. }
    set_solver.
  Qed.

  Lemma dom_trans i j k : dom g i j → dom g j k → dom g i k.
  Proof.
    intros Hij Hjk l Hl.
    pose proof (Hjk _ Hl) as (l1 & l2 & ->)%elem_of_list_split.
    destruct (path_split _ _ _ _ _ _ Hl) as [H1 _].
    apply Hij in H1. set_solver.
  Qed.

  Lemma dom_antisym i j : j < n → dom g i j → dom g j i → i = j.
  Proof.
    intros Hj Hij Hji. destruct (decide (i = j)) as [|Hne]; [done|exfalso].
    destruct (rooted_reach g Hg j Hj) as [l Hl].
    (* cut at the first occurrence of j *)
    assert (j ∈ l) as (l1 & l2 & -> & Hnj)%elem_of_list_split_l by (by eapply dom_refl).
    destruct (path_split _ _ _ _ _ _ Hl) as [H1 _].
    assert (i ∈ l1) as (k1 & k2 & ->)%elem_of_list_split.
    { apply Hij in H1. set_solver. }
    rewrite <- app_assoc in H1. simpl in H1.
    destruct (path_split _ _ _ _ _ _ H1) as [H2 _].
    apply Hji in H2. set_solver.
  Qed.

  Lemma dom_suffix a b i l : path g b i (b :: l) → a ∉ l → dom g a i → dom g a b.
  Proof.
    intros Hl Hna Ha p Hp. destruct (path_end _ _ _ _ Hp) as [p' ->].
    pose proof (Ha _ (path_app _ _ _ _ _ _ Hp Hl)). set_solver.
  Qed.

  Lemma dom_chain a b i : i < n → dom g a i → dom g b i → dom g a b ∨ dom g b a.
  Proof.
    intros Hi Ha Hb. destruct (rooted_reach g Hg i Hi) as [l Hl].
    (* last occurrence of a, then the last b after it, if any *)
    pose proof (Ha _ Hl) as (l1 & l2 & -> & Hna)%elem_of_list_split_r.
    destruct (decide (b ∈ l2)) as [(k1 & k2 & -> & Hnb)%elem_of_list_split_r|Hnb].
    - left. rewrite app_comm_cons, app_assoc in Hl.
      destruct (path_split _ _ _ _ _ _ Hl) as [_ H2].
      eapply dom_suffix; [done| |done]. set_solver.
    - right. destruct (path_split _ _ _ _ _ _ Hl) as [_ H2]. by eapply dom_suffix.
  Qed.

  Lemma sdom_lt i j : j < n → sdom g i j → i < n.
  Proof. intros ? [? _]. by eapply dom_lt. Qed.

  Lemma sdom_trans i j k : k < n → sdom g i j → sdom g j k → sdom g i k.
  Proof.
    intros Hk [Hij Hne1] [Hjk Hne2]. split; [by eapply dom_trans|].
    intros ->. apply Hne2. by apply dom_antisym.
  Qed.

  Lemma no_idom_entry j : ¬ idom_spec g j 0.
  Proof. intros [[Hd Hne] _]. by apply dom_of_entry in Hd. Qed.

  Lemma idom_spec_max j i :
    i < n → idom_spec g j i ↔ sdom g j i ∧ ¬ ∃ k, sdom g k i ∧ sdom g j k.
  Proof.
    intros Hi. split; intros [Hs H]; (split; [done|]).
    - intros (k & Hk & [Hjk Hne]). apply Hne.
      apply dom_antisym; [by eapply sdom_lt|done|by apply H].
    - intros k Hk. destruct (decide (k = j)) as [->|Hne]; [apply dom_refl|].
      destruct (dom_chain k j i Hi) as [|Hjk]; [apply Hk|apply Hs|done|].
      destruct H. exists k. split; [done|]. split; [done|congruence].
  Qed.

  Lemma sdom_iff_dom_idom t i x : i < n → idom_spec g t i → (sdom g x i ↔ dom g x t).
  Proof.
    intros Hi [[Hti Hne] Hcl]. split; [apply Hcl|].
    intros Hxt. split; [by eapply dom_trans|].
    intros ->. apply Hne. by apply dom_antisym.
  Qed.

  Lemma dom_iff_idom t i x : i < n → idom_spec g t i → (dom g x i ↔ x = i ∨ dom g x t).
  Proof.
    intros Hi Ht. rewrite <- (sdom_iff_dom_idom t i x Hi Ht). split.
    - intros Hd. destruct (decide (x = i)); [by left|by right].
    - intros [->|[? _]]; [apply dom_refl|done].
  Qed.

  Lemma single_pred i q : i < n → preds (g !!! i) = [q] → sdom g q i.
  Proof.
    intros Hi Hp.
    assert (∀ l, path g 0 i (l ++ [i]) → i ≠ 0 → q ∈ l) as Hlast.
    { intros l Hl Hi0.
      destruct (path_snoc_inv _ _ _ _ Hl) as [[_ ?]|(l' & b & [<- _]%app_inj_tail & Hb & He)]; [done|].
      apply edge_preds in He as [_ He]. rewrite Hp in He. apply elem_of_list_singleton in He as ->.
      destruct (path_end _ _ _ _ Hb) as [? ->]. set_solver. }
    assert (i ≠ 0) as Hi0.
    { intros ->. by rewrite (rooted_entry g Hg _ (lookup_total_node 0 Hi)) in Hp. }
    split.
    - intros l Hl. destruct (path_end _ _ _ _ Hl) as [l' ->].
      apply elem_of_app. left. by apply Hlast.
    - intros ->. destruct (rooted_reach g Hg i Hi) as [l Hl].
      (* the path up to the first occurrence of i would have i before its end *)
      assert (i ∈ l) as (l1 & l2 & -> & Hni)%elem_of_list_split_l by (by eapply dom_refl).
      destruct (path_split _ _ _ _ _ _ Hl) as [H1 _]. by apply Hlast in H1.
  Qed.

  Lemma df_spec_preds i x :
    i < n → df_spec g x i ↔ Exists (dom g x) (preds (g !!! i)) ∧ ¬ sdom g x i.
  Proof.
    intros Hi. unfold df_spec. rewrite Exists_exists, (lookup_total_node i Hi). naive_solver.
  Qed.

  Lemma df_spec_idom t i x :
    i < n → idom_spec g t i →
    df_spec g x i ↔ Exists (λ j, dom g x j ∧ ¬ dom g x t) (preds (g !!! i)).
  Proof.
    intros Hi Ht. rewrite df_spec_preds, (sdom_iff_dom_idom t i x), !Exists_exists by done.
    naive_solver.
  Qed.

  Lemma df_spec_single i x : i < n → length (preds (g !!! i)) ≤ 1 → ¬ df_spec g x i.
  Proof.
    intros Hi Hlen [Hq Hns]%df_spec_preds; [|done].
    destruct (preds (g !!! i)) as [|q [|??]] eqn:Hp; [by apply Exists_nil in Hq| |simpl in Hlen; lia].
    apply Exists_cons in Hq as [Hxq|Hq]; [|by apply Exists_nil in Hq].
    destruct (single_pred i q Hi Hp) as [Hqi Hne].
    assert (x = i) as ->.
    { destruct (decide (x = i)); [done|]. destruct Hns. split; [|done]. by eapply dom_trans. }
    apply Hne. by apply dom_antisym.
  Qed.
End dominance.

Lemma idom_spec_unique g a b i :
  rooted g → i < length g → idom_spec g a i → idom_spec g b i → a = b.
Proof.
  intros Hg Hi [Ha Ha'] [Hb Hb'].
  apply (dom_antisym g Hg); [by eapply sdom_lt|by apply Hb'|by apply Ha'].
Qed.

Lemma sum_list_with_insert {A} (f : A → nat) l i x y :
  l !! i = Some x →
  sum_list_with f (<[i:=y]> l) + f x = sum_list_with f l + f y.
Proof.
  revert i. induction l as [|a l IH]; intros [|i] H; simplify_eq/=; [lia|].
  specialize (IH _ H). lia.
Qed.

Lemma sum_list_with_replicate {A} (f : A → nat) k x :
  sum_list_with f (replicate k x) = k * f x.
Proof. induction k; simpl; lia. Qed.

Lemma inter_preds_spec D ps acc :
  Forall (λ j, j < length D) ps →
  ∃ s, inter_preds D ps acc = Ok s ∧
       ∀ x, mem x s = true ↔ mem x acc = true ∧ Forall (λ j, mem x (D !!! j) = true) ps.
Proof.
  intros Hps. revert acc. induction Hps as [|j ps Hj Hps IH]; intros acc.
  - exists acc. split; [done|]. intros x. rewrite Forall_nil. tauto.
  - cbn [inter_preds]. rewrite get_ok by done.
    destruct (IH (N.land acc (D !!! j))) as (s & -> & Hs).
    exists s. split; [done|]. intros x.
    rewrite Hs, mem_land, andb_true_iff, Forall_cons. tauto.
Qed.

Section dataflow.
  Context (g : graph) (Hg : rooted g).
  Notation n := (length g).

  (* the set `new_dominators` of block i in state D *)
  Definition New (D : list N) (i x : nat) : Prop :=
    x = i ∨ (x < n ∧ ∀ q, q ∈ preds (g !!! i) → mem x (D !!! q) = true).

  Lemma new_dominators_spec D i :
    length D = n → i < n →
    ∃ s, new_dominators g n D i = Ok s ∧ ∀ x, mem x s = true ↔ New D i x.
  Proof.
    intros HD Hi. unfold new_dominators. rewrite bind_get_ok by done.
    destruct (inter_preds_spec D (preds (g !!! i)) (full n)) as (s & -> & Hs).
    { apply Forall_forall. intros j Hj. rewrite HD. by eapply preds_lt. }
    cbn [Base.bind]. eexists; split; [done|]. intros x.
    rewrite mem_ins, orb_true_iff, Hs, mem_full, !bool_decide_eq_true, Forall_forall. done.
  Qed.

  (* every set contains the dominators of its block and is not enlarged by
     recomputing it *)
  Record inv (D : list N) : Prop := {
    inv_len : length D = n;
    inv_entry : D !!! 0 = ins 0 0%N;
    inv_sound : ∀ j x, j < n → dom g x j → mem x (D !!! j) = true;
    inv_dec : ∀ i x, 1 ≤ i < n → New D i x → mem x (D !!! i) = true;
  }.

  Definition mu (D : list N) : nat := sum_list_with card D.

  Lemma dom_New D i x : inv D → i < n → dom g x i → New D i x.
  Proof.
    intros HI Hi Hd. destruct (decide (x = i)) as [|Hne]; [by left|right].
    split; [by eapply dom_lt|]. intros q Hq.
    apply (inv_sound _ HI); [by eapply preds_lt|].
    eapply dom_pred; [done..|]. by apply edge_preds.
  Qed.

  Lemma inv_update D i s :
    inv D → 1 ≤ i < n → (∀ x, mem x s = true ↔ New D i x) → inv (<[i:=s]> D).
  Proof.
    intros HI Hi Hs.
    pose proof (inv_len _ HI) as HL.
    assert (∀ q x, mem x (<[i:=s]> D !!! q) = true → mem x (D !!! q) = true) as Hle.
    { intros q x. destruct (decide (q = i)) as [->|].
      - rewrite list_lookup_total_insert by lia. intros ?%Hs. by apply (inv_dec _ HI).
      - by rewrite list_lookup_total_insert_ne. }
    split.
    - by rewrite insert_length.
    - rewrite list_lookup_total_insert_ne by lia. apply (inv_entry _ HI).
    - intros j x Hj Hd. destruct (decide (j = i)) as [->|].
      + rewrite list_lookup_total_insert by lia. apply Hs. by apply dom_New.
      + rewrite list_lookup_total_insert_ne by done. by apply (inv_sound _ HI).
    - intros i' x Hi' HN.
      assert (New D i' x) as HN'.
      { destruct HN as [|[? H]]; [by left|right]. split; [done|]. intros q Hq. apply Hle; auto. }
      destruct (decide (i' = i)) as [->|].
      + rewrite list_lookup_total_insert by lia. by apply Hs.
      + rewrite list_lookup_total_insert_ne by done. by apply (inv_dec _ HI).
  Qed.

  Lemma mu_update D i s :
    inv D → 1 ≤ i < n → (∀ x, mem x s = true ↔ New D i x) → s ≠ D !!! i →
    mu (<[i:=s]> D) < mu D.
  Proof.
    intros HI Hi Hs Hne. unfold mu.
    assert (D !! i = Some (D !!! i)) as HDi.
    { apply list_lookup_lookup_total_lt. rewrite (inv_len _ HI). lia. }
    pose proof (sum_list_with_insert card D i (D !!! i) s HDi).
    assert (card s < card (D !!! i)); [|lia].
    apply card_lt; [|done]. intros x ?%Hs. by apply (inv_dec _ HI).
  Qed.

  Lemma dom_pass_spec is D done :
    inv D → Forall (λ i, 1 ≤ i < n) is →
    ∃ D' done', dom_pass g n is D done = Ok (D', done') ∧ inv D' ∧
      ((done' = done ∧ D' = D ∧ Forall (λ i, ∀ x, mem x (D !!! i) = true ↔ New D i x) is)
       ∨ (done' = false ∧ mu D' < mu D)).
  Proof.
    intros HI His. revert D done HI. induction His as [|i is Hi His IH]; intros D done HI.
    { exists D, done. split_and!; [done|done|]. by left. }
    destruct (new_dominators_spec D i) as (s & Hnew & Hs); [apply HI|lia|].
    cbn [dom_pass]. rewrite Hnew. cbn [Base.bind].
    rewrite bind_get_ok by (rewrite (inv_len _ HI); lia).
    destruct (N.eqb_spec s (D !!! i)) as [E|E].
    - destruct (IH D done HI) as (D' & done' & -> & HI' & Hcase).
      exists D', done'. split_and!; [done|done|].
      destruct Hcase as [(-> & -> & Hfix)|?]; [left|by right].
      split_and!; [done|done|]. apply Forall_cons. by rewrite <- E.
    - pose proof (mu_update D i s HI Hi Hs E) as Hmu.
      destruct (IH (<[i:=s]> D) false (inv_update D i s HI Hi Hs)) as (D' & done' & -> & HI' & Hcase).
      exists D', done'. split_and!; [done|done|]. right.
      destruct Hcase as [(-> & -> & _)|[-> ?]]; split; (done || lia).
  Qed.

  Definition is_fix (D : list N) : Prop :=
    ∀ i x, 1 ≤ i < n → (mem x (D !!! i) = true ↔ New D i x).

  Lemma dom_loop_spec fuel D :
    inv D → mu D < fuel → ∃ D', dom_loop fuel g n D = Ok D' ∧ inv D' ∧ is_fix D'.
  Proof.
    revert D. induction fuel as [|fuel IH]; intros D HI Hmu; [lia|].
    destruct (dom_pass_spec (seq 1 (n - 1)) D true HI) as (D' & done' & Hp & HI' & Hcase).
    { apply Forall_seq. lia. }
    cbn [dom_loop]. rewrite Hp. cbn [Base.bind fst snd].
    destruct Hcase as [(-> & -> & Hfix)|[-> ?]].
    - exists D. split_and!; [done|done|]. intros i x Hi. revert x.
      apply (proj1 (Forall_seq _ _ _) Hfix). lia.
    - apply IH; [done|lia].
  Qed.

  Lemma inv_init : inv (dom_init n).
  Proof.
    pose proof (rooted_nonempty g Hg) as Hn. unfold dom_init.
    assert (∀ i x, 1 ≤ i < n → mem x ((ins 0 0%N :: replicate (n - 1) (full n)) !!! i) = true ↔ x < n)
      as Hrow.
    { intros [|i] x Hi; [lia|]. change ((?a :: ?l) !!! S i) with (l !!! i).
      by rewrite lookup_total_replicate_2, mem_full, bool_decide_eq_true by lia. }
    split.
    - simpl. rewrite replicate_length. lia.
    - done.
    - intros j x Hj Hd. destruct (decide (j = 0)) as [->|].
      + by apply (dom_of_entry g Hg) in Hd as ->.
      + apply Hrow; [lia|]. by eapply dom_lt.
    - intros i x Hi HN. apply Hrow; [done|]. destruct HN as [->|[? _]]; lia.
  Qed.

  Lemma mu_init : mu (dom_init n) < dom_fuel g.
  Proof.
    pose proof (rooted_nonempty g Hg) as Hn. unfold mu, dom_init, dom_fuel.
    cbn [sum_list_with]. rewrite sum_list_with_replicate.
    assert (card (full n) ≤ n).
    { apply card_bounded. intros i. rewrite mem_full, bool_decide_eq_true. done. }
    assert (card (ins 0 0%N) = 1) as -> by done. nia.
  Qed.

  Lemma fixpoint_exact D :
    inv D → is_fix D → ∀ j x, j < n → (mem x (D !!! j) = true ↔ dom g x j).
  Proof.
    intros HI Hfix j x Hj. split; [|by apply (inv_sound _ HI)].
    intros Hm l Hl. revert j x Hj Hm Hl.
    induction l as [|y l0 IH] using rev_ind; intros j x Hj Hm Hl.
    { inversion Hl. }
    destruct (path_snoc_inv _ _ _ _ Hl) as [[Hl1 <-]|(l' & b & Heq & Hp & He)].
    - rewrite (inv_entry _ HI), mem_ins, mem_0, orb_false_r, bool_decide_eq_true in Hm.
      subst x. rewrite Hl1. set_solver.
    - apply app_inj_tail in Heq as [-> ->].
      assert (1 ≤ j < n) as Hj1.
      { split; [|done]. destruct j; [|lia]. by apply (entry_no_pred g Hg) in He. }
      apply (Hfix j x Hj1) in Hm as [->|[_ Hq]]; [set_solver|].
      apply (edge_preds g Hg) in He as [_ Hb]. specialize (Hq _ Hb).
      apply elem_of_app; left. eapply IH; [|done|done]. by eapply path_dst_lt.
  Qed.

  Theorem compute_dominators_correct :
    ∃ D, compute_dominators (dom_fuel g) g = Ok D ∧ tabulates n D (λ j x, dom g x j).
  Proof.
    destruct (dom_loop_spec (dom_fuel g) (dom_init n) inv_init mu_init) as (D & HD & HI & Hfix).
    exists D. split; [done|]. split; [apply HI|]. by apply fixpoint_exact.
  Qed.
End dataflow.

Lemma list_max_by (f : nat → nat) (l : list nat) :
  l ≠ [] → ∃ x, x ∈ l ∧ ∀ y, y ∈ l → f y ≤ f x.
Proof.
  induction l as [|a l IH]; [done|]. intros _.
  destruct l as [|b l].
  { exists a. set_solver. }
  destruct IH as (x & Hx & Hmax); [done|].
  destruct (decide (f x ≤ f a)).
  - exists a. split; [set_solver|]. intros y [->|Hy]%elem_of_cons; [done|].
    specialize (Hmax _ Hy). lia.
  - exists x. split; [set_solver|]. intros y [->|Hy]%elem_of_cons; [lia|]. by apply Hmax.
Qed.

Section idom.
  Context (g : graph) (Hg : rooted g).
  Notation n := (length g).
  Context (D : list N) (HD : ∀ j x, j < n → (mem x (D !!! j) = true ↔ dom g x j)).

  Lemma card_dom_lt a b : b < n → sdom g a b → card (D !!! a) < card (D !!! b).
  Proof.
    intros Hb [Hab Hne]. assert (a < n) as Ha by (by eapply (dom_lt g Hg)).
    apply card_lt.
    - intros x. rewrite !HD by done. intros. by eapply (dom_trans g Hg).
    - intros Heq. assert (mem b (D !!! a) = true) as Hm.
      { rewrite Heq. apply (proj2 (HD b b Hb)), (dom_refl g Hg). }
      apply (proj1 (HD a b Ha)) in Hm. apply Hne. by apply (dom_antisym g Hg).
  Qed.

  Lemma mem_del_dominators i x : i < n → mem x (del i (D !!! i)) = true ↔ sdom g x i.
  Proof.
    intros Hi. by rewrite mem_del, andb_true_iff, negb_true_iff, bool_decide_eq_false, HD.
  Qed.

  (* the witness is the strict dominator with the most dominators *)
  Lemma idom_exists i : 0 < i < n → ∃ j, idom_spec g j i.
  Proof.
    intros Hi.
    destruct (list_max_by (λ x, card (D !!! x)) (members (del i (D !!! i))))
      as (x & Hx%elem_of_members & Hmax).
    { assert (0 ∈ members (del i (D !!! i))) as H0.
      { apply elem_of_members, mem_del_dominators; [lia|]. split; [apply (dom_entry g Hg)|lia]. }
      intros E. rewrite E in H0. by apply elem_of_nil in H0. }
    apply mem_del_dominators in Hx; [|lia].
    exists x. apply (idom_spec_max g Hg); [lia|]. split; [done|]. intros (k & Hk & Hxk).
    assert (card (D !!! x) < card (D !!! k)).
    { apply card_dom_lt; [|done]. eapply (sdom_lt g Hg); [|done]. lia. }
    assert (card (D !!! k) ≤ card (D !!! x)); [|lia].
    apply Hmax, elem_of_members, mem_del_dominators; [lia|done].
  Qed.

  Context (HDlen : length D = n).
  Context (ord : nat → list nat → list nat) (Hord : ∀ i l, ord i l ≡ₚ l).

  (* the `continue` skips a candidate whose strict dominators are already in
     the accumulated set, because that set is closed under strict dominators *)
  Lemma all_dominators_spec cs all :
    Forall (λ j, j < n) cs →
    (∀ k j, mem j all = true → sdom g k j → mem k all = true) →
    ∃ all', all_dominators D cs all = Ok all' ∧
            ∀ k, mem k all' = true ↔ mem k all = true ∨ Exists (sdom g k) cs.
  Proof.
    intros Hcs. revert all. induction Hcs as [|j cs Hj Hcs IH]; intros all Hcl.
    { exists all. split; [done|]. intros k. rewrite Exists_nil. tauto. }
    cbn [all_dominators]. destruct (mem j all) eqn:Hmem.
    - destruct (IH all Hcl) as (all' & -> & Hall'). exists all'. split; [done|].
      intros k. rewrite Hall', Exists_cons. split; [tauto|].
      intros [?|[?|?]]; [by left|left; by eapply Hcl|by right].
    - rewrite bind_get_ok by lia.
      assert (∀ k, mem k (N.lor (del j (D !!! j)) all) = true ↔ sdom g k j ∨ mem k all = true) as Hlor.
      { intros k. by rewrite mem_lor, orb_true_iff, mem_del_dominators. }
      destruct (IH (N.lor (del j (D !!! j)) all)) as (all' & -> & Hall').
      { intros k j' [?|?]%Hlor ?; apply Hlor; [left; by eapply (sdom_trans g Hg)|right; by eapply Hcl]. }
      exists all'. split; [done|]. intros k. rewrite Hall', Hlor, Exists_cons. tauto.
  Qed.

  Lemma idom_candidates_spec i :
    i < n → ∃ c, idom_candidates ord D i = Ok c ∧ ∀ j, mem j c = true ↔ idom_spec g j i.
  Proof.
    intros Hi. unfold idom_candidates. rewrite bind_get_ok by lia.
    pose proof (λ x, mem_del_dominators i x Hi) as Hc.
    destruct (1 <? card (del i (D !!! i))) eqn:Hcard.
    - assert (∀ k, k ∈ ord i (members (del i (D !!! i))) ↔ sdom g k i) as Hcs.
      { intros k. by rewrite Hord, elem_of_members. }
      destruct (all_dominators_spec (ord i (members (del i (D !!! i)))) 0%N) as (all & -> & Hall).
      { apply Forall_forall. intros j Hj%Hcs. by eapply (sdom_lt g Hg). }
      { intros k j. by rewrite mem_0. }
      cbn [Base.bind].
      assert (∀ j, mem j (N.ldiff (del i (D !!! i)) all) = true ↔ idom_spec g j i) as Hres.
      { intros j. rewrite mem_ldiff, andb_true_iff, negb_true_iff, <- not_true_iff_false,
          Hc, Hall, mem_0, Exists_exists, (idom_spec_max g Hg) by done.
        setoid_rewrite Hcs. clear. naive_solver. }
      assert (card (N.ldiff (del i (D !!! i)) all) ≤ 1) as Hle%Nat.leb_le.
      { apply card_le_1_intro. intros x y ?%Hres ?%Hres. by eapply idom_spec_unique. }
      rewrite Hle. eauto.
    - apply Nat.ltb_ge in Hcard. eexists; split; [done|].
      intros j. rewrite Hc, (idom_spec_max g Hg) by done. split; [|tauto].
      intros Hs. split; [done|]. intros (k & Hk & [_ Hne]). apply Hne.
      eapply card_le_1_eq; [done|..]; by apply Hc.
  Qed.

  (* After the blocks in [done], both tables hold the immediate dominators of
     those blocks: idom by block, ch by dominator. *)
  Record idom_inv (done : list nat) (idom : list (option nat)) (ch : list N) : Prop := {
    idom_inv_len : length idom = n;
    idom_inv_idom : ∀ i j, i < n → (idom !!! i = Some j ↔ i ∈ done ∧ idom_spec g j i);
    idom_inv_ch : tabulates n ch (λ j i, i ∈ done ∧ idom_spec g j i);
  }.

  Lemma idom_inv_nil : idom_inv [] (replicate n None) (replicate n 0%N).
  Proof.
    assert (∀ i j, False ↔ i ∈ [] ∧ idom_spec g j i) as HR.
    { intros i j. rewrite elem_of_nil. tauto. }
    split; [apply replicate_length| |].
    - intros i j Hi. by rewrite lookup_total_replicate_2, <- HR.
    - apply (tabulates_iff (tabulates_empty n)). intros j i _. apply HR.
  Qed.

  Lemma idom_inv_skip done idom ch i :
    idom_inv done idom ch → (∀ j, ¬ idom_spec g j i) → idom_inv (i :: done) idom ch.
  Proof.
    intros [HL Hid Hch] Hno.
    assert (∀ i' j, i' ∈ done ∧ idom_spec g j i' ↔ i' ∈ i :: done ∧ idom_spec g j i') as HR.
    { intros i' j. rewrite elem_of_cons. split; [tauto|].
      intros [[->|?] ?]; [by destruct (Hno j)|done]. }
    split; [done| |].
    - intros i' j Hi'. by rewrite Hid, HR.
    - apply (tabulates_iff Hch). intros j i' _. apply HR.
  Qed.

  Lemma idom_inv_step done idom ch i j :
    idom_inv done idom ch → i < n → idom_spec g j i →
    idom_inv (i :: done) (<[i:=Some j]> idom) (<[j:=ins i (ch !!! j)]> ch).
  Proof.
    intros [HL Hid Hch] Hi Hji.
    assert (∀ i' j', i' ∈ i :: done ∧ idom_spec g j' i' ↔
                     (i' ∈ done ∧ idom_spec g j' i') ∨ (j' = j ∧ i' = i)) as HR.
    { intros i' j'. rewrite elem_of_cons. split.
      - intros [[->|?] Hs]; [right|by left]. split; [|done]. by apply (idom_spec_unique g j' j i).
      - intros [[? ?]|[-> ->]]; auto. }
    split.
    - by rewrite insert_length.
    - intros i' j' Hi'. rewrite HR. destruct (decide (i = i')) as [<-|Hne].
      + rewrite list_lookup_total_insert by lia. split; [intros [= ->]; auto|].
        intros [[_ Hs]|[-> _]]; [|done]. f_equal. by apply (idom_spec_unique g j j' i).
      + rewrite list_lookup_total_insert_ne, Hid by done. split; [by left|]. by intros [?|[_ ->]].
    - assert (j < n) as Hj by (destruct Hji as [? _]; by eapply (sdom_lt g Hg)).
      apply (tabulates_iff (tabulates_insert j i Hch Hj)). intros j' i' _. symmetry. apply HR.
  Qed.

  Lemma idom_loop_spec is done idom ch :
    idom_inv done idom ch → Forall (λ i, i < n) is →
    ∃ idom' ch', idom_loop ord D is idom ch = Ok (idom', ch') ∧
                 idom_inv (reverse is ++ done) idom' ch'.
  Proof.
    intros HI His. revert done idom ch HI.
    induction His as [|i is Hi His IH]; intros done idom ch HI; [by eauto|].
    rewrite reverse_cons, <- app_assoc.
    destruct (idom_candidates_spec i Hi) as (c & Hcand & Hc).
    cbn [idom_loop]. rewrite Hcand. cbn [Base.bind].
    destruct (members c) as [|j rest] eqn:Hmem.
    - apply IH, idom_inv_skip; [done|]. intros j Hj%Hc%elem_of_members.
      rewrite Hmem in Hj. by apply elem_of_nil in Hj.
    - assert (idom_spec g j i) as Hji.
      { apply Hc, elem_of_members. rewrite Hmem. left. }
      assert (j < n) as Hj by (destruct Hji as [? _]; by eapply (sdom_lt g Hg)).
      pose proof HI as [HL _ [HLc _]].
      rewrite (bind_get_ok _ idom), (bind_get_ok _ ch) by lia.
      by apply IH, idom_inv_step.
  Qed.

  Theorem compute_immediate_dominators_correct :
    ∃ idom ch, compute_immediate_dominators ord g D = Ok (idom, ch) ∧
      length idom = n ∧
      (∀ i j, i < n → (idom !!! i = Some j ↔ idom_spec g j i)) ∧
      tabulates n ch (λ j i, i < n ∧ idom_spec g j i).
  Proof.
    destruct (idom_loop_spec (seq 0 n) [] _ _ idom_inv_nil) as (idom & ch & ? & [? Hid Hch]).
    { apply Forall_seq. lia. }
    assert (∀ i, i ∈ reverse (seq 0 n) ++ [] ↔ i < n) as Hdone.
    { intros i. rewrite app_nil_r, elem_of_reverse, elem_of_seq. lia. }
    exists idom, ch. split_and!; [done|done| |].
    - intros i j Hi. rewrite Hid, Hdone by done. tauto.
    - apply (tabulates_iff Hch). intros j i _. by rewrite Hdone.
  Qed.
End idom.

Section frontier.
  Context (g : graph) (Hg : rooted g).
  Notation n := (length g).
  Context (D : list N) (HDlen : length D = n)
          (HD : ∀ j x, j < n → (mem x (D !!! j) = true ↔ dom g x j)).
  Context (idom : list (option nat)) (Hilen : length idom = n)
          (Hidom : ∀ i j, i < n → (idom !!! i = Some j ↔ idom_spec g j i)).

  Lemma card_pos k : k < n → 0 < card (D !!! k).
  Proof.
    intros Hk. assert (mem k (D !!! k) = true) as Hm%elem_of_members.
    { apply HD; [done|]. apply (dom_refl g Hg). }
    unfold card. destruct (members _); [by apply elem_of_nil in Hm|simpl; lia].
  Qed.

  (* the walk from k up the dominator tree, stopping below t *)
  Lemma df_walk_spec fuel i t k DF R :
    i < n → idom !!! i = Some t → k < n → dom g t k → card (D !!! k) ≤ fuel → tabulates n DF R →
    ∃ DF', df_walk fuel idom i k DF = Ok DF' ∧
      tabulates n DF' (λ x y, R x y ∨ (y = i ∧ dom g x k ∧ ¬ dom g x t)).
  Proof.
    intros Hi Ht. revert k DF R. induction fuel as [|fuel IH]; intros k DF R Hk Htk Hfuel HDF.
    { pose proof (card_pos k Hk). lia. }
    cbn [df_walk]. rewrite (bind_get_ok _ idom i) by lia. rewrite Ht.
    destruct (decide (Some k = Some t)) as [[= ->]|Hne].
    { exists DF. split; [done|]. apply (tabulates_iff HDF). intros x y _. tauto. }
    assert (sdom g t k) as Hstk by (split; [done|congruence]).
    assert (0 < k) as Hk0.
    { destruct k; [|lia]. apply (dom_of_entry g Hg) in Htk. congruence. }
    destruct (idom_exists g Hg D HD k) as (k' & Hk'); [lia|].
    pose proof HDF as [HL _].
    rewrite (bind_get_ok _ DF k) by lia.
    rewrite (bind_get_ok _ idom k) by lia.
    rewrite (proj2 (Hidom k k' Hk) Hk').
    destruct (IH k' (<[k:=ins i (DF !!! k)]> DF) (λ x y, R x y ∨ (x = k ∧ y = i)))
      as (DF' & -> & HDF').
    { eapply (sdom_lt g Hg); [exact Hk|]. apply Hk'. }
    { by apply (sdom_iff_dom_idom g Hg k' k t Hk Hk'). }
    { pose proof (card_dom_lt g Hg D HD k' k Hk (proj1 Hk')). lia. }
    { by apply tabulates_insert. }
    exists DF'. split; [done|]. apply (tabulates_iff HDF'). intros x y _.
    rewrite (dom_iff_idom g Hg k' k x Hk Hk').
    assert (¬ dom g k t) as Hnkt.
    { intros ?. destruct Hstk as [? []]. by apply (dom_antisym g Hg). }
    clear -Hnkt. naive_solver.
  Qed.

  Lemma df_preds_spec fuel i t ps DF R :
    i < n → idom_spec g t i → n ≤ fuel → Forall (λ j, edge g j i) ps → tabulates n DF R →
    ∃ DF', df_preds fuel idom i ps DF = Ok DF' ∧
      tabulates n DF' (λ x y, R x y ∨ (y = i ∧ Exists (λ j, dom g x j ∧ ¬ dom g x t) ps)).
  Proof.
    intros Hi Ht Hfuel Hps. revert DF R. induction Hps as [|j ps He Hps IH]; intros DF R HDF.
    { exists DF. split; [done|]. apply (tabulates_iff HDF). intros x y _.
      rewrite Exists_nil. tauto. }
    assert (j < n) as Hj by (by eapply edge_lt).
    destruct (df_walk_spec fuel i t j DF R) as (DF1 & H1 & HDF1); try done.
    { by apply Hidom. }
    { destruct Ht as [[? ?] _]. by eapply (dom_pred g Hg). }
    { etrans; [|done]. apply card_bounded. intros x Hx%HD; [|done]. by eapply (dom_lt g Hg). }
    destruct (IH _ _ HDF1) as (DF' & H2 & HDF').
    exists DF'. cbn [df_preds]. rewrite H1. cbn [Base.bind]. split; [done|].
    apply (tabulates_iff HDF'). intros x y _. rewrite Exists_cons. tauto.
  Qed.

  Lemma df_loop_cons fuel i DF R :
    n ≤ fuel → i < n → tabulates n DF R →
    ∃ DF1, (∀ is, df_loop fuel g idom (i :: is) DF = df_loop fuel g idom is DF1) ∧
           tabulates n DF1 (λ x y, R x y ∨ (y = i ∧ df_spec g x i)).
  Proof.
    intros Hfuel Hi HDF. cbn [df_loop]. rewrite get_ok by done. cbn [Base.bind].
    destruct (1 <? length (preds (g !!! i))) eqn:Hlen.
    - apply Nat.ltb_lt in Hlen.
      assert (0 < i) as Hi0.
      { destruct i; [|lia]. rewrite (rooted_entry g Hg _ (lookup_total_node g 0 Hi)) in Hlen.
        simpl in Hlen. lia. }
      destruct (idom_exists g Hg D HD i) as (t & Ht); [lia|].
      destruct (df_preds_spec fuel i t (preds (g !!! i)) DF R) as (DF1 & -> & HDF1); try done.
      { apply Forall_forall. intros j Hj. by apply (edge_preds g Hg). }
      exists DF1. split; [done|]. apply (tabulates_iff HDF1). intros x y _.
      by rewrite (df_spec_idom g Hg t i x).
    - apply Nat.ltb_ge in Hlen. exists DF. split; [done|].
      apply (tabulates_iff HDF). intros x y _. split; [by left|].
      intros [?|[_ ?%(df_spec_single g Hg)]]; done.
  Qed.

  Lemma df_loop_spec fuel is DF R :
    n ≤ fuel → Forall (λ i, i < n) is → tabulates n DF R →
    ∃ DF', df_loop fuel g idom is DF = Ok DF' ∧
           tabulates n DF' (λ x y, R x y ∨ (y ∈ is ∧ df_spec g x y)).
  Proof.
    intros Hfuel His. revert DF R. induction His as [|i is Hi His IH]; intros DF R HDF.
    { exists DF. split; [done|]. apply (tabulates_iff HDF). intros x y _.
      rewrite elem_of_nil. tauto. }
    destruct (df_loop_cons fuel i DF R) as (DF1 & -> & HDF1); [done..|].
    destruct (IH _ _ HDF1) as (DF' & -> & HDF').
    exists DF'. split; [done|]. apply (tabulates_iff HDF'). intros x y _.
    rewrite elem_of_cons. clear. naive_solver.
  Qed.

  Theorem compute_dominance_frontier_correct fuel :
    n ≤ fuel →
    ∃ DF, compute_dominance_frontier fuel g idom = Ok DF ∧ tabulates n DF (df_spec g).
  Proof.
    intros Hfuel. unfold compute_dominance_frontier.
    destruct (df_loop_spec fuel (seq 0 n) (replicate n 0%N) (λ _ _, False) Hfuel) as (DF & -> & HDF).
    { apply Forall_seq. lia. }
    { apply tabulates_empty. }
    exists DF. split; [done|]. apply (tabulates_iff HDF). intros x y _.
    rewrite elem_of_seq. split; [intros [[]|[_ ?]]; done|]. intros Hdf. right. split; [|done].
    destruct Hdf as [(x0 & _ & Hx0%lookup_lt_Some & _) _]. lia.
  Qed.
End frontier.

Record tree_ok (g : graph) (t : dom_tree) : Prop := {
  ok_dom_len : length (dt_dominators t) = length g;
  ok_idom_len : length (dt_idom t) = length g;
  ok_ch_len : length (dt_children t) = length g;
  ok_df_len : length (dt_frontier t) = length g;
  ok_dom : ∀ j x, j < length g → (mem x (dt_dominators t !!! j) = true ↔ dom g x j);
  ok_idom : ∀ i j, i < length g → (dt_idom t !!! i = Some j ↔ idom_spec g j i);
  ok_ch : ∀ j i, j < length g → i < length g → (mem i (dt_children t !!! j) = true ↔ idom_spec g j i);
  ok_df : ∀ x y, x < length g → (mem y (dt_frontier t !!! x) = true ↔ df_spec g x y);
}.

(* beyond tree_ok: the children sets hold nothing but blocks of the graph *)
Lemma dominator_tree_spec g ord :
  rooted g → order_ok ord →
  ∃ t, dominator_tree (dom_fuel g) ord g = Ok t ∧ tree_ok g t ∧
       tabulates (length g) (dt_children t) (λ j i, i < length g ∧ idom_spec g j i).
Proof.
  intros Hg Hord. unfold dominator_tree.
  destruct (compute_dominators_correct g Hg) as (D & -> & HDlen & HD). cbn [Base.bind].
  destruct (compute_immediate_dominators_correct g Hg D HD HDlen ord Hord)
    as (idom & ch & -> & Hilen & Hidom & Hch). cbn [Base.bind fst snd].
  destruct (compute_dominance_frontier_correct g Hg D HDlen HD idom Hilen Hidom (dom_fuel g))
    as (DF & -> & HFlen & HDF).
  { unfold dom_fuel. pose proof (rooted_nonempty g Hg). nia. }
  cbn [Base.bind]. pose proof (rooted_nonempty g Hg) as Hn.
  rewrite bind_get_ok by lia.
  destruct (idom !!! 0) as [j|] eqn:E.
  { apply Hidom in E; [|done]. by apply (no_idom_entry g Hg) in E. }
  eexists. split_and!; [done| |done]. destruct Hch as [Hclen Hch]. split; try done.
  intros j i Hj Hi. rewrite Hch by done. tauto.
Qed.

Theorem dominator_tree_correct g ord :
  rooted g → order_ok ord → ∃ t, dominator_tree (dom_fuel g) ord g = Ok t ∧ tree_ok g t.
Proof.
  intros Hg Hord. destruct (dominator_tree_spec g ord Hg Hord) as (t & ? & ? & _). eauto.
Qed.

(* about a tree that the mirror returned; props/C15.v cites most of these,
   hence the partial lookups *)
Section statements.
  Context (g : graph) (ord : nat → list nat → list nat) (t : dom_tree).
  Context (Hg : rooted g) (Hord : order_ok ord).
  Context (Ht : dominator_tree (dom_fuel g) ord g = Ok t).

  Lemma tree_spec :
    tree_ok g t ∧ tabulates (length g) (dt_children t) (λ j i, i < length g ∧ idom_spec g j i).
  Proof.
    destruct (dominator_tree_spec g ord Hg Hord) as (t' & Ht' & Hok).
    assert (t' = t) as -> by congruence. done.
  Qed.

  Lemma tree_is_ok : tree_ok g t.
  Proof. apply tree_spec. Qed.

  Lemma child_spec j i :
    j < length g → mem i (dt_children t !!! j) = true → i < length g ∧ idom_spec g j i.
  Proof. intros Hj. by apply tree_spec. Qed.

  Lemma dominators_exact j dj i :
    dt_dominators t !! j = Some dj → (mem i dj = true ↔ dom g i j).
  Proof.
    intros [Hj <-]%list_lookup_alt. pose proof tree_is_ok as Hok.
    apply (ok_dom _ _ Hok). by rewrite <- (ok_dom_len _ _ Hok).
  Qed.

  Lemma idom_exact i o j :
    dt_idom t !! i = Some o → (o = Some j ↔ idom_spec g j i).
  Proof.
    intros [Hi <-]%list_lookup_alt. pose proof tree_is_ok as Hok.
    apply (ok_idom _ _ Hok). by rewrite <- (ok_idom_len _ _ Hok).
  Qed.

  Lemma idom_total i o :
    dt_idom t !! i = Some o → (o = None ↔ i = 0).
  Proof.
    intros Hi. pose proof tree_is_ok as Hok.
    pose proof (λ j, idom_exact i o j Hi) as Hex.
    apply lookup_lt_Some in Hi. rewrite (ok_idom_len _ _ Hok) in Hi. split.
    - intros ->. destruct (decide (i = 0)) as [|Hne]; [done|exfalso].
      destruct (idom_exists g Hg (dt_dominators t) (ok_dom _ _ Hok) i) as (j & Hj); [lia|].
      by apply Hex in Hj.
    - intros ->. destruct o as [j|]; [exfalso|done].
      eapply no_idom_entry; [done|]. by apply Hex.
  Qed.

  Lemma children_invert_idom_all j cj i :
    dt_children t !! j = Some cj → (mem i cj = true ↔ dt_idom t !! i = Some (Some j)).
  Proof.
    intros Hj. destruct tree_spec as [Hok Hch].
    rewrite (tabulates_lookup j cj i Hch Hj), list_lookup_alt, (ok_idom_len _ _ Hok).
    split; intros [Hi Hs]; (split; [done|]); by apply (ok_idom _ _ Hok).
  Qed.

  Lemma children_invert_idom j cj i :
    dt_children t !! j = Some cj → i < length g →
    (mem i cj = true ↔ dt_idom t !! i = Some (Some j)).
  Proof. intros Hj _. by apply children_invert_idom_all. Qed.

  Lemma children_partition i :
    0 < i < length g →
    ∃ j cj, dt_children t !! j = Some cj ∧ mem i cj = true ∧
      ∀ j' cj', dt_children t !! j' = Some cj' → mem i cj' = true → j' = j.
  Proof.
    intros Hi. destruct tree_spec as [Hok Hch].
    destruct (idom_exists g Hg (dt_dominators t) (ok_dom _ _ Hok) i Hi) as (j & Hj).
    assert (j < length (dt_children t)) as [cj Hcj]%lookup_lt_is_Some.
    { rewrite (ok_ch_len _ _ Hok). destruct Hj as [? _]. eapply (sdom_lt g Hg); [|done]. lia. }
    exists j, cj. split_and!; [done|apply (tabulates_lookup j cj i Hch Hcj); split; [lia|done]|].
    intros j' cj' Hcj' [_ Hj']%(tabulates_lookup j' cj' i Hch Hcj').
    apply (idom_spec_unique g j' j i Hg); [lia|done..].
  Qed.

  Lemma frontier_exact i fi j :
    dt_frontier t !! i = Some fi → (mem j fi = true ↔ df_spec g i j).
  Proof.
    intros [Hi <-]%list_lookup_alt. pose proof tree_is_ok as Hok.
    apply (ok_df _ _ Hok). by rewrite <- (ok_df_len _ _ Hok).
  Qed.
End statements.

Lemma dom_fuel_suffices g :
  rooted g → ∃ D, compute_dominators (dom_fuel g) g = Ok D ∧ length D = length g.
Proof. intros Hg. destruct (compute_dominators_correct g Hg) as (D & ? & ? & _). eauto. Qed.

Lemma dominator_tree_no_panic g ord :
  rooted g → order_ok ord →
  ∃ t, dominator_tree (dom_fuel g) ord g = Ok t ∧
    length (dt_dominators t) = length g ∧ length (dt_idom t) = length g ∧
    length (dt_children t) = length g ∧ length (dt_frontier t) = length g.
Proof.
  intros Hg Hord. destruct (dominator_tree_correct g ord Hg Hord) as (t & Ht & Hok).
  exists t. split; [exact Ht|]. destruct Hok; auto.
Qed.
