(* DesugarAlphaInj -- the alpha-renaming reading of the renaming theorems (C18).

   Proofs.DesugarAlpha proves that [expand_spec] COMMUTES with every [f] that
   fixes the names of the body.  That alone is parametricity in the naming
   functions: an [f] that sends a generated name onto a name the body uses (or two
   generated names onto one) satisfies [fixes_names] too, and then [ren_s f]
   merges variables.  Here the missing hypothesis is added: [f] is injective on
   the names in scope and the names of the expansion ([inj_on]).  Then [ren_s f]
   has a left inverse on the expansion, i.e. the two expansions are renamings of
   each other by maps that identify no two names: alpha-equivalent. *)
From Coq Require Import ZArith NArith List Bool String Lia.
Require Import Model.Ast Model.Desugar Spec.ExpandSpec Spec.RenameSpec Proofs.DesugarProofs Proofs.DesugarRefine
               Proofs.DesugarAlpha.
Import ListNotations.
Local Open Scope list_scope.

Section Comp.
  Variables f g : string -> string.
  Let h (x : string) : string := g (f x).

  Lemma ren_e_comp : forall e, ren_e g (ren_e f e) = ren_e h e.
  Proof.
    induction e using expression_ind'; cbn [ren_e]; rewrite ?map_map.
    - rewrite IHe1, IHe2. reflexivity.
    - rewrite IHe. reflexivity.
    - rewrite IHe1, IHe2, IHe3. reflexivity.
    - rewrite IHe. reflexivity.
    - f_equal. apply map_ext_Forall. eapply Forall_impl; [|exact H]. intros [s|i] Hi; [reflexivity | f_equal; exact Hi].
    - reflexivity.
    - rewrite (map_ext_Forall _ _ H). reflexivity.
    - rewrite (map_ext_Forall _ _ H), (map_ext_Forall _ _ H0). reflexivity.
    - rewrite (map_ext_Forall _ _ H). reflexivity.
    - rewrite (map_ext_Forall _ _ H). reflexivity.
  Qed.

  Lemma ren_a_comp : forall acc, map (ren_a g) (map (ren_a f) acc) = map (ren_a h) acc.
  Proof.
    intros acc. rewrite map_map. apply map_ext. intros [s|i]; [reflexivity|].
    cbn [ren_a]. rewrite ren_e_comp. reflexivity.
  Qed.

  Lemma ren_s_comp : forall s, ren_s g (ren_s f s) = ren_s h s.
  Proof.
    induction s using statement_ind'; cbn [ren_s].
    - rewrite ren_e_comp, IHs. destruct e as [e'|]; [rewrite (H e' eq_refl)|]; reflexivity.
    - rewrite ren_e_comp, IHs. reflexivity.
    - rewrite ren_e_comp. reflexivity.
    - rewrite map_map, (map_ext_Forall _ _ H). reflexivity.
    - rewrite map_map, (map_ext _ _ ren_e_comp). reflexivity.
    - rewrite ren_a_comp, ren_e_comp. reflexivity.
    - rewrite !ren_e_comp. reflexivity.
    - rewrite !ren_e_comp. reflexivity.
    - rewrite map_map. f_equal. apply map_ext. intros [str|e]; [reflexivity|]. cbn [ren_log]. rewrite ren_e_comp. reflexivity.
    - rewrite map_map, (map_ext_Forall _ _ H). reflexivity.
    - rewrite ren_e_comp. reflexivity.
  Qed.
End Comp.

(* an injective renaming has a left inverse on a finite set of names *)

Fixpoint inv_on (f : string -> string) (l : list string) (y : string) : string :=
  match l with
  | [] => y
  | x :: r => if String.eqb (f x) y then x else inv_on f r y
  end.

Lemma inv_on_left : forall f l, inj_on f l -> forall x, In x l -> inv_on f l (f x) = x.
Proof.
  intros f l. induction l as [|a l IH]; intros Hinj x Hin; [destruct Hin|].
  cbn [inv_on]. destruct (String.eqb (f a) (f x)) eqn:E.
  - apply String.eqb_eq in E. apply Hinj; [left; reflexivity | exact Hin | exact E].
  - destruct Hin as [->|Hin]; [rewrite String.eqb_refl in E; discriminate|].
    apply IH; [|exact Hin]. intros u v Hu Hv. apply Hinj; right; assumption.
Qed.

Lemma ren_s_left_inverse : forall f g s,
  (forall x, In x (stmt_names s) -> g (f x) = x) -> ren_s g (ren_s f s) = s.
Proof. intros f g s H. rewrite ren_s_comp. apply ren_s_fix. apply Forall_forall. exact H. Qed.

(* [scope]: names visible in the body that need not occur in it (the parameters
   of the definition).  [f] fixes them and the names of the body, and identifies
   no two names among them and the names of the expansion [b]: then the expansion
   under the scheme "f after (comp_name, counter_name)" is [ren_s f b], and
   [ren_s f] is undone on it by a renaming [g] that is inverse to [f] on every
   name in sight. *)
Theorem expand_spec_alpha :
  forall (f : string -> string) sig_of comp_name counter_name scope body b,
    fixes_names f body ->
    counters_separate f counter_name ->
    expand_spec sig_of comp_name counter_name body = Some b ->
    inj_on f (scope ++ stmt_names b) ->
    expand_spec sig_of (fun id m => option_map f (comp_name id m)) (fun m => option_map f (counter_name m)) body
      = Some (ren_s f b) /\
    exists g, (forall x, In x (scope ++ stmt_names b) -> g (f x) = x) /\ ren_s g (ren_s f b) = b.
Proof.
  intros f sig_of cn kn scope body b Hfix Hsep Hb Hinj. split.
  - rewrite (expand_spec_naming_independent f sig_of cn kn body Hfix Hsep), Hb. reflexivity.
  - exists (inv_on f (scope ++ stmt_names b)).
    assert (Hg : forall x, In x (scope ++ stmt_names b) -> inv_on f (scope ++ stmt_names b) (f x) = x)
      by (apply inv_on_left; exact Hinj).
    split; [exact Hg|]. apply ren_s_left_inverse. intros x Hx. apply Hg. apply in_or_app. right. exact Hx.
Qed.

Theorem desugar_is_expand_up_to_alpha :
  forall (f : string -> string) (lib : file_library) ts m l scope b,
    Forall wf_node (stmt_exprs (Block m l)) ->
    Forall short_node (sub_stmts (Block m l)) ->
    fixes_names f (Block m l) ->
    counters_separate f (name_opt lib "anon_var") ->
    desugar_template (env_of ts) lib (Block m l) = DOk b ->
    inj_on f (scope ++ stmt_names b) ->
    expand_spec (sig_table ts) (fun id mm => option_map f (name_opt lib id mm))
                (fun mm => option_map f (name_opt lib "anon_var" mm)) (Block m l) = Some (ren_s f b) /\
    exists g, (forall x, In x (scope ++ stmt_names b) -> g (f x) = x) /\ ren_s g (ren_s f b) = b.
Proof.
  intros f lib ts m l scope b Hwf Hshort Hfix Hsep Hd Hinj.
  pose proof (desugar_is_expand lib ts m l Hwf Hshort) as E. rewrite Hd in E. cbn [to_opt] in E.
  exact (expand_spec_alpha f (sig_table ts) (name_opt lib) (name_opt lib "anon_var") scope (Block m l) b
                           Hfix Hsep (eq_sym E) Hinj).
Qed.

(* the hypothesis excludes what [fixes_names] alone lets through: an [f] that
   sends a name of the expansion onto another name of the expansion *)
Lemma inj_on_excludes_capture : forall f l x y,
  In x l -> In y l -> x <> y -> f x = f y -> ~ inj_on f l.
Proof. intros f l x y Hx Hy Hne He Hinj. apply Hne. apply Hinj; assumption. Qed.
