(* The recursion fuel of the structured semantics (Spec.CfgSpec.run) is never
   exhausted: every loop iteration consumes a decision. *)
From stdpp Require Import list.
Require Import Model.Lift Spec.CfgSpec Proofs.LiftProofs Proofs.LiftSim.

Definition shrinks (s : sk) : Prop :=
  forall ds tr ds' st, run s ds = (tr, ds', st) -> length ds' <= length ds /\ st <> Diverged.

(* the same of a result, for the combinators of Proofs.LiftSim *)
Definition shr (ds : list bool) (r : result) : Prop :=
  let '(tr, ds', st) := r in length ds' <= length ds /\ st <> Diverged.

Lemma shr_then ds r k :
  shr ds r -> (forall ds1, length ds1 <= length ds -> shr ds1 (k ds1)) -> shr ds (then_ r k).
Proof.
  destruct r as [[tr1 ds1] st1]. intros H1 Hk. destruct st1; try exact H1. destruct H1 as [H1 _].
  specialize (Hk ds1 H1). simpl. destruct (k ds1) as [[tr2 ds2] st2]. destruct Hk as [H2 H3]. split; [lia|done].
Qed.

Lemma shr_branch c rt rf ds :
  (forall ds1, length ds1 < length ds -> shr ds1 (rt ds1)) ->
  (forall ds1, length ds1 < length ds -> shr ds1 (rf ds1)) -> shr ds (branch_res c rt rf ds).
Proof.
  intros Ht Hf. destruct ds as [|[] ds1]; [done|specialize (Ht ds1)|specialize (Hf ds1)]; simpl.
  - destruct (rt ds1) as [[tr ds'] st]. destruct Ht as [H1 H2]; [simpl; lia|]. simpl. split; [lia|done].
  - destruct (rf ds1) as [[tr ds'] st]. destruct Hf as [H1 H2]; [simpl; lia|]. simpl. split; [lia|done].
Qed.

Lemma run_seq_shr ss : Forall (fun s => forall ds, shr ds (run s ds)) ss -> forall ds, shr ds (run_seq ss ds).
Proof.
  induction 1 as [|s r Hs _ IH]; intros ds; [done|].
  change (run_seq (s :: r) ds) with (then_ (run s ds) (run_seq r)). by apply shr_then.
Qed.

Lemma run_loop_shr c rb : (forall ds, shr ds (rb ds)) ->
  forall fuel ds, length ds < fuel -> shr ds (run_loop c rb fuel ds).
Proof.
  intros Hb. induction fuel as [|fuel IH]; intros ds Hlt; [lia|]. rewrite run_loop_S.
  apply shr_branch; intros ds1 H1; [|done]. apply shr_then; [done|]. intros ds2 H2. apply IH. lia.
Qed.

Lemma run_shr s ds : shr ds (run s ds).
Proof.
  revert ds. induction s as [id r|ss IH|ss IH|c body IH|c t e IHt IHe] using sk_ind'; intros ds.
  - split; [done|]. by destruct r.
  - rewrite run_init. by apply run_seq_shr.
  - rewrite run_block. by apply run_seq_shr.
  - rewrite run_while. apply run_loop_shr; [done|lia].
  - destruct e as [e|].
    + change (run (SIf c t (Some e)) ds) with (branch_res c (run t) (run e) ds).
      apply shr_branch; intros ds1 _; [done|by apply IHe].
    + change (run (SIf c t None) ds) with (branch_res c (run t) (fun ds1 => ([], ds1, Running)) ds).
      by apply shr_branch.
Qed.

Theorem run_shrinks s : shrinks s.
Proof. intros ds tr ds' st E. pose proof (run_shr s ds) as H. by rewrite E in H. Qed.

Theorem run_never_diverges s ds : final_status s ds <> Diverged.
Proof.
  unfold final_status. pose proof (run_shr s ds) as H. destruct (run s ds) as [[tr ds'] st]. apply H.
Qed.
