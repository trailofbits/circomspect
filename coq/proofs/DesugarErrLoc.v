(* C02: WHERE the desugarer's error reports are located, and which
   definitions it drops.  Lemmas about Model.Desugar (C18's mirror, imported
   unchanged) in the style of Proofs.DesugarMetas:

   * every error report `remove_anonymous_from_statement` /
     `remove_tuples_from_statement` raise for a template body, and every report
     `remove_syntactic_sugar` pushes for a function body, is located at a meta
     OF THAT BODY ([desugar_template_error_located],
     [check_function_reports_located]): for any predicate Q that holds of all
     metas of the body, Q holds of the (start, end, file) of the report;
   * a template / function that is an input of `remove_syntactic_sugar` and has
     no entry in its output was answered by such a report, and the report is
     in the collection handed back ([remove_syntactic_sugar_drop_reported]). *)
From Coq Require Import ZArith NArith List Bool String Lia.
Require Import Model.Ast Model.Desugar Spec.ExpandSpec Proofs.DesugarProofs Proofs.DesugarMetas.
Import ListNotations.
Local Open Scope list_scope.

(* the meta a report was raised at: `meta.file_location()`, `meta.get_file_id()` *)
Definition report_meta (r : Desugar.report) : meta := Meta (r_start r) (r_end r) (Some (r_file r)).

Lemma dbind_err : forall {A B} (m : dres A) (f : A -> dres B) rep,
  dbind m f = DErr rep -> m = DErr rep \/ exists a, m = DOk a /\ f a = DErr rep.
Proof.
  intros A B [a|r|s|] f rep H; simpl in H; try discriminate.
  - right. eauto.
  - left. congruence.
Qed.

Section ErrLoc.
  Variable Q : meta -> Prop.
  Notation ME := (ME Q).
  Notation MS := (MS Q).
  Notation MA := (MA Q).
  Notation ML := (ML Q).
  Notation va_M := (va_M Q).
  Notation rae_M := (rae_M Q).
  Notation ME_meta := (ME_meta Q).

  Definition EQ {A} (r : dres A) : Prop := forall rep, r = DErr rep -> Q (report_meta rep).

  Lemma MS_meta : forall s, MS s -> Q (stmt_meta s).
  Proof. intros s H. destruct s; simpl in H; tauto. Qed.

  Lemma mk_report_loc : forall c m msg l rep, Q m -> mk_report c m msg l = DOk rep -> Q (report_meta rep).
  Proof.
    intros c [s e f] msg l rep Hq H. unfold mk_report in H. simpl in H.
    destruct f as [f|]; [|discriminate]. inversion H; subst. exact Hq.
  Qed.

  (* [EQ] holds of every way a result is built: values, panics, a report at a
     meta satisfying [Q], and sequencing *)
  Lemma ok_EQ : forall {A} (a : A), EQ (DOk a).
  Proof. intros A a rep H. discriminate. Qed.

  Lemma panic_EQ : forall {A} s, EQ (@DPanic A s).
  Proof. intros A s rep H. discriminate. Qed.

  Lemma report_EQ : forall {A} c m msg l, Q m -> EQ (r <- mk_report c m msg l ;; @DErr A r).
  Proof.
    intros A c [s e [f|]] msg l Hq rep H; [|discriminate H]. inversion H; subst. exact Hq.
  Qed.

  Lemma fail_EQ : forall {A} c m msg, Q m -> EQ (@fail A c m msg).
  Proof. intros A c m msg Hq. apply report_EQ. exact Hq. Qed.

  Lemma bind_EQ : forall {A B} (m : dres A) (f : A -> dres B),
    EQ m -> (forall a, m = DOk a -> EQ (f a)) -> EQ (dbind m f).
  Proof.
    intros A B m f Hm Hf rep H. apply dbind_err in H. destruct H as [H|(a & Ha & H)].
    - apply Hm; auto.
    - eapply Hf; eauto.
  Qed.

  Lemma guard_EQ : forall {A} (b : bool) c m msg (r : dres A), Q m -> EQ r -> EQ (if b then fail c m msg else r).
  Proof. intros A b c m msg r Hq Hr. destruct b; [apply fail_EQ; exact Hq | exact Hr]. Qed.

  Lemma first_such_EQ : forall {A B} (p : A -> bool) l c (g : A -> meta) msg (r : dres B),
    (forall x, In x l -> Q (g x)) -> EQ r ->
    EQ (match first_such p l with Some x => fail c (g x) msg | None => r end).
  Proof.
    intros A B p l c g msg r Hl Hr. unfold first_such. destruct (find p l) as [x|] eqn:Hf; [|exact Hr].
    apply fail_EQ. apply Hl. apply find_some in Hf. apply Hf.
  Qed.

  Lemma access_first_such_EQ : forall {B} p acc c msg (r : dres B), Forall MA acc -> EQ r ->
    EQ (match access_first_such p acc with Some i => fail c (expr_meta i) msg | None => r end).
  Proof.
    intros B p acc c msg r Hacc Hr. unfold access_first_such.
    destruct (find _ acc) as [[?|i]|] eqn:Hf; try exact Hr.
    apply fail_EQ. apply ME_meta. apply find_some in Hf. rewrite Forall_forall in Hacc. exact (Hacc _ (proj1 Hf)).
  Qed.

  Lemma gen_name_EQ : forall lib prefix m, EQ (gen_name lib prefix m).
  Proof.
    intros lib prefix m rep H. unfold gen_name in H.
    destruct (m_file m); [|discriminate]. destruct (get_line lib (m_start m) n); discriminate.
  Qed.

  Lemma split_string_EQ : forall fuel s, EQ (split_string fuel s).
  Proof.
    induction fuel as [|fuel IH]; intros [|c s']; try (intros rep H; discriminate H).
    rewrite split_string_S. apply bind_EQ; [apply IH | intros; apply ok_EQ].
  Qed.

  Lemma build_log_call_EQ : forall m args, EQ (build_log_call m args).
  Proof.
    intros m args. apply bind_EQ; [|intros; apply ok_EQ].
    induction args as [|[s|e] rest IH]; simpl; [apply ok_EQ | |].
    - apply bind_EQ; [apply split_string_EQ|]. intros c _. apply bind_EQ; [exact IH | intros; apply ok_EQ].
    - apply bind_EQ; [exact IH | intros; apply ok_EQ].
  Qed.

  #[local] Hint Resolve ok_EQ panic_EQ fail_EQ guard_EQ gen_name_EQ build_log_call_EQ : eqloc.
  #[local] Hint Extern 1 (Q (expr_meta _)) => apply ME_meta : eqloc.

  Lemma select_named_EQ : forall m inputs names ops n sel,
    Q m -> EQ (select_named m inputs names ops n sel).
  Proof.
    intros m. induction inputs as [|inp rest IH]; intros names ops n sel Hq; simpl; [apply ok_EQ|].
    destruct (position (fst inp) names) as [pos|]; [|auto with eqloc].
    destruct (pos <? n)%nat; [|apply panic_EQ]. destruct (nth_error ops pos); auto with eqloc.
  Qed.

  Lemma assign_inputs_EQ : forall va m id results sel inputs i ss ds,
    Forall rae_M results -> Forall EQ results ->
    EQ (assign_inputs va m id results sel inputs i ss ds).
  Proof.
    intros va m id results sel inputs. induction inputs as [|inp rest IH];
      intros i ss ds Hres Herr; simpl; [apply ok_EQ|].
    destruct (nth_error sel i) as [[pos o]|]; [|apply panic_EQ].
    destruct (nth_error results pos) as [r|] eqn:Hr; [|apply panic_EQ].
    apply nth_error_In in Hr. apply bind_EQ; [exact (proj1 (Forall_forall _ _) Herr _ Hr)|].
    intros [[stmts decls] e] Ha. apply guard_EQ; [|apply IH; assumption].
    apply ME_meta. apply (proj1 (Forall_forall _ _) Hres _ Hr _ _ _ Ha).
  Qed.

  Lemma anon_component_EQ : forall env lib va m id par ps ss names results,
    Q m -> Forall rae_M results -> Forall EQ results ->
    EQ (anon_component env lib va m id par ps ss names results).
  Proof.
    intros env lib va m id par ps ss names results Hq Hres Herr. unfold anon_component.
    destruct (lookup_template id env) as [template|]; [|apply report_EQ; exact Hq].
    apply bind_EQ; [apply gen_name_EQ|]. intros nm _. apply guard_EQ; [exact Hq|]. apply bind_EQ.
    - destruct names; [apply select_named_EQ; exact Hq | apply ok_EQ].
    - intros sel _. apply guard_EQ; [exact Hq|]. apply bind_EQ; [apply assign_inputs_EQ; assumption|].
      intros [s1 d1] _. destruct (ti_outputs template) as [|o [|o2 outs]]; apply ok_EQ.
  Qed.

  Lemma collect_tuple_EQ : forall results,
    Forall EQ results -> forall ss ds vs, EQ (collect_tuple results ss ds vs).
  Proof.
    induction 1 as [|r rest Hr _ IH]; intros ss ds vs; simpl; [apply ok_EQ|].
    apply bind_EQ; [exact Hr|]. intros [[s1 d1] v1] _. apply IH.
  Qed.

  Lemma rae_EQ : forall env lib va e, va_M va -> ME e ->
    EQ (remove_anonymous_from_expression env lib va e).
  Proof.
    intros env lib va e Hva. induction e using expression_ind_par; intros Hme;
      try (destruct Hme as (Hm & _); cbn [remove_anonymous_from_expression]; auto with eqloc; fail).
    - (* ParallelOp *)
      rewrite rae_parallel. pose proof (ME_meta _ Hme) as Hm. do 2 (apply guard_EQ; [exact Hm|]).
      destruct (is_anonymous_component e); [|apply ok_EQ]. apply IHe0. destruct Hme as [_ Hr]. destruct e; exact Hr.
    - destruct Hme as (Hm & _). apply first_such_EQ; auto with eqloc.
    - (* Anon *)
      destruct Hme as (Hm & _ & Hss). apply allP_Forall in Hss.
      apply anon_component_EQ; [exact Hm | |]; apply Forall_map; rewrite Forall_forall in *; intros x Hx.
      + apply rae_M_ok; auto.
      + apply H0; auto.
    - (* ArrayInLine *)
      destruct Hme as (_ & Hvs). apply allP_Forall in Hvs. rewrite Forall_forall in Hvs.
      apply first_such_EQ; auto with eqloc.
    - (* Tuple *)
      destruct Hme as (_ & Hvs). apply allP_Forall in Hvs.
      apply bind_EQ; [|intros [[s1 d1] v1] _; apply ok_EQ]. apply collect_tuple_EQ.
      apply Forall_map. rewrite Forall_forall in *. intros x Hx. apply H; auto.
  Qed.

  Lemma ras_list_EQ : forall (f : statement -> dres (statement * list statement)) l,
    Forall (fun s => EQ (f s)) l -> forall ns ds, EQ (ras_list f l ns ds).
  Proof.
    induction 1 as [|s rest Hs _ IH]; intros ns ds; simpl; [apply ok_EQ|].
    apply bind_EQ; [exact Hs|]. intros [s1 d1] _. apply IH.
  Qed.

  (* the statement is the right-hand side's statements followed by one more *)
  Lemma with_rae_EQ : forall env lib va m e (mk : expression -> statement), va_M va -> ME e ->
    EQ ('(stmts, declarations, new_rhe) <- remove_anonymous_from_expression env lib va e ;;
        if is_nil stmts then DOk (mk new_rhe, declarations)
        else DOk (Block m (stmts ++ [mk new_rhe]), declarations)).
  Proof.
    intros. apply bind_EQ; [apply rae_EQ; assumption|]. intros [[s1 d1] e1] _. destruct (is_nil s1); apply ok_EQ.
  Qed.

  Lemma ras_EQ : forall env lib s va, va_M va -> MS s ->
    EQ (remove_anonymous_from_statement env lib va s).
  Proof.
    intros env lib. induction s using statement_ind'; intros va Hva Hms;
      cbn [remove_anonymous_from_statement]; simpl in Hms;
      try (destruct Hms as (Hm & _); auto with eqloc; fail).
    - (* IfThenElse *)
      destruct Hms as (Hm & _ & Hi & He). apply guard_EQ; [exact Hm|].
      apply bind_EQ; [apply IHs; assumption|]. intros [s1 d1] _. destruct e as [e'|]; [|apply ok_EQ].
      apply bind_EQ; [apply (H e' eq_refl); assumption | intros [s2 d2] _; apply ok_EQ].
    - (* While *)
      destruct Hms as (Hm & Hc & Hb). apply guard_EQ; [auto with eqloc|].
      apply bind_EQ; [apply gen_name_EQ|]. intros nm _.
      apply bind_EQ; [apply IHs; [split; [exact Hm | exact I] | exact Hb]|].
      intros [s1 d1] _. destruct (existsb _ d1); apply ok_EQ.
    - destruct Hms as (_ & Hl). apply allP_Forall in Hl.
      apply bind_EQ; [|intros [s1 d1] _; apply ok_EQ]. apply ras_list_EQ.
      rewrite Forall_forall in *. intros x Hx. apply H; auto.
    - destruct Hms as (_ & Hd). apply allP_Forall in Hd. rewrite Forall_forall in Hd.
      apply first_such_EQ; auto with eqloc.
    - (* Substitution *)
      destruct Hms as (_ & Hacc & Hrhe). apply allP_Forall in Hacc.
      apply access_first_such_EQ; [exact Hacc|]. apply (with_rae_EQ env lib va m r (fun e1 => Substitution m v a o e1)); assumption.
    - (* MultiSubstitution *)
      destruct Hms as (_ & Hlhe & Hrhe). apply guard_EQ; [auto with eqloc|].
      apply (with_rae_EQ env lib va m r (fun e1 => MultiSubstitution m l o e1)); assumption.
    - (* LogCall *)
      destruct Hms as (Hm & _). apply guard_EQ; [exact Hm|].
      apply bind_EQ; [apply build_log_call_EQ | intros; apply ok_EQ].
    - destruct Hms as (_ & Hl). apply allP_Forall in Hl.
      apply bind_EQ; [|intros [s1 d1] _; apply ok_EQ]. apply ras_list_EQ.
      rewrite Forall_forall in *. intros x Hx. apply H; auto.
  Qed.

  Lemma separate_declarations_EQ : forall decls c v s, EQ (separate_declarations decls c v s).
  Proof.
    induction decls as [|d rest IH]; intros c v s; simpl; [apply ok_EQ|].
    destruct d; try apply panic_EQ; [|apply IH].
    destruct (variable_type_is_component xtype); [apply IH|].
    destruct (variable_type_is_var xtype); [apply IH | apply panic_EQ].
  Qed.

  Lemma unfold_values_EQ : forall results,
    Forall EQ results -> forall acc, EQ (unfold_values results acc).
  Proof.
    induction 1 as [|r rest Hr _ IH]; intros acc; simpl; [apply ok_EQ|].
    apply bind_EQ; [exact Hr|]. intros v _. destruct v; apply IH.
  Qed.

  Lemma rte_EQ : forall e, ME e -> EQ (remove_tuple_from_expression e).
  Proof.
    induction e using expression_ind'; intros Hme; cbn [remove_tuple_from_expression];
      try (destruct Hme as (Hm & _); auto with eqloc; fail).
    simpl in Hme. destruct Hme as (_ & Hvs). apply allP_Forall in Hvs.
    apply bind_EQ; [|intros; apply ok_EQ]. apply unfold_values_EQ.
    apply Forall_map. rewrite Forall_forall in *. intros x Hx. apply H; auto.
  Qed.

  Lemma tuple_substs_EQ : forall m o ls rs acc, Q m -> EQ (tuple_substs m o ls rs acc).
  Proof.
    intros m o. induction ls as [|l ls IH]; intros rs acc Hq; simpl; [apply ok_EQ|].
    destruct l; auto with eqloc. destruct rs as [|r rs]; auto with eqloc.
  Qed.

  Lemma check_log_args_EQ : forall args, Forall ML args -> EQ (check_log_args args).
  Proof.
    induction 1 as [|[s|v] rest Ha _ IH]; simpl; [apply ok_EQ | exact IH |].
    apply bind_EQ; [apply rte_EQ; exact Ha | intros; exact IH].
  Qed.

  Lemma log_new_args_EQ : forall args, Forall ML args -> forall acc, EQ (log_new_args args acc).
  Proof.
    induction 1 as [|[s|x] rest Ha _ IH]; intros acc; simpl; [apply ok_EQ | apply IH |].
    apply bind_EQ; [|intros; apply IH]. apply check_log_args_EQ.
    unfold separate_tuple_for_log_call. simpl. rewrite app_nil_r. apply sep_log_M; exact Ha.
  Qed.

  Lemma rts_list_EQ : forall (f : statement -> dres statement) l,
    Forall (fun s => EQ (f s)) l -> forall acc, EQ (rts_list f l acc).
  Proof.
    induction 1 as [|s rest Hs _ IH]; intros acc; simpl; [apply ok_EQ|].
    apply bind_EQ; [exact Hs | intros; apply IH].
  Qed.

  Lemma rts_EQ : forall s, MS s -> EQ (remove_tuples_from_statement s).
  Proof.
    induction s using statement_ind'; intros Hms; cbn [remove_tuples_from_statement]; simpl in Hms;
      try (destruct Hms as (Hm & _); auto with eqloc; fail).
    - destruct Hms as (Hm & _ & Hi & He). apply guard_EQ; [exact Hm|].
      apply bind_EQ; [apply IHs; exact Hi|]. intros s1 _. destruct e as [e'|]; [|apply ok_EQ].
      apply bind_EQ; [apply (H e' eq_refl); exact He | intros; apply ok_EQ].
    - destruct Hms as (Hm & _ & Hb). apply guard_EQ; [exact Hm|].
      apply bind_EQ; [apply IHs; exact Hb | intros; apply ok_EQ].
    - destruct Hms as (_ & Hl). apply allP_Forall in Hl.
      apply bind_EQ; [|intros; apply ok_EQ]. apply rts_list_EQ.
      rewrite Forall_forall in *. intros x Hx. apply H; auto.
    - (* Substitution *)
      destruct Hms as (Hm & Hacc & Hrhe). apply allP_Forall in Hacc.
      apply bind_EQ; [apply rte_EQ; exact Hrhe|]. intros e1 _. apply guard_EQ; [exact Hm|].
      apply access_first_such_EQ; [exact Hacc|]. destruct (negb _); apply ok_EQ.
    - (* MultiSubstitution: the reports are at the metas of the rewritten sides *)
      destruct Hms as (Hm & Hl & Hrhe).
      apply bind_EQ; [apply rte_EQ; exact Hl|]. intros l1 Hl1.
      apply bind_EQ; [apply rte_EQ; exact Hrhe|]. intros r1 Hr1.
      pose proof (ME_meta _ (rte_M Q _ _ Hl Hl1)) as Hql. pose proof (ME_meta _ (rte_M Q _ _ Hrhe Hr1)) as Hqr.
      destruct l1 as [| | | | | | | | |ml lvals]; auto with eqloc.
      destruct r1 as [| | | | | | | | |mr rvals]; cbv iota; auto with eqloc.
      destruct (Nat.eqb _ _); [|auto with eqloc].
      apply bind_EQ; [apply tuple_substs_EQ; exact Hm | intros; apply ok_EQ].
    - (* LogCall *)
      destruct Hms as (_ & Hargs). apply allP_Forall in Hargs.
      apply bind_EQ; [apply log_new_args_EQ; exact Hargs | intros; apply build_log_call_EQ].
    - destruct Hms as (_ & Hl). apply allP_Forall in Hl.
      apply bind_EQ; [|intros; apply ok_EQ]. apply rts_list_EQ.
      rewrite Forall_forall in *. intros x Hx. apply H; auto.
  Qed.

  Theorem desugar_template_EQ : forall env lib body, MS body -> EQ (desugar_template env lib body).
  Proof.
    intros env lib body Hms. apply bind_EQ; [apply ras_EQ; [exact I | exact Hms]|]. intros [s d] Ha.
    destruct (ras_M_ok Q env lib body None I Hms _ _ Ha) as [Hs Hd].
    destruct s; try apply panic_EQ.
    apply bind_EQ; [apply separate_declarations_EQ|]. intros [[c v] su] Ha0.
    eapply (separate_declarations_forall MS) in Ha0; eauto. destruct Ha0 as (Hc & Hv & Hsub).
    apply rts_EQ. simpl in Hs. destruct Hs as [Hm Hst]. apply allP_Forall in Hst.
    simpl. split; auto. split; [split; auto; apply allP_Forall; auto|].
    apply allP_Forall. apply Forall_app. split; auto.
    constructor; auto. simpl. split; auto. apply allP_Forall; auto.
  Qed.

  Lemma reports_at_loc : forall msg label metas rs,
    Forall Q metas -> reports_at msg label metas = DOk rs -> Forall (fun r => Q (report_meta r)) rs.
  Proof.
    intros msg label. induction metas as [|m rest IH]; intros rs Hq H; simpl in H.
    - inv_ok. constructor.
    - inversion Hq; subst. inv_ok. constructor; [eapply mk_report_loc; eauto | eauto].
  Qed.

  Theorem check_function_reports_located : forall body rs,
    MS body -> check_function body = DOk (Some rs) -> Forall (fun r => Q (report_meta r)) rs.
  Proof.
    intros body rs Hms H. unfold check_function in H.
    destruct (contains_expr_stmt is_tuple body).
    { inv_ok. eapply reports_at_loc; [|exact Ha]. apply matching_metas_stmt_M; auto. }
    destruct (contains_expr_stmt is_anonymous_component body).
    { inv_ok. eapply reports_at_loc; [|exact Ha]. apply matching_metas_stmt_M; auto. }
    destruct (find_multi_substitution body) eqn:Hm; inv_ok.
    constructor; [|constructor]. eapply mk_report_loc; [|exact Ha]. eapply find_multi_substitution_M; eauto.
  Qed.
End ErrLoc.

(* the error report of a template body is raised at a meta of that body *)
Theorem desugar_template_error_located : forall (Q : meta -> Prop) env lib body r,
  Forall Q (stmt_metas body) -> desugar_template env lib body = DErr r -> Q (report_meta r).
Proof.
  intros Q env lib body r HQ H. eapply desugar_template_EQ; [|exact H]. apply MS_iff. exact HQ.
Qed.

Theorem check_function_located : forall (Q : meta -> Prop) body rs,
  Forall Q (stmt_metas body) -> check_function body = DOk (Some rs) -> Forall (fun r => Q (report_meta r)) rs.
Proof.
  intros Q body rs HQ H. eapply check_function_reports_located; [|exact H]. apply MS_iff. exact HQ.
Qed.

Lemma desugar_templates_fate : forall env lib ts acc reps acc' reps',
  desugar_templates env lib ts acc reps = DOk (acc', reps') ->
  incl acc acc' /\ incl reps reps' /\
  forall n b, In (n, b) ts ->
    (exists b', desugar_template env lib b = DOk b' /\ In (n, b') acc') \/
    (exists r, desugar_template env lib b = DErr r /\ In r reps').
Proof.
  intros env lib. induction ts as [|[n b] rest IH]; intros acc reps acc' reps' H; simpl in H.
  - inversion H; subst. repeat split; try apply incl_refl. intros n b [].
  - destruct (desugar_template env lib b) as [nb|r|s|] eqn:Hd; try discriminate H;
      destruct (IH _ _ _ _ H) as (I1 & I2 & I3).
    + apply incl_app_inv in I1. destruct I1 as [I1 I1']. repeat split; auto.
      intros n0 b0 [[= <- <-]|Hin]; [|auto]. left. exists nb. split; [exact Hd | apply I1'; left; reflexivity].
    + apply incl_app_inv in I2. destruct I2 as [I2 I2']. repeat split; auto.
      intros n0 b0 [[= <- <-]|Hin]; [|auto]. right. exists r. split; [exact Hd | apply I2'; left; reflexivity].
Qed.

Lemma desugar_functions_fate : forall fs acc reps acc' reps',
  desugar_functions fs acc reps = DOk (acc', reps') ->
  incl acc acc' /\ incl reps reps' /\
  forall n b, In (n, b) fs ->
    (check_function b = DOk None /\ In (n, b) acc') \/
    (exists rs, check_function b = DOk (Some rs) /\ incl rs reps').
Proof.
  induction fs as [|[n b] rest IH]; intros acc reps acc' reps' H; simpl in H.
  - inversion H; subst. repeat split; try apply incl_refl. intros n b [].
  - apply dbind_ok in H. destruct H as ([rs|] & Hc & H); destruct (IH _ _ _ _ H) as (I1 & I2 & I3).
    + apply incl_app_inv in I2. destruct I2 as [I2 I2']. repeat split; auto.
      intros n0 b0 [[= <- <-]|Hin]; [|auto]. right. exists rs. split; [exact Hc | exact I2'].
    + apply incl_app_inv in I1. destruct I1 as [I1 I1']. repeat split; auto.
      intros n0 b0 [[= <- <-]|Hin]; [|auto]. left. split; [exact Hc | apply I1'; left; reflexivity].
Qed.

(* a definition that goes into `remove_syntactic_sugar` and has no entry in what
   comes out was rejected with an error report, and the report is in the
   collection handed back *)
Theorem remove_syntactic_sugar_drop_reported : forall lib ts fs d,
  remove_syntactic_sugar lib ts fs = DOk d ->
  (forall n b, In (n, b) ts -> ~ In n (map fst (d_templates d)) ->
     exists r, desugar_template (env_of ts) lib b = DErr r /\ In r (d_reports d)) /\
  (forall n b, In (n, b) fs -> ~ In n (map fst (d_functions d)) ->
     exists rs r, check_function b = DOk (Some rs) /\ In r rs /\ forall r', In r' rs -> In r' (d_reports d)) /\
  (forall n b r, In (n, b) ts -> desugar_template (env_of ts) lib b = DErr r -> In r (d_reports d)) /\
  (forall n b rs r, In (n, b) fs -> check_function b = DOk (Some rs) -> In r rs -> In r (d_reports d)).
Proof.
  intros lib ts fs d H. unfold remove_syntactic_sugar in H.
  apply dbind_ok in H. destruct H as ([ts' reps1] & Ht & H).
  apply dbind_ok in H. destruct H as ([fs' reps2] & Hf & H). inversion H; subst; clear H. simpl.
  destruct (desugar_templates_fate _ _ _ _ _ _ _ Ht) as (_ & _ & T3).
  destruct (desugar_functions_fate _ _ _ _ _ Hf) as (_ & F2 & F3).
  split; [|split; [|split]].
  - intros n b Hin Hno. destruct (T3 _ _ Hin) as [(b' & _ & Hb')|(r & Hr & Hin')].
    + exfalso. apply Hno. apply in_map_iff. exists (n, b'). split; auto.
    + exists r. split; auto.
  - intros n b Hin Hno. destruct (F3 _ _ Hin) as [(_ & Hb')|(rs & Hrs & Hall)].
    + exfalso. apply Hno. apply in_map_iff. exists (n, b). split; auto.
    + destruct (check_function_dropped _ _ Hrs) as (Hne & _ & _).
      destruct rs as [|r rs]; [congruence|]. exists (r :: rs), r. split; auto. split; [left; reflexivity | exact Hall].
  - intros n b r Hin Hd. destruct (T3 _ _ Hin) as [(b' & Hb' & _)|(r' & Hr' & Hin')]; [congruence|].
    assert (r' = r) by congruence. subst. auto.
  - intros n b rs r Hin Hc Hr. destruct (F3 _ _ Hin) as [(Hn & _)|(rs' & Hrs' & Hall)]; [congruence|].
    assert (rs' = rs) by congruence. subst. auto.
Qed.
