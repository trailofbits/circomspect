(* Soundness of justified value claims (C06, C20): in every state reachable by
   the step relation of Spec.ValueSem, every constant attached to a node of a
   validated graph equals the value the node evaluates to. *)
From Coq Require Import ZArith List Bool Lia Znumtheory.
Require Import Model.Base Model.Field Model.Ir Model.Propagate Model.Justify.
Require Import Spec.FieldSpec Spec.ValueSem Proofs.FieldProofs.
Require Export Proofs.IrFacts Proofs.DispatchProofs.
Require Import Proofs.IrInd.
Import ListNotations.
Local Open Scope Z_scope.
Ltac Zify.zify_post_hook ::= Z.div_mod_to_equations.
Local Opaque Z.pow.

Lemma vred_eqb_eq a b : vred_eqb a b = true <-> a = b.
Proof.
  destruct a, b; cbn; split; try congruence.
  - intros H. apply Bool.eqb_prop in H. congruence.
  - intros [= ->]. apply Bool.eqb_reflx.
  - intros H. apply Z.eqb_eq in H. congruence.
  - intros [= ->]. apply Z.eqb_refl.
Qed.

Lemma opt_vred_eqb_eq a c : opt_vred_eqb a c = true <-> a = Some c.
Proof.
  destruct a; cbn; [rewrite vred_eqb_eq|]; split; congruence.
Qed.

Lemma acc_forallb_idx (f : expr -> bool) acc e :
  (fix go (acc : list (access expr)) : bool :=
     match acc with [] => true | AIdx x :: tl => f x && go tl | AComp _ :: tl => go tl end) acc = true ->
  In (AIdx e) acc -> f e = true.
Proof.
  rewrite acc_forallb, forallb_forall. intros H Hin. apply H. apply in_flat_map. exists (AIdx e). split; [exact Hin|left; reflexivity].
Qed.

Lemma acc_flat_map {A} (f : expr -> list A) acc :
  (fix go (acc : list (access expr)) : list A :=
     match acc with [] => [] | AIdx x :: tl => f x ++ go tl | AComp _ :: tl => go tl end) acc =
  flat_map f (acc_exprs acc).
Proof.
  induction acc as [|[x|n] tl IH]; [reflexivity| |exact IH].
  cbn [acc_exprs flat_map app]. f_equal. exact IH.
Qed.

Lemma b2z_canon (x : bool) p : 2 < p -> 0 <= b2z x < p.
Proof. exact (b2z_range x p). Qed.

(* the branch whose value a switch with a true claim on its condition takes *)
Lemma switch_value_sound oc ot of x vc : switch_value oc ot of = Some x ->
  (forall cc, oc = Some cc -> claim_ok cc vc) -> (if vc =? 0 then of else ot) = Some x.
Proof.
  unfold switch_value. intros H Hc. destruct oc as [cc|]; [|discriminate]. specialize (Hc cc eq_refl).
  destruct cc as [[|]|z]; cbn in Hc; subst vc.
  - destruct ot; [exact H|discriminate].
  - destruct of; [exact H|discriminate].
  - destruct (z =? 0); cbn [negb] in H; [destruct of|destruct ot]; (exact H || discriminate).
Qed.

Section Sound.
Variable p : Z.
Hypothesis Hprime : prime p.
Hypothesis Hp : 2 < p.
(* the bound of C06's statements; no proof below needs it *)
Hypothesis Hlog : Z.log2 p < 2 ^ 64.

(* Spec.ValueSem and Spec.DispatchSpec name the same things twice: fop_of_infix is doc_infix,
   sem_infix is doc_infix_sem, claim_ok is const_ok, each with the same body, so that the
   operator-level results of Proofs.DispatchProofs apply as they stand *)
Lemma sem_infix_documented op a b v : sem_infix op a b p v = documented (fop_of_infix op) a b p v.
Proof. exact (doc_infix_sem_documented op a b p v). Qed.

Lemma infix_field_sound op a b c v :
  0 <= a < p -> 0 <= b < p ->
  infix_values op (Some (VField a)) (Some (VField b)) p = Ok (Some c) ->
  sem_infix op a b p v -> claim_ok c v.
Proof using Hprime Hp Hlog.
  intros Ha Hb Hv Hs.
  destruct (infix_values_const p Hprime Hp op (VField a) (VField b) a b eq_refl eq_refl Ha Hb)
    as (o & Eo & Io).
  rewrite Eo in Hv. injection Hv as ->. destruct (Io c eq_refl) as (v' & Hs' & Hk & _).
  rewrite sem_infix_documented in Hs, Hs'.
  rewrite (documented_functional _ a b p v v' Hprime Hb Hs Hs'). exact Hk.
Qed.

Lemma infix_bool_sound op (x y : bool) c v :
  infix_values op (Some (VBool x)) (Some (VBool y)) p = Ok (Some c) ->
  sem_infix op (b2z x) (b2z y) p v -> claim_ok c v.
Proof.
  intros Hv Hs. destruct op; cbn in Hv; try discriminate; injection Hv as <-;
    cbn in Hs; injection Hs as <-; rewrite !truthy_b2z; reflexivity.
Qed.

Lemma sem_infix_canonical op a b v :
  0 <= a < p -> 0 <= b < p -> sem_infix op a b p v -> 0 <= v < p.
Proof. intros Ha Hb Hs. rewrite sem_infix_documented in Hs. exact (documented_canonical _ a b p v Hp Ha Hb Hs). Qed.

Lemma sem_prefix_canonical op a v : 0 <= a < p -> sem_prefix op a p v -> 0 <= v < p.
Proof.
  intros Ha Hs. apply (spec_canonical (fop_of_prefix op) a 0 p v Hp Ha ltac:(lia)).
  - destruct op; discriminate.
  - exact Hs.
Qed.

Lemma prefix_sound op cl a c v :
  0 <= a < p -> claim_ok cl a ->
  prefix_values op (Some cl) p = Some c -> sem_prefix op a p v -> claim_ok c v.
Proof.
  intros Ha Hcl Hv Hs. destruct (prefix_values_const p Hp op cl a c Hcl Ha Hv) as (v' & Hs' & Hk & _).
  injection (eq_trans (eq_sym Hs) Hs') as ->. exact Hk.
Qed.

Variable ss : list stmt.

Definition store_ok (s : store) : Prop :=
  forall x v, s x = Some v ->
    0 <= v < p /\ forall c, all_defs_claim ss x c = true -> claim_ok c v.

Lemma claim_canonical_value c v : claim_ok c v -> 0 <= v < p -> True.
Proof. trivial. Qed.

(* the main lemma: an evaluated, justified expression has a canonical value
   and its claim, if any, is that value *)
Lemma vjust_expr_sound s : store_ok s ->
  forall e v, evalR p s e v -> vjust_expr ss p e = true ->
  0 <= v < p /\ forall c, expr_val e = Some c -> claim_ok c v.
Proof.
  intros Hs e v Hev. induction Hev as
    [z k | x k v Hx | op l r k a b v Hl IHl Hr IHr Hsem | op e k a v He IHe Hsem
     | c t f k vc v Hc IHc Hnz Ht IHt | c t f k v Hc IHc Hf IHf]; intros Hj.
  - cbn [vjust_expr] in Hj. apply andb_true_iff in Hj as [Hz Hj]. apply Z.leb_le in Hz.
    split; [apply Z.mod_pos_bound; lia|].
    intros c Hc. unfold expr_val in Hc; cbn [expr_know] in Hc. rewrite Hc in Hj.
    apply vred_eqb_eq in Hj. subst c. cbn. rewrite Z.rem_mod_nonneg by lia. reflexivity.
  - destruct (Hs x v Hx) as [Hcan Hcl]. split; [exact Hcan|].
    intros c Hc. cbn [vjust_expr] in Hj. unfold expr_val in Hc; cbn [expr_know] in Hc. rewrite Hc in Hj.
    apply Hcl. exact Hj.
  - cbn [vjust_expr] in Hj. apply andb_true_iff in Hj as [Hj Hk]. apply andb_true_iff in Hj as [Hjl Hjr].
    destruct (IHl Hjl) as [Ha Hcl]. destruct (IHr Hjr) as [Hb Hcr].
    split; [exact (sem_infix_canonical op a b v Ha Hb Hsem)|].
    intros c Hc. unfold expr_val in Hc; cbn [expr_know] in Hc. rewrite Hc in Hk.
    destruct (infix_values op (expr_val l) (expr_val r) p) as [[c'|]| | |] eqn:Hv; try discriminate.
    apply vred_eqb_eq in Hk. subst c'.
    destruct (infix_values_some _ _ _ _ _ Hv) as (cl & cr & El & Er). rewrite El, Er in Hv.
    pose proof (Hcl _ El) as H1. pose proof (Hcr _ Er) as H2.
    destruct cl as [x|za], cr as [y|zb]; try discriminate Hv; cbn in H1, H2; subst a b.
    + exact (infix_bool_sound op x y c v Hv Hsem).
    + exact (infix_field_sound op za zb c v Ha Hb Hv Hsem).
  - cbn [vjust_expr] in Hj. apply andb_true_iff in Hj as [Hje Hk].
    destruct (IHe Hje) as [Ha Hcl].
    split; [exact (sem_prefix_canonical op a v Ha Hsem)|].
    intros c Hc. unfold expr_val in Hc; cbn [expr_know] in Hc. rewrite Hc in Hk.
    apply opt_vred_eqb_eq in Hk. destruct (prefix_values_some _ _ _ _ Hk) as (cl & Ee). rewrite Ee in Hk.
    exact (prefix_sound op cl a c v Ha (Hcl _ Ee) Hk Hsem).
  - cbn [vjust_expr] in Hj. apply andb_true_iff in Hj as [Hj Hk]. apply andb_true_iff in Hj as [Hj Hjf].
    apply andb_true_iff in Hj as [Hjc Hjt].
    destruct (IHc Hjc) as [Hvc Hcc]. destruct (IHt Hjt) as [Hv Hct].
    split; [exact Hv|].
    intros x Hx. unfold expr_val in Hx; cbn [expr_know] in Hx. rewrite Hx in Hk.
    apply opt_vred_eqb_eq in Hk. apply (switch_value_sound _ _ _ _ vc) in Hk; [|exact Hcc].
    rewrite (proj2 (Z.eqb_neq vc 0) Hnz) in Hk. exact (Hct x Hk).
  - cbn [vjust_expr] in Hj. apply andb_true_iff in Hj as [Hj Hk]. apply andb_true_iff in Hj as [Hj Hjf].
    apply andb_true_iff in Hj as [Hjc Hjt].
    destruct (IHc Hjc) as [Hvc Hcc]. destruct (IHf Hjf) as [Hv Hcf].
    split; [exact Hv|].
    intros x Hx. unfold expr_val in Hx; cbn [expr_know] in Hx. rewrite Hx in Hk.
    apply opt_vred_eqb_eq in Hk. exact (Hcf x (switch_value_sound _ _ _ _ 0 Hk Hcc)).
Qed.

Hypothesis Hvalid : forallb (vjust_stmt ss p) ss = true.

Lemma all_defs_claim_def x c m op rhe sv st :
  all_defs_claim ss x c = true -> In (SSubst m x op rhe sv st) ss -> expr_val rhe = Some c.
Proof.
  unfold all_defs_claim. intros H Hin. apply andb_true_iff in H as [H _].
  rewrite forallb_forall in H. specialize (H _ Hin). cbn [def_ok] in H. rewrite vname_eqb_refl in H.
  apply andb_true_iff in H as [_ H]. apply opt_vred_eqb_eq. exact H.
Qed.

Lemma upd_ok s x o : store_ok s ->
  (forall v, o = Some v -> 0 <= v < p /\ forall c, all_defs_claim ss x c = true -> claim_ok c v) -> store_ok (upd s x o).
Proof.
  intros Hs Ho y w. unfold upd. destruct (vname_eqb x y) eqn:E; [apply vname_eqb_eq in E as <-; apply Ho|apply Hs].
Qed.

Lemma step_preserves s s' : store_ok s -> step ss p s s' -> store_ok s'.
Proof.
  intros Hs Hst. destruct Hst as
    [m x op rhe sv st v s Hin Hphi Hev | m x op args k sv st a v s Hin Ha Hsa | m x op args k sv st a s Hin Ha Hsa | m x op rhe sv st s Hin Hphi Hno];
    apply (upd_ok _ _ _ Hs); try discriminate; intros w [= <-].
  all: assert (Hjs : vjust_stmt ss p _ = true) by (rewrite forallb_forall in Hvalid; exact (Hvalid _ Hin)).
  all: cbn [vjust_stmt] in Hjs; apply andb_true_iff in Hjs as [Hje _].
  - destruct (vjust_expr_sound s Hs rhe v Hev Hje) as [Hcan Hcl].
    split; [exact Hcan|]. intros c Hc. exact (Hcl c (all_defs_claim_def x c _ _ _ _ _ Hc Hin)).
  - destruct (Hs a v Hsa) as [Hcan Hcl]. split; [exact Hcan|]. intros c Hc.
    pose proof (all_defs_claim_def x c _ _ _ _ _ Hc Hin) as Hd. unfold expr_val in Hd; cbn [expr_know] in Hd.
    cbn [vjust_expr] in Hje. rewrite Hd in Hje. apply andb_true_iff in Hje as [_ Hje].
    rewrite forallb_forall in Hje. exact (Hcl c (Hje a Ha)).
Qed.

Lemma init_store_ok s0 : init_ok ss p s0 -> store_ok s0.
Proof.
  intros Hi x v Hx. destruct (Hi x v Hx) as [Hcan Hnd]. split; [exact Hcan|].
  intros c Hc. unfold all_defs_claim in Hc. rewrite Hnd in Hc. rewrite andb_false_r in Hc. discriminate.
Qed.

Lemma reachable_store_ok s0 s : init_ok ss p s0 -> reachable ss p s0 s -> store_ok s.
Proof.
  intros Hi Hr. induction Hr as [|s s' Hr IH Hst].
  - apply init_store_ok. exact Hi.
  - eapply step_preserves; eauto.
Qed.

(* every claim met in any reachable state is true *)
Theorem justified_claims_true s0 s e v c :
  init_ok ss p s0 -> reachable ss p s0 s ->
  vjust_expr ss p e = true -> evalR p s e v -> expr_val e = Some c -> claim_ok c v.
Proof.
  intros Hi Hr Hj Hev Hc.
  exact (proj2 (vjust_expr_sound s (reachable_store_ok s0 s Hi Hr) e v Hev Hj) c Hc).
Qed.

End Sound.

Inductive child : expr -> expr -> Prop :=
| ch_infix_l op l r k : child l (EInfix op l r k)
| ch_infix_r op l r k : child r (EInfix op l r k)
| ch_prefix op e k : child e (EPrefix op e k)
| ch_switch_c c t f k : child c (ESwitch c t f k)
| ch_switch_t c t f k : child t (ESwitch c t f k)
| ch_switch_f c t f k : child f (ESwitch c t f k)
| ch_update v acc rhe k : child rhe (EUpdate v acc rhe k)
| ch_call n args k e : In e args -> child e (ECall n args k)
| ch_array vs k e : In e vs -> child e (EArray vs k)
| ch_access v acc k e : In (AIdx e) acc -> child e (EAccess v acc k)
| ch_update_idx v acc rhe k e : In (AIdx e) acc -> child e (EUpdate v acc rhe k).

Lemma vjust_child ss p e' e : child e' e -> vjust_expr ss p e = true -> vjust_expr ss p e' = true.
Proof.
  intros Hc. destruct Hc as [| | | | | | |n args k e Hin|vs k e Hin|v acc k e Hin|v acc rhe k e Hin];
    cbn [vjust_expr]; intros Hj.
  1-7: repeat (apply andb_true_iff in Hj as [Hj ?]); assumption.
  - apply andb_true_iff in Hj as [Hj _]. exact (proj1 (forallb_forall (vjust_expr ss p) args) Hj e Hin).
  - apply andb_true_iff in Hj as [Hj _]. exact (proj1 (forallb_forall (vjust_expr ss p) vs) Hj e Hin).
  - apply andb_true_iff in Hj as [Hj _]. exact (acc_forallb_idx (vjust_expr ss p) acc e Hj Hin).
  - apply andb_true_iff in Hj as [Hj _]. apply andb_true_iff in Hj as [_ Hj]. exact (acc_forallb_idx (vjust_expr ss p) acc e Hj Hin).
Qed.

(* the top-level expressions of a statement *)
Definition top_exprs (s : stmt) : list expr :=
  match s with
  | SDecl _ _ _ dims => dims
  | SIf _ c _ _ => [c]
  | SRet _ e => [e]
  | SSubst _ _ _ rhe _ _ => [rhe]
  | SCeq _ l r => [l; r]
  | SLog _ args => flat_map (fun a => match a with LExpr e => [e] | LStr => [] end) args
  | SAssert _ e => [e]
  end.

Lemma vjust_stmt_top ss p s e : vjust_stmt ss p s = true -> In e (top_exprs s) -> vjust_expr ss p e = true.
Proof.
  destruct s; cbn [vjust_stmt top_exprs]; intros Hj Hin.
  - rewrite forallb_forall in Hj. auto.
  - destruct Hin as [<-|[]]. exact Hj.
  - destruct Hin as [<-|[]]. exact Hj.
  - destruct Hin as [<-|[]]. apply andb_true_iff in Hj as [Hj _]. exact Hj.
  - apply andb_true_iff in Hj as [H1 H2]. destruct Hin as [<-|[<-|[]]]; assumption.
  - rewrite forallb_forall in Hj. apply in_flat_map in Hin as (a & Ha & Hin).
    destruct a; [contradiction|]. destruct Hin as [<-|[]]. exact (Hj _ Ha).
  - destruct Hin as [<-|[]]. exact Hj.
Qed.

Inductive occurs_in (c : cfg) : expr -> Prop :=
| occ_top s e : In s (all_stmts (c_blocks c)) -> In e (top_exprs s) -> occurs_in c e
| occ_child e' e : occurs_in c e -> child e' e -> occurs_in c e'.

Lemma cond_occurs c blk m e t f : In blk (c_blocks c) -> In (SIf m e t f) (b_stmts blk) -> occurs_in c e.
Proof.
  intros Hb Hs. apply occ_top with (s := SIf m e t f); [|left; reflexivity].
  apply in_flat_map. exists blk. split; assumption.
Qed.

Lemma vjust_cfg_occurs p c e :
  vjust_cfg p c = true -> occurs_in c e -> vjust_expr (all_stmts (c_blocks c)) p e = true.
Proof.
  intros Hv Ho. induction Ho as [s e Hs He|e' e Ho IH Hc].
  - unfold vjust_cfg in Hv. rewrite forallb_forall in Hv. eapply vjust_stmt_top; eauto.
  - eapply vjust_child; eauto.
Qed.

Theorem validated_graph_claims_true p c s0 s e v k :
  prime p -> 2 < p -> Z.log2 p < 2 ^ 64 ->
  vjust_cfg p c = true ->
  init_ok (all_stmts (c_blocks c)) p s0 -> reachable (all_stmts (c_blocks c)) p s0 s ->
  occurs_in c e -> evalR p s e v -> expr_val e = Some k -> claim_ok k v.
Proof.
  intros Hprime Hp Hlog Hv Hi Hr Ho Hev Hk.
  exact (justified_claims_true p Hprime Hp Hlog (all_stmts (c_blocks c)) Hv s0 s e v k Hi Hr (vjust_cfg_occurs p c e Hv Ho) Hev Hk).
Qed.

(* the two findings that rest on value claims *)
Corollary constant_condition_claim_true p c s0 s e v (b : bool) :
  prime p -> 2 < p -> Z.log2 p < 2 ^ 64 ->
  vjust_cfg p c = true ->
  init_ok (all_stmts (c_blocks c)) p s0 -> reachable (all_stmts (c_blocks c)) p s0 s ->
  occurs_in c e -> evalR p s e v -> expr_val e = Some (VBool b) ->
  (v <> 0 <-> b = true).
Proof.
  intros Hprime Hp Hlog Hv Hi Hr Ho Hev Hk.
  pose proof (validated_graph_claims_true p c s0 s e v _ Hprime Hp Hlog Hv Hi Hr Ho Hev Hk) as H.
  cbn in H. subst v. destruct b; cbn; split; intros; try congruence; try lia.
Qed.

Corollary size_claim_true p c s0 s e v z bound :
  prime p -> 2 < p -> Z.log2 p < 2 ^ 64 ->
  vjust_cfg p c = true ->
  init_ok (all_stmts (c_blocks c)) p s0 -> reachable (all_stmts (c_blocks c)) p s0 s ->
  occurs_in c e -> evalR p s e v -> expr_val e = Some (VField z) -> z < bound -> v < bound.
Proof.
  intros Hprime Hp Hlog Hv Hi Hr Ho Hev Hk Hz.
  pose proof (validated_graph_claims_true p c s0 s e v _ Hprime Hp Hlog Hv Hi Hr Ho Hev Hk) as H.
  cbn in H. lia.
Qed.
