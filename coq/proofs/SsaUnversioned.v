(* What the validator condition SsaCheck.unversioned_reads_ok says (C14):
   in a graph that passes it, a statement that reads a name without a version reads
   a name that is neither a parameter nor (the key of) a declared version of a local,
   i.e. a signal, a component or an undeclared name.  A lemma, not an obligation: it
   is the unfolding of the executable condition. *)
From Coq Require Import ZArith NArith List Bool.
Require Import Model.Base Model.Ir Model.SsaCheck.
Import ListNotations.

Lemma unversioned_reads_ok_spec : forall c b s v,
  unversioned_reads_ok c = true ->
  In b (c_blocks c) -> In s (b_stmts b) -> In v (stmt_reads s) ->
  vn_version v = None -> local_key c (key_of v) = false.
Proof.
  intros c b s v H Hb Hs Hv Hn.
  unfold unversioned_reads_ok in H.
  rewrite forallb_forall in H. specialize (H b Hb).
  rewrite forallb_forall in H. specialize (H s Hs).
  rewrite forallb_forall in H. specialize (H v Hv).
  unfold unversioned_read_ok in H. rewrite Hn in H.
  now apply negb_true_iff in H.
Qed.
