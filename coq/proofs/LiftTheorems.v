(* C12: the graph returned by Model.Lift.lift is the final graph of a visit that
   started in the initial graph, so the invariant of Proofs.LiftInv holds of it;
   the theorems read off what it says. *)
From stdpp Require Import list sets.
Require Import Model.Lift Spec.CfgSpec Proofs.LiftBasics Proofs.LiftInv Proofs.LiftSteps Proofs.LiftProofs.
Import Base(outcome, Ok, Err, Panic, OutOfFuel, bind).

Definition g_init : graph := [new_block 0 0].

Lemma pre_init : pre g_init 0 (fun _ => False).
Proof.
  split.
  - split.
    + intros i b Hb. destruct i as [|i]; [|by destruct i]. injection Hb as <-.
      split; simpl; try done; [lia|]. unfold shape. simpl. left. split; [by right|done].
    + intros i j bi Hi Hj. destruct i as [|i]; [|by destruct i]. injection Hi as <-. simpl in Hj. set_solver.
    + intros i j bj Hj Hi. destruct j as [|j]; [|by destruct j]. injection Hj as <-. simpl in Hi. set_solver.
    + intros i [[]| ->]. simpl. lia.
  - intros i [].
  - exists (new_block 0 0). split; [done|]. split; [|done]. intros c t f. done.
Qed.

Lemma lift_post body g :
  lift body = Ok g ->
  exists ss ps, body = SBlock ss /\ visit body 0 g_init = Ok (g, ps) /\
    post body g_init 0 (fun _ => False) g ps.
Proof.
  unfold lift. destruct body as [| |ss| |]; try done. intros H.
  apply bind_ok in H as ([g' ps] & Hv & [= <-]). exists ss, ps. split; [done|]. split; [done|].
  by apply visit_post, Hv; apply pre_init.
Qed.

Section final.
  Context (body : sk) (g : graph) (Hl : lift body = Ok g).

  Lemma lifted_wf : exists P, wf g P.
  Proof.
    destruct (lift_post _ _ Hl) as (ss & ps & _ & _ & [_ _ _ Q4 _ _ _]).
    destruct (is_nil ps); [|by eexists]. eexists. apply (pre_wf _ _ _ Q4).
  Qed.

  Lemma entry_no_pred :
    (forall i b, g !! i = Some b -> b_index b = i) /\
    exists b0, g !! 0 = Some b0 /\ b_preds b0 = [].
  Proof.
    destruct lifted_wf as (P & Hwf). split.
    - intros i b Hb. apply (ok_index _ _ _ _ (wf_blk _ _ Hwf _ _ Hb)).
    - destruct (lift_post _ _ Hl) as (ss & ps & _ & _ & [Q1 _ _ _ _ _ _]).
      destruct g as [|b0 r]; [simpl in Q1; lia|]. exists b0. split; [done|].
      apply (ok_entry _ _ _ _ (wf_blk _ _ Hwf 0 b0 eq_refl) eq_refl).
  Qed.

  Lemma path_snoc a l b c : path g a l b -> edge g b c -> c < length g -> path g a (l ++ [c]) c.
  Proof.
    induction 1 as [i Hi|i k l j He Hp IH]; intros Hbc Hc; simpl.
    - eapply path_cons; [done|by apply path_nil].
    - eapply path_cons; [done|by apply IH].
  Qed.

  Lemma descending_path j : j < length g -> exists l, path g 0 l j /\ forall x, x ∈ 0 :: l -> x <= j.
  Proof.
    destruct lifted_wf as (P & Hwf).
    induction j as [j IH] using lt_wf_ind. intros Hj.
    destruct (decide (j = 0)) as [->|Hne].
    - exists []. split; [by apply path_nil|]. set_solver.
    - destruct (lookup_lt_is_Some_2 g j Hj) as (bj & Hbj).
      destruct (ok_spred _ _ _ _ (wf_blk _ _ Hwf _ _ Hbj)) as (p & Hp & Hin); [lia|].
      destruct (wf_m2 _ _ Hwf _ _ _ Hbj Hin) as (bp & Hbp & Hjs).
      destruct (IH p Hp) as (l & Hpath & Hle); [by eapply lookup_lt_Some|].
      exists (l ++ [j]). split.
      + eapply path_snoc; [done| |done]. by exists bp.
      + intros x Hx. rewrite app_comm_cons in Hx. apply elem_of_app in Hx as [Hx|Hx].
        * exact (Nat.le_trans _ _ _ (Hle _ Hx) (Nat.lt_le_incl _ _ Hp)).
        * apply elem_of_list_singleton in Hx as ->. done.
  Qed.

  Lemma all_reachable j : j < length g -> reachable g j.
  Proof. intros Hj. destruct (descending_path j Hj) as (l & Hp & _). by exists l. Qed.

  Lemma dom_implies_le i j : j < length g -> dominates g i j -> i <= j.
  Proof.
    intros Hj Hdom. destruct (descending_path j Hj) as (l & Hp & Hle). apply Hle, Hdom, Hp.
  Qed.

  Lemma preds_succs_mirror i j :
    (exists bi, g !! i = Some bi /\ j ∈ b_succs bi) <-> (exists bj, g !! j = Some bj /\ i ∈ b_preds bj).
  Proof.
    destruct lifted_wf as (P & Hwf). apply (wf_mirror _ _ Hwf).
  Qed.

  Lemma branch_only_last i b k c t f :
    g !! i = Some b -> b_items b !! k = Some (IBranch c t f) -> S k = length (b_items b).
  Proof.
    destruct lifted_wf as (P & Hwf). intros Hb. apply (ok_branch_last _ _ _ _ (wf_blk _ _ Hwf _ _ Hb)).
  Qed.

  Lemma succs_in_range i b j : g !! i = Some b -> j ∈ b_succs b -> j < length g.
  Proof.
    destruct lifted_wf as (P & Hwf). intros Hb Hj.
    destruct (wf_m1 _ _ Hwf _ _ _ Hb Hj) as (bj & Hbj & _). by eapply lookup_lt_Some.
  Qed.

  Lemma branch_targets_exist_and_are_succs i b c t f :
    g !! i = Some b -> last (b_items b) = Some (IBranch c t f) ->
    t = S i /\ t < length g /\ t ∈ b_succs b /\
    forall x, f = Some x -> x < length g /\ x ∈ b_succs b /\ x <> t.
  Proof.
    destruct lifted_wf as (P & Hwf). intros Hb Hlast.
    pose proof (ok_shape _ _ _ _ (wf_blk _ _ Hwf _ _ Hb)) as Hs. unfold shape in Hs. rewrite Hlast in Hs.
    destruct Hs as (-> & Hlt & [(_ & -> & Hs)|(_ & x & Hx & Hf & Hs)]).
    - split; [done|]. split; [done|]. split; [by apply Hs|]. done.
    - split; [done|]. split; [done|]. split; [apply Hs; by left|].
      intros y ->. destruct Hf as [|[= ->]]; [done|].
      assert (x ∈ b_succs b) by (apply Hs; by right).
      split; [by eapply succs_in_range|done].
  Qed.

  Lemma NoDup_subset_length (l k : list nat) : NoDup l -> (forall y, y ∈ l -> y ∈ k) -> length l <= length k.
  Proof. intros Hnd H. by apply submseteq_length, NoDup_submseteq. Qed.

  Lemma at_most_two_succs i b :
    g !! i = Some b ->
    NoDup (b_succs b) /\ length (b_succs b) <= 2 /\ (~ ends_in_branch b -> length (b_succs b) <= 1).
  Proof.
    destruct lifted_wf as (P & Hwf). intros Hb.
    pose proof (wf_blk _ _ Hwf _ _ Hb) as Hok.
    pose proof (ssorted_NoDup _ (ok_ss _ _ _ _ Hok)) as Hnd.
    pose proof (ok_shape _ _ _ _ Hok) as Hs. unfold shape in Hs.
    split; [done|].
    assert (Hplain : (P i /\ b_succs b = []) \/ (~ P i /\ exists x, forall y, y ∈ b_succs b <-> y = x) ->
                     length (b_succs b) <= 1).
    { intros [[_ ->]|(_ & x & Hx)]; [simpl; lia|]. apply (NoDup_subset_length _ [x] Hnd).
      intros y ->%Hx. apply elem_of_list_here. }
    destruct (last (b_items b)) as [[id|c t f]|] eqn:E.
    - specialize (Hplain Hs). split; [lia|done].
    - split.
      + destruct Hs as (-> & _ & [(_ & _ & Hs)|(_ & x & _ & _ & Hs)]).
        * apply (NoDup_subset_length _ [S i; S i] Hnd). intros y ->%Hs. apply elem_of_list_here.
        * apply (NoDup_subset_length _ [S i; x] Hnd). intros y Hy%Hs. rewrite !elem_of_cons. tauto.
      + intros Hnb. destruct Hnb. by exists c, t, f.
    - specialize (Hplain Hs). split; [lia|done].
  Qed.

  Lemma loop_depth_is_nesting : graph_items g = nesting 0 body.
  Proof. by destruct (lift_post _ _ Hl) as (ss & ps & _ & _ & [_ _ _ _ Q5 _ _]). Qed.

  Lemma every_item_exactly_once :
    concat (map (fun b => map item_key (b_items b)) g) = map fst (nesting 0 body).
  Proof.
    rewrite <- loop_depth_is_nesting. unfold graph_items.
    rewrite concat_map. f_equal. rewrite map_map. apply map_ext.
    intros b. by rewrite map_map.
  Qed.
End final.
