(* The main induction over the statement: visit_statement keeps the invariant
   of Proofs.LiftInv and only grows the graph (C12).  The loop invariant of a
   block is the postcondition of the block of statements visited so far. *)
From stdpp Require Import list sets.
Require Import Model.Lift Spec.CfgSpec Proofs.LiftBasics Proofs.LiftInv Proofs.LiftSteps.
Import Base(outcome, Ok, Err, Panic, OutOfFuel, bind).

Section sk_induction.
  Variable Q : sk -> Prop.
  Hypothesis HL : forall id r, Q (SLeaf id r).
  Hypothesis HN : forall ss, Forall Q ss -> Q (SInit ss).
  Hypothesis HB : forall ss, Forall Q ss -> Q (SBlock ss).
  Hypothesis HW : forall c b, Q b -> Q (SWhile c b).
  Hypothesis HI : forall c t e, Q t -> (forall e', e = Some e' -> Q e') -> Q (SIf c t e).

  Fixpoint sk_ind' (s : sk) : Q s :=
    match s with
    | SLeaf id r => HL id r
    | SInit ss => HN ss ((fix go ss : Forall Q ss :=
                            match ss with
                            | [] => Forall_nil_2 Q
                            | s :: r => Forall_cons_2 Q s r (sk_ind' s) (go r)
                            end) ss)
    | SBlock ss => HB ss ((fix go ss : Forall Q ss :=
                            match ss with
                            | [] => Forall_nil_2 Q
                            | s :: r => Forall_cons_2 Q s r (sk_ind' s) (go r)
                            end) ss)
    | SWhile c b => HW c b (sk_ind' b)
    | SIf c t e => HI c t e (sk_ind' t)
                     (match e as e0 return forall e', e0 = Some e' -> Q e' with
                      | Some e1 => fun e' H => match H in _ = x return match x with Some y => Q y | None => True end
                                               with eq_refl => sk_ind' e1 end
                      | None => fun e' H => match H in _ = x return match x with Some y => Q y | None => True end
                                            with eq_refl => I end
                      end)
    end.
End sk_induction.

Fixpoint visit_seq (d : nat) (ss : list sk) (ps : list nat) (g : graph) : outcome (graph * list nat) :=
  match ss with
  | [] => Ok (g, ps)
  | s :: r =>
      bind (if is_nil ps then Ok g else complete g ps d) (fun g =>
      bind (visit s d g) (fun res => visit_seq d r (snd res) (fst res)))
  end.

Fixpoint visit_init (d : nat) (ss : list sk) (g : graph) : outcome (graph * list nat) :=
  match ss with
  | [] => Ok (g, [])
  | s :: r =>
      bind (visit s d g) (fun res =>
      if is_nil (snd res) then visit_init d r (fst res) else Panic site_init_nonempty)
  end.

Lemma visit_block_eq ss d g :
  visit (SBlock ss) d g = bind (last_index g) (fun _ => visit_seq d ss [] g).
Proof.
  simpl. apply bind_ext. intros _. generalize (@nil nat). revert g.
  induction ss as [|s r IH]; intros g ps; [done|]. simpl.
  apply bind_ext. intros g1. apply bind_ext. intros res. apply IH.
Qed.

Lemma visit_init_eq ss d g :
  visit (SInit ss) d g = bind (last_index g) (fun _ => visit_init d ss g).
Proof.
  simpl. apply bind_ext. intros _. revert g.
  induction ss as [|s r IH]; intros g; [done|]. simpl.
  apply bind_ext. intros res. destruct (is_nil (snd res)); [apply IH|done].
Qed.

Lemma nesting_snoc d ss s : nesting d (SBlock (ss ++ [s])) = nesting d (SBlock ss) ++ nesting d s.
Proof.
  simpl. induction ss as [|s0 r IH]; simpl; [by rewrite app_nil_r|]. by rewrite IH, app_assoc.
Qed.

Lemma visit_init_seq ss d g r : visit_init d ss g = Ok r -> visit_seq d ss [] g = Ok r.
Proof.
  revert g. induction ss as [|s rest IH]; intros g; simpl; [done|].
  intros H. apply bind_ok in H as (a & E & H). rewrite E. simpl.
  destruct (is_nil (snd a)) eqn:En; [|done]. apply is_nil_true in En. rewrite En. by apply IH.
Qed.

Lemma pre_last_index g d P0 : pre g d P0 -> last_index g = Ok (length g - 1).
Proof.
  intros [Hwf _ (b & Hb & _)]. unfold last_index. rewrite last_lookup', Hb.
  by rewrite (ok_index _ _ _ _ (wf_blk _ _ Hwf _ _ Hb)).
Qed.

Lemma visit_leaf id r d g P0 :
  pre g d P0 -> visit (SLeaf id r) d g = Ok (alter (push_item (ILeaf id)) (length g - 1) g, []).
Proof.
  intros Hpre. simpl. rewrite (pre_last_index _ _ _ Hpre). simpl.
  by rewrite upd_last_ok by (by eapply pre_length).
Qed.

Lemma visit_if c t e d g P0 g1 g2 :
  pre g d P0 -> upd_last (push_item (IBranch c (length g) None)) g = Ok g1 ->
  complete g1 [length g - 1] d = Ok g2 ->
  visit (SIf c t e) d g =
    (res <- visit t d g2;; ps_if <- or_last (fst res) (snd res);;
     match e with
     | Some e =>
         g4 <- complete (fst res) [length g - 1] d;; res <- visit e d g4;;
         ps_else <- or_last (fst res) (snd res);; Ok (fst res, iunion ps_if ps_else)
     | None => Ok (fst res, ins (length g - 1) ps_if)
     end).
Proof.
  intros Hpre E1 E2. pose proof (pre_length _ _ _ Hpre).
  simpl. rewrite (pre_last_index _ _ _ Hpre). simpl.
  replace (length g - 1 + 1) with (length g) by lia.
  rewrite E1. simpl. by rewrite E2.
Qed.

Record post (s : sk) (g : graph) (d : nat) (P0 : nat -> Prop) (g' : graph) (ps : list nat) : Prop := {
  post_len : length g <= length g';
  post_range : forall i, i ∈ ps -> length g - 1 <= i < length g';
  post_ss : ssorted ps;
  post_state : if is_nil ps then pre g' d P0 else wf g' (fun i => P0 i \/ i ∈ ps);
  post_items : graph_items g' = graph_items g ++ nesting d s;
  post_ext : gext g g';
  post_frame : forall i, i < length g - 1 -> g' !! i = g !! i;
}.

Lemma post_grow s g d P0 g' ps : post s g d P0 g' ps -> grow g (nesting d s) g'.
Proof. intros [? ? ? ? ? ? ?]. by split. Qed.

Lemma post_of_grow s g d P0 g' ps :
  grow g (nesting d s) g' -> (forall i, i ∈ ps -> length g - 1 <= i < length g') -> ssorted ps ->
  (if is_nil ps then pre g' d P0 else wf g' (fun i => P0 i \/ i ∈ ps)) ->
  post s g d P0 g' ps.
Proof. intros [? ? ? ?]. by split. Qed.

Lemma post_nil s g d P0 g' : grow g (nesting d s) g' -> pre g' d P0 -> post s g d P0 g' [].
Proof. intros Hg Hp. apply post_of_grow; [done|by intros i ?%elem_of_nil|done..]. Qed.

(* `if pred_set.is_empty() { pred_set.insert(last) }` *)
Lemma or_last_post s g d P0 g' ps :
  0 < length g -> post s g d P0 g' ps ->
  exists ps', or_last g' ps = Ok ps' /\ ps' = (if is_nil ps then [length g' - 1] else ps) /\
    ps' <> [] /\ ssorted ps' /\ wf g' (fun i => P0 i \/ i ∈ ps') /\
    (forall i, i ∈ ps' -> length g - 1 <= i < length g').
Proof.
  intros Hpos [Q1 Q2 Q3 Q4 _ _ _]. unfold or_last. destruct (is_nil ps) eqn:E.
  - rewrite (pre_last_index _ _ _ Q4). eexists. do 3 (split; [done|]).
    split; [apply ssorted_singleton|]. split.
    + eapply wf_ext; [|apply (pre_wf _ _ _ Q4)]. intros i. apply singleton_ext.
    + intros i ->%elem_of_list_singleton. lia.
  - apply is_nil_false in E. by exists ps.
Qed.

Ltac inv_bind H :=
  let a := fresh "a" in let E := fresh "E" in
  apply bind_ok in H as (a & E & H).

Definition visit_ok (s : sk) : Prop :=
  forall d g P0 g' ps, pre g d P0 -> visit s d g = Ok (g', ps) -> post s g d P0 g' ps.

(* header block, branch, first block of the body; what is left of the visit *)
Lemma step_while_head g d P0 c :
  pre g d P0 ->
  exists g3,
    (forall body, visit (SWhile c body) d g =
       (res <- visit body (d + 1) g3;; ps <- or_last (fst res) (snd res);;
        g5 <- fold_left (back_edge (length g)) ps (Ok (fst res));; Ok (g5, [length g]))) /\
    pre g3 (d + 1) (fun i => P0 i \/ i = length g) /\ length g3 = S (S (length g)) /\
    grow g [(KCond c, d)] g3 /\
    (exists bl, g !! (length g - 1) = Some bl /\ g3 !! (length g - 1) = Some (close (length g) bl)) /\
    (exists bh, g3 !! length g = Some bh /\ b_items bh = [IBranch c (S (length g)) None] /\
       b_succs bh = [S (length g)]) /\
    (exists nb, g3 !! S (length g) = Some nb /\ b_items nb = []).
Proof.
  intros Hpre. destruct (step_complete_last g d P0 Hpre) as (g1 & E1 & Hp1 & Hc1).
  pose proof (closes_length _ _ _ _ Hc1) as Hl1. pose proof (closes_new _ _ _ _ Hc1) as Hnb1.
  destruct (step_branch g1 d (d + 1) P0 c Hp1)
    as (g2 & g3 & E2 & E3 & _ & Hp3 & Hl3 & Hg3 & (bo & bh & Hbo & Hbh & Hbhi & Hbhs) & Hnb).
  destruct (pre_open _ _ _ Hpre) as (bl & Hbl & _). pose proof (pre_length _ _ _ Hpre).
  rewrite Hl1 in *. simpl in *. rewrite Nat.sub_0_r in *.
  exists g3. split; [|do 2 (split; [done|]); split; [|split; [|split; [|done]]]].
  - intros body. simpl. rewrite (pre_last_index _ _ _ Hpre). simpl.
    replace (length g - 1 + 2) with (S (length g)) by lia.
    replace (length g - 1 + 1) with (length g) by lia.
    rewrite E1. simpl. rewrite E2. simpl. by rewrite E3.
  - apply (grow_trans g g1 g3 []); [|done]. eapply closes_grow; [done|apply grow_refl|].
    by intros i ->%elem_of_list_singleton.
  - exists bl. split; [done|]. rewrite (grow_frame _ _ _ Hg3) by lia.
    rewrite (closes_lookup _ _ _ _ _ _ Hc1 Hbl), decide_True; [done|apply elem_of_list_here].
  - exists bh. rewrite Hnb1 in Hbo. by injection Hbo as <-.
Qed.

(* the back edges, once the body that started at g has been visited *)
Lemma step_while_tail s g0 d0 P0 g d g' ps :
  pre g0 d0 P0 -> length g = S (S (length g0)) ->
  post s g d (fun i => P0 i \/ i = length g0) g' ps ->
  exists ps' g'', or_last g' ps = Ok ps' /\ ps' = (if is_nil ps then [length g' - 1] else ps) /\
    fold_left (back_edge (length g0)) ps' (Ok g') = Ok g'' /\
    wf g'' (fun i => P0 i \/ i = length g0) /\ backs g' (length g0) ps' g'' /\
    (forall i, i ∈ ps' -> length g0 < i).
Proof.
  intros Hpre Hlg Hq.
  destruct (or_last_post s g d _ g' ps ltac:(lia) Hq) as (ps' & Eo & Eq & _ & Hss & Hwf & Hr).
  assert (Hps' : forall i, i ∈ ps' -> length g0 < i /\ ~ P0 i).
  { intros i Hi. apply Hr in Hi. split; [lia|]. intros HP. apply (pre_P0 _ _ _ Hpre) in HP. lia. }
  destruct (step_back g' (length g0) ps' P0) as (g'' & Eb & Hw & Hb); try done.
  { eapply wf_ext; [|exact Hwf]. intros i. simpl. tauto. }
  { by eapply pre_length. }
  exists ps', g''. do 5 (split; [done|]). intros i Hi. by apply Hps'.
Qed.

(* the first block of the else branch, once the then branch has been visited *)
Lemma step_else g0 d P0 g3 (psi : list nat) :
  pre g0 d P0 -> wf g3 (fun i => (P0 i \/ i = length g0 - 1) \/ i ∈ psi) ->
  (forall i, i ∈ psi -> length g0 <= i) ->
  exists g4, complete g3 [length g0 - 1] d = Ok g4 /\ pre g4 d (fun i => P0 i \/ i ∈ psi) /\
    closes g3 [length g0 - 1] d g4.
Proof.
  intros Hpre Hwf Hr. pose proof (pre_length _ _ _ Hpre). apply step_complete.
  - eapply wf_ext; [|exact Hwf]. intros i. simpl. rewrite elem_of_list_singleton. tauto.
  - done.
  - apply ssorted_singleton.
  - intros i ->%elem_of_list_singleton [HP|Hi]; [apply (pre_P0 _ _ _ Hpre) in HP|apply Hr in Hi]; lia.
Qed.

(* `if !pred_set.is_empty() { complete_basic_block(..) }` between two statements of a block *)
Lemma step_join s g0 d (P0 : nat -> Prop) g1 ps1 :
  (forall i, P0 i -> i < length g0 - 1) -> post s g0 d P0 g1 ps1 ->
  exists g2, (if is_nil ps1 then Ok g1 else complete g1 ps1 d) = Ok g2 /\ post s g0 d P0 g2 [] /\
    (if is_nil ps1 then g2 = g1 else closes g1 ps1 d g2).
Proof.
  intros HP0 Hq. pose proof Hq as [_ Q2 Q3 Q4 _ _ _]. destruct (is_nil ps1) eqn:En.
  - apply is_nil_true in En as ->. by exists g1.
  - apply is_nil_false in En. destruct (step_complete g1 ps1 d P0) as (g2 & E & Hp2 & Hc); try done.
    { intros i Hi HPi. apply HP0 in HPi. apply Q2 in Hi. lia. }
    exists g2. split; [done|]. split; [|done]. apply post_nil; [|done].
    eapply closes_grow; [done|by eapply post_grow|]. intros i Hi. by apply Q2.
Qed.

Lemma post_snoc ss s g0 d P0 g2 g3 ps3 :
  post (SBlock ss) g0 d P0 g2 [] -> post s g2 d P0 g3 ps3 -> post (SBlock (ss ++ [s])) g0 d P0 g3 ps3.
Proof.
  intros Hq2 Hq3. pose proof (post_len _ _ _ _ _ _ Hq2). destruct Hq3 as [R1 R2 R3 R4 R5 R6 R7].
  apply post_of_grow; try done.
  - rewrite nesting_snoc. eapply grow_trans; [by eapply post_grow|by split].
  - intros i Hi. apply R2 in Hi. lia.
Qed.

Lemma visit_seq_post ss : Forall visit_ok ss ->
  forall ss0 d g0 (P0 : nat -> Prop) g1 ps1 g' ps,
  (forall i, P0 i -> i < length g0 - 1) -> post (SBlock ss0) g0 d P0 g1 ps1 ->
  visit_seq d ss ps1 g1 = Ok (g', ps) ->
  post (SBlock (ss0 ++ ss)) g0 d P0 g' ps /\ gext g1 g'.
Proof.
  induction 1 as [|s r Hs _ IH]; intros ss0 d g0 P0 g1 ps1 g' ps HP0 Hq Hv; simpl in Hv.
  - injection Hv as <- <-. rewrite app_nil_r. split; [done|apply gext_refl].
  - destruct (step_join _ _ _ _ _ _ HP0 Hq) as (g2 & E2 & Hq2 & Hc). rewrite E2 in Hv. simpl in Hv.
    inv_bind Hv. destruct a as [g3 ps3]. simpl in Hv.
    pose proof (Hs d g2 P0 g3 ps3 (post_state _ _ _ _ _ _ Hq2) E) as Hq3.
    destruct (IH _ _ _ _ _ _ _ _ HP0 (post_snoc _ _ _ _ _ _ _ _ Hq2 Hq3) Hv) as [Hq' He].
    rewrite <- app_assoc in Hq'. split; [done|].
    eapply gext_trans; [|eapply gext_trans; [apply (post_ext _ _ _ _ _ _ Hq3)|done]].
    destruct (is_nil ps1); [subst; apply gext_refl|by eapply closes_gext].
Qed.

Lemma visit_block_post ss d g P0 g' ps :
  Forall visit_ok ss -> pre g d P0 -> visit_seq d ss [] g = Ok (g', ps) -> post (SBlock ss) g d P0 g' ps.
Proof.
  intros Hss Hpre Hv. eapply (visit_seq_post ss Hss []); [apply (pre_P0 _ _ _ Hpre)| |done].
  apply post_nil; [apply grow_refl|done].
Qed.

Lemma iunion_not_nil a b : a <> [] -> iunion a b <> [].
Proof.
  intros Ha Hu. destruct a as [|x r]; [done|].
  assert (x ∈ iunion (x :: r) b) as Hx by (apply elem_of_iunion; left; apply elem_of_list_here).
  rewrite Hu in Hx. by apply elem_of_nil in Hx.
Qed.

Lemma visit_post_while c body : visit_ok body -> visit_ok (SWhile c body).
Proof.
  intros IH d g P0 g' ps Hpre Hv.
  destruct (step_while_head g d P0 c Hpre) as (g3 & Heq & Hp3 & Hl3 & Hg3 & _). rewrite Heq in Hv.
  inv_bind Hv. destruct a as [g4 ps4]. simpl in Hv.
  pose proof (IH _ _ _ _ _ Hp3 E) as Hq.
  destruct (step_while_tail _ _ _ _ _ _ _ _ Hpre Hl3 Hq) as (ps' & g5 & Eo & _ & Eb & Hw & Hb & Hr).
  rewrite Eo in Hv. simpl in Hv. rewrite Eb in Hv. injection Hv as <- <-.
  pose proof (pre_length _ _ _ Hpre). pose proof (backs_length _ _ _ _ Hb) as Hl5. pose proof (post_len _ _ _ _ _ _ Hq).
  apply post_of_grow.
  - eapply (backs_grow g _ g4); [done| |lia|done].
    simpl. rewrite <- (Nat.add_1_r d). eapply (grow_trans g g3 g4 [_]); [done|by eapply post_grow].
  - intros i ->%elem_of_list_singleton. lia.
  - apply ssorted_singleton.
  - eapply wf_ext; [|exact Hw]. intros i. apply singleton_ext.
Qed.

Lemma visit_post_if c t e : visit_ok t -> (forall e', e = Some e' -> visit_ok e') -> visit_ok (SIf c t e).
Proof.
  intros IHt IHe d g P0 g' ps Hpre Hv.
  destruct (step_branch g d d P0 c Hpre) as (g1 & g2 & E1 & E2 & _ & Hp2 & Hl2 & Hg2 & _).
  rewrite (visit_if c t e d g P0 g1 g2 Hpre E1 E2) in Hv.
  inv_bind Hv. destruct a as [g3 ps3]. simpl in Hv.
  pose proof (pre_length _ _ _ Hpre). pose proof (IHt _ _ _ _ _ Hp2 E) as Hq3.
  destruct (or_last_post t g2 d _ g3 ps3 (pre_length _ _ _ Hp2) Hq3) as (psi & Eo & _ & Hne & Hss & Hwf & Hr).
  rewrite Eo in Hv. simpl in Hv. pose proof (grow_trans _ _ _ _ _ Hg2 (post_grow _ _ _ _ _ _ Hq3)) as Hg3.
  destruct e as [e|].
  - destruct (step_else g d P0 g3 psi Hpre Hwf) as (g4 & E4 & Hp4 & Hc4).
    { intros i Hi. apply Hr in Hi. lia. }
    rewrite E4 in Hv. simpl in Hv. inv_bind Hv. destruct a as [g5 ps5]. simpl in Hv.
    pose proof (IHe e eq_refl _ _ _ _ _ Hp4 E0) as Hq5. pose proof (closes_length _ _ _ _ Hc4) as Hl4.
    destruct (or_last_post e g4 d _ g5 ps5 (pre_length _ _ _ Hp4) Hq5) as (pse & Eo' & _ & _ & Hss' & Hwf' & Hr').
    rewrite Eo' in Hv. injection Hv as <- <-. pose proof (post_len _ _ _ _ _ _ Hq3). pose proof (post_len _ _ _ _ _ _ Hq5).
    apply post_of_grow.
    + eapply (grow_trans g g4 g5 (_ :: _)); [|by eapply post_grow].
      eapply closes_grow; [done..|]. by intros i ->%elem_of_list_singleton.
    + intros i [Hi|Hi]%elem_of_iunion; [apply Hr in Hi|apply Hr' in Hi]; lia.
    + by apply ssorted_iunion.
    + rewrite (proj2 (is_nil_false _) (iunion_not_nil _ pse Hne)).
      eapply wf_ext; [|exact Hwf']. intros i. simpl. rewrite elem_of_iunion. tauto.
  - injection Hv as <- <-. pose proof (post_len _ _ _ _ _ _ Hq3). apply post_of_grow.
    + simpl. by rewrite app_nil_r.
    + intros i [->|Hi]%elem_of_ins; [lia|]. apply Hr in Hi. lia.
    + by apply ssorted_ins.
    + rewrite (proj2 (is_nil_false _) (ins_not_nil _ _)).
      eapply wf_ext; [|exact Hwf]. intros i. simpl. rewrite elem_of_ins. tauto.
Qed.

Theorem visit_post s : visit_ok s.
Proof.
  induction s as [id r|ss IH|ss IH|c body IH|c t e IHt IHe] using sk_ind'.
  - intros d g P0 g' ps Hpre Hv. rewrite (visit_leaf _ _ _ _ _ Hpre) in Hv. injection Hv as <- <-.
    destruct (step_leaf g d P0 id Hpre). by apply post_nil.
  - intros d g P0 g' ps Hpre Hv. rewrite visit_init_eq in Hv. inv_bind Hv. apply visit_init_seq in Hv.
    destruct (visit_block_post ss d g P0 g' ps IH Hpre Hv). by split.
  - intros d g P0 g' ps Hpre Hv. rewrite visit_block_eq in Hv. inv_bind Hv. by apply visit_block_post.
  - by apply visit_post_while.
  - by apply visit_post_if.
Qed.
