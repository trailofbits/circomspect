(* C08: the SSA construction keeps the assignment operators.

   The theorems of C08 over Model.LiftFull speak about the graph BEFORE SSA, the
   pass (and Model.SignalAssign) runs on the graph AFTER `into_ssa`.  This file
   closes that step over the mirror Model.Ssa (compared with the real `into_ssa`
   on every run by property C14's engine): for every graph, every frontier /
   children table and every outcome of the fuelled loops,

     block i of the SSA form = some number of inserted phi statements, each a
     substitution with `Meta::default()` and the operator `=`
     (AssignLocalOrComponent), followed by statements with exactly the metas
     and ASSIGNMENT OPERATORS (none for a statement that is no substitution) of
     block i of the input, in the same order.

   So the `<--` substitutions (AssignSignal) of the SSA graph are, in block order,
   exactly those of the input graph: same number, same order, same metas; none is
   turned into `<==` or `=`, no `<==` / `=` becomes a `<--`, and the inserted phi
   statements are none.  No hypothesis on the input graph.

   Proofs.SsaSteps.into_ssa_tagged for the tag (meta, operator); Proofs.LabelsSsa (C04)
   is the same theorem for the tag (meta, statement kind). *)
From Coq Require Import ZArith NArith List Bool Lia Arith.
Require Import Model.Base Model.Ir Model.SsaCheck Model.Ssa Model.SignalAssign.
Require Import Spec.SigAssignSpec Proofs.SsaNoPanic Proofs.SsaSteps.
Require Model.Ast Model.LiftFull Proofs.LiftFullC08.
Import ListNotations.

Definition phi_meta : meta := {| m_start := 0%N; m_end := 0%N; m_file := None |}.
Definition phi_otag : meta * option assign_op := (phi_meta, Some OpVar).

Lemma phi_stmt_otag v : otag (phi_stmt_for v) = phi_otag.
Proof. reflexivity. Qed.

(* renaming keeps the meta and the operator of a statement *)
Lemma otag_frame s : otag s = otag (frame s).
Proof. destruct s; reflexivity. Qed.

(* block by block: inserted `=` phis with the default meta, then the metas and operators of the input *)
Theorem ssa_blocks_keep_operators : forall frontier children c c',
  into_ssa frontier children c = SOk c' ->
  Forall2 (fun b b' => exists k,
             map otag (b_stmts b') = repeat (phi_meta, Some OpVar) k ++ map otag (b_stmts b))
          (c_blocks c) (c_blocks c').
Proof. exact (into_ssa_tagged otag phi_otag otag_frame phi_stmt_otag). Qed.

Lemma filter_flat_map {A B} (p : B -> bool) (f : A -> list B) l :
  filter p (flat_map f l) = flat_map (fun x => filter p (f x)) l.
Proof. induction l as [|x l IH]; simpl; [reflexivity|]. rewrite filter_app, IH. reflexivity. Qed.

(* the statements with one assignment operator keep their number, order and metas *)
Lemma ssa_keeps_op (q : stmt -> bool) (p : option assign_op -> bool) frontier children c c' :
  (forall s, q s = p (stmt_op s)) -> p (Some OpVar) = false ->
  into_ssa frontier children c = SOk c' ->
  map stmt_meta (filter q (all_stmts c')) = map stmt_meta (filter q (all_stmts c)).
Proof.
  intros Hq Hp H.
  pose proof (tagged_filter otag phi_otag q (fun t => p (snd t)) Hq Hp _ _ (ssa_blocks_keep_operators _ _ _ _ H)) as E.
  apply (f_equal (map fst)) in E. rewrite !map_map in E. exact E.
Qed.

(* THE STEP: the `<--` statements of the SSA graph are, in block order, those of
   the graph it was built from - same number, same order, same metas *)
Theorem ssa_keeps_signal_assignments : forall frontier children c c',
  into_ssa frontier children c = SOk c' ->
  map stmt_meta (assign_stmts c') = map stmt_meta (assign_stmts c).
Proof.
  intros frontier children c c'.
  apply (ssa_keeps_op is_assign (fun o => match o with Some OpSig => true | _ => false end)); [|reflexivity].
  intros [| | |m v [] rhe sv st| | |]; reflexivity.
Qed.

Theorem ssa_keeps_signal_assignment_count : forall frontier children c c',
  into_ssa frontier children c = SOk c' -> length (assign_stmts c') = length (assign_stmts c).
Proof.
  intros frontier children c c' H. pose proof (ssa_keeps_signal_assignments _ _ _ _ H) as E.
  apply (f_equal (@length _)) in E. rewrite !map_length in E. exact E.
Qed.

(* the same for the constraint statements (`<==` substitutions and `===`): same number, order, metas.
   A `===` has no operator; its tag is (meta, None) like every other non-substitution, so the statement
   is about `<==` here; the kind of the other statements is C04_ssa_blocks_from_input. *)
Definition is_csig (s : stmt) : bool := match s with SSubst _ _ OpCSig _ _ _ => true | _ => false end.

Theorem ssa_keeps_constraint_assignments : forall frontier children c c',
  into_ssa frontier children c = SOk c' ->
  map stmt_meta (filter is_csig (all_stmts c')) = map stmt_meta (filter is_csig (all_stmts c)).
Proof.
  intros frontier children c c'.
  apply (ssa_keeps_op is_csig (fun o => match o with Some OpCSig => true | _ => false end)); [|reflexivity].
  intros [| | |m v [] rhe sv st| | |]; reflexivity.
Qed.

(* from the source to the SSA graph: Model.LiftFull followed by Model.Ssa *)

Theorem source_to_ssa_signal_assignments : forall kind params pfile ploc body c frontier children c',
  LiftFull.lift_to_ir kind params pfile ploc body = Ok c ->
  into_ssa frontier children c = SOk c' ->
  map stmt_meta (assign_stmts c')
  = map (fun s => LiftFullC08.ir_meta (Model.Ast.stmt_meta s)) (LiftFullC08.source_signal_assignments body).
Proof.
  intros kind params pfile ploc body c frontier children c' H Hs.
  rewrite (ssa_keeps_signal_assignments _ _ _ _ Hs).
  exact (LiftFullC08.signal_assignments_from_source _ _ _ _ _ _ H).
Qed.

(* distinct source locations of the `<--` statements give distinct keys IN THE SSA GRAPH, the one the pass
   walks: the hypothesis of C08_sigassign_bijection_source_keys from a hypothesis on the source *)
Theorem source_to_ssa_distinct_subkeys : forall kind params pfile ploc body c frontier children c',
  LiftFull.lift_to_ir kind params pfile ploc body = Ok c ->
  into_ssa frontier children c = SOk c' ->
  NoDup (map Model.Ast.stmt_meta (LiftFullC08.source_signal_assignments body)) ->
  subkeys_distinct c'.
Proof.
  intros kind params pfile ploc body c frontier children c' H Hs Hn. unfold subkeys_distinct.
  apply LiftFullC08.distinct_metas_distinct_subkeys. rewrite LiftFullC08.assignment_metas.
  fold (assign_stmts c'). rewrite (source_to_ssa_signal_assignments _ _ _ _ _ _ _ _ _ H Hs).
  rewrite <- (map_map Model.Ast.stmt_meta LiftFullC08.ir_meta).
  apply FinFun.Injective_map_NoDup; [exact LiftFullC08.ir_meta_inj|exact Hn].
Qed.

(* Model.Ssa.into_ssa returns the renamed BLOCKS; the declaration table of the real SSA graph
   (`c_decls`, on which the classification of uses depends) is not computed by that mirror
   (`c_decls := []`, compared through the declaration statements).  The hypotheses about the
   `<--` statements depend on the blocks only, so they hold of every graph with those blocks,
   whatever its kind, parameters and declaration table - in particular of the dumped real one. *)
Theorem source_to_ssa_distinct_subkeys_any_decls :
  forall kind params pfile ploc body c frontier children c' g,
  LiftFull.lift_to_ir kind params pfile ploc body = Ok c ->
  into_ssa frontier children c = SOk c' ->
  c_blocks g = c_blocks c' ->
  NoDup (map Model.Ast.stmt_meta (LiftFullC08.source_signal_assignments body)) ->
  subkeys_distinct g /\
  map stmt_meta (assign_stmts g)
  = map (fun s => LiftFullC08.ir_meta (Model.Ast.stmt_meta s)) (LiftFullC08.source_signal_assignments body).
Proof.
  intros kind params pfile ploc body c frontier children c' g H Hs Hb Hn.
  pose proof (source_to_ssa_distinct_subkeys _ _ _ _ _ _ _ _ _ H Hs Hn) as D.
  pose proof (source_to_ssa_signal_assignments _ _ _ _ _ _ _ _ _ H Hs) as E.
  unfold subkeys_distinct, assign_stmts, all_stmts in *. rewrite Hb. split; assumption.
Qed.
