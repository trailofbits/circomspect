(* C07, hypotheses about the graph and the immediate-dominator table: what the two
   decidable checks of Model.DegGraph give, stated with plain lists and the path-based
   dominance of Spec.SsaDomSpec (cedge / cdom / cidom on Ir.cfg):
     graph_consistent c = true /\ idom_is_dominator_table c idom = true   imply
       - every block is reachable from the entry block,
       - the table has one entry per block; the entry of block i is None iff i = 0,
         and it is Some d iff d is THE immediate dominator of i (C15_idom_exact),
       - b_index is the position, the members of b_preds are exactly the sources of
         the edges into the block, the entry block has no predecessor. *)
From Coq Require Import ZArith Lia.
From stdpp Require Import list list_numbers sets.
Require Model.Base Model.Ir Model.Dom Model.DegGraph Spec.DomSpec Spec.SsaDomSpec.
Require Proofs.DomProofs Proofs.DomOracle Proofs.SsaDomBridge Proofs.IrFacts.

Lemma dom_graph_of_eq c : DegGraph.dom_graph_of c = SsaDomBridge.graph_of c.
Proof. reflexivity. Qed.

Lemma idom_tables_eqb_eq a b : DegGraph.idom_tables_eqb a b = true → a = b.
Proof.
  revert b. induction a as [|x a IH]; intros [|y b]; simpl; try done.
  intros H. apply andb_true_iff in H as [H1 H2]. f_equal; [|by apply IH].
  destruct x, y; simpl in H1; try done. apply N.eqb_eq in H1. by subst.
Qed.

Lemma index_is_position_spec c : DegGraph.index_is_position c = true →
  ∀ i b, nth_error (Ir.c_blocks c) i = Some b → Ir.b_index b = N.of_nat i.
Proof.
  unfold DegGraph.index_is_position. intros H i b Hb.
  rewrite List.forallb_forall in H.
  pose proof (IrFacts.combine_seq_nth (Ir.c_blocks c) 0 i b Hb) as Hin.
  specialize (H _ Hin). simpl in H. by apply N.eqb_eq in H.
Qed.

Lemma block_node c i b : nth_error (Ir.c_blocks c) i = Some b →
  SsaDomBridge.graph_of c !! i = Some (Dom.Node (N.to_nat <$> Ir.b_preds b) (N.to_nat <$> Ir.b_succs b)).
Proof. intros Hb. apply SsaDomBridge.graph_of_lookup. eauto. Qed.

Section Facts.
Context (c : Ir.cfg) (idom : list (option N)).
Context (Hgc : DegGraph.graph_consistent c = true).
Context (Htab : DegGraph.idom_is_dominator_table c idom = true).

Lemma consistent_rooted : DomSpec.rooted (SsaDomBridge.graph_of c).
Proof.
  unfold DegGraph.graph_consistent in Hgc. apply andb_true_iff in Hgc as [_ H].
  rewrite dom_graph_of_eq in H. by apply DomOracle.rooted_b_sound.
Qed.

Lemma consistent_index : ∀ i b, nth_error (Ir.c_blocks c) i = Some b → Ir.b_index b = N.of_nat i.
Proof.
  unfold DegGraph.graph_consistent in Hgc. apply andb_true_iff in Hgc as [H _].
  by apply index_is_position_spec.
Qed.

Lemma consistent_reach : SsaDomSpec.creach c.
Proof. exact (SsaDomBridge.reach_of_rooted c consistent_rooted). Qed.

Lemma table_is_computed :
  ∃ t, Dom.dominator_tree (Dom.dom_fuel (SsaDomBridge.graph_of c)) Dom.id_order (SsaDomBridge.graph_of c) = Base.Ok t ∧
       idom = DegGraph.idom_table_of t.
Proof.
  unfold DegGraph.idom_is_dominator_table, DegGraph.computed_idom in Htab.
  rewrite dom_graph_of_eq in Htab.
  destruct (Dom.dominator_tree _ _ _) as [t| | |]; try done.
  exists t. split; [done|]. by apply idom_tables_eqb_eq.
Qed.

Lemma table_length : length idom = length (Ir.c_blocks c).
Proof.
  destruct table_is_computed as (t & Ht & ->).
  pose proof (DomProofs.tree_is_ok _ _ t consistent_rooted (proj1 DomOracle.orders_ok) Ht) as Hok.
  unfold DegGraph.idom_table_of. rewrite map_length, (DomProofs.ok_idom_len _ _ Hok).
  apply SsaDomBridge.graph_of_length.
Qed.

(* the entry of block i is its immediate dominator in the sense of paths *)
Lemma table_exact i o : nth_error idom i = Some o →
  (o = None ↔ i = 0) ∧ ∀ d, o = Some d ↔ SsaDomSpec.cidom c (N.to_nat d) i.
Proof.
  destruct table_is_computed as (t & Ht & ->). intros Hi.
  unfold DegGraph.idom_table_of in Hi.
  rewrite <- SsaDomBridge.lookup_nth_error in Hi.
  change (map ?f ?l) with (f <$> l) in Hi. rewrite list_lookup_fmap in Hi.
  destruct (Dom.dt_idom t !! i) as [o'|] eqn:Eo; [|done]. simpl in Hi. injection Hi as <-.
  pose proof (DomProofs.idom_total _ _ t consistent_rooted (proj1 DomOracle.orders_ok) Ht i o' Eo) as Htot.
  split.
  - rewrite <- Htot. destruct o'; split; done.
  - intros d. rewrite SsaDomBridge.idom_iff.
    rewrite <- (DomProofs.idom_exact _ _ t consistent_rooted (proj1 DomOracle.orders_ok) Ht i o' (N.to_nat d) Eo).
    destruct o' as [j|]; [|split; done]. split.
    + intros [= <-]. by rewrite Nat2N.id.
    + intros [= ->]. by rewrite N2Nat.id.
Qed.

(* predecessors are the sources of the incoming edges *)
Lemma pred_is_edge ij j p : nth_error (Ir.c_blocks c) ij = Some j →
  In p (Ir.b_preds j) → SsaDomSpec.cedge c (N.to_nat p) ij.
Proof.
  intros Hj Hp. pose proof consistent_rooted as Hg.
  pose proof (block_node c _ j Hj) as Hlj.
  assert (Hin : N.to_nat p ∈ Dom.preds (Dom.Node (N.to_nat <$> Ir.b_preds j) (N.to_nat <$> Ir.b_succs j))).
  { simpl. apply elem_of_list_fmap. exists p. split; [done|]. by apply elem_of_list_In. }
  pose proof (DomSpec.rooted_preds _ Hg _ _ _ Hlj Hin) as Hlt.
  apply lookup_lt_is_Some_2 in Hlt. destruct Hlt as (xp & Hxp).
  apply SsaDomBridge.edge_iff. exists xp. split; [done|].
  by apply (DomSpec.rooted_mirror _ Hg (N.to_nat p) ij xp _ Hxp Hlj).
Qed.

Lemma edge_is_pred ij j p : nth_error (Ir.c_blocks c) ij = Some j →
  SsaDomSpec.cedge c p ij → In (N.of_nat p) (Ir.b_preds j).
Proof.
  intros Hj He. pose proof consistent_rooted as Hg.
  pose proof (block_node c _ j Hj) as Hlj.
  apply SsaDomBridge.edge_iff in He. destruct He as (xp & Hxp & Hs).
  apply (DomSpec.rooted_mirror _ Hg p ij xp _ Hxp Hlj) in Hs. simpl in Hs.
  apply elem_of_list_fmap in Hs. destruct Hs as (q & -> & Hq). rewrite N2Nat.id. by apply elem_of_list_In.
Qed.

Lemma entry_no_preds j : nth_error (Ir.c_blocks c) 0 = Some j → Ir.b_preds j = [].
Proof.
  intros Hj. pose proof consistent_rooted as Hg.
  pose proof (block_node c _ j Hj) as Hlj.
  pose proof (DomSpec.rooted_entry _ Hg _ Hlj) as H. simpl in H.
  destruct (Ir.b_preds j); [done|discriminate].
Qed.
End Facts.
