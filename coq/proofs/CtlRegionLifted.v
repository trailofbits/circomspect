(* C09: the branch-region mirror on the graphs lifting produces.  An IR graph g that has, block by block, the
   predecessor and successor lists of a skeleton graph returned by Model.Lift.lift (the hypothesis of
   Proofs.CtlBridge; Proofs.CtlChain.chain_keeps_skeleton_edges proves it for the output of lifting -> SSA ->
   propagation) is rooted, so the C15 mirror computes its dominator tree; hence Model.BranchRegion.branches_of
   returns a table when the block lists are closed (graph_closed), and the frontier lists the region mirror
   reads are the path-based dominance frontiers of Spec.DomSpec. *)
From Coq Require Import ZArith Lia.
From stdpp Require Import list list_numbers sets.
Require Model.Base Model.Ir Model.Lift Model.Dom Model.DegGraph Model.BranchRegion Model.Taint.
Require Spec.DomSpec Spec.CtlDep Spec.CtlRegion.
Require Proofs.MirrorsDom Proofs.DomProofs Proofs.DomOracle Proofs.BranchRegionProofs.
Import Base(outcome, Ok, Err, Panic, OutOfFuel, bind).

Section Lifted.
  Context (body : Lift.sk) (sg : list Lift.block) (g : Ir.cfg).
  Context (Hl : Lift.lift body = Ok sg).
  Context (Hsame : DegGraph.dom_graph_of g = MirrorsDom.to_dom sg).

  Lemma dom_graph_same : BranchRegion.dom_graph (Ir.c_blocks g) = MirrorsDom.to_dom sg.
  Proof. exact Hsame. Qed.

  Lemma lifted_tree : exists t,
    Dom.dominator_tree (Dom.dom_fuel (BranchRegion.dom_graph (Ir.c_blocks g))) Dom.id_order
                       (BranchRegion.dom_graph (Ir.c_blocks g)) = Ok t.
  Proof.
    rewrite dom_graph_same. apply (MirrorsDom.lifted_tree body sg Hl), DomOracle.orders_ok.
  Qed.

  Theorem lifted_branches_total :
    BranchRegion.graph_closed (Ir.c_blocks g) = true -> exists br, BranchRegion.branches_of g = Ok br.
  Proof.
    intros Hc. destruct lifted_tree as (t & Ht). by apply (BranchRegionProofs.branches_of_total g t).
  Qed.

  Theorem lifted_frontier_exact t (i j : N) :
    Dom.dominator_tree (Dom.dom_fuel (BranchRegion.dom_graph (Ir.c_blocks g))) Dom.id_order
                       (BranchRegion.dom_graph (Ir.c_blocks g)) = Ok t ->
    N.to_nat i < length sg ->
    (In j (BranchRegion.frontier_of t i) <->
     exists j', j = N.of_nat j' /\ DomSpec.df_spec (MirrorsDom.to_dom sg) (N.to_nat i) j').
  Proof.
    rewrite dom_graph_same. intros Ht Hi.
    pose proof (MirrorsDom.lifted_rooted body sg Hl) as Hg.
    pose proof (proj1 DomOracle.orders_ok) as Hord.
    pose proof (DomProofs.tree_is_ok _ _ t Hg Hord Ht) as Hok.
    destruct (lookup_lt_is_Some_2 (Dom.dt_frontier t) (N.to_nat i)) as (fi & Hfi).
    { rewrite (DomProofs.ok_df_len _ _ Hok), MirrorsDom.to_dom_length. done. }
    unfold BranchRegion.frontier_of. rewrite nth_lookup, Hfi. simpl.
    rewrite <- elem_of_list_In, elem_of_list_fmap. split.
    - intros (j' & -> & Hj'). exists j'. split; [done|].
      apply (DomProofs.frontier_exact _ _ t Hg Hord Ht _ fi j' Hfi). by apply DomProofs.elem_of_members.
    - intros (j' & -> & Hdf). exists j'. split; [done|].
      apply DomProofs.elem_of_members. by apply (DomProofs.frontier_exact _ _ t Hg Hord Ht _ fi j' Hfi).
  Qed.
End Lifted.

(* Not derived: that the table of the region mirror covers control dependence on these graphs
   (Spec.CtlRegion.region_covers, a hypothesis of Proofs.CtlRegionProofs.regions_give_ctl_closed).  The region
   record of Proofs.CtlStructure bounds both branches of an `if` by one interval b+1..hi and does not separate
   the blocks of the true branch from those of the false branch, which this needs. *)
Definition branch_targets_are_successors (g : Ir.cfg) : Prop :=
  forall blk m c t f, In blk (Ir.c_blocks g) -> In (Ir.SIf m c t f) (Ir.b_stmts blk) ->
    BranchRegion.last_if blk = Some (t, f) /\ In t (Ir.b_succs blk) /\
    (forall x, f = Some x -> In x (Ir.b_succs blk)).

Definition C09_lifted_regions_cover_full_statement : Prop :=
  forall (body : Lift.sk) (sg : list Lift.block) (g : Ir.cfg) (br : Taint.branches),
    Lift.lift body = Ok sg ->
    DegGraph.dom_graph_of g = MirrorsDom.to_dom sg ->
    branch_targets_are_successors g ->
    BranchRegion.branches_of g = Ok br ->
    CtlRegion.region_covers g br.
