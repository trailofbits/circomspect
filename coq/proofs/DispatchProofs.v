(* C16: the operator dispatch of expression_impl.rs (mirrored in
   Model.Propagate.infix_values / prefix_values and driven over closed
   expressions by Model.FieldDispatch.lit_dispatch) against the documented
   semantics of closed expressions (Spec.DispatchSpec). *)
From Coq Require Import ZArith Zpow_facts Lia Bool Znumtheory List.
Require Import Model.Base Model.Field Model.Ir Model.Propagate Model.FieldDispatch.
Require Import Spec.FieldSpec Spec.DispatchSpec Proofs.FieldProofs.
Local Open Scope Z_scope.

Definition is_cmp (op : infix_op) : bool :=
  match op with ILe | IGe | ILt | IGt | IEq | INeq => true | _ => false end.

(* the 0 / 1 of a comparison is attached as a Boolean constant (Propagate.cmp_val) *)
Definition wrap (op : infix_op) (p v : Z) : vred :=
  if is_cmp op then VBool (as_bool v p) else VField v.

Lemma infix_values_field op a b p :
  op <> IOr -> op <> IAnd ->
  infix_values op (Some (VField a)) (Some (VField b)) p =
  match eval (doc_infix op) a b p with
  | Ok v => Ok (Some (wrap op p v))
  | Err _ => Ok None
  | Panic s => Panic s
  | OutOfFuel => OutOfFuel
  end.
Proof.
  intros H1 H2. destruct op; try congruence; cbn [infix_values doc_infix eval wrap is_cmp cmp_val];
    try reflexivity; unfold res_to_opt;
    match goal with |- context [match ?x with _ => _ end] => destruct x; reflexivity end.
Qed.

Lemma bool_op_dec op : {op = IOr} + {op = IAnd} + {op <> IOr /\ op <> IAnd}.
Proof. destruct op; auto; right; split; discriminate. Qed.

Lemma infix_values_some op a b p c : infix_values op a b p = Ok (Some c) -> exists x y, a = Some x /\ b = Some y.
Proof. destruct a as [x|], b as [y|]; cbn; try discriminate; eauto; destruct x; discriminate. Qed.

Lemma prefix_values_some op a p c : prefix_values op a p = Some c -> exists x, a = Some x.
Proof. destruct a; cbn; try discriminate; eauto. Qed.

Lemma doc_infix_sem_documented op a b p v : doc_infix_sem op a b p v = documented (doc_infix op) a b p v.
Proof. destruct op; reflexivity. Qed.

Lemma doc_prefix_sem_documented op a p v : doc_prefix_sem op a p v = documented (doc_prefix op) a 0 p v.
Proof. destruct op; reflexivity. Qed.

Section Dispatch.
Variable p : Z.
Hypothesis Hprime : prime p.
Hypothesis Hp : 2 < p.
(* the bound of C16's statements; no proof below needs it *)
Hypothesis Hlog : Z.log2 p < 2 ^ 64.

Lemma wrap_ok op a b v : documented (doc_infix op) a b p v -> const_ok (wrap op p v) v.
Proof.
  destruct op; cbn [documented doc_infix spec wrap is_cmp const_ok]; intros H; try reflexivity;
    injection H as <-; rewrite as_bool_b2z by lia; reflexivity.
Qed.

(* two constants: the table never panics and never runs out of fuel, and a
   constant it attaches is the documented value *)
Lemma infix_values_const op cl cr a b :
  const_ok cl a -> const_ok cr b -> 0 <= a < p -> 0 <= b < p ->
  exists o, infix_values op (Some cl) (Some cr) p = Ok o /\
    forall c, o = Some c -> exists v, doc_infix_sem op a b p v /\ const_ok c v /\ 0 <= v < p.
Proof.
  destruct cl as [x|a'], cr as [y|b']; cbn [const_ok]; intros -> -> Ha Hb.
  - destruct op; cbn [infix_values]; (eexists; split; [reflexivity|]); intros c Hc;
      try discriminate; injection Hc as <-; cbn [doc_infix_sem doc_infix spec const_ok];
      rewrite !truthy_b2z; eauto using b2z_range.
  - exists None. split; [reflexivity|discriminate].
  - exists None. split; [destruct op; reflexivity|discriminate].
  - destruct (bool_op_dec op) as [[->| ->]|[H1 H2]]; try (exists None; split; [reflexivity|discriminate]).
    rewrite infix_values_field by assumption.
    destruct (eval_never_panics (doc_infix op) a' b' p Hprime Hp Ha Hb) as [[v Ev]|[Ev _]]; rewrite Ev.
    + eexists. split; [reflexivity|]. intros c [= <-].
      pose proof (eval_documented _ _ _ _ _ Hprime Hp Ha Hb Ev) as Hd.
      exists v. rewrite doc_infix_sem_documented.
      split; [exact Hd|]. split; [exact (wrap_ok _ _ _ _ Hd)|exact (documented_canonical _ _ _ _ _ Hp Ha Hb Hd)].
    + exists None. split; [reflexivity|discriminate].
Qed.

Lemma prefix_values_const op cl a c :
  const_ok cl a -> 0 <= a < p -> prefix_values op (Some cl) p = Some c ->
  exists v, doc_prefix_sem op a p v /\ const_ok c v /\ 0 <= v < p.
Proof.
  assert (Hf : forall o z v, 0 <= z < p -> eval (doc_prefix o) z 0 p = Ok v ->
               doc_prefix_sem o z p v /\ const_ok (VField v) v /\ 0 <= v < p).
  { intros o z v Hz Ev. assert (Hd : doc_prefix o <> ODiv) by (destruct o; discriminate).
    pose proof (eval_Ok_spec _ z 0 p v Hp Hz ltac:(lia) Hd Ev) as Hs.
    split; [exact Hs|]. split; [reflexivity|exact (spec_canonical _ z 0 p v Hp Hz ltac:(lia) Hd Hs)]. }
  destruct cl as [x|z]; cbn [const_ok]; intros -> Ha; destruct op; cbn [prefix_values]; intros [= <-].
  - exists (b2z (negb x)). unfold doc_prefix_sem. cbn [doc_prefix spec const_ok]. rewrite truthy_b2z.
    split; [reflexivity|]. split; [reflexivity|]. apply b2z_range. exact Hp.
  - exists (prefix_sub z p). exact (Hf PNeg z _ Ha eq_refl).
  - exists (complement_256 z p). exact (Hf PCompl z _ Ha eq_refl).
Qed.

(* no constant on two field constants: only && and ||, a zero divisor, or a
   shift count that does not fit a machine word in either direction *)
Lemma infix_none_cases op a b :
  0 <= a < p -> 0 <= b < p ->
  infix_values op (Some (VField a)) (Some (VField b)) p = Ok None ->
  op = IOr \/ op = IAnd \/
  ((op = IDiv \/ op = IIntDiv \/ op = IMod) /\ b = 0) \/
  ((op = IShl \/ op = IShr) /\ 2 ^ 64 <= b /\ 2 ^ 64 <= p - b).
Proof using Hprime Hp Hlog.
  intros Ha Hb Hv. destruct (bool_op_dec op) as [[->| ->]|[H1 H2]]; auto.
  rewrite infix_values_field in Hv by assumption.
  destruct (eval_never_panics (doc_infix op) a b p Hprime Hp Ha Hb) as [[c Hc]|[_ Hcase]].
  - rewrite Hc in Hv. discriminate.
  - right. right. destruct Hcase as [[Ho Hz]|[Ho Hz]].
    + left. split; [|exact Hz]. destruct op; cbn [doc_infix] in Ho;
        (destruct Ho as [Ho|[Ho|Ho]]; try discriminate Ho); tauto.
    + right. split; [|exact Hz]. destruct op; cbn [doc_infix] in Ho;
        (destruct Ho as [Ho|Ho]; try discriminate Ho); tauto.
Qed.

Lemma prefix_some_cases op c :
  prefix_values op (Some c) p = None ->
  match c with VField _ => op = PNot | VBool _ => op = PNeg \/ op = PCompl end.
Proof. destruct c, op; cbn; try discriminate; tauto. Qed.

Lemma dispatch_invariant e :
  lits_nonneg e ->
  exists o, lit_dispatch p e = Ok o /\
            forall c, o = Some c -> exists v, doc_sem p e v /\ const_ok c v /\ 0 <= v < p.
Proof.
  induction e as [z|op l IHl r IHr|op x IHx]; cbn [lits_nonneg lit_dispatch doc_sem].
  - intros Hz. eexists. split; [reflexivity|]. intros c [= <-].
    exists (z mod p). cbn [const_ok]. rewrite Z.rem_mod_nonneg by lia.
    split; [reflexivity|split; [reflexivity|apply Z.mod_pos_bound; lia]].
  - intros [Hl Hr]. destruct (IHl Hl) as (ol & -> & Il). destruct (IHr Hr) as (or & -> & Ir). cbn [bind].
    destruct ol as [cl|]; [|exists None; split; [reflexivity|discriminate]].
    destruct or as [cr|]; [|exists None; split; [destruct cl; reflexivity|discriminate]].
    destruct (Il cl eq_refl) as (a & Sa & Ka & Ra). destruct (Ir cr eq_refl) as (b & Sb & Kb & Rb).
    destruct (infix_values_const op cl cr a b Ka Kb Ra Rb) as (o & Eo & Io). exists o. split; [exact Eo|].
    intros c Hc. destruct (Io c Hc) as (v & Hs & Hk & Hv). exists v. eauto 8.
  - intros Hx. destruct (IHx Hx) as (ox & -> & Ix). cbn [bind].
    eexists. split; [reflexivity|]. intros c Hc.
    destruct ox as [cx|]; [|discriminate]. destruct (Ix cx eq_refl) as (a & Sa & Ka & Ra).
    destruct (prefix_values_const op cx a c Ka Ra Hc) as (v & Hs & Hk & Hv). exists v. eauto 8.
Qed.

Theorem dispatch_sound e c :
  lits_nonneg e -> lit_dispatch p e = Ok (Some c) ->
  exists v, doc_sem p e v /\ const_ok c v /\ 0 <= v < p.
Proof using Hprime Hp Hlog.
  intros He Hc. destruct (dispatch_invariant e He) as (o & Eo & Io).
  rewrite Eo in Hc. injection Hc as ->. exact (Io c eq_refl).
Qed.

Theorem dispatch_total e : lits_nonneg e -> exists o, lit_dispatch p e = Ok o.
Proof using Hprime Hp Hlog. intros He. destruct (dispatch_invariant e He) as (o & Eo & _). eauto. Qed.

Lemma doc_sem_canonical e : forall v, lits_nonneg e -> doc_sem p e v -> 0 <= v < p.
Proof.
  induction e as [z|op l IHl r IHr|op x IHx]; cbn [lits_nonneg doc_sem]; intros v.
  - intros _ ->. apply Z.mod_pos_bound; lia.
  - intros [Hl Hr] (a & b & Sa & Sb & Hs). rewrite doc_infix_sem_documented in Hs.
    exact (documented_canonical _ a b p v Hp (IHl a Hl Sa) (IHr b Hr Sb) Hs).
  - intros Hx (a & Sa & Hs). rewrite doc_prefix_sem_documented in Hs.
    exact (documented_canonical _ a 0 p v Hp (IHx a Hx Sa) ltac:(lia) Hs).
Qed.

Lemma doc_sem_functional e : forall v1 v2, lits_nonneg e -> doc_sem p e v1 -> doc_sem p e v2 -> v1 = v2.
Proof.
  induction e as [z|op l IHl r IHr|op x IHx]; cbn [lits_nonneg doc_sem]; intros v1 v2.
  - intros _ -> ->. reflexivity.
  - intros [Hl Hr] (a1 & b1 & Sa1 & Sb1 & Hs1) (a2 & b2 & Sa2 & Sb2 & Hs2).
    rewrite (IHl a2 a1), (IHr b2 b1), doc_infix_sem_documented in * by assumption.
    exact (documented_functional _ a1 b1 p v1 v2 Hprime (doc_sem_canonical r b1 Hr Sb1) Hs1 Hs2).
  - intros Hx (a1 & Sa1 & Hs1) (a2 & Sa2 & Hs2).
    rewrite (IHx a2 a1) in Hs2 by assumption. unfold doc_prefix_sem in *. congruence.
Qed.

End Dispatch.

(* the search oracle: whatever doc_eval returns is the documented value (the
   quotient is checked, so no primality is needed) *)
Lemma doc_div_sound a b p c : 2 < p -> doc_div a b p = Ok c -> doc_infix_sem IDiv a b p c.
Proof.
  intros Hp. unfold doc_div. destruct (Z.eqb_spec b 0); [discriminate|].
  cbv zeta. destruct (Z.eqb_spec ((a * Zpow_mod b (p - 2) p) mod p * b mod p) a) as [E|]; [|discriminate].
  intros [= <-]. cbn [doc_infix_sem]. split; [assumption|split; [apply Z.mod_pos_bound; lia|assumption]].
Qed.

Lemma doc_eval_sound p e : 2 < p -> forall v, lits_nonneg e -> doc_eval p e = Ok v -> doc_sem p e v /\ 0 <= v < p.
Proof.
  intros Hp. induction e as [z|op l IHl r IHr|op x IHx]; cbn [lits_nonneg doc_eval doc_sem]; intros v.
  - intros _ [= <-]. split; [reflexivity|apply Z.mod_pos_bound; lia].
  - intros [Hl Hr]. destruct (doc_eval p l) as [a| | |]; try discriminate.
    destruct (doc_eval p r) as [b| | |]; try discriminate. cbn [bind].
    destruct (IHl a Hl eq_refl) as [Sa Ra]. destruct (IHr b Hr eq_refl) as [Sb Rb]. intros Hv.
    assert (Hs : doc_infix_sem op a b p v).
    { destruct op; try exact (doc_div_sound a b p v Hp Hv);
        cbn [doc_infix_sem]; rewrite <- (spec_exec_correct _ a b p Hp Ra Rb); exact Hv. }
    split; [eauto 6|]. rewrite doc_infix_sem_documented in Hs. exact (documented_canonical _ a b p v Hp Ra Rb Hs).
  - intros Hx. destruct (doc_eval p x) as [a| | |]; try discriminate. cbn [bind].
    destruct (IHx a Hx eq_refl) as [Sa Ra]. intros Hv.
    rewrite (spec_exec_correct _ a 0 p Hp Ra ltac:(lia)) in Hv.
    split; [exists a; split; assumption|].
    apply (documented_canonical (doc_prefix op) a 0 p v Hp Ra ltac:(lia)).
    rewrite <- doc_prefix_sem_documented. exact Hv.
Qed.

(* what the violation search compares: constant attached by the dispatch
   against the value computed by doc_eval *)
Theorem dispatch_agrees_with_oracle p e c v :
  prime p -> 2 < p -> Z.log2 p < 2 ^ 64 -> lits_nonneg e ->
  lit_dispatch p e = Ok (Some c) -> doc_eval p e = Ok v -> const_ok c v.
Proof.
  intros Hprime Hp Hlog He Hc Hv.
  destruct (dispatch_sound p Hprime Hp Hlog e c He Hc) as (v' & Sv' & Kc & _).
  destruct (doc_eval_sound p e Hp v He Hv) as [Sv _].
  rewrite (doc_sem_functional p Hprime Hp e v v' He Sv Sv'). exact Kc.
Qed.

(* Operands outside [0,p).
   The dispatch never passes one (dispatch_sound: every attached constant is
   canonical).  Called directly, sixteen of the functions reduce their
   operands themselves, so that their value on arbitrary integers is their
   value on the residues; the other eight (div, pow, the complement, shifts
   and bitwise operators) work on the integers as given. *)
Definition reduces_operands (o : fop) : bool :=
  match o with
  | OAdd | OMul | OSub | OIDiv | OMod | ONeg | OAsBool | ONot | OOr | OAnd
  | OEq | OLt | ONeq | OLe | OGt | OGe => true
  | _ => false
  end.

Lemma modulus_mod a p : 0 < p -> modulus (a mod p) p = modulus a p.
Proof. intros. rewrite !modulus_spec by lia. apply Z.mod_mod. lia. Qed.

Theorem eval_reduces_operands o a b p :
  0 < p -> reduces_operands o = true -> eval o a b p = eval o (a mod p) (b mod p) p.
Proof.
  intros Hp Ho.
  (* twelve of them see an operand only through [modulus _ p] *)
  destruct o; try discriminate; cbn [eval];
    unfold greater_eq, greater, lesser_eq, not_eq, lesser, eq, bool_or, bool_and, not, as_bool,
      normalize, comparable_element, idiv, mod_op;
    rewrite ?(modulus_mod a), ?(modulus_mod b) by lia; try reflexivity.
  - unfold add. rewrite !modulus_spec by lia. f_equal. apply Zplus_mod.
  - unfold mul. rewrite !modulus_spec by lia. f_equal. apply Zmult_mod.
  - unfold sub. rewrite !modulus_spec by lia. f_equal. apply Zminus_mod.
  - unfold prefix_sub, mul. rewrite !modulus_spec by lia. f_equal. symmetry. apply Zmult_mod_idemp_l.
Qed.
