(* C07: the lock-step relation of Spec.DegSem REPRESENTS the concrete executions of
   Spec.DegRun.  For every family of concrete runs, one per valuation, that follow the
   same path of blocks (valuation-independent control), the family of their stores is
   reachable by Spec.DegSem.fstep - cell by cell, element by element.  Hence every
   claim of a validated graph is true of the function  valuation |-> concrete value.

   Method: a symbolic executor [sexec_*] that walks the path once for all valuations
   (assignments store denotations; a leading phi copies the argument with the running
   version, the same for every valuation); the concrete executor commutes with taking
   the store at one valuation ([cexec_*_rel]); every symbolic step is a step of
   Spec.DegSem ([sexec_*_reach]; the phi choice is constant, so pick_ok holds whatever
   the deciding conditions are).

   What the files on concrete runs need of [cval] (monotonicity in the store, strictness) is
   stated over [omap] and [oacc] of Proofs.DegGraphProofs, the nested recursions of [cval] and
   [den] by name. *)
From Coq Require Import ZArith NArith List Bool Lia.
Require Import Model.Base Model.Ir Model.SsaCheck Model.Propagate Model.Justify Model.DegJustify.
Require Import Spec.PolyDeg Spec.DegSem Spec.DegRun Proofs.IrInd Proofs.IrFacts Proofs.SsaProofs Proofs.PolyDegProofs Proofs.DegreeProofs Proofs.DegGraphProofs.
Import ListNotations.
Local Open Scope Z_scope.

Definition orel {A B} (R : A -> B -> Prop) (a : option A) (b : option B) : Prop :=
  match a, b with
  | Some x, Some y => R x y
  | None, None => True
  | _, _ => False
  end.

Lemma cprefix_of_eq a i : cprefix_of a i = prefix_of a i.
Proof. revert i. induction a as [|x a IH]; intros [|y i]; cbn; try reflexivity; try (rewrite IH; reflexivity). Qed.

Lemma omap_rel {A X X'} (R : X -> X' -> Prop) (f : A -> option X) (f' : A -> option X') es :
  Forall (fun e => orel R (f e) (f' e)) es -> orel (Forall2 R) (omap f es) (omap f' es).
Proof.
  induction 1 as [|e tl He _ IH]; cbn [omap orel]; [constructor|].
  destruct (f e), (f' e); cbn [orel] in He; try contradiction; [|exact I].
  destruct (omap f tl), (omap f' tl); cbn [orel] in IH |- *; try contradiction; [|exact I].
  constructor; assumption.
Qed.

Lemma reads_call n args k : expr_reads (ECall n args k) = flat_map expr_reads args.
Proof. reflexivity. Qed.
Lemma reads_array vs k : expr_reads (EArray vs k) = flat_map expr_reads vs.
Proof. reflexivity. Qed.
Lemma reads_access x acc k : expr_reads (EAccess x acc k) = x :: flat_map expr_reads (acc_exprs acc).
Proof.
  cbn [expr_reads]. f_equal. induction acc as [|[e|n] tl IH]; [reflexivity| |exact IH].
  cbn [acc_exprs flat_map app]. f_equal. exact IH.
Qed.
Lemma reads_update x acc rhe k :
  expr_reads (EUpdate x acc rhe k) = x :: expr_reads rhe ++ flat_map expr_reads (acc_exprs acc).
Proof.
  change (expr_reads (EUpdate x acc rhe k)) with (x :: expr_reads rhe ++ tl (expr_reads (EAccess x acc k))).
  rewrite reads_access. reflexivity.
Qed.

Section Cval.
Variable p : Z.
Variable sem2 : infix_op -> Z -> Z -> Z.
Variable sem1 : prefix_op -> Z -> Z.
Variable call_sem : ident -> list Z -> Z.
Variable name_code : ident -> Z.
Notation cval := (cval p sem2 sem1 call_sem name_code).
Notation cacc s := (oacc (cval s) (fun v : cell => v []) name_code).

Lemma cval_call s n args k : cval s (ECall n args k) =
  match omap (cval s) args with Some vs => Some (fun _ => call_sem n (map (fun v : cell => v []) vs)) | None => None end.
Proof. reflexivity. Qed.
Lemma cval_array s vs k : cval s (EArray vs k) =
  match omap (cval s) vs with Some cs => Some (array_cell cs) | None => None end.
Proof. reflexivity. Qed.
Lemma cval_access s x acc k : cval s (EAccess x acc k) =
  match s x, cacc s acc with Some A, Some idx => Some (access_cell A idx) | _, _ => None end.
Proof. reflexivity. Qed.
Lemma cval_update s x acc rhe k : cval s (EUpdate x acc rhe k) =
  match s x, cacc s acc, cval s rhe with Some A, Some idx, Some R => Some (update_cell A idx R) | _, _, _ => None end.
Proof. reflexivity. Qed.

(* the value of an expression is kept by every store that keeps the cells it reads *)
Lemma cval_mono s s' : forall e, Forall (fun y => forall w, s y = Some w -> s' y = Some w) (expr_reads e) ->
  forall v, cval s e = Some v -> cval s' e = Some v.
Proof.
  induction e as [z k|x k|op l r k IHl IHr|op e k IHe|cd t f k IHc IHt IHf|n args k IHargs|vs k IHvs
                  |x acc k IHacc|x acc rhe k IHacc IHrhe|args k] using expr_ind'; intros Hk v.
  - auto.
  - apply Forall_cons_iff in Hk as [Hx _]. apply Hx.
  - cbn [expr_reads] in Hk. apply Forall_app in Hk as [Hl Hr]. cbn [DegRun.cval].
    destruct (cval s l) as [a|]; [|discriminate]. destruct (cval s r) as [b|]; [|discriminate].
    rewrite (IHl Hl a eq_refl), (IHr Hr b eq_refl). auto.
  - cbn [DegRun.cval]. destruct (cval s e) as [a|]; [|discriminate]. rewrite (IHe Hk a eq_refl). auto.
  - cbn [expr_reads] in Hk. apply Forall_app in Hk as [Hc Hk]. apply Forall_app in Hk as [Ht Hf]. cbn [DegRun.cval].
    destruct (cval s cd) as [a|]; [|discriminate]. destruct (cval s t) as [b|]; [|discriminate].
    destruct (cval s f) as [d|]; [|discriminate].
    rewrite (IHc Hc a eq_refl), (IHt Ht b eq_refl), (IHf Hf d eq_refl). auto.
  - rewrite reads_call in Hk. apply Forall_flat_map in Hk. rewrite !cval_call.
    destruct (omap (cval s) args) as [ws|] eqn:E; [|discriminate].
    rewrite (omap_mono _ _ _ (Forall_mp _ _ _ IHargs Hk) ws E). auto.
  - rewrite reads_array in Hk. apply Forall_flat_map in Hk. rewrite !cval_array.
    destruct (omap (cval s) vs) as [ws|] eqn:E; [|discriminate].
    rewrite (omap_mono _ _ _ (Forall_mp _ _ _ IHvs Hk) ws E). auto.
  - rewrite reads_access in Hk. apply Forall_cons_iff in Hk as [Hx Hk]. apply Forall_flat_map in Hk. rewrite !cval_access.
    destruct (s x) as [A|]; [|discriminate]. rewrite (Hx A eq_refl).
    destruct (cacc s acc) as [idx|] eqn:E; [|discriminate].
    rewrite (oacc_mono _ _ _ _ _ (Forall_mp _ _ _ IHacc Hk) idx E). auto.
  - rewrite reads_update in Hk. apply Forall_cons_iff in Hk as [Hx Hk]. apply Forall_app in Hk as [Hr Hk].
    apply Forall_flat_map in Hk. rewrite !cval_update.
    destruct (s x) as [A|]; [|discriminate]. rewrite (Hx A eq_refl).
    destruct (cacc s acc) as [idx|] eqn:E; [|discriminate].
    rewrite (oacc_mono _ _ _ _ _ (Forall_mp _ _ _ IHacc Hk) idx E).
    destruct (cval s rhe) as [R|]; [|discriminate]. rewrite (IHrhe Hr R eq_refl). auto.
  - discriminate.
Qed.

(* an expression that has a value reads cells of the store only *)
Lemma cval_strict s : forall e, cval s e <> None -> Forall (fun y => s y <> None) (expr_reads e).
Proof.
  induction e as [z k|x k|op l r k IHl IHr|op e k IHe|cd t f k IHc IHt IHf|n args k IHargs|vs k IHvs
                  |x acc k IHacc|x acc rhe k IHacc IHrhe|args k] using expr_ind'.
  - constructor.
  - intros H. constructor; [exact H|constructor].
  - cbn [DegRun.cval expr_reads]. destruct (cval s l); [|congruence]. destruct (cval s r); [|congruence].
    intros _. apply Forall_app. split; [apply IHl|apply IHr]; discriminate.
  - cbn [DegRun.cval expr_reads]. destruct (cval s e); [|congruence]. intros _. apply IHe. discriminate.
  - cbn [DegRun.cval expr_reads]. destruct (cval s cd); [|congruence]. destruct (cval s t); [|congruence].
    destruct (cval s f); [|congruence]. intros _. rewrite !Forall_app. repeat split; [apply IHc|apply IHt|apply IHf]; discriminate.
  - rewrite cval_call, reads_call. destruct (omap (cval s) args) as [ws|] eqn:E; [|congruence]. intros _.
    apply Forall_flat_map. exact (Forall_mp _ _ _ IHargs (omap_some _ _ _ E)).
  - rewrite cval_array, reads_array. destruct (omap (cval s) vs) as [ws|] eqn:E; [|congruence]. intros _.
    apply Forall_flat_map. exact (Forall_mp _ _ _ IHvs (omap_some _ _ _ E)).
  - rewrite cval_access, reads_access. destruct (s x) eqn:Ex; [|congruence].
    destruct (cacc s acc) as [idx|] eqn:E; [|congruence]. intros _. constructor; [congruence|].
    apply Forall_flat_map. exact (Forall_mp _ _ _ IHacc (oacc_some _ _ _ _ _ E)).
  - rewrite cval_update, reads_update. destruct (s x) eqn:Ex; [|congruence].
    destruct (cacc s acc) as [idx|] eqn:E; [|congruence]. destruct (cval s rhe); [|congruence]. intros _.
    constructor; [congruence|]. apply Forall_app. split; [apply IHrhe; discriminate|].
    apply Forall_flat_map. exact (Forall_mp _ _ _ IHacc (oacc_some _ _ _ _ _ E)).
  - intros H. exfalso. apply H. reflexivity.
Qed.

Lemma cexec_path_cons c L s i tl s' : cexec_path p sem2 sem1 call_sem name_code c L s (i :: tl) = Some s' ->
  exists b s1, nth_error (c_blocks c) i = Some b /\ cexec_block p sem2 sem1 call_sem name_code c L s b = Some s1 /\
    (forall j tl', tl = j :: tl' -> branch_okb p sem2 sem1 call_sem name_code s1 b j = true) /\
    cexec_path p sem2 sem1 call_sem name_code c (block_vmap L b) s1 tl = Some s'.
Proof.
  cbn [DegRun.cexec_path]. destruct (nth_error (c_blocks c) i) as [b|]; [|discriminate].
  destruct (cexec_block p sem2 sem1 call_sem name_code c L s b) as [s1|] eqn:Hblk; [|discriminate].
  intros H. exists b, s1. split; [reflexivity|]. split; [exact Hblk|].
  destruct tl as [|j tl']; [split; [discriminate|exact H]|].
  destruct (branch_okb p sem2 sem1 call_sem name_code s1 b j) eqn:Ebr; [|discriminate].
  split; [intros j0 tl0 [= <- _]; exact Ebr|exact H].
Qed.
End Cval.

Section Rep.
Variable V : Type.
Variable p : Z.
Variable sem2 : infix_op -> Z -> Z -> Z.
Variable sem1 : prefix_op -> Z -> Z.
Variable call_sem : ident -> list Z -> Z.
Variable name_code : ident -> Z.
Notation den := (den V p sem2 sem1 call_sem name_code).
Notation cval := (cval p sem2 sem1 call_sem name_code).
Notation cexec_stmt := (cexec_stmt p sem2 sem1 call_sem name_code).
Notation cexec_body := (cexec_body p sem2 sem1 call_sem name_code).
Notation cexec_block := (cexec_block p sem2 sem1 call_sem name_code).
Notation cexec_path := (cexec_path p sem2 sem1 call_sem name_code).
Notation fstep := (fstep V p sem2 sem1 call_sem name_code).
Notation freachable := (freachable V p sem2 sem1 call_sem name_code).
Notation cacc s := (oacc (cval s) (fun v : cell => v []) name_code).
Notation den_acc S := (oacc (den S) (fun F : fam V => F []) (fun n _ => name_code n)).

(* the concrete cell is the family at the valuation rho, element by element *)
Definition rel_cell (rho : V) (v : cell) (F : fam V) : Prop := forall i, v i = F i rho.
Definition rel_store (rho : V) (s : cstore) (S : fstore V) : Prop := forall x, orel (rel_cell rho) (s x) (S x).

Section Eval.
Variable rho : V.
Variable s : cstore.
Variable S : fstore V.
Hypothesis Hrel : rel_store rho s S.

Local Notation ok e := (orel (rel_cell rho) (cval s e) (den S e)).

Lemma cval_acc_rel (acc : list (access expr)) : Forall (fun e => ok e) (acc_exprs acc) ->
  orel (fun (idx : list Z) (Is : list (V -> Z)) => idx = map (fun Ix : V -> Z => Ix rho) Is) (cacc s acc) (den_acc S acc).
Proof.
  induction acc as [|[x|n] tl IH]; cbn [acc_exprs flat_map app oacc]; intros Hall; [reflexivity| |].
  - apply Forall_cons_iff in Hall as [Hx Ht]. specialize (IH Ht).
    destruct (cval s x) as [v|], (den S x) as [F|]; cbn [orel] in Hx; try contradiction; [|exact I].
    destruct (cacc s tl) as [idx|], (den_acc S tl) as [Is|]; cbn [orel] in IH |- *; try contradiction; [|exact I].
    cbn [map]. rewrite IH, (Hx []). reflexivity.
  - specialize (IH Hall).
    destruct (cacc s tl) as [idx|], (den_acc S tl) as [Is|]; cbn [orel] in IH |- *; try contradiction; [|exact I].
    cbn [map]. rewrite IH. reflexivity.
Qed.

Lemma cval_den : forall e, ok e.
Proof.
  induction e as [z k|v k|op l r k IHl IHr|op e k IHe|cd t f k IHc IHt IHf|n args k IHargs|vs k IHvs
                  |v acc k IHacc|v acc rhe k IHacc IHrhe|args k] using expr_ind'.
  - intros i. reflexivity.
  - apply Hrel.
  - cbn [DegRun.cval DegSem.den].
    destruct (cval s l) as [a|], (den S l) as [Fa|]; cbn [orel] in IHl; try contradiction;
      destruct (cval s r) as [b|], (den S r) as [Fb|]; cbn [orel] in IHr |- *; try contradiction; auto.
    intros i. rewrite (IHl i), (IHr i). reflexivity.
  - cbn [DegRun.cval DegSem.den].
    destruct (cval s e) as [a|], (den S e) as [Fa|]; cbn [orel] in IHe |- *; try contradiction; auto.
    intros i. rewrite (IHe i). reflexivity.
  - cbn [DegRun.cval DegSem.den].
    destruct (cval s cd) as [a|], (den S cd) as [Fa|]; cbn [orel] in IHc; try contradiction;
      destruct (cval s t) as [b|], (den S t) as [Fb|]; cbn [orel] in IHt; try contradiction;
      destruct (cval s f) as [d|], (den S f) as [Fd|]; cbn [orel] in IHf |- *; try contradiction; auto.
    intros i. rewrite (IHc []), (IHt i), (IHf i). reflexivity.
  - rewrite cval_call, den_call. pose proof (omap_rel _ _ _ _ IHargs) as H.
    destruct (omap (cval s) args) as [cs|], (omap (den S) args) as [Fs|]; cbn [orel] in H |- *; try contradiction; auto.
    intros i. f_equal. induction H as [|v F vs Fs Hv _ IH]; [reflexivity|]. cbn [map]. rewrite (Hv []), IH. reflexivity.
  - rewrite cval_array, den_array. pose proof (omap_rel _ _ _ _ IHvs) as H.
    destruct (omap (cval s) vs) as [cs|], (omap (den S) vs) as [Fs|]; cbn [orel] in H |- *; try contradiction; auto.
    intros [|j rest]; [reflexivity|]. unfold array_cell, array_fam. destruct (j <? 0); [reflexivity|].
    generalize (Z.to_nat j). induction H as [|v F cs Fs Hv _ IH]; intros [|m]; cbn [nth_error]; auto.
  - rewrite cval_access, den_access. pose proof (Hrel v) as Hv. pose proof (cval_acc_rel acc IHacc) as H.
    destruct (s v) as [A|], (S v) as [FA|]; cbn [orel] in Hv; try contradiction;
      destruct (cacc s acc) as [idx|], (den_acc S acc) as [Is|]; cbn [orel] in H |- *; try contradiction; auto.
    intros i. unfold access_cell, access_fam. rewrite H. apply Hv.
  - rewrite cval_update, den_update. pose proof (Hrel v) as Hv. pose proof (cval_acc_rel acc IHacc) as H.
    destruct (s v) as [A|], (S v) as [FA|]; cbn [orel] in Hv; try contradiction;
      destruct (cacc s acc) as [idx|], (den_acc S acc) as [Is|]; cbn [orel] in H; try contradiction;
      destruct (cval s rhe) as [R|], (den S rhe) as [FR|]; cbn [orel] in IHrhe |- *; try contradiction; auto.
    intros i. unfold update_cell, update_fam. rewrite H, cprefix_of_eq.
    destruct (prefix_of _ i); [apply IHrhe|apply Hv].
  - exact I.
Qed.
End Eval.

Variable c : cfg.
Variable idom : list (option N).

Definition sexec_stmt (S : fstore V) (st : stmt) : option (fstore V) :=
  match st with
  | SSubst _ x _ rhe _ _ =>
    if stores_local c x then
      match den S rhe with Some F => Some (fupd V S x (Some F)) | None => None end
    else Some S
  | _ => Some S
  end.

Fixpoint sexec_body (S : fstore V) (ss : list stmt) : option (fstore V) :=
  match ss with
  | [] => Some S
  | st :: tl => match sexec_stmt S st with Some S1 => sexec_body S1 tl | None => None end
  end.

Definition sexec_phi (L : vmap) (S : fstore V) (st : stmt) : option (fstore V) :=
  match st with
  | SSubst _ x _ (EPhi args _) _ _ =>
    if stores_local c x then
      match vget L (key_of x) with
      | Some n =>
        match phi_arg x n args with
        | Some a => match S a with Some _ => Some (fupd V S x (Some (phi_fam V S (fun _ => a)))) | None => None end
        | None => None
        end
      | None => None
      end
    else Some S
  | _ => Some S
  end.

Fixpoint sexec_phis (L : vmap) (S : fstore V) (phis : list stmt) : option (fstore V) :=
  match phis with
  | [] => Some S
  | st :: tl => match sexec_phi L S st with Some S1 => sexec_phis L S1 tl | None => None end
  end.

Definition sexec_block (L : vmap) (S : fstore V) (b : block) : option (fstore V) :=
  let '(phis, body) := leading_phis (b_stmts b) in
  match sexec_phis L S phis with
  | Some S1 => sexec_body S1 body
  | None => None
  end.

Fixpoint sexec_path (L : vmap) (S : fstore V) (pi : list nat) : option (fstore V) :=
  match pi with
  | [] => Some S
  | i :: tl =>
    match nth_error (c_blocks c) i with
    | None => None
    | Some b =>
      match sexec_block L S b with
      | None => None
      | Some S1 => sexec_path (block_vmap L b) S1 tl
      end
    end
  end.

Lemma rel_store_upd rho s S x v F : rel_store rho s S -> rel_cell rho v F ->
  rel_store rho (cupd s x (Some v)) (fupd V S x (Some F)).
Proof. intros H Hv y. unfold cupd, fupd. destruct (vname_eqb x y); [exact Hv|apply H]. Qed.

Lemma cexec_stmt_rel rho s S st : rel_store rho s S ->
  orel (rel_store rho) (cexec_stmt c s st) (sexec_stmt S st).
Proof.
  intros H. destruct st; cbn [DegRun.cexec_stmt sexec_stmt orel]; try exact H.
  destruct (stores_local c v); [|exact H].
  pose proof (cval_den rho s S H rhe) as Hv.
  destruct (cval s rhe) as [a|], (den S rhe) as [F|]; cbn [orel] in Hv |- *; try contradiction; auto.
  apply rel_store_upd; assumption.
Qed.

Lemma cexec_body_rel rho ss : forall s S, rel_store rho s S ->
  orel (rel_store rho) (cexec_body c s ss) (sexec_body S ss).
Proof.
  induction ss as [|st tl IH]; intros s S H; cbn [DegRun.cexec_body sexec_body]; [exact H|].
  pose proof (cexec_stmt_rel rho s S st H) as H1.
  destruct (cexec_stmt c s st) as [s1|], (sexec_stmt S st) as [S1|]; cbn [orel] in H1 |- *; try contradiction; auto.
Qed.

Lemma cexec_phi_rel rho L s S st : rel_store rho s S ->
  orel (rel_store rho) (cexec_phi c L s st) (sexec_phi L S st).
Proof.
  intros H. destruct st; cbn [cexec_phi sexec_phi orel]; try exact H.
  destruct rhe; try exact H.
  destruct (stores_local c v); [|exact H].
  destruct (vget L (key_of v)) as [n|]; [|exact I].
  destruct (phi_arg v n args) as [a|]; [|exact I].
  pose proof (H a) as Ha.
  destruct (s a) as [va|] eqn:Esa, (S a) as [G|] eqn:ESa; cbn [orel] in Ha |- *; try contradiction; auto.
  apply rel_store_upd; [exact H|]. intros i. unfold phi_fam. rewrite ESa. apply Ha.
Qed.

Lemma cexec_phis_rel rho L phis : forall s S, rel_store rho s S ->
  orel (rel_store rho) (cexec_phis c L s phis) (sexec_phis L S phis).
Proof.
  induction phis as [|st tl IH]; intros s S H; cbn [cexec_phis sexec_phis]; [exact H|].
  pose proof (cexec_phi_rel rho L s S st H) as H1.
  destruct (cexec_phi c L s st) as [s1|], (sexec_phi L S st) as [S1|]; cbn [orel] in H1 |- *; try contradiction; auto.
Qed.

Lemma cexec_block_rel rho L s S b : rel_store rho s S ->
  orel (rel_store rho) (cexec_block c L s b) (sexec_block L S b).
Proof.
  intros H. unfold DegRun.cexec_block, sexec_block. destruct (leading_phis (b_stmts b)) as [phis body].
  pose proof (cexec_phis_rel rho L phis s S H) as H1.
  destruct (cexec_phis c L s phis) as [s1|], (sexec_phis L S phis) as [S1|]; cbn [orel] in H1 |- *; try contradiction; auto.
  apply cexec_body_rel. exact H1.
Qed.

(* a concrete run along pi is the symbolic walk along pi, taken at its valuation *)
Lemma cexec_path_rel rho pi : forall L s S s', rel_store rho s S -> cexec_path c L s pi = Some s' ->
  exists S', sexec_path L S pi = Some S' /\ rel_store rho s' S'.
Proof.
  induction pi as [|i tl IH]; intros L s S s' H Hrun; cbn [sexec_path]; [injection Hrun as <-; eauto|].
  destruct (cexec_path_cons p sem2 sem1 call_sem name_code c _ _ _ _ _ Hrun) as (b & s1 & -> & Hblk & _ & Htl).
  pose proof (cexec_block_rel rho L s S b H) as H1. rewrite Hblk in H1.
  destruct (sexec_block L S b) as [S1|]; [|contradiction]. exact (IH _ _ _ _ H1 Htl).
Qed.

Variable S0 : fstore V.

Lemma stores_local_spec x : stores_local c x = true -> decl_of c x = Some TLocal /\ is_param c x = false.
Proof.
  unfold stores_local. intros H. apply andb_true_iff in H as [H1 H2]. apply negb_true_iff in H2.
  split; [|exact H2]. destruct (decl_of c x) as [[]|]; try discriminate. reflexivity.
Qed.

Lemma freachable_assign S m x op rhe sv st F :
  In (SSubst m x op rhe sv st) (all_stmts (c_blocks c)) -> stores_local c x = true -> den S rhe = Some F ->
  freachable c idom S0 S -> freachable c idom S0 (fupd V S x (Some F)).
Proof.
  intros Hin El Ed Hr. destruct (stores_local_spec x El) as [Hd Hp].
  eapply fr_step; [exact Hr|]. eapply fs_assign; [exact Hin|exact Hd|exact Hp| |exact Ed].
  destruct rhe; try reflexivity. discriminate.
Qed.

Lemma sexec_stmt_reach S st S' : In st (all_stmts (c_blocks c)) -> sexec_stmt S st = Some S' ->
  freachable c idom S0 S -> freachable c idom S0 S'.
Proof.
  intros Hin He Hr. destruct st; cbn [sexec_stmt] in He; try (injection He as <-; exact Hr).
  destruct (stores_local c v) eqn:El; [|injection He as <-; exact Hr].
  destruct (den S rhe) as [F|] eqn:Ed; [|discriminate]. injection He as <-.
  exact (freachable_assign _ _ _ _ _ _ _ _ Hin El Ed Hr).
Qed.

Lemma sexec_body_reach ss : forall S S', (forall st, In st ss -> In st (all_stmts (c_blocks c))) ->
  sexec_body S ss = Some S' -> freachable c idom S0 S -> freachable c idom S0 S'.
Proof.
  induction ss as [|st tl IH]; intros S S' Hin He Hr; cbn [sexec_body] in He.
  - injection He as <-. exact Hr.
  - destruct (sexec_stmt S st) as [S1|] eqn:E1; [|discriminate].
    apply (IH S1 S'); [intros; apply Hin; right; assumption|exact He|].
    eapply sexec_stmt_reach; eauto. apply Hin. left. reflexivity.
Qed.

Lemma phi_arg_in x n args a : phi_arg x n args = Some a -> In a args.
Proof. unfold phi_arg. intros H. apply find_some in H. apply H. Qed.

Lemma sexec_phi_reach L S st S' : In st (all_stmts (c_blocks c)) -> sexec_phi L S st = Some S' ->
  freachable c idom S0 S -> freachable c idom S0 S'.
Proof.
  intros Hin He Hr. destruct st; cbn [sexec_phi] in He; try (injection He as <-; exact Hr).
  destruct rhe; try (injection He as <-; exact Hr).
  destruct (stores_local c v) eqn:El; [|injection He as <-; exact Hr].
  destruct (stores_local_spec v El) as [Hd Hp].
  destruct (vget L (key_of v)) as [n|]; [|discriminate].
  destruct (phi_arg v n args) as [a|] eqn:Ea; [|discriminate].
  destruct (S a) as [G|] eqn:ESa; [|discriminate]. injection He as <-.
  eapply fr_step; [exact Hr|]. eapply fs_phi; [exact Hin|exact Hd|exact Hp| | |].
  - intros _. eapply phi_arg_in; eauto.
  - intros _. congruence.
  - (* the same argument for every valuation: nothing to decide *)
    intros b _ _ r r'. reflexivity.
Qed.

Lemma sexec_phis_reach L ss : forall S S', (forall st, In st ss -> In st (all_stmts (c_blocks c))) ->
  sexec_phis L S ss = Some S' -> freachable c idom S0 S -> freachable c idom S0 S'.
Proof.
  induction ss as [|st tl IH]; intros S S' Hin He Hr; cbn [sexec_phis] in He.
  - injection He as <-. exact Hr.
  - destruct (sexec_phi L S st) as [S1|] eqn:E1; [|discriminate].
    apply (IH S1 S'); [intros; apply Hin; right; assumption|exact He|].
    eapply sexec_phi_reach; eauto. apply Hin. left. reflexivity.
Qed.

Lemma block_stmts_in i b st : nth_error (c_blocks c) i = Some b -> In st (b_stmts b) -> In st (all_stmts (c_blocks c)).
Proof. intros Hb Hst. apply in_flat_map. exists b. split; [eapply nth_error_In; eauto|exact Hst]. Qed.

Lemma sexec_path_reach pi : forall L S S', sexec_path L S pi = Some S' ->
  freachable c idom S0 S -> freachable c idom S0 S'.
Proof.
  induction pi as [|i tl IH]; intros L S S' He Hr; cbn [sexec_path] in He.
  - injection He as <-. exact Hr.
  - destruct (nth_error (c_blocks c) i) as [b|] eqn:Eb; [|discriminate].
    destruct (sexec_block L S b) as [S1|] eqn:E1; [|discriminate].
    apply (IH _ S1 S' He). unfold sexec_block in E1.
    destruct (leading_phis (b_stmts b)) as [phis body] eqn:Elp.
    pose proof (leading_phis_app _ _ _ Elp) as Happ.
    destruct (sexec_phis L S phis) as [S2|] eqn:E2; [|discriminate].
    eapply (sexec_body_reach body S2 S1); [|exact E1|].
    + intros st Hst. apply (block_stmts_in i b st Eb). rewrite Happ. apply in_or_app. right. exact Hst.
    + eapply (sexec_phis_reach L phis S S2); [|exact E2|exact Hr].
      intros st Hst. apply (block_stmts_in i b st Eb). rewrite Happ. apply in_or_app. left. exact Hst.
Qed.

(* THE REPRESENTATION THEOREM, valuation-independent control: a family of concrete runs,
   one per valuation, along the same path pi, from initial stores that are the initial
   family S0 taken at the valuation, ends in stores that are ONE reachable store of the
   lock-step relation taken at the valuation. *)
Theorem same_path_runs_represented (L0 : vmap) (pi : list nat) (s0 s : V -> cstore) :
  (forall rho, rel_store rho (s0 rho) S0) ->
  (forall rho, cexec_path c L0 (s0 rho) pi = Some (s rho)) ->
  exists S, freachable c idom S0 S /\ forall rho, rel_store rho (s rho) S.
Proof.
  intros H0 Hrun. destruct (sexec_path L0 S0 pi) as [S|] eqn:E.
  - exists S. split; [eapply sexec_path_reach; [exact E|constructor]|].
    intros rho. destruct (cexec_path_rel rho pi L0 (s0 rho) S0 (s rho) (H0 rho) (Hrun rho)) as (S' & E' & Hrel).
    rewrite E in E'. injection E' as <-. exact Hrel.
  - exists S0. split; [constructor|]. intros rho. exfalso.
    destruct (cexec_path_rel rho pi L0 (s0 rho) S0 (s rho) (H0 rho) (Hrun rho)) as (S' & E' & _). congruence.
Qed.
End Rep.

Section Claims.
Variable V : Type.
Variable line : V -> V -> Z -> V.
Variable p : Z.
Variable sem2 : infix_op -> Z -> Z -> Z.
Variable sem1 : prefix_op -> Z -> Z.
Variable call_sem : ident -> list Z -> Z.
Variable name_code : ident -> Z.
Hypothesis Hsem2 : forall op, op_den p op (sem2 op).
Hypothesis Hsem1 : forall op, prefix_den p op (sem1 op).

Lemma SemDeg_ext d (F G : V -> Z) : (forall rho, F rho = G rho) -> SemDeg V line p d F -> SemDeg V line p d G.
Proof.
  intros E. destruct d; cbn [SemDeg]; auto.
  - intros H r r'. rewrite <- !E. apply H.
  - intros H rho delta t. rewrite (Dn_ext 2 _ (fun u => F (line rho delta u))) by (intros u; symmetry; apply E). apply H.
  - intros H rho delta t. rewrite (Dn_ext 3 _ (fun u => F (line rho delta u))) by (intros u; symmetry; apply E). apply H.
Qed.

(* a claim about an expression whose concrete values are, valuation by valuation, its denotation in
   a reachable store (no valuation at all if it has none) *)
Lemma represented_claim_true (c : cfg) (idom : list (option N)) (S0 S : fstore V) e r (val : V -> cell) :
  djust_cfg c idom = true -> finit_ok V line p c S0 -> freachable V p sem2 sem1 call_sem name_code c idom S0 S ->
  djust_expr c e = true -> expr_deg e = Some r ->
  (forall rho, exists F, den V p sem2 sem1 call_sem name_code S e = Some F /\ rel_cell V rho (val rho) F) ->
  forall i, SemDeg V line p (snd r) (fun rho => val rho i).
Proof.
  intros Hv Hi Hreach Hj Hd Hval i. destruct (den V p sem2 sem1 call_sem name_code S e) as [F|] eqn:EF.
  - apply (SemDeg_ext (snd r) (F i)).
    + intros rho. destruct (Hval rho) as (F' & [= <-] & Hr). symmetry. apply Hr.
    + exact (justified_degrees_true V line p sem2 sem1 call_sem name_code Hsem2 Hsem1 c idom Hv S0 S e F r Hi Hreach Hj EF Hd i).
  - assert (Hno : forall rho : V, False) by (intros rho; destruct (Hval rho) as (F' & HF' & _); discriminate).
    destruct (snd r); cbn [SemDeg]; auto; intros rho; destruct (Hno rho).
Qed.

Theorem concrete_runs_claims_true (c : cfg) (idom : list (option N)) :
  djust_cfg c idom = true ->
  forall (S0 : fstore V) (L0 : vmap) (pi : list nat) (s0 s : V -> cstore),
  finit_ok V line p c S0 ->
  (forall rho, rel_store V rho (s0 rho) S0) ->
  (forall rho, cexec_path p sem2 sem1 call_sem name_code c L0 (s0 rho) pi = Some (s rho)) ->
  forall e r (val : V -> cell),
  djust_expr c e = true -> expr_deg e = Some r ->
  (forall rho, cval p sem2 sem1 call_sem name_code (s rho) e = Some (val rho)) ->
  forall i, SemDeg V line p (snd r) (fun rho => val rho i).
Proof.
  intros Hv S0 L0 pi s0 s Hi H0 Hrun e r val Hj Hd Hval.
  destruct (same_path_runs_represented V p sem2 sem1 call_sem name_code c idom S0 L0 pi s0 s H0 Hrun) as (S & Hreach & Hrel).
  apply (represented_claim_true c idom S0 S e r val Hv Hi Hreach Hj Hd).
  intros rho. pose proof (cval_den V p sem2 sem1 call_sem name_code rho (s rho) S (Hrel rho) e) as H.
  rewrite (Hval rho) in H. destruct (den V p sem2 sem1 call_sem name_code S e) as [F|]; [eauto|contradiction].
Qed.
End Claims.
