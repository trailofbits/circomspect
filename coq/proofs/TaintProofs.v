(* Proofs for C09: non-interference over the abstract transition system of Spec.NiSpec
   (ni_generic), and the closure loops of the mirror of multi_step_taint / multi_step_constraint:
   what they return is exactly the reflexive-transitive / transitive closure of the single-step
   relation, and the fuel given to them suffices. *)
From Coq Require Import ZArith NArith List Bool Relations Lia.
Require Import Model.Base Model.Ir Model.VarUse Model.Taint Spec.NiSpec.
Require Export Proofs.IrFacts.
Import ListNotations.

Section NIProof.
  Variables (N V P : Type).
  Variable N_eq_dec : forall a b : N, {a = b} + {a <> b}.
  Variable T : N -> N -> Prop.
  Variable S : N -> Prop.

  Notation Rel := (Rel N T S).
  Notation prog := (prog N V P).
  Notation store := (store N V).

  Definition agreeR (s s' : store) : Prop := forall y, Rel y -> s y = s' y.

  Lemma Rel_sink y : S y -> Rel y.
  Proof. intro H. exists y. split; [assumption | apply rt_refl]. Qed.

  Lemma Rel_back r y : T r y -> Rel y -> Rel r.
  Proof.
    intros Hry [s [Hs Hys]]. exists s. split; [assumption|].
    eapply rt_trans; [apply rt_step; eassumption | assumption].
  Qed.

  Lemma ni_run (pr pr' : prog) (x : N) :
    wf N V P pr ->
    (forall r y, data_edge N V P pr r y -> T r y) ->
    (forall s, required_sink N V P pr s -> S s) ->
    ~ Rel x ->
    perturbed N V P x pr pr' ->
    forall n h pc s s', agreeR s s' ->
      run N V P N_eq_dec pr n (h, pc, s) = run N V P N_eq_dec pr' n (h, pc, s').
  Proof.
    intros Hwf HT HS Hx Hp n. induction n as [|n IH]; intros h pc s s' Hag; [reflexivity|].
    cbn [run step].
    specialize (Hwf pc). destruct (Hp pc) as [Heq | Hpert].
    - rewrite Heq. destruct (pr pc) as [y rs f obs nx | rs c pt pf | rs obs nx | ] eqn:Hi.
      + destruct obs.
        * (* observable: target and reads are sinks *)
          assert (Hy : Rel y).
          { apply Rel_sink, HS. right; right. exists pc, rs, f, nx. assumption. }
          assert (Hrs : forall r, In r rs -> s r = s' r).
          { intros r Hr. apply Hag. eapply Rel_back; [|exact Hy].
            apply HT. exists pc, rs, f, true, nx. split; assumption. }
          rewrite (Hwf h s s' Hrs), (map_ext_in s s' rs Hrs).
          f_equal. apply IH.
          intros z Hz. unfold upd. destruct (N_eq_dec z y); [reflexivity | apply Hag; assumption].
        * cbn [app]. apply IH.
          intros z Hz. unfold upd. destruct (N_eq_dec z y) as [->|Hne]; [|apply Hag; assumption].
          apply Hwf. intros r Hr. apply Hag. eapply Rel_back; [|exact Hz].
          apply HT. exists pc, rs, f, false, nx. split; assumption.
      + (* branch: reads are sinks *)
        assert (Hrs : forall r, In r rs -> s r = s' r).
        { intros r Hr. apply Hag, Rel_sink, HS. left. exists pc, rs, c, pt, pf. split; assumption. }
        rewrite (Hwf h s s' Hrs), (map_ext_in s s' rs Hrs).
        f_equal. apply IH. assumption.
      + destruct obs.
        * assert (Hrs : forall r, In r rs -> s r = s' r).
          { intros r Hr. apply Hag, Rel_sink, HS. right; left. exists pc, rs, nx. split; assumption. }
          rewrite (map_ext_in s s' rs Hrs). f_equal. apply IH. assumption.
        * cbn [app]. apply IH. assumption.
      + reflexivity.
    - (* the perturbed assignment to x *)
      destruct Hpert as (rs & f & f' & obs & nx & Hi & Hi'). rewrite Hi, Hi'.
      destruct obs.
      + exfalso. apply Hx, Rel_sink, HS. right; right. exists pc, rs, f, nx. assumption.
      + cbn [app]. apply IH.
        intros z Hz. unfold upd. destruct (N_eq_dec z x) as [->|Hne]; [contradiction | apply Hag; assumption].
  Qed.

  Theorem ni_generic (pr : prog) :
    wf N V P pr ->
    (forall r y, data_edge N V P pr r y -> T r y) ->
    (forall s, required_sink N V P pr s -> S s) ->
    forall x, ~ Rel x -> noninterference N V P N_eq_dec pr x.
  Proof.
    intros Hwf HT HS x Hx pr' Hp s s' Hoff h pc n.
    eapply ni_run; try eassumption.
    intros y Hy. apply Hoff. intros ->. contradiction.
  Qed.
End NIProof.

Section ClosureProofs.
  Variable A : Type.
  Variable eqb : A -> A -> bool.
  Hypothesis eqb_spec : forall a b, eqb a b = true <-> a = b.

  Lemma mem_In x l : mem eqb x l = true <-> In x l.
  Proof.
    unfold mem. rewrite existsb_exists. split.
    - intros [y [Hy He]]. apply eqb_spec in He. subst. assumption.
    - intro H. exists x. split; [assumption | apply eqb_spec; reflexivity].
  Qed.

  Lemma mem_false x l : mem eqb x l = false <-> ~ In x l.
  Proof. rewrite <- mem_In. destruct (mem eqb x l); split; congruence. Qed.

  Lemma subset_incl l1 l2 : subset eqb l1 l2 = true <-> incl l1 l2.
  Proof.
    unfold subset. rewrite forallb_forall. unfold incl.
    split; intros H x Hx; apply mem_In; apply H; assumption.
  Qed.

  Lemma subset_false l1 l2 : subset eqb l1 l2 = false -> exists u, In u l1 /\ ~ In u l2.
  Proof.
    unfold subset. induction l1 as [|a l1 IH]; cbn [forallb]; [discriminate|].
    destruct (mem eqb a l2) eqn:E; cbn [andb].
    - intro H. destruct (IH H) as (u & Hu & Hn). exists u. split; [right|]; assumption.
    - intros _. exists a. split; [left; reflexivity | apply mem_false; assumption].
  Qed.

  Lemma In_dedup x l : In x (dedup eqb l) <-> In x l.
  Proof.
    induction l as [|y r IH]; cbn [dedup]; [tauto|].
    destruct (mem eqb y r) eqn:Hm.
    - rewrite IH. cbn. apply mem_In in Hm. split; [tauto|]. intros [->|H]; assumption.
    - cbn. rewrite IH. tauto.
  Qed.

  Lemma In_extend x result update : In x (extend eqb result update) <-> In x update \/ In x result.
  Proof.
    unfold extend. revert x. induction update as [|y r IH]; intro x; cbn [fold_right]; [cbn; tauto|].
    destruct (mem eqb y _) eqn:Hm.
    - rewrite IH. cbn. apply mem_In in Hm. apply IH in Hm. split; [tauto|].
      intros [[->|H]|H]; tauto.
    - cbn. rewrite IH. tauto.
  Qed.

  Definition edge (m : list (A * A)) (a b : A) : Prop := In (a, b) m.

  Lemma In_single_step m a b : In b (single_step eqb m a) <-> edge m a b.
  Proof.
    unfold single_step, edge. rewrite In_dedup, in_map_iff. split.
    - intros [[a' b'] [Hb Hf]]. cbn in Hb. subst. apply filter_In in Hf. destruct Hf as [Hin He].
      cbn in He. apply eqb_spec in He. subst. assumption.
    - intro H. exists (a, b). split; [reflexivity|]. apply filter_In. split; [assumption|].
      cbn. apply eqb_spec. reflexivity.
  Qed.

  Lemma In_next m update b :
    In b (dedup eqb (flat_map (single_step eqb m) update)) <-> exists u, In u update /\ edge m u b.
  Proof.
    rewrite In_dedup, in_flat_map. split; intros [u [Hu H]]; exists u; (split; [assumption|]); apply In_single_step; assumption.
  Qed.

  Notation reach m := (clos_refl_trans A (edge m)).

  (* [result] closed up to [update], [update] inside [result]: closed *)
  Lemma closed_reach m result update :
    (forall a b, In a result -> edge m a b -> In b result \/ In b update) -> incl update result ->
    forall u y, In u update -> reach m u y -> In y result.
  Proof.
    intros Hinv Hs u y Hu Hr. apply Hs in Hu. apply clos_rt_rt1n in Hr.
    induction Hr as [|a b c Hab _ IHr]; [assumption|].
    apply IHr. destruct (Hinv a b Hu Hab) as [H|H]; [assumption | apply Hs; assumption].
  Qed.

  (* what the loop returns, from any state in which [result] is closed up to [update] *)
  Lemma closure_loop_exact m : forall fuel result update r,
    (forall a b, In a result -> edge m a b -> In b result \/ In b update) ->
    closure_loop eqb fuel m result update = Ok r ->
    forall y, In y r <-> (In y result \/ exists u, In u update /\ reach m u y).
  Proof.
    induction fuel as [|fuel IH]; intros result update r Hinv Hrun y; cbn [closure_loop] in Hrun;
      destruct (subset eqb update result) eqn:Hs; try discriminate.
    1, 2: injection Hrun as <-; apply subset_incl in Hs; split; [tauto|];
      intros [H|[u [Hu Hr]]]; [assumption | eapply closed_reach; eassumption].
    specialize (IH (extend eqb result update) (dedup eqb (flat_map (single_step eqb m) update)) r).
    rewrite IH; [| |assumption].
    - rewrite In_extend. split.
      + intros [[H|H]|[u' [Hu' Hr]]].
        * right. exists y. split; [assumption | apply rt_refl].
        * left. assumption.
        * apply In_next in Hu'. destruct Hu' as [u [Hu He]]. right. exists u. split; [assumption|].
          eapply rt_trans; [apply rt_step; eassumption | assumption].
      + intros [H|[u [Hu Hr]]]; [tauto|].
        apply clos_rt_rt1n in Hr. destruct Hr as [|w z Huw Hwz].
        * left. left. assumption.
        * right. exists w. split; [apply In_next; exists u; split; assumption | apply clos_rt1n_rt; assumption].
    - intros a b Ha Hab. apply In_extend in Ha. rewrite In_extend. destruct Ha as [Ha|Ha].
      + right. apply In_next. exists a. split; assumption.
      + destruct (Hinv a b Ha Hab); tauto.
  Qed.

  (* multi_step_taint: zero or more steps *)
  Theorem closure_exact_refl m x r :
    multi_step_refl eqb m x = Ok r -> forall y, In y r <-> reach m x y.
  Proof.
    unfold multi_step_refl. intros H y.
    rewrite (closure_loop_exact m _ _ _ _ (fun a b (Ha : In a []) _ => match Ha with end) H y).
    split.
    - intros [[]|[u [[<-|[]] Hr]]]. assumption.
    - intro Hr. right. exists x. split; [left; reflexivity | assumption].
  Qed.

  (* multi_step_constraint: one or more steps *)
  Theorem closure_exact_trans m x r :
    multi_step_trans eqb m x = Ok r -> forall y, In y r <-> clos_trans A (edge m) x y.
  Proof.
    unfold multi_step_trans. intros H y.
    rewrite (closure_loop_exact m _ _ _ _ (fun a b (Ha : In a []) _ => match Ha with end) H y).
    split.
    - intros [[]|[u [Hu Hr]]]. apply In_single_step in Hu.
      apply clos_rt_rtn1 in Hr. induction Hr as [|b c Hbc _ IHr]; [apply t_step; assumption|].
      eapply t_trans; [exact IHr | apply t_step; assumption].
    - intro Ht. right. apply clos_trans_t1n in Ht. destruct Ht as [b Hxb | b c Hxb Hbc].
      + exists b. split; [apply In_single_step; assumption | apply rt_refl].
      + exists b. split; [apply In_single_step; assumption|]. apply clos_t1n_trans in Hbc.
        clear -Hbc. induction Hbc; [apply rt_step; assumption | eapply rt_trans; eassumption].
  Qed.


  Lemma filter_length_le (f f' : A -> bool) l :
    (forall y, f' y = true -> f y = true) -> length (filter f' l) <= length (filter f l).
  Proof.
    intro H. induction l as [|a l IH]; cbn; [lia|].
    destruct (f' a) eqn:E'; [rewrite (H a E'); cbn; lia|]. destruct (f a); cbn; lia.
  Qed.

  Lemma filter_length_lt (f f' : A -> bool) l u :
    (forall y, f' y = true -> f y = true) -> In u l -> f u = true -> f' u = false ->
    length (filter f' l) < length (filter f l).
  Proof.
    intros H Hu Hf Hf'. induction l as [|a l IH]; [destruct Hu|].
    cbn. destruct Hu as [->|Hu].
    - rewrite Hf, Hf'. cbn. pose proof (filter_length_le f f' l H). lia.
    - specialize (IH Hu). destruct (f' a) eqn:E'; [rewrite (H a E'); cbn; lia|]. destruct (f a); cbn; lia.
  Qed.

  Definition missing (U result : list A) : list A := filter (fun u => negb (mem eqb u result)) U.

  Lemma closure_loop_fuel m U : (forall a b, edge m a b -> In b U) ->
    forall fuel result update, incl update U -> length (missing U result) < fuel ->
    exists r, closure_loop eqb fuel m result update = Ok r.
  Proof.
    intros HU. induction fuel as [|fuel IH]; intros result update Hup Hlt; [lia|].
    cbn [closure_loop]. destruct (subset eqb update result) eqn:Hs; [eexists; reflexivity|].
    apply IH.
    - intros b Hb. apply In_next in Hb. destruct Hb as [u [_ He]]. eapply HU; eassumption.
    - destruct (subset_false _ _ Hs) as [u [Hu Hnr]].
      enough (length (missing U (extend eqb result update)) < length (missing U result)) by lia.
      unfold missing. apply filter_length_lt with (u := u).
      + intros y Hy. destruct (mem eqb y result) eqn:Hm; [|reflexivity].
        apply mem_In in Hm. assert (Hx : mem eqb y (extend eqb result update) = true).
        { apply mem_In, In_extend. tauto. }
        rewrite Hx in Hy. discriminate.
      + apply Hup. assumption.
      + apply mem_false in Hnr. rewrite Hnr. reflexivity.
      + assert (mem eqb u (extend eqb result update) = true) as ->; [|reflexivity].
        apply mem_In, In_extend. tauto.
  Qed.

  Lemma missing_length U result : length (missing U result) <= length U.
  Proof. unfold missing. induction U as [|a l IH]; cbn; [lia|]. destruct (negb _); cbn; lia. Qed.

  Theorem fuel_suffices_refl m x : exists r, multi_step_refl eqb m x = Ok r.
  Proof.
    unfold multi_step_refl, closure_fuel.
    apply closure_loop_fuel with (U := x :: map snd m).
    - intros a b He. right. apply in_map_iff. exists (a, b). split; [reflexivity | assumption].
    - intros u [<-|[]]. left. reflexivity.
    - pose proof (missing_length (x :: map snd m) []). cbn [length] in H. rewrite map_length in H. lia.
  Qed.

  Theorem fuel_suffices_trans m x : exists r, multi_step_trans eqb m x = Ok r.
  Proof.
    unfold multi_step_trans, closure_fuel.
    apply closure_loop_fuel with (U := map snd m).
    - intros a b He. apply in_map_iff. exists (a, b). split; [reflexivity | assumption].
    - intros u Hu. apply In_single_step in Hu. apply in_map_iff. exists (x, u). split; [reflexivity | assumption].
    - pose proof (missing_length (map snd m) []). rewrite map_length in H. lia.
  Qed.
End ClosureProofs.

Lemma nmem_In x l : mem N.eqb x l = true <-> In x l.
Proof. apply mem_In. apply N.eqb_eq. Qed.

Definition tedge (m : edges) (a b : vname) : Prop := In (a, b) m.

Theorem taint_closure_exact m x r :
  multi_step_taint m x = Ok r -> forall y, In y r <-> clos_refl_trans vname (tedge m) x y.
Proof. apply (closure_exact_refl vname vname_eqb vname_eqb_eq). Qed.

Theorem constraint_closure_exact m x r :
  multi_step_constraint m x = Ok r -> forall y, In y r <-> clos_trans vname (tedge m) x y.
Proof. apply (closure_exact_trans vname vname_eqb vname_eqb_eq). Qed.

Theorem taint_fuel_suffices m x :
  (exists r, multi_step_taint m x = Ok r) /\ (exists r, multi_step_constraint m x = Ok r).
Proof.
  split; [apply (fuel_suffices_refl vname vname_eqb vname_eqb_eq) | apply (fuel_suffices_trans vname vname_eqb vname_eqb_eq)].
Qed.

Lemma single_step_taint_spec m a b : In b (single_step_taint m a) <-> tedge m a b.
Proof. apply (In_single_step vname vname_eqb vname_eqb_eq). Qed.
