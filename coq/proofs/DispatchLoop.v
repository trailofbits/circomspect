(* C16: the pass loop of Cfg::propagate_values on a closed
   expression over literals (Model.FieldDispatch.propagate_lit, which runs
   Model.Propagate.pv_expr with its `result || ...` short-circuits until a
   pass writes nothing) ends - within its fuel - in the tree in which EVERY
   node carries the constant the bottom-up dispatch (lit_dispatch) computes
   for it.  So the theorems stated about lit_dispatch are theorems about the
   mirror of the code that actually runs, not about a second function that is
   only compared with it case by case.

   Invariant of the loop ([partial]): every node carries either nothing or
   its bottom-up constant.  A pass that reports a write has filled one empty
   slot ([missing] decreases); a pass that reports none has found every slot
   holding its bottom-up constant ([annotated]). *)
From Coq Require Import ZArith List Bool Lia.
Require Import Model.Base Model.Field Model.Ir Model.Propagate Model.FieldDispatch.
Require Import Spec.FieldSpec Spec.DispatchSpec Proofs.DispatchProofs.
From Coq Require Import Znumtheory.
Import ListNotations.
Local Open Scope Z_scope.

Section Loop.
Variable p : Z.

Definition partial : lexpr -> expr -> Prop :=
  ann (fun e k => kval k = None \/ lit_dispatch p e = Ok (kval k)).

Definition slot (k : know) : nat := match kval k with None => 1%nat | Some _ => 0%nat end.

Fixpoint missing (x : expr) : nat :=
  match x with
  | ENum _ k => slot k
  | EInfix _ l r k => (missing l + missing r + slot k)%nat
  | EPrefix _ a k => (missing a + slot k)%nat
  | _ => 0%nat
  end.

Lemma partial_start e : partial e (to_expr e).
Proof.
  induction e; cbn [partial ann to_expr know0 kval]; repeat split; auto.
Qed.

Lemma missing_start e : missing (to_expr e) = lsize e.
Proof.
  induction e; cbn [to_expr missing lsize slot know0 kval]; lia.
Qed.

Lemma ann_root P e x : ann P e x -> P e (expr_know x).
Proof. destruct e, x; cbn [ann expr_know]; try tauto; intros H; decompose [and] H; assumption. Qed.

Lemma ann_mono (P Q : lexpr -> know -> Prop) : (forall e k, P e k -> Q e k) ->
  forall e x, ann P e x -> ann Q e x.
Proof. intros HPQ. induction e; destruct x; cbn [ann]; try tauto; intuition auto. Qed.

Lemma partial_val e x : partial e x -> expr_val x = None \/ lit_dispatch p e = Ok (expr_val x).
Proof. exact (ann_root _ e x). Qed.

Lemma annotated_val e x : annotated p e x -> lit_dispatch p e = Ok (expr_val x).
Proof. exact (ann_root _ e x). Qed.

Lemma annotated_partial e : forall x, annotated p e x -> partial e x.
Proof. apply ann_mono. auto. Qed.

Lemma infix_none_r op a : infix_values op a None p = Ok None.
Proof. destruct a as [[]|]; reflexivity. Qed.

Lemma set_know_id x : set_know x (expr_know x) = x.
Proof. destruct x; reflexivity. Qed.

Lemma ann_set_know P e x k' : ann P e x -> P e k' -> ann P e (set_know x k').
Proof. destruct e, x; cbn [ann set_know]; tauto. Qed.

Lemma missing_set_know P e x k' : ann P e x -> (missing (set_know x k') + slot (expr_know x) = missing x + slot k')%nat.
Proof. destruct e, x; cbn [ann set_know missing expr_know]; try tauto; lia. Qed.

(* The last step of a visit: [x] is the node with its children already visited, [res] says whether
   one of them was written during this visit, [ov] is the constant computed from their slots.  The
   node's own slot is written only if [res] is false; if nothing was written at all, the children
   are annotated and the slot holds the bottom-up constant [o]. *)
Lemma visit_node e o x res ov :
  lit_dispatch p e = Ok o -> partial e x ->
  (res = false -> ov = o) ->
  (res = false -> forall k', lit_dispatch p e = Ok (kval k') -> annotated p e (set_know x k')) ->
  exists b x',
    match ov with Some v => Ok (sc_set_val res x v) | None => Ok (res, x) end = Ok (b, x') /\
    partial e x' /\ (b = false -> annotated p e x') /\
    (missing x' + Nat.b2n b <= missing x + Nat.b2n res)%nat.
Proof.
  intros Ho Hp Hov Han. pose proof (partial_val e x Hp) as Hk. unfold expr_val in Hk.
  destruct ov as [v|]; [unfold sc_set_val; destruct res|].
  - exists true, x. split; [reflexivity|]. split; [exact Hp|]. split; [discriminate|lia].
  - cbn [set_val]. destruct (Hov eq_refl). set (k1 := {| kval := Some v; kdeg := kdeg (expr_know x) |}).
    eexists _, _. split; [reflexivity|].
    split; [apply ann_set_know; [exact Hp|right; exact Ho]|]. split; [intros _; apply Han; [reflexivity|exact Ho]|].
    pose proof (missing_set_know _ e x k1 Hp) as Hm. unfold slot in Hm. cbn [kval k1] in Hm.
    destruct (kval (expr_know x)); cbn; lia.
  - exists res, x. split; [reflexivity|]. split; [exact Hp|]. split; [|lia].
    intros ->. rewrite <- (set_know_id x). apply Han; [reflexivity|]. destruct (Hov eq_refl).
    destruct Hk as [->|H]; [exact Ho|exact H].
Qed.

Lemma pass_step_count e : forall x o, partial e x -> lit_dispatch p e = Ok o ->
  exists b x', pv_expr p [] x = Ok (b, x') /\ partial e x' /\
    (b = false -> annotated p e x') /\ (missing x' + Nat.b2n b <= missing x)%nat.
Proof.
  induction e as [z|op l IHl r IHr|op a IHa]; intros x o Hp Ho; destruct x; try (cbn [partial ann] in Hp; tauto).
  - pose proof Hp as [-> _].
    destruct (visit_node (LNum z) o (ENum z k) false (Some (VField (Z.rem z p))) Ho Hp)
      as (b & x' & E & P' & A & M).
    { intros _. cbn in Ho. congruence. }
    { intros _ k' Hk'. split; [apply Hp|exact Hk']. }
    exists b, x'. split; [exact E|]. split; [exact P'|]. split; [exact A|]. cbn [Nat.b2n] in M. lia.
  - cbn [partial ann] in Hp. destruct Hp as (-> & Hl & Hr & Hk).
    pose proof Ho as Ho'. cbn [lit_dispatch] in Ho'.
    destruct (lit_dispatch p l) as [fa| | |] eqn:Dl; try discriminate.
    destruct (lit_dispatch p r) as [fb| | |] eqn:Dr; try discriminate.
    cbn [bind] in Ho'.
    destruct (IHl _ _ Hl eq_refl) as (b1 & l' & El & Pl & Al & Ml).
    cbn [pv_expr]. rewrite El. cbn [bind].
    (* the right operand: visited only if the left one wrote nothing *)
    assert (exists b2 r', (if b1 then Ok (true, x2) else pv_expr p [] x2) = Ok (b2, r') /\
              partial r r' /\ (b2 = false -> b1 = false /\ annotated p r r') /\
              (missing l' + missing r' + Nat.b2n b2 <= missing x1 + missing x2)%nat) as (b2 & r' & Er & Pr & Ar & Mr).
    { destruct b1.
      - exists true, x2. split; [reflexivity|]. split; [exact Hr|]. split; [discriminate|]. cbn in *. lia.
      - destruct (IHr _ _ Hr eq_refl) as (b2 & r' & Er & Pr & Ar & Mr).
        exists b2, r'. split; [exact Er|]. split; [exact Pr|]. split; [auto|]. cbn in *. lia. }
    rewrite Er. cbn [bind].
    (* the constant computed from the operands' slots: nothing, or the bottom-up one *)
    assert (exists ov, infix_values op (expr_val l') (expr_val r') p = Ok ov /\
              (annotated p l l' -> annotated p r r' -> ov = o)) as (ov & Eo & Fo).
    { destruct (partial_val _ _ Pl) as [Vl|Vl].
      { rewrite Vl. exists None. split; [reflexivity|].
        intros Hl' _. apply annotated_val in Hl'. rewrite Dl, Vl in Hl'. injection Hl' as ->.
        cbn in Ho'. congruence. }
      destruct (partial_val _ _ Pr) as [Vr|Vr].
      { rewrite Vr, infix_none_r. exists None. split; [reflexivity|].
        intros _ Hr'. apply annotated_val in Hr'. rewrite Dr, Vr in Hr'. injection Hr' as ->.
        rewrite infix_none_r in Ho'. congruence. }
      rewrite Dl in Vl. rewrite Dr in Vr. injection Vl as <-. injection Vr as <-.
      exists o. split; [exact Ho'|]. reflexivity. }
    rewrite Eo. cbn [bind].
    destruct (visit_node (LInfix op l r) o (EInfix op l' r' k) b2 ov Ho) as (b & x' & E & P' & A & M).
    { cbn [partial ann]. auto. }
    { intros ->. destruct (Ar eq_refl) as [-> Ar']. exact (Fo (Al eq_refl) Ar'). }
    { intros -> k' Hk'. destruct (Ar eq_refl) as [-> Ar']. cbn [annotated ann set_know]. auto. }
    exists b, x'. split; [exact E|]. split; [exact P'|]. split; [exact A|]. cbn [missing] in *. lia.
  - cbn [partial ann] in Hp. destruct Hp as (-> & Ha & Hk).
    pose proof Ho as Ho'. cbn [lit_dispatch] in Ho'.
    destruct (lit_dispatch p a) as [fa| | |] eqn:Da; try discriminate.
    cbn [bind] in Ho'. injection Ho' as Ho'.
    destruct (IHa _ _ Ha eq_refl) as (b1 & a' & Ea & Pa & Aa & Ma).
    cbn [pv_expr]. rewrite Ea. cbn [bind].
    destruct (visit_node (LPrefix op a) o (EPrefix op a' k) b1 (prefix_values op (expr_val a') p) Ho)
      as (b & x' & E & P' & A & M).
    { cbn [partial ann]. auto. }
    { intros ->. pose proof (annotated_val _ _ (Aa eq_refl)) as Va. rewrite Da in Va. injection Va as <-. exact Ho'. }
    { intros -> k' Hk'. cbn [annotated ann set_know]. auto. }
    exists b, x'. split; [exact E|]. split; [exact P'|]. split; [exact A|]. cbn [missing] in *. lia.
Qed.

Lemma pass_step e : forall x o, partial e x -> lit_dispatch p e = Ok o ->
  exists b x', pv_expr p [] x = Ok (b, x') /\ partial e x' /\
    (b = false -> annotated p e x') /\
    (b = true -> (missing x' < missing x)%nat) /\ (missing x' <= missing x)%nat.
Proof.
  intros x o Hp Ho. destruct (pass_step_count e x o Hp Ho) as (b & x' & E & P' & A & M).
  exists b, x'. split; [exact E|]. split; [exact P'|]. split; [exact A|]. destruct b; cbn in M; split; lia || discriminate.
Qed.

(* the loop: enough fuel for one pass per empty slot, plus the pass that finds nothing to write *)
Lemma pass_loop_converges e o : lit_dispatch p e = Ok o ->
  forall fuel x, partial e x -> (missing x < fuel)%nat ->
  exists x', pass_loop fuel p x = Ok x' /\ annotated p e x'.
Proof.
  intros Ho. induction fuel as [|n IH]; intros x Hp Hm; [lia|].
  destruct (pass_step e x o Hp Ho) as (b & x' & E & P' & A & M & _).
  cbn [pass_loop]. rewrite E. cbn [bind].
  destruct b.
  - apply IH; [exact P'|]. specialize (M eq_refl). lia.
  - exists x'. split; [reflexivity|]. exact (A eq_refl).
Qed.

End Loop.

Theorem propagate_lit_reaches_dispatch p e o :
  lit_dispatch p e = Ok o ->
  exists x, propagate_lit p e = Ok x /\ annotated p e x /\ expr_val x = o.
Proof.
  intros Ho.
  destruct (pass_loop_converges p e o Ho (S (S (lsize e))) (to_expr e) (partial_start p e)) as (x & E & A).
  { rewrite missing_start. lia. }
  exists x. split; [exact E|]. split; [exact A|].
  pose proof (annotated_val p e x A) as H. rewrite Ho in H. congruence.
Qed.

Theorem propagate_lit_total p : prime p -> 2 < p -> Z.log2 p < 2 ^ 64 ->
  forall e, lits_nonneg e ->
  exists x o, propagate_lit p e = Ok x /\ lit_dispatch p e = Ok o /\ annotated p e x /\ expr_val x = o.
Proof.
  intros Hp H2 Hl e He.
  destruct (dispatch_total p Hp H2 Hl e He) as [o Ho].
  destruct (propagate_lit_reaches_dispatch p e o Ho) as (x & E & A & V).
  exists x, o. auto.
Qed.

