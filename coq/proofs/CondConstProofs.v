(* Proofs for C09: a branch condition that the taint pass, cdep and the region
   hypotheses SKIP as constant (a value claim on the condition node of the dumped graph) is constant in
   every reachable state of the value semantics, provided the graph passes the verified validator of value
   claims Model.Justify.vjust_cfg (soundness: Proofs.ValueProofs, property C06).  The validator is evaluated
   on every dumped graph by the model driver ctlregion (field `vj`). *)
From Coq Require Import ZArith List Bool Znumtheory.
Require Import Model.Base Model.Ir Model.Justify Spec.ValueSem Proofs.ValueProofs.
Import ListNotations.
Local Open Scope Z_scope.

Theorem skipped_conditions_are_constant p (c : cfg) blk m e t f k s0 s v :
  prime p -> 2 < p -> Z.log2 p < 2 ^ 64 ->
  vjust_cfg p c = true ->
  In blk (c_blocks c) -> In (SIf m e t f) (b_stmts blk) -> expr_val e = Some k ->
  init_ok (all_stmts (c_blocks c)) p s0 -> reachable (all_stmts (c_blocks c)) p s0 s ->
  evalR p s e v -> claim_ok k v.
Proof.
  intros Hprime Hp Hlog Hv Hblk Hs Hk Hi Hr Hev.
  exact (validated_graph_claims_true p c s0 s e v k Hprime Hp Hlog Hv Hi Hr (cond_occurs c blk m e t f Hblk Hs) Hev Hk).
Qed.
