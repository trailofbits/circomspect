(* C14: what the conditions of Model.SsaStrict say on EVERY path from the entry: a phi argument
   is the version that runs at the end of some predecessor; the base of an element-wise update
   that no version precedes is defined by no statement of the graph (ssa_check alone allows any
   name there); the remaining lemmas unfold the conditions on declarations. *)
From Coq Require Import ZArith NArith List Bool Arith.
Require Import Model.Base Model.Ir Model.SsaCheck Model.SsaErase Model.SsaDecls Model.SsaStrict Spec.SsaSpec.
Require Import Proofs.IrFacts Proofs.SsaProofs.
Import ListNotations.

Section Graph.
Variable c : cfg.
Variable infos : list binfo.
Hypothesis Hok : infos_ok infos c = true.
Hypothesis Hidx : forall i b, nth_error (c_blocks c) i = Some b -> b_index b = N.of_nat i.

Lemma enter_in_meq p s ip is_ bs_ L phis body :
  nth_error infos p = Some ip -> nth_error infos s = Some is_ -> nth_error (c_blocks c) s = Some bs_ ->
  edge_ok infos (c_blocks c) p s = true -> block_ok is_ bs_ = true -> meq L (bi_out ip) ->
  leading_phis (b_stmts bs_) = (phis, body) -> meq (apply_phis L phis) (bi_in is_).
Proof.
  intros Hip His Hbs He Hblk HL Elp.
  unfold block_ok in Hblk. rewrite Elp in Hblk. apply andb_true_iff in Hblk as [Hnd _].
  exact (apply_phis_edge c infos p s ip is_ bs_ L phis body Hip His Hbs He Hnd HL Elp).
Qed.

Theorem path_end_map pi q L :
  path_from_entry c (pi ++ [q]) -> exec_path c (params_map (c_params c)) (pi ++ [q]) = Some L ->
  exists iq, nth_error infos q = Some iq /\ meq L (bi_out iq).
Proof.
  intros Hp Hex. destruct (paths_run c infos Hok Hidx _ Hp) as (L' & iq & Hex' & Hiq & Hm).
  rewrite last_last in Hiq. exists iq. split; [exact Hiq|congruence].
Qed.

Theorem phi_args_arrive j b s x args a :
  phi_args_ok infos c = true -> nth_error (c_blocks c) j = Some b ->
  In s (fst (leading_phis (b_stmts b))) -> phi_parts s = Some (x, args) -> In a args ->
  key_of a = key_of x /\
  exists p, In p (b_preds b) /\
    forall pi L, path_from_entry c (pi ++ [N.to_nat p]) ->
                 exec_path c (params_map (c_params c)) (pi ++ [N.to_nat p]) = Some L ->
                 vget L (key_of x) = vn_version a.
Proof.
  intros Hphi Hb Hs Hp Ha. unfold phi_args_ok in Hphi. rewrite forallb_forall in Hphi.
  specialize (Hphi b (nth_error_In _ _ Hb)). rewrite forallb_forall in Hphi. specialize (Hphi s Hs).
  unfold phi_stmt_args_ok in Hphi. rewrite Hp in Hphi. apply andb_true_iff in Hphi as [Hphi _].
  apply andb_true_iff in Hphi as [_ Hargs]. rewrite forallb_forall in Hargs. specialize (Hargs a Ha).
  apply andb_true_iff in Hargs as [Hk Harr]. apply key_eqb_eq in Hk. split; [exact Hk|].
  unfold arrives in Harr. apply existsb_exists in Harr. destruct Harr as (p & Hpin & Hout).
  exists p. split; [exact Hpin|]. intros pi L Hpath Hex.
  destruct (nth_error infos (N.to_nat p)) as [ip|] eqn:Eip; [|discriminate].
  apply optN_eqb_eq in Hout.
  destruct (path_end_map pi (N.to_nat p) L Hpath Hex) as (iq & Hiq & Hm). rewrite Eip in Hiq. inversion Hiq; subst iq.
  rewrite (Hm (key_of x)). exact Hout.
Qed.

Lemma fresh_bases_body_spec defs w n : forall ss j s m,
  fresh_bases_body defs m ss = true -> nth_error ss j = Some s -> update_base s = Some w -> vn_version w = Some n ->
  vget (fold_left track (firstn j ss) m) (key_of w) = None -> ~ In w defs.
Proof.
  induction ss as [|x tl IH]; intros [|j] s m H Hj Hu Hn Hg; cbn [nth_error fresh_bases_body firstn fold_left] in *; try discriminate.
  - injection Hj as ->. apply andb_true_iff in H as [H _]. rewrite Hu, Hn, Hg in H. apply negb_true_iff in H. intros Hin.
    assert (existsb (vname_eqb w) defs = true) by (apply existsb_exists; exists w; split; [exact Hin|apply vname_eqb_refl]).
    congruence.
  - apply andb_true_iff in H as [_ H]. exact (IH j s _ H Hj Hu Hn Hg).
Qed.

Lemma path_split pi p bi : path_from_entry c (pi ++ [p; bi]) ->
  path_from_entry c (pi ++ [p]) /\ exists bq, nth_error (c_blocks c) p = Some bq /\ In (N.of_nat bi) (b_succs bq).
Proof.
  assert (Hw : forall l a, is_walk c a (l ++ [p; bi]) ->
            is_walk c a (l ++ [p]) /\ exists bq, nth_error (c_blocks c) p = Some bq /\ In (N.of_nat bi) (b_succs bq)).
  { induction l as [|s tl IH]; intros a H; cbn [app is_walk] in *.
    - destruct H as (H1 & H2 & _). split; [split; [exact H1|exact I]|exact H2].
    - destruct H as (H1 & H2). destruct (IH _ H2) as (H3 & H4). split; [split; assumption|exact H4]. }
  destruct pi as [|[|x] tl]; cbn [app path_from_entry]; [|apply Hw|contradiction].
  destruct p as [|p]; [|contradiction]. cbn [is_walk]. intros (H1 & _). split; [exact I|exact H1].
Qed.

Hypothesis Hfresh : fresh_bases_ok infos c = true.

(* the map in front of the body of the last block of a path is the validator's entry map *)
Lemma path_in_map pi bi b L1 phis body :
  path_from_entry c (pi ++ [bi]) -> exec_path c (params_map (c_params c)) pi = Some L1 ->
  nth_error (c_blocks c) bi = Some b -> leading_phis (b_stmts b) = (phis, body) ->
  exists ib, nth_error infos bi = Some ib /\ meq (apply_phis L1 phis) (bi_in ib).
Proof.
  intros Hp Hpre Hb El. destruct (block_facts c infos Hok bi b Hb) as (ib & Hib & Hblk). exists ib. split; [exact Hib|]. revert Hp Hpre.
  destruct pi as [|x0 tl0]; [|destruct (@exists_last _ (x0 :: tl0)) as (pi' & p & ->); [discriminate|]]; intros Hp Hpre.
  - (* the entry block *)
    cbn [app] in Hp. destruct bi as [|bi]; [|contradiction]. cbn [exec_path] in Hpre. inversion Hpre; subst L1.
    destruct (entry_facts c infos Hok) as (i0 & b0 & Hi0 & Hb0 & Hin0 & Hnophi).
    rewrite Hb0 in Hb. inversion Hb; subst b0. rewrite Hi0 in Hib. inversion Hib; subst i0.
    rewrite El in Hnophi. cbn [fst] in Hnophi. subst phis. cbn [apply_phis fold_left]. rewrite Hin0. apply meq_refl.
  - rewrite <- app_assoc in Hp. destruct (path_split pi' p bi Hp) as (Hpp & bq & Hbq & Hin).
    destruct (path_end_map pi' p L1 Hpp Hpre) as (ip & Hip & Hm).
    pose proof (edge_facts c infos Hok p bq bi Hbq Hin (Hidx _ _ Hbq)) as He.
    exact (enter_in_meq p bi ip ib b L1 phis body Hip Hib Hb He Hblk Hm El).
Qed.

Theorem read_defined_strict pi bi b s v n :
  path_from_entry c (pi ++ [bi]) ->
  nth_error (c_blocks c) bi = Some b -> In s (b_stmts b) -> is_phi_stmt s = false ->
  In v (stmt_reads s) -> vn_version v = Some n ->
  (update_base s = Some v /\ ~ In v (all_defs c)) \/
  vget (params_map (c_params c)) (key_of v) = Some n \/
  defined_on c (pi ++ [bi]) (key_of v) n.
Proof.
  intros Hp Hb Hs Hnphi Hv Hn. destruct (paths_ok c infos Hok Hidx _ Hp) as [Lf Hex].
  destruct (leading_phis (b_stmts b)) as [phis body] eqn:El.
  destruct (body_stmt_index _ _ _ _ El Hs Hnphi) as (j & Hj).
  destruct (exec_read c _ pi bi b phis body j s v n Lf Hex Hb El Hj Hv Hn) as (L1 & Hpre & [Hg|[Hg Hu]]); [right|left].
  - exact (exec_path_vget c bi b _ _ _ n Hb (block_prefix _ _ _ j El) pi _ L1 Hpre Hg).
  - split; [exact Hu|]. destruct (path_in_map pi bi b L1 phis body Hp Hpre Hb El) as (ib & Hib & Hmin).
    unfold fresh_bases_ok in Hfresh. rewrite forallb_forall in Hfresh.
    specialize (Hfresh (ib, b) (combine_nth _ _ _ _ _ Hib Hb)). cbn [fst snd] in Hfresh. rewrite El in Hfresh. cbn [snd] in Hfresh.
    apply (fresh_bases_body_spec (all_defs c) v n body j s (bi_in ib) Hfresh Hj Hu Hn).
    rewrite fold_left_app in Hg. rewrite <- (fold_track_meq _ _ _ Hmin (key_of v)). exact Hg.
Qed.
End Graph.

Lemma ssa_strict_parts c idom : ssa_strict c idom = StrictOk ->
  exists infos, compute_infos (c_params c) idom (c_blocks c) [] = Some infos /\
    phi_args_ok infos c = true /\ fresh_bases_ok infos c = true /\ locals_versioned_ok c = true /\ decl_table_ok c = true.
Proof.
  unfold ssa_strict. destruct (compute_infos (c_params c) idom (c_blocks c) []) as [infos|]; [|discriminate].
  destruct (phi_args_ok infos c) eqn:E1; [|discriminate]. destruct (fresh_bases_ok infos c) eqn:E2; [|discriminate].
  destruct (locals_versioned_ok c) eqn:E3; [|discriminate]. destruct (decl_table_ok c) eqn:E4; [|discriminate].
  intros _. exists infos. repeat split; assumption.
Qed.

Theorem ssa_strict_phi_args_arrive c idom j b s x args a :
  ssa_check c idom = true -> ssa_strict c idom = StrictOk ->
  nth_error (c_blocks c) j = Some b -> In s (fst (leading_phis (b_stmts b))) ->
  phi_parts s = Some (x, args) -> In a args ->
  key_of a = key_of x /\
  exists p, In p (b_preds b) /\
    forall pi L, path_from_entry c (pi ++ [N.to_nat p]) ->
                 exec_path c (params_map (c_params c)) (pi ++ [N.to_nat p]) = Some L ->
                 vget L (key_of x) = vn_version a.
Proof.
  intros Hc Hs. destruct (ssa_check_infos c idom Hc) as (infos & E1 & Hok & Hidx).
  destruct (ssa_strict_parts c idom Hs) as (infos' & E2 & Hphi & _). rewrite E1 in E2. inversion E2; subst infos'.
  exact (phi_args_arrive c infos Hok Hidx j b s x args a Hphi).
Qed.

Theorem ssa_strict_read_defined c idom pi bi b s v n :
  ssa_check c idom = true -> ssa_strict c idom = StrictOk ->
  path_from_entry c (pi ++ [bi]) ->
  nth_error (c_blocks c) bi = Some b -> In s (b_stmts b) -> is_phi_stmt s = false ->
  In v (stmt_reads s) -> vn_version v = Some n ->
  (update_base s = Some v /\ ~ In v (all_defs c)) \/
  vget (params_map (c_params c)) (key_of v) = Some n \/
  defined_on c (pi ++ [bi]) (key_of v) n.
Proof.
  intros Hc Hs. destruct (ssa_check_infos c idom Hc) as (infos & E1 & Hok & Hidx).
  destruct (ssa_strict_parts c idom Hs) as (infos' & E2 & _ & Hfresh & _). rewrite E1 in E2. inversion E2; subst infos'.
  exact (read_defined_strict c infos Hok Hidx Hfresh pi bi b s v n).
Qed.

Lemma locals_versioned_spec c b s v :
  locals_versioned_ok c = true -> In b (c_blocks c) -> In s (b_stmts b) ->
  (In v (stmt_reads s) \/ assigns s = Some v) -> lkey c (key_of v) = true -> vn_version v <> None.
Proof.
  intros H Hb Hs Hv Hk. unfold locals_versioned_ok in H. apply andb_true_iff in H as [_ H].
  rewrite forallb_forall in H. specialize (H b Hb). rewrite forallb_forall in H. specialize (H s Hs).
  unfold stmt_versioned_ok in H. apply andb_true_iff in H as [Hr Ht].
  assert (Hn : name_versioned_ok c v = true).
  { destruct Hv as [Hv|Hv].
    - rewrite forallb_forall in Hr. exact (Hr v Hv).
    - destruct s; try discriminate Hv. cbn in Hv. inversion Hv; subst. exact Ht. }
  unfold name_versioned_ok, versioned_b in Hn. rewrite Hk in Hn. cbn in Hn. destruct (vn_version v); [discriminate|discriminate Hn].
Qed.

Lemma local_key_lkey c k : local_key c k = true -> lkey c k = true.
Proof.
  unfold local_key, lkey. intros H. apply orb_true_iff in H as [H|H].
  - apply existsb_exists in H. destruct H as (d & Hd & H). apply andb_true_iff in H as [H _].
    apply orb_true_iff. left. apply orb_true_iff. left. apply existsb_exists. exists d. split; assumption.
  - apply orb_true_iff. left. apply orb_true_iff. right. exact H.
Qed.

Lemma locals_versioned_unversioned_reads c : locals_versioned_ok c = true -> unversioned_reads_ok c = true.
Proof.
  intros H. unfold unversioned_reads_ok. apply forallb_forall. intros b Hb. apply forallb_forall. intros s Hs.
  apply forallb_forall. intros v Hv. unfold unversioned_read_ok. destruct (vn_version v) eqn:Ev; [reflexivity|].
  apply negb_true_iff. destruct (local_key c (key_of v)) eqn:Ek; [|reflexivity]. exfalso.
  exact (locals_versioned_spec c b s v H Hb Hs (or_introl Hv) (local_key_lkey _ _ Ek) Ev).
Qed.

Lemma entry_eqb_eq a b : entry_eqb a b = true -> a = b.
Proof.
  unfold entry_eqb. intros H. apply andb_true_iff in H as [H1 H2]. apply vname_eqb_eq in H1. apply vtype_eqb_eq in H2.
  destruct a, b; cbn in *; subst; reflexivity.
Qed.

Lemma decl_table_spec c : decl_table_ok c = true ->
  (forall e, In e (stmt_entries c) -> In e (c_decls c)) /\
  (forall p, In p (c_params c) -> In (p, TLocal) (c_decls c)) /\
  (forall d, In d (c_decls c) ->
     In d (stmt_entries c) \/
     (snd d = TLocal /\ (exists p, In p (c_params c) /\ key_of p = key_of (fst d)) /\
      (vn_version (fst d) = Some 0%N \/ In (fst d) (all_defs c)))).
Proof.
  intros H. unfold decl_table_ok in H. apply andb_true_iff in H as [H1 H2]. rewrite forallb_forall in H1, H2.
  split; [|split].
  - intros e He. specialize (H1 e (in_or_app _ _ _ (or_introl He))). apply existsb_exists in H1.
    destruct H1 as (d & Hd & E). apply entry_eqb_eq in E. subst. exact Hd.
  - intros p Hp. assert (Hin : In (p, TLocal) (stmt_entries c ++ map (fun p => (p, TLocal)) (c_params c))).
    { apply in_or_app. right. apply in_map_iff. exists p. split; [reflexivity|exact Hp]. }
    specialize (H1 _ Hin). apply existsb_exists in H1. destruct H1 as (d & Hd & E). apply entry_eqb_eq in E. subst. exact Hd.
  - intros d Hd. specialize (H2 d Hd). apply orb_true_iff in H2 as [H2|H2].
    + left. apply existsb_exists in H2. destruct H2 as (e & He & E). apply entry_eqb_eq in E. subst. exact He.
    + right. unfold param_entry_ok in H2. apply andb_true_iff in H2 as [H2 Hv]. apply andb_true_iff in H2 as [Ht Hp].
      split; [apply vtype_eqb_eq; exact Ht|]. split.
      * apply existsb_exists in Hp. destruct Hp as (p & Hp & E). apply key_eqb_eq in E. exists p. split; assumption.
      * destruct (vn_version (fst d)) as [n|]; [|discriminate]. apply orb_true_iff in Hv as [Hv|Hv].
        -- left. apply N.eqb_eq in Hv. subst. reflexivity.
        -- right. apply existsb_exists in Hv. destruct Hv as (w & Hw & E). apply vname_eqb_eq in E. subst. exact Hw.
Qed.
