(* Proofs about Model.RunnerLib (the name maps built from the parsed files in
   FileID order, first definition of a name kept): the order in which the
   HashMap<FileID, Vec<Definition>> is iterated is irrelevant, duplicated
   names included. *)
From Coq Require Import ZArith List Bool Permutation Lia.
Require Import Model.Base Gen.Category Model.Runner Model.RunnerLib Spec.RunnerSpec Proofs.RunnerProofs.
Import ListNotations.
Local Open Scope Z_scope.

Lemma insert_entry_comm : forall x y s, fst x <> fst y ->
  insert_entry x (insert_entry y s) = insert_entry y (insert_entry x s).
Proof.
  intros x y s Hxy. induction s as [|a s IH]; simpl.
  - destruct (fst x <=? fst y) eqn:A; destruct (fst y <=? fst x) eqn:B; try reflexivity;
      apply Z.leb_le in A || apply Z.leb_gt in A; apply Z.leb_le in B || apply Z.leb_gt in B; lia.
  - destruct (fst y <=? fst a) eqn:Ya; destruct (fst x <=? fst a) eqn:Xa; simpl;
      destruct (fst x <=? fst y) eqn:A; destruct (fst y <=? fst x) eqn:B; simpl;
      rewrite ?Ya, ?Xa; try reflexivity;
      try (rewrite IH; reflexivity);
      repeat match goal with
             | H : (_ <=? _) = true |- _ => apply Z.leb_le in H
             | H : (_ <=? _) = false |- _ => apply Z.leb_gt in H
             end; lia.
Qed.

Theorem sort_entries_order_irrelevant : forall es1 es2,
  NoDup (map fst es1) -> Permutation es1 es2 -> sort_entries es1 = sort_entries es2.
Proof.
  intros es1 es2 Hnd Hp. induction Hp as [|x l l' Hp IH|x y l|l l' l'' Hp1 IH1 Hp2 IH2].
  - reflexivity.
  - simpl. rewrite IH; auto. simpl in Hnd. inversion Hnd; assumption.
  - simpl. apply insert_entry_comm. simpl in Hnd. inversion Hnd as [|? ? Hn _]; subst.
    intro E. apply Hn. left. symmetry. exact E.
  - rewrite IH1; auto. apply IH2. eapply Permutation_NoDup; [apply Permutation_map; exact Hp1 | exact Hnd].
Qed.

Lemma insert_entry_perm : forall e l, Permutation (e :: l) (insert_entry e l).
Proof.
  intros e l. induction l as [|a l IH]; simpl; auto.
  destruct (fst e <=? fst a); auto.
  eapply Permutation_trans. apply perm_swap. apply perm_skip. exact IH.
Qed.

Lemma sort_entries_perm : forall es, Permutation es (sort_entries es).
Proof.
  induction es as [|e es IH]; simpl; auto.
  eapply Permutation_trans. apply perm_skip. exact IH. apply insert_entry_perm.
Qed.

(* the result IS sorted by FileID (so "first" below means: smallest file id,
   then source order inside the file) *)
Inductive sorted_ids : list entry -> Prop :=
| sorted_nil : sorted_ids []
| sorted_cons : forall e l, (forall e', In e' l -> fst e <= fst e') -> sorted_ids l -> sorted_ids (e :: l).

Lemma insert_entry_sorted : forall e l, sorted_ids l -> sorted_ids (insert_entry e l).
Proof.
  intros e l H. induction H as [|a l Ha Hs IH]; simpl.
  - constructor. intros ? []. constructor.
  - destruct (fst e <=? fst a) eqn:E.
    + apply Z.leb_le in E. constructor.
      * intros e' [<-|Hin]; auto. specialize (Ha e' Hin). lia.
      * constructor; assumption.
    + apply Z.leb_gt in E. constructor; auto.
      intros e' Hin. eapply Permutation_in in Hin; [|apply Permutation_sym, insert_entry_perm].
      destruct Hin as [<-|Hin]; [lia | auto].
Qed.

Theorem sort_entries_sorted : forall es, sorted_ids (sort_entries es).
Proof. induction es as [|e es IH]; simpl. constructor. apply insert_entry_sorted. exact IH. Qed.

Theorem library_order_irrelevant : forall es1 es2,
  NoDup (map fst es1) -> Permutation es1 es2 ->
  library_of es1 = library_of es2 /\ duplicates_of es1 = duplicates_of es2.
Proof.
  intros es1 es2 Hnd Hp. unfold library_of, duplicates_of, definitions_in_file_order.
  rewrite (sort_entries_order_irrelevant es1 es2 Hnd Hp). split; reflexivity.
Qed.

Lemma first_named_app : forall n a b,
  first_named n (a ++ b) = match first_named n a with Some d => Some d | None => first_named n b end.
Proof.
  intros n a b. unfold first_named. induction a as [|x a IH]; simpl; auto.
  destruct (d_name x =? n); auto.
Qed.

Lemma first_named_none : forall n m, first_named n m = None <-> ~ In n (map d_name m).
Proof.
  intros n m. unfold first_named. induction m as [|x m IH]; simpl.
  - split; auto.
  - destruct (d_name x =? n) eqn:E.
    + apply Z.eqb_eq in E. split; [discriminate | intros H; exfalso; apply H; left; exact E].
    + apply Z.eqb_neq in E. rewrite IH. split; [intros H [H'|H']; auto | intros H H'; apply H; right; exact H'].
Qed.

Lemma nodup_snoc : forall (l : list Z) x, NoDup l -> ~ In x l -> NoDup (l ++ [x]).
Proof.
  intros l x Hn Hx. eapply Permutation_NoDup. apply Permutation_cons_append. constructor; assumption.
Qed.

Lemma lib_fold_names_nodup : forall l m, NoDup (map d_name m) -> NoDup (map d_name (fold_left lib_add l m)).
Proof.
  induction l as [|d l IH]; simpl; intros m H; auto.
  apply IH. unfold lib_add, name_used. destruct (first_named (d_name d) m) eqn:E; auto.
  rewrite map_app. simpl. apply first_named_none in E. apply nodup_snoc; assumption.
Qed.

(* a name is held by at most one definition, function or template *)
Theorem library_names_distinct : forall es, NoDup (map d_name (library_of es)).
Proof. intros es. unfold library_of. apply lib_fold_names_nodup. constructor. Qed.

Lemma names_nodup_keys_nodup : forall ds, NoDup (map d_name ds) -> NoDup (map d_key ds).
Proof.
  induction ds as [|d ds IH]; simpl; intros H. constructor.
  inversion H as [|? ? Hn Hr]; subst. constructor; auto.
  intro Hin. apply Hn. apply in_map_iff in Hin. destruct Hin as [d' [E Hd']].
  apply in_map_iff. exists d'. split; auto. unfold d_key in E. congruence.
Qed.

(* ... hence the hypothesis [wf_project] of the runner theorems holds for every
   project the tool can build, duplicated names or not *)
Theorem library_wf : forall parse es user, wf_project (mkProject parse (library_of es) user).
Proof. intros. unfold wf_project. simpl. apply names_nodup_keys_nodup, library_names_distinct. Qed.

(* which definition a name denotes: the FIRST one in file-id order *)
Lemma lib_fold_first : forall n l m,
  first_named n (fold_left lib_add l m) = match first_named n m with Some d => Some d | None => first_named n l end.
Proof.
  intros n. induction l as [|d l IH]; simpl; intros m.
  - destruct (first_named n m); reflexivity.
  - rewrite IH. unfold lib_add, name_used. destruct (first_named (d_name d) m) eqn:E.
    + destruct (first_named n m) eqn:F; auto.
      unfold first_named at 2. simpl. destruct (d_name d =? n) eqn:G; auto.
      apply Z.eqb_eq in G. rewrite G in E. congruence.
    + rewrite first_named_app. destruct (first_named n m) eqn:F; auto.
      unfold first_named at 1 3. simpl. destruct (d_name d =? n); auto.
Qed.

Theorem library_keeps_first_definition : forall es n,
  first_named n (library_of es) = first_named n (definitions_in_file_order es).
Proof. intros. unfold library_of. rewrite lib_fold_first. reflexivity. Qed.

(* the library has exactly the parsed names *)
Theorem library_covers_names : forall es n,
  In n (map d_name (library_of es)) <-> In n (map d_name (definitions_in_file_order es)).
Proof.
  intros es n. pose proof (library_keeps_first_definition es n) as H.
  destruct (first_named n (library_of es)) eqn:A; destruct (first_named n (definitions_in_file_order es)) eqn:B;
    try discriminate.
  - split; intros _.
    + destruct (in_dec Z.eq_dec n (map d_name (definitions_in_file_order es))) as [|N]; auto.
      apply first_named_none in N. congruence.
    + destruct (in_dec Z.eq_dec n (map d_name (library_of es))) as [|N]; auto.
      apply first_named_none in N. congruence.
  - apply first_named_none in A. apply first_named_none in B. tauto.
Qed.

Theorem file_order_irrelevant_lib : forall parse1 parse2 es1 es2 user o order1 order2,
  NoDup (map fst es1) -> Permutation es1 es2 -> Permutation parse1 parse2 ->
  let p1 := mkProject parse1 (library_of es1) user in
  let p2 := mkProject parse2 (library_of es2) user in
  analysis_order p1 order1 -> analysis_order p2 order2 ->
  Permutation (res_shown (run_keys p1 o order1)) (res_shown (run_keys p2 o order2)) /\
  res_exit (run_keys p1 o order1) = res_exit (run_keys p2 o order2) /\
  duplicates_of es1 = duplicates_of es2.
Proof.
  intros parse1 parse2 es1 es2 user o order1 order2 Hnd Hes Hp p1 p2 H1 H2.
  destruct (library_order_irrelevant es1 es2 Hnd Hes) as [EL ED].
  destruct (same_findings_same_display p1 p2 o order1 order2) as [HP He]; try apply library_wf; auto.
  unfold p1, p2. rewrite EL. apply produced_perm; auto.
Qed.

(* two files define T (and a function is called like a template of the other
   file): the library and the blamed definitions are the same for both
   iteration orders of the map, and the FIRST file's definitions are kept *)
Definition ex_r : report := mkReport Warning 5 5 [1%Z] 1.
Definition ex_a : def := mkDef KTemplate 7 0 [] None [] [].
Definition ex_b : def := mkDef KTemplate 7 1 [] None [ex_r] [].
Definition ex_f : def := mkDef KFunction 8 0 [] None [] [].
Definition ex_g : def := mkDef KTemplate 8 1 [] None [] [].

Example duplicates_first_file_kept :
  library_of [(1, [ex_b; ex_g]); (0, [ex_a; ex_f])] = [ex_a; ex_f] /\
  library_of [(0, [ex_a; ex_f]); (1, [ex_b; ex_g])] = [ex_a; ex_f] /\
  duplicates_of [(1, [ex_b; ex_g]); (0, [ex_a; ex_f])] = [(ex_b, ex_a); (ex_g, ex_f)].
Proof. vm_compute. repeat split; reflexivity. Qed.
