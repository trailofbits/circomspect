(* C04: label well-formedness across the desugarer, with the provenance theorem
   of Proofs.DesugarMetas in place of a hypothesis.  Model.Ast
   and Model.Ir both have a record [meta] with the same three fields; names of
   Model.Ast are used qualified here. *)
From Coq Require Import NArith List Bool.
Require Import Model.Base Model.Ir Model.Labels Proofs.LabelsProofs.
Require Model.Ast Model.Desugar Spec.ExpandSpec Proofs.DesugarMetas.
Import ListNotations.

(* the IR node built from an AST node carries its meta (ir.rs `Meta::from(&ast::Meta)`) *)
Definition ir_meta_of (m : Model.Ast.meta) : meta :=
  {| m_start := Model.Ast.m_start m; m_end := Model.Ast.m_end m; m_file := Model.Ast.m_file m |}.

(* parser_ranges_wellformed is asked of the PARSED template body only; the
   desugarer's part of the provenance is the theorem desugar_meta_property_inherited;
   what remains a hypothesis is that lifting and SSA give every IR node the meta of
   an AST node of the desugared body, or the empty default range. *)
Theorem labels_wellformed_through_desugaring :
  forall (P : N -> N -> Prop) env lib body body' (final : list meta) c ls l,
    Forall (fun m => P (Model.Ast.m_start m) (Model.Ast.m_end m)) (Spec.ExpandSpec.stmt_metas body) ->
    Model.Desugar.desugar_template env lib body = Model.Desugar.DOk body' ->
    (forall m, In m final ->
       In m (map ir_meta_of (Spec.ExpandSpec.stmt_metas body')) \/ (m_start m = 0%N /\ m_end m = 0%N)) ->
    P 0%N 0%N ->
    (forall m, In m (nodes_of c) -> In m final) ->
    (forall r, In r (parser_ranges_of c) -> P (fst r) (snd r)) ->
    labels_of (sources_of c) = Ok ls -> In l ls -> P (l_start l) (l_end l).
Proof.
  intros P env lib body body' final c ls l Hparsed Hd Hlift H0 Hn Hr.
  apply (labels_wellformed_end_to_end P (map ir_meta_of (Spec.ExpandSpec.stmt_metas body')) final c ls l);
    try assumption.
  intros m Hm. apply in_map_iff in Hm as (a & <- & Ha). simpl.
  pose proof (Proofs.DesugarMetas.desugar_meta_property_inherited
                (fun m => P (Model.Ast.m_start m) (Model.Ast.m_end m)) env lib body body' Hparsed Hd) as F.
  rewrite Forall_forall in F. exact (F a Ha).
Qed.
