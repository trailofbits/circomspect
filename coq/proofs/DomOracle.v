(* Proofs about the executable reference of Spec.DomSpec (rootedness test,
   dominance by node deletion). *)
From Coq Require Import ZArith Lia.
From stdpp Require Import list list_numbers sets.
Require Import Model.Dom Spec.DomSpec Proofs.DomProofs.

Lemma forallb_elem_of {A} (f : A → bool) (l : list A) :
  forallb f l = true ↔ ∀ x, x ∈ l → f x = true.
Proof. rewrite forallb_forall. setoid_rewrite elem_of_list_In. done. Qed.

Lemma succs_of_edge g a b : b ∈ succs_of g a ↔ edge g a b.
Proof.
  unfold succs_of, edge. destruct (g !! a) as [x|]; [naive_solver|].
  split; [by intros ?%elem_of_nil|naive_solver].
Qed.

Section reach_sound.
  Context (g : graph) (Hsuccs : ∀ a x b, g !! a = Some x → b ∈ succs x → b < length g).
  Context (avoid : nat).

  Definition avoiding (v : nat) : Prop := ∃ l, path g 0 v l ∧ avoid ∉ l.

  Lemma expand_sound vis :
    (∀ v, v ∈ vis → avoiding v) → ∀ v, v ∈ expand g avoid vis → avoiding v.
  Proof.
    intros Hvis v. unfold expand. rewrite elem_of_remove_dups, elem_of_app, elem_of_list_filter, elem_of_list_bind.
    intros [?|[Hne (u & Hv & Hu)]]; [by apply Hvis|].
    destruct (Hvis u Hu) as (l & Hl & Hnl). apply succs_of_edge in Hv.
    exists (l ++ [v]). split; [|set_solver].
    eapply path_snoc; [done|done|]. destruct Hv as (x & ? & ?). by eapply Hsuccs.
  Qed.

  Lemma iter_sound k v :
    0 < length g → v ∈ Nat.iter k (expand g avoid) (if decide (avoid = 0) then [] else [0]) → avoiding v.
  Proof.
    intros Hn. revert v. induction k as [|k IH]; intros v; simpl; [|by apply expand_sound].
    case_decide; [by intros ?%elem_of_nil|].
    intros ->%elem_of_list_singleton. exists [0]. split; [by constructor|set_solver].
  Qed.

  Lemma reach_sound v : 0 < length g → v ∈ reach_avoiding g avoid → avoiding v.
  Proof. apply iter_sound. Qed.
End reach_sound.

Section reach_complete.
  Context (g : graph) (Hg : rooted g) (avoid : nat).
  Notation n := (length g).
  Notation init := (if decide (avoid = 0) then [] else [0]).
  Notation R k := (Nat.iter k (expand g avoid) init).

  Definition closed (vis : list nat) : Prop :=
    ∀ u v, u ∈ vis → edge g u v → v ≠ avoid → v ∈ vis.

  Lemma elem_of_expand vis v :
    v ∈ expand g avoid vis ↔ v ∈ vis ∨ (v ≠ avoid ∧ ∃ u, u ∈ vis ∧ edge g u v).
  Proof.
    unfold expand. rewrite elem_of_remove_dups, elem_of_app, elem_of_list_filter, elem_of_list_bind.
    setoid_rewrite succs_of_edge. naive_solver.
  Qed.

  Lemma NoDup_R k : NoDup (R k).
  Proof.
    destruct k; simpl; [|apply NoDup_remove_dups].
    case_decide; [constructor|apply NoDup_singleton].
  Qed.

  Lemma R_bound k : length (R k) ≤ n.
  Proof.
    rewrite <- (seq_length n 0). apply submseteq_length, NoDup_submseteq; [apply NoDup_R|].
    intros v (l & Hl & _)%(iter_sound g (rooted_succs g Hg) avoid); [|apply (rooted_nonempty g Hg)].
    apply elem_of_seq. apply path_dst_lt in Hl. lia.
  Qed.

  Lemma length_expand vis :
    NoDup vis → length vis ≤ length (expand g avoid vis) ∧
                (length (expand g avoid vis) ≤ length vis → closed vis).
  Proof.
    intros Hnd.
    assert (vis ⊆+ expand g avoid vis) as Hsub.
    { apply NoDup_submseteq; [done|]. intros v ?. apply elem_of_expand. by left. }
    split; [by apply submseteq_length|].
    intros Hle. pose proof (submseteq_Permutation_length_le _ _ Hle Hsub) as HP.
    intros u v Hu He Hne. rewrite HP. apply elem_of_expand. right. eauto.
  Qed.

  Lemma closed_expand vis : closed vis → ∀ v, v ∈ expand g avoid vis ↔ v ∈ vis.
  Proof.
    intros Hc v. rewrite elem_of_expand. split; [|by left].
    intros [?|(? & u & ? & ?)]; [done|]. by eapply Hc.
  Qed.

  Lemma closed_stays k m : closed (R k) → ∀ v, v ∈ R (m + k) ↔ v ∈ R k.
  Proof.
    intros Hc. induction m as [|m IH]; intros v; [done|].
    simpl. rewrite closed_expand; [apply IH|].
    intros u w Hu He Hne. apply IH. apply IH in Hu. by eapply Hc.
  Qed.

  Lemma grows k : (∃ k', k' ≤ k ∧ closed (R k')) ∨ k + length init ≤ length (R k).
  Proof.
    induction k as [|k [(k' & Hk' & Hc')|IH]]; [by right|left; exists k'; split; [lia|done]|].
    destruct (length_expand (R k) (NoDup_R k)) as [Hle Hcl].
    destruct (decide (length (R (S k)) ≤ length (R k))) as [Hd|Hd].
    - left. exists k. split; [lia|]. by apply Hcl.
    - right. simpl in *. lia.
  Qed.

  Lemma closed_final : avoid ≠ 0 → closed (R n).
  Proof.
    intros Hne. destruct (grows n) as [(k' & Hk' & Hc)|Hlen].
    - replace n with ((n - k') + k') by lia.
      intros u v Hu He Hv. apply closed_stays; [done|]. apply closed_stays in Hu; [|done]. by eapply Hc.
    - pose proof (R_bound n). assert (length init = 1) as Hi by (by rewrite decide_False). lia.
  Qed.

  Lemma entry_in_R k : avoid ≠ 0 → 0 ∈ R k.
  Proof.
    intros Hne. induction k as [|k IH]; simpl.
    - rewrite decide_False by done. set_solver.
    - apply elem_of_expand. by left.
  Qed.

  Lemma reach_complete v : avoid ≠ 0 → avoiding g avoid v → v ∈ reach_avoiding g avoid.
  Proof.
    intros Hne (l & Hl & Hnl). unfold reach_avoiding. revert v Hl Hnl.
    induction l as [|y l0 IH] using rev_ind; intros v Hl Hnl; [inversion Hl|].
    destruct (path_snoc_inv _ _ _ _ Hl) as [[_ <-]|(l' & b & Heq & Hp & He)].
    - by apply entry_in_R.
    - apply app_inj_tail in Heq as [-> ->].
      apply (closed_final Hne b v); [apply IH; [done|set_solver]|done|set_solver].
  Qed.
End reach_complete.

(* the conjuncts of [rooted_b] other than reachability, shared with
   Spec.DomFast.rooted_fast_b *)
Definition rooted_local_b (g : graph) : bool :=
  let n := length g in
  bool_decide (0 < n) &&
  forallb (λ x, forallb (λ b, bool_decide (b < n)) (succs x) &&
                forallb (λ b, bool_decide (b < n)) (preds x)) g &&
  forallb (λ a, forallb (λ b, bool_decide ((b ∈ succs_of g a) ↔ (a ∈ preds_of g b))) (seq 0 n)) (seq 0 n) &&
  bool_decide (preds_of g 0 = []).

Lemma rooted_b_split g :
  rooted_b g = rooted_local_b g && forallb (λ j, bool_decide (j ∈ reach_avoiding g (length g))) (seq 0 (length g)).
Proof. reflexivity. Qed.

Lemma rooted_local_spec g :
  rooted_local_b g = true ↔
  0 < length g ∧
  (∀ a x b, g !! a = Some x → b ∈ succs x → b < length g) ∧
  (∀ a x b, g !! a = Some x → b ∈ preds x → b < length g) ∧
  (∀ a b xa xb, g !! a = Some xa → g !! b = Some xb → (b ∈ succs xa ↔ a ∈ preds xb)) ∧
  (∀ x, g !! 0 = Some x → preds x = []).
Proof.
  unfold rooted_local_b. rewrite !andb_true_iff, !bool_decide_eq_true, !forallb_elem_of.
  setoid_rewrite andb_true_iff. setoid_rewrite forallb_elem_of.
  setoid_rewrite bool_decide_eq_true. setoid_rewrite elem_of_seq.
  split.
  - intros (((Hn & Hrange) & Hmirror) & Hentry). split_and!; [done| | | |].
    + intros a x b Ha%elem_of_list_lookup_2. by apply Hrange.
    + intros a x b Ha%elem_of_list_lookup_2. by apply Hrange.
    + intros a b xa xb Ha Hb. pose proof (lookup_lt_Some _ _ _ Ha). pose proof (lookup_lt_Some _ _ _ Hb).
      specialize (Hmirror a ltac:(lia) b ltac:(lia)). unfold succs_of, preds_of in Hmirror.
      by rewrite Ha, Hb in Hmirror.
    + intros x Hx. unfold preds_of in Hentry. by rewrite Hx in Hentry.
  - intros (Hn & Hs & Hp & Hmirror & Hentry). split_and!; [done| | |].
    + intros x [a Ha]%elem_of_list_lookup_1. split; intros b; [by apply (Hs a)|by apply (Hp a)].
    + intros a Ha b Hb.
      destruct (lookup_lt_is_Some_2 g a) as [xa Hxa]; [lia|].
      destruct (lookup_lt_is_Some_2 g b) as [xb Hxb]; [lia|].
      unfold succs_of, preds_of. rewrite Hxa, Hxb. by apply Hmirror.
    + unfold preds_of. destruct (g !! 0) as [x|] eqn:Hx; [|done]. by apply Hentry.
Qed.

Lemma rooted_iff_local g :
  rooted g ↔ rooted_local_b g = true ∧ ∀ j, j < length g → ∃ l, path g 0 j l.
Proof.
  rewrite rooted_local_spec. split; [intros []; by split_and!|].
  intros [(? & ? & ? & ? & ?) ?]. by split.
Qed.

Lemma rooted_b_sound g : rooted_b g = true → rooted g.
Proof.
  rewrite rooted_b_split, andb_true_iff, forallb_elem_of. setoid_rewrite bool_decide_eq_true.
  intros [Hloc Hreach].
  apply rooted_iff_local. split; [done|]. intros j Hj.
  apply rooted_local_spec in Hloc as (Hn & Hs & _).
  destruct (reach_sound g Hs (length g) j Hn) as (l & ? & _); [|by eauto].
  apply Hreach, elem_of_seq. lia.
Qed.

Lemma rooted_reach_list g j : rooted g → j < length g → j ∈ reach_avoiding g (length g).
Proof.
  intros Hg Hj. pose proof (rooted_nonempty g Hg) as Hn.
  destruct (rooted_reach g Hg j Hj) as [l Hl].
  apply reach_complete; [done|lia|]. exists l. split; [done|].
  intros Hin. apply (path_elem_lt _ _ _ _ _ Hl) in Hin. lia.
Qed.

Theorem rooted_b_complete g : rooted g → rooted_b g = true.
Proof.
  intros Hg. rewrite rooted_b_split, andb_true_iff, forallb_elem_of. setoid_rewrite bool_decide_eq_true.
  split; [by apply rooted_iff_local|]. intros j Hj%elem_of_seq.
  apply rooted_reach_list; [done|lia].
Qed.

Theorem dom_by_deletion_correct g i j :
  rooted g → j < length g → (dom_by_deletion g i j = true ↔ dom g i j).
Proof.
  intros Hg Hj. unfold dom_by_deletion.
  rewrite orb_true_iff, !bool_decide_eq_true. split.
  - intros [->|Hnot]; [apply (dom_refl g Hg)|].
    destruct (decide (i = 0)) as [->|Hne]; [apply (dom_entry g Hg)|].
    intros l Hl. destruct (decide (i ∈ l)) as [|Hnl]; [done|].
    destruct Hnot. apply reach_complete; [done|done|]. by exists l.
  - intros Hd. destruct (decide (i = j)) as [|Hne]; [by left|right].
    intros Hin. apply reach_sound in Hin as (l & Hl & Hnl);
      [|apply (rooted_succs g Hg)|apply (rooted_nonempty g Hg)].
    by apply Hd in Hl.
Qed.

Lemma lookup_total_fmap_seq {B} `{!Inhabited B} (f : nat → B) n i :
  i < n → (f <$> seq 0 n) !!! i = f i.
Proof.
  intros Hi. apply list_lookup_total_correct.
  rewrite list_lookup_fmap, lookup_seq_lt by done. done.
Qed.

Section spec_view.
  Context (g : graph) (Hg : rooted g).
  Notation n := (length g).
  Notation T := (avoid_table g).

  Lemma dom_t_correct i j : i < n → j < n → (dom_t T i j = true ↔ dom g i j).
  Proof.
    intros Hi Hj. rewrite <- (dom_by_deletion_correct g i j Hg Hj).
    unfold dom_t, dom_by_deletion, avoid_table.
    by rewrite lookup_total_fmap_seq.
  Qed.

  Lemma sdom_t_correct i j : i < n → j < n → (sdom_t T i j = true ↔ sdom g i j).
  Proof.
    intros Hi Hj. unfold sdom_t, sdom.
    rewrite andb_true_iff, bool_decide_eq_true, dom_t_correct by done. done.
  Qed.

  Lemma spec_dominators_correct j i :
    j < n → (i ∈ spec_dominators n T !!! j ↔ dom g i j).
  Proof.
    intros Hj. unfold spec_dominators.
    rewrite lookup_total_fmap_seq, elem_of_list_filter, elem_of_seq by done. cbn beta.
    split; [intros [Hd ?]; apply dom_t_correct in Hd; [done|lia|done]|].
    intros Hd. pose proof (dom_lt g Hg i j Hj Hd). split; [by apply dom_t_correct|lia].
  Qed.

  Lemma spec_idoms_correct j i : j < n → (i ∈ spec_idoms n T j ↔ idom_spec g i j).
  Proof.
    intros Hj. unfold spec_idoms, idom_spec.
    rewrite elem_of_list_filter, elem_of_seq, Forall_forall. setoid_rewrite elem_of_seq.
    split.
    - intros [[Hs Hall] ?]. assert (i < n) by lia.
      apply sdom_t_correct in Hs; [|done..]. split; [done|].
      intros k Hk. assert (k < n) by apply (sdom_lt g Hg k j Hj Hk).
      apply dom_t_correct; [done..|]. apply Hall; [lia|]. by apply sdom_t_correct.
    - intros [Hs Hall]. assert (i < n) by apply (sdom_lt g Hg i j Hj Hs).
      split; [|lia]. split; [by apply sdom_t_correct|].
      intros k ? Hk. assert (k < n) by lia.
      apply dom_t_correct; [done..|]. apply Hall. by apply sdom_t_correct in Hk.
  Qed.

  Lemma spec_idom_correct j i : j < n → (i ∈ spec_idom n T !!! j ↔ idom_spec g i j).
  Proof.
    intros Hj. unfold spec_idom.
    rewrite lookup_total_fmap_seq by done. by apply spec_idoms_correct.
  Qed.

  Lemma spec_children_correct i j :
    i < n → j < n → (j ∈ spec_children n (spec_idom n T) !!! i ↔ idom_spec g i j).
  Proof.
    intros Hi Hj. unfold spec_children.
    rewrite lookup_total_fmap_seq, elem_of_list_filter, elem_of_seq by done. simpl.
    rewrite spec_idom_correct by done. naive_solver lia.
  Qed.

  Lemma spec_frontier_correct i j :
    i < n → (j ∈ spec_frontier g T !!! i ↔ df_spec g i j).
  Proof.
    intros Hi. unfold spec_frontier.
    rewrite lookup_total_fmap_seq, elem_of_list_filter, elem_of_seq by done. cbn beta.
    assert (df_spec g i j → j < n) as Hlt.
    { intros [(x & _ & Hx%lookup_lt_Some & _) _]. done. }
    assert (j < n → Exists (λ q, dom_t T i q = true) (preds_of g j) ∧ sdom_t T i j = false ↔
                    df_spec g i j) as Hiff.
    { intros Hj. unfold preds_of.
      rewrite (lookup_total_node g j Hj), (df_spec_preds g j i Hj), <- not_true_iff_false,
        (sdom_t_correct i j Hi Hj), !Exists_exists.
      split; intros [(q & Hq & Hd) ?]; (split; [|done]); exists q; (split; [done|]);
        apply dom_t_correct; eauto using preds_lt. }
    split; [intros [H ?]; apply Hiff; [lia|done]|].
    intros H. pose proof (Hlt H). split; [by apply Hiff|lia].
  Qed.
End spec_view.

Theorem spec_view_correct g :
  rooted g →
  let n := length g in
  let T := avoid_table g in
  (∀ j i, j < n → (i ∈ spec_dominators n T !!! j ↔ dom g i j)) ∧
  (∀ j i, j < n → (i ∈ spec_idom n T !!! j ↔ idom_spec g i j)) ∧
  (∀ i j, i < n → j < n → (j ∈ spec_children n (spec_idom n T) !!! i ↔ idom_spec g i j)) ∧
  (∀ i j, i < n → (j ∈ spec_frontier g T !!! i ↔ df_spec g i j)).
Proof.
  intros Hg. split_and!.
  - apply (spec_dominators_correct g Hg).
  - apply (spec_idom_correct g Hg).
  - apply (spec_children_correct g Hg).
  - apply (spec_frontier_correct g Hg).
Qed.

Lemma orders_ok : order_ok id_order ∧ order_ok rev_order ∧ order_ok rot_order.
Proof.
  split; [|split]; intros i l.
  - reflexivity.
  - symmetry. apply Permutation_rev.
  - unfold rot_order, rotate. rewrite Permutation_app_comm. by rewrite take_drop.
Qed.
