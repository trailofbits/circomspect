(* Proofs for C10: the stack resolver of Proofs.ScopeStack and the specification
   Spec.ScopeSpec.resolve agree exactly on [branch_closed] statement trees -- no
   loop body and no branch declares a name outside a block of its own, which is
   what the grammar of Circom guarantees -- and differ outside
   (unbraced_declaration_leaks).  The theorems of props/C10.v that mention the
   resolver are stated here, against the specification. *)
From Coq Require Import List NArith Arith Bool Lia.
Require Import Model.Base Model.Ir Model.UniqueVars Spec.ScopeSpec Proofs.ScopeStack Proofs.UniqueVarsProofs.
Import ListNotations.

(* the environment of the specification is the flattened stack *)
Definition rel (st : sstate) (sc : scope) : Prop :=
  visible sc = concat (sstack st) /\ seen sc = scount st.

Lemma lookup_visible : forall st sc n, rel st sc -> lookup n (sstack st) = find_name n (visible sc).
Proof. intros st sc n [Hv _]. rewrite Hv, lookup_concat. symmetry. apply find_name_assoc. Qed.

Lemma use_occ_rel : forall st sc k n, rel st sc -> stk_use_occ k st n = use_occ k sc n.
Proof. intros. unfold stk_use_occ, use_occ. rewrite (lookup_visible st sc n H). reflexivity. Qed.

Lemma uses_rel : forall st sc k l, rel st sc -> map (stk_use_occ k st) l = map (use_occ k sc) l.
Proof. intros. apply map_ext. intros n. apply use_occ_rel. exact H. Qed.

Lemma no_open_decl_nil : forall s, no_open_decl s = true -> open_decls s = [].
Proof. intros s H. unfold no_open_decl in H. destruct (open_decls s); [reflexivity|discriminate]. Qed.

Definition bridge (s : ustmt) (st : sstate) (o : list rocc) (sh : list shadow) (st' : sstate) : Prop :=
  branch_closed s = true ->
  forall sc, sstack st <> [] -> rel st sc ->
  exists sc', resolve s sc = (o, sh, sc') /\ rel st' sc' /\
    sstack st' <> [] /\ tl (sstack st') = tl (sstack st) /\
    (open_decls s = [] -> sstack st' = sstack st).

(* a loop body or branch that declares nothing outside a block of its own leaves
   the stack as it was, and the specification forgets the same declarations *)
Lemma bridge_scoped : forall s st o sh st' sc, bridge s st o sh st' ->
  no_open_decl s && branch_closed s = true -> sstack st <> [] -> rel st sc ->
  exists sc1, resolve s sc = (o, sh, sc1) /\ rel st' (leave sc sc1) /\ sstack st' = sstack st.
Proof.
  intros s st o sh st' sc H C NE R. apply andb_prop in C. destruct C as [N C].
  destruct (H C sc NE R) as (sc1 & S1 & [V1 C1] & _ & _ & O1). specialize (O1 (no_open_decl_nil s N)).
  exists sc1. split; [exact S1|]. split; [|exact O1]. split; simpl; [rewrite O1; apply R|exact C1].
Qed.

Lemma stk_bridge : forall s st o sh st', stk_resolve s st = (o, sh, st') -> bridge s st o sh st'.
Proof.
  apply (stk_resolve_ind bridge); unfold bridge.
  - intros st _ sc NE R. exists sc. simpl. auto.
  - intros s ss st o1 sh1 st1 o2 sh2 st2 Hs Hss C sc NE R.
    cbn [branch_closed forallb] in C. apply andb_prop in C. destruct C as [C1 C2].
    destruct (Hs C1 sc NE R) as (sc1 & S1 & R1 & NE1 & T1 & O1).
    destruct (Hss C2 sc1 NE1 R1) as (sc2 & S2 & R2 & NE2 & T2 & O2).
    exists sc2. cbn [resolve resolve_list] in *. rewrite S1, S2.
    split; [reflexivity|]. split; [exact R2|]. split; [exact NE2|]. split; [congruence|].
    cbn [open_decls flat_map] in *. intros Z. apply app_eq_nil in Z. destruct Z as [Z1 Z2].
    rewrite (O2 Z2). apply O1. exact Z1.
  - intros ss st o sh st1 H C sc NE R.
    assert (Rp : rel (push st) sc) by (destruct R as [V S]; split; simpl; assumption).
    assert (NEp : sstack (push st) <> []) by (simpl; discriminate).
    destruct (H C sc NEp Rp) as (sc1 & S1 & [V1 C1] & NE1 & T1 & _).
    cbn [push sstack tl] in T1.
    exists (leave sc sc1). cbn [resolve] in *. rewrite S1. unfold scoped.
    split; [reflexivity|]. unfold pop. cbn [sstack scount]. rewrite T1.
    split; [split; simpl; [apply R|exact C1]|]. auto.
  - intros k n l dims st _ sc NE R.
    exists (bind n l sc). cbn [resolve].
    rewrite (uses_rel st sc OUse dims R), (lookup_visible st sc n R).
    destruct R as [V S]. rewrite S.
    split; [reflexivity|].
    destruct (sstack st) as [|b r] eqn:Estk; [contradiction|].
    unfold declare, rel, bind. cbn [sstack scount visible seen]. rewrite Estk, V, S.
    split; [split; reflexivity|]. split; [discriminate|]. split; [reflexivity|].
    cbn [open_decls]. discriminate.
  - intros n uses st _ sc NE R.
    exists sc. cbn [resolve]. rewrite (uses_rel st sc OUse uses R), (use_occ_rel st sc OTarget n R). auto.
  - intros k uses st _ sc NE R.
    exists sc. cbn [resolve]. rewrite (uses_rel st sc OUse uses R). auto.
  - intros c b st o sh st' H C sc NE R.
    destruct (bridge_scoped _ _ _ _ _ sc H C NE R) as (sc1 & S1 & R1 & E1).
    exists (leave sc sc1). cbn [resolve]. rewrite S1. unfold scoped. rewrite (uses_rel st sc OUse c R), E1. auto.
  - intros c t st o sh st' H C sc NE R. cbn [branch_closed] in C. rewrite andb_true_r in C.
    destruct (bridge_scoped _ _ _ _ _ sc H C NE R) as (sc1 & S1 & R1 & E1).
    exists (leave sc sc1). cbn [resolve]. rewrite S1. unfold scoped. rewrite (uses_rel st sc OUse c R), E1. auto.
  - intros c t e st o1 sh1 st1 o2 sh2 st2 Ht He C sc NE R.
    cbn [branch_closed] in C. apply andb_prop in C. destruct C as [Ct Ce].
    destruct (bridge_scoped _ _ _ _ _ sc Ht Ct NE R) as (sc1 & S1 & R1 & E1). rewrite <- E1 in NE.
    destruct (bridge_scoped _ _ _ _ _ _ He Ce NE R1) as (sc2 & S2 & R2 & E2).
    exists (leave (leave sc sc1) sc2). cbn [resolve]. rewrite S1. unfold scoped. rewrite S2.
    rewrite (uses_rel st sc OUse c R), E2, E1. rewrite E1 in NE. auto.
Qed.

Lemma initial_rel : forall params ploc st sc, sstack st <> [] -> rel st sc ->
  sstack (declare_all params ploc st) <> [] /\
  rel (declare_all params ploc st) (fold_left (fun sc p => bind p ploc sc) params sc).
Proof.
  induction params as [|p r IH]; intros ploc st sc NE R; [auto|].
  cbn [declare_all fold_left]. destruct (sstack st) as [|b t] eqn:Estk; [contradiction|].
  apply IH.
  - rewrite (sstack_declare p ploc st b t Estk). discriminate.
  - destruct R as [V S]. split.
    + rewrite (sstack_declare p ploc st b t Estk). cbn [bind visible]. rewrite V, S, Estk. reflexivity.
    + cbn [bind seen]. rewrite S. reflexivity.
Qed.

(* on the shape of parsed programs the resolver of the proof IS the specification *)
Theorem stack_resolver_is_spec : forall params ploc body,
  branch_closed body = true ->
  stk_resolve_def params ploc body = resolve_def params ploc body.
Proof.
  intros params ploc body C. unfold stk_resolve_def, resolve_def, initial.
  change (stk_initial params ploc) with (declare_all params ploc st0).
  assert (R0 : rel st0 {| visible := []; seen := [] |}) by (split; reflexivity).
  assert (NE0 : sstack st0 <> []) by (simpl; discriminate).
  destruct (initial_rel params ploc _ _ NE0 R0) as [NE R].
  destruct (stk_resolve body (declare_all params ploc st0)) as [[o sh] st'] eqn:E.
  destruct (stk_bridge body _ _ _ _ E C _ NE R) as (sc' & S & _).
  rewrite S. reflexivity.
Qed.

Theorem renaming_preserves_binding_spec : forall params ploc body body' reports,
  ensure_unique_variables params ploc body = Renamed body' reports ->
  branch_closed body = true ->
  occs body' = map ren_of (fst (resolve_def params ploc body)).
Proof.
  intros params ploc body body' reports H C.
  rewrite <- (stack_resolver_is_spec params ploc body C).
  exact (renaming_preserves_binding params ploc body body' reports H).
Qed.

Theorem shadowing_reports_exact_spec : forall params ploc body body' reports,
  ensure_unique_variables params ploc body = Renamed body' reports ->
  branch_closed body = true ->
  reports = map report_of (snd (resolve_def params ploc body)).
Proof.
  intros params ploc body body' reports H C.
  rewrite <- (stack_resolver_is_spec params ploc body C).
  exact (shadowing_reports_exact params ploc body body' reports H).
Qed.

(* The hypothesis is needed.  `{ var x; if (..) var x; else log(x); log(x); }`
   cannot be written in Circom; on that tree the pass lets the declaration of
   the then-branch reach the else-branch and the statement after the `if`,
   the specification does not. *)
Definition leak_x : name := [120%N].
Definition leak_body : ustmt :=
  UBlock [UInit [UDecl KVar leak_x (10, 15) []];
          UIf [] (UInit [UDecl KVar leak_x (30, 35) []]) (Some (UExpr ELog [leak_x]));
          UExpr ELog [leak_x]].

Theorem unbraced_declaration_leaks : exists body body' reports,
  branch_closed body = false /\
  ensure_unique_variables [] (0, 0) body = Renamed body' reports /\
  occs body' <> map ren_of (fst (resolve_def [] (0, 0) body)) /\
  occs body' = map ren_of (fst (stk_resolve_def [] (0, 0) body)).
Proof.
  exists leak_body. eexists. eexists.
  split; [reflexivity|]. split; [vm_compute; reflexivity|].
  split; [vm_compute; discriminate|vm_compute; reflexivity].
Qed.
