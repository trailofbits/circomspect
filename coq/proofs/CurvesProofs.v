(* Lemmas of property C11.  Every lemma that mentions a regenerated table
   (Gen.CurveTables, Gen.DocTable, Gen.Primes, Gen.CurveNames) is re-checked
   against /repo on every run. *)
From Coq Require Import ZArith List ListDec Bool String Ascii NArith Lia ZifyBool.
Require Import Model.Base Model.Curves Spec.CurvesSpec.
Require Import Gen.CurveTables Gen.DocTable Gen.Primes Gen.CurveNames.
Import ListNotations.
Local Open Scope Z_scope.

Definition incl_b (l1 l2 : list string) : bool :=
  forallb (fun x => existsb (String.eqb x) l2) l1.

Lemma existsb_eqb_In : forall name l, existsb (String.eqb name) l = true <-> In name l.
Proof.
  intros name l. rewrite existsb_exists. split.
  - intros [x [Hin He]]. apply String.eqb_eq in He. subst. exact Hin.
  - intro H. exists name. split; [exact H | apply String.eqb_refl].
Qed.

Lemma incl_b_spec : forall l1 l2, incl_b l1 l2 = true <-> incl l1 l2.
Proof.
  intros l1 l2. unfold incl_b, incl. rewrite forallb_forall.
  split; intros H x Hx; apply existsb_eqb_In, H, Hx.
Qed.

Lemma existsb_same_elements : forall l1 l2,
  incl_b l1 l2 && incl_b l2 l1 = true ->
  forall name, existsb (String.eqb name) l1 = existsb (String.eqb name) l2.
Proof.
  intros l1 l2 H name. apply andb_true_iff in H. rewrite !incl_b_spec in H. destruct H as [H1 H2].
  apply eq_true_iff_eq. rewrite !existsb_eqb_In. split; [apply H1|apply H2].
Qed.

Lemma existsb_map_filter : forall {A} (g : A -> string) (h : A -> bool) name l,
  existsb (fun row => String.eqb (g row) name && h row) l = existsb (String.eqb name) (map g (filter h l)).
Proof.
  intros A g h name l. induction l as [|x l IH]; simpl; auto.
  destruct (h x); simpl.
  - rewrite andb_true_r. rewrite IH. rewrite (String.eqb_sym (g x) name). reflexivity.
  - rewrite andb_false_r. simpl. exact IH.
Qed.

Lemma In_combine_seq {A} (l : list A) : forall k i x,
  In (i, x) (combine (seq k (length l)) l) <-> (k <= i)%nat /\ nth_error l (i - k) = Some x.
Proof.
  induction l as [|y l IH]; intros k i x; simpl.
  - split; [tauto|]. intros [_ H]. destruct (i - k)%nat; discriminate.
  - rewrite IH. split.
    + intros [[= <- <-]|[Hk Hn]]; (split; [lia|]).
      * rewrite Nat.sub_diag. reflexivity.
      * replace (i - k)%nat with (S (i - S k)) by lia. exact Hn.
    + intros [Hk Hn]. destruct (Nat.eq_dec i k) as [->|Hne].
      * left. rewrite Nat.sub_diag in Hn. simpl in Hn. congruence.
      * right. split; [lia|]. replace (i - k)%nat with (S (i - S k)) in Hn by lia. exact Hn.
Qed.

Lemma indices_where_spec : forall {A} (f : A -> bool) (l : list A) i,
  In i (indices_where f l) <-> exists x, nth_error l i = Some x /\ f x = true.
Proof.
  intros A f l i. unfold indices_where. rewrite in_map_iff. split.
  - intros [[j x] [<- H]]. apply filter_In in H as [H Hf]. apply In_combine_seq in H as [_ H].
    rewrite Nat.sub_0_r in H. eauto.
  - intros [x [Hn Hf]]. exists (i, x). split; [reflexivity|]. apply filter_In. split; [|exact Hf].
    apply In_combine_seq. rewrite Nat.sub_0_r. split; [lia|exact Hn].
Qed.

(* the regenerated tables are complete (no default of the model is used) *)
Lemma tables_total : forall c,
  stored_curve c = Some c /\
  (exists p s, constants c = Some (variant_name c, (p, s)) /\ 2 < p /\ 2 <= s) /\
  (exists d, assoc (variant_name c) bn254_dispatch = Some d /\
             match d with Some arr => assoc arr const_arrays <> None | None => True end) /\
  bn254_exact_match = true /\
  from_str_normaliser = "to_ascii_uppercase"%string /\
  Forall (fun e => Z.of_nat (length (snd (snd e))) = fst (snd e)) const_arrays.
Proof.
  intro c. split; [destruct c; reflexivity|]. split.
  { destruct c; eexists _, _; (split; [vm_compute; reflexivity|lia]). }
  split.
  { destruct c; eexists; (split; [vm_compute; reflexivity|]); exact I || (vm_compute; discriminate). }
  split; [reflexivity|]. split; [reflexivity|]. repeat constructor.
Qed.

Definition code_list (c : curve) : list string :=
  match problematic_templates c with
  | Some l => if bn254_exact_match then l else []
  | None => []
  end.

Definition doc_list (c : curve) : list string :=
  match index_of (variant_name c) doc_columns with
  | None => []
  | Some col => map (fun row => circomlib_spelling (fst row)) (filter (fun row => nth col (snd row) false) doc_table)
  end.

Lemma flagged_code_list : forall c name, flagged c name = existsb (String.eqb name) (code_list c).
Proof.
  intros c name. unfold flagged, code_list.
  destruct (problematic_templates c); [destruct bn254_exact_match|]; reflexivity.
Qed.

Lemma doc_marks_doc_list : forall c name, doc_marks c name = existsb (String.eqb name) (doc_list c).
Proof.
  intros c name. unfold doc_marks, doc_list.
  destruct (index_of (variant_name c) doc_columns); [|reflexivity].
  apply (existsb_map_filter (fun row : string * list bool => circomlib_spelling (fst row))).
Qed.

Lemma code_and_doc_lists_agree : forall c, incl_b (code_list c) (doc_list c) && incl_b (doc_list c) (code_list c) = true.
Proof. intro c. destruct c; vm_compute; reflexivity. Qed.

Lemma bn254_table_exact : forall c name, flagged c name = doc_marks c name.
Proof.
  intros c name. rewrite flagged_code_list, doc_marks_doc_list.
  apply existsb_same_elements. apply code_and_doc_lists_agree.
Qed.

Lemma bn254_never_flagged_by_default : forall name, flagged Bn254 name = false /\ doc_marks Bn254 name = false.
Proof.
  intro name. rewrite flagged_code_list, doc_marks_doc_list.
  replace (code_list Bn254) with (@nil string) by (vm_compute; reflexivity).
  replace (doc_list Bn254) with (@nil string) by (vm_compute; reflexivity).
  split; reflexivity.
Qed.

Fixpoint nodup_b (l : list string) : bool :=
  match l with [] => true | x :: r => negb (existsb (String.eqb x) r) && nodup_b r end.

Lemma nodup_b_sound : forall l, nodup_b l = true -> NoDup l.
Proof.
  induction l as [|x l IH]; intro H; [constructor|].
  simpl in H. apply andb_true_iff in H. destruct H as [H1 H2]. constructor; [|auto].
  intro Hin. apply existsb_eqb_In in Hin. rewrite Hin in H1. discriminate.
Qed.

Lemma doc_table_shape :
  length doc_table = 26%nat /\ length (doc_list Goldilocks) = 26%nat /\ length (doc_list Bls12_381) = 13%nat /\
  NoDup (doc_list Goldilocks).
Proof.
  split; [reflexivity|]. split; [vm_compute; reflexivity|]. split; [vm_compute; reflexivity|].
  apply nodup_b_sound. vm_compute. reflexivity.
Qed.

Lemma bn254_reports_exact : forall c prog i,
  In i (bn254_reports c prog) <->
  exists k var acc cl, nth_error prog i = Some (SAssign k var acc (RCall cl)) /\
                       tk_exits k = false /\ doc_marks c (cname cl) = true.
Proof.
  intros c prog i. unfold bn254_reports. rewrite indices_where_spec. split.
  - intros [s [Hn Hv]]. destruct s as [k var acc r| |]; simpl in Hv; try discriminate.
    destruct r as [cl|]; try discriminate.
    apply andb_true_iff in Hv. destruct Hv as [Hk Hf].
    exists k, var, acc, cl. split; [exact Hn|]. split.
    + destruct (tk_exits k); [discriminate|reflexivity].
    + rewrite <- bn254_table_exact. exact Hf.
  - intros [k [var [acc [cl [Hn [Hk Hd]]]]]]. eexists. split; [exact Hn|]. simpl.
    rewrite Hk. simpl. rewrite bn254_table_exact. exact Hd.
Qed.

Lemma primes_are_documented : forall c,
  prime c = doc_prime c /\ prime_size c = bit_size (doc_prime c) /\ doc_bits c = Some (prime_size c).
Proof. intro c. destruct c; vm_compute; repeat split; reflexivity. Qed.

(* READER CHECK, not a property theorem: the Python source reader
   (lib/props/c11shape.py) reported exactly the anchored items of
   Spec.CurvesSpec.anchored_items and marked each as matched.  This re-reads
   booleans the reader wrote; its content is the reader.  It is kept here so that
   an unmatched item also stops the build of the proofs. *)
Lemma reader_matched_every_item :
  map fst source_shape = anchored_items /\ Forall (fun e => snd e = true) source_shape.
Proof. split; [vm_compute; reflexivity | repeat constructor]. Qed.

(* READER / EXECUTION CROSS-CHECK, not a property theorem: the decimal literals the Python reader finds in
   Curve::prime() are the executed primes; the executed prime_size() is the bit
   length of the executed prime (also a consequence of primes_are_documented) *)
Lemma prime_literals_are_executed_primes :
  (forall c, assoc (variant_name c) source_prime_literals = Some (prime c)) /\
  (forall c, prime_size c = bit_size (prime c)).
Proof. split; intro c; destruct c; vm_compute; reflexivity. Qed.

Lemma prime_size_default : prime_size Bn254 = 254.
Proof. vm_compute. reflexivity. Qed.

Lemma nonstrict_active_iff : forall c d, nonstrict_active c d = true <-> c = Bn254 /\ d = DTemplate.
Proof.
  intros c d. destruct c, d; vm_compute; split; try discriminate; try (intros [? ?]; discriminate); auto.
Qed.

Lemma num2bits_guard_exact : forall tname n,
  In tname ["Num2Bits"; "Bits2Num"]%string ->
  (num2bits_flagged Bn254 tname (VField n) = Some false <-> n < 254).
Proof.
  intros tname n Hin. unfold num2bits_flagged.
  replace (nonstrict_active Bn254 DTemplate) with true by (vm_compute; reflexivity).
  rewrite prime_size_default.
  destruct Hin as [<-|[<-|[]]]; cbn -[Z.ltb Z.add];
    change (254 + 0) with 254;
    destruct (n <? 254) eqn:E; simpl;
    (apply Z.ltb_lt in E || apply Z.ltb_ge in E); split; intro H; try reflexivity; try lia; try discriminate.
Qed.

Lemma non_constant_size_flagged : forall tname a,
  In tname ["Num2Bits"; "Bits2Num"]%string -> (forall v, a <> VField v) ->
  num2bits_flagged Bn254 tname a = Some true.
Proof.
  intros tname a Hin Ha. unfold num2bits_flagged.
  replace (nonstrict_active Bn254 DTemplate) with true by (vm_compute; reflexivity).
  rewrite prime_size_default.
  destruct a as [v|b|]; [exfalso; apply (Ha v); reflexivity| |];
    destruct Hin as [<-|[<-|[]]]; reflexivity.
Qed.

Lemma nonstrict_only_default_curve : forall c d prog,
  (c <> Bn254 \/ d <> DTemplate) -> nonstrict_reports c d prog = Ok (map (fun _ => 0%nat) prog).
Proof.
  intros c d prog H. unfold nonstrict_reports.
  destruct (nonstrict_active c d) eqn:E; [|reflexivity].
  apply nonstrict_active_iff in E. destruct E. destruct H; contradiction.
Qed.

(* the whole pass, statement by statement: one report exactly for a component
   instantiated from Num2Bits / Bits2Num with a single argument that is not a
   known field element below the prime size n; never a panic *)
Definition conv_call (cl : call) : bool :=
  (String.eqb (cname cl) "Num2Bits" || String.eqb (cname cl) "Bits2Num") && Nat.eqb (length (cargs cl)) 1.
Definition known_small (n : Z) (cl : call) : bool :=
  match cargs cl with [VField v] => v <? n | _ => false end.
Definition nonstrict_expected (n : Z) (s : stmt) : nat :=
  match s with
  | SAssign k _ _ (RCall cl) => if negb (tk_exits k) && conv_call cl && negb (known_small n cl) then 1%nat else 0%nat
  | _ => 0%nat
  end.

Lemma nonstrict_call_spec : forall n cl,
  nonstrict_call n nonstrict_guards cl = Ok (if conv_call cl && negb (known_small n cl) then 1%nat else 0%nat).
Proof.
  intros n [name args]. unfold nonstrict_guards, conv_call, known_small. cbn [nonstrict_call cname cargs].
  destruct args as [|a [|b r]].
  - cbn. rewrite !andb_false_r. reflexivity.
  - cbn -[Z.ltb String.eqb]. rewrite Z.add_0_r.
    destruct (String.eqb name "Num2Bits") eqn:E1.
    + apply String.eqb_eq in E1. subst name. cbn -[Z.ltb].
      destruct a as [v| |]; cbn -[Z.ltb]; [destruct (v <? n)|..]; reflexivity.
    + destruct (String.eqb name "Bits2Num") eqn:E2; cbn -[Z.ltb].
      * destruct a as [v| |]; cbn -[Z.ltb]; [destruct (v <? n)|..]; reflexivity.
      * reflexivity.
  - assert (H : (Z.of_nat (length (a :: b :: r)) =? 1) = false) by (apply Z.eqb_neq; simpl length; lia).
    rewrite H. rewrite ?andb_false_r. cbn. rewrite ?andb_false_r. reflexivity.
Qed.

Lemma nonstrict_visit_spec : forall c s, nonstrict_visit c s = Ok (nonstrict_expected (prime_size c) s).
Proof.
  intros c s. destruct s as [k var acc r| |]; try reflexivity. destruct r as [cl|]; try reflexivity.
  unfold nonstrict_visit, nonstrict_expected.
  destruct (tk_exits k); [reflexivity|]. rewrite nonstrict_call_spec. reflexivity.
Qed.

Lemma nonstrict_reports_exact : forall prog,
  nonstrict_reports Bn254 DTemplate prog = Ok (map (nonstrict_expected 254) prog).
Proof.
  intro prog. unfold nonstrict_reports. rewrite <- prime_size_default.
  replace (nonstrict_active Bn254 DTemplate) with true by (vm_compute; reflexivity).
  induction prog as [|s prog IH]; [reflexivity|].
  cbn [mapM map]. rewrite nonstrict_visit_spec. cbn [bind]. rewrite IH. reflexivity.
Qed.

Lemma pow_threshold : forall h t k,
  0 <= t -> 2 ^ t - 1 <= h -> h < 2 ^ (t + 1) - 1 ->
  ((k <? t + 1) = true <-> 2 ^ k - 1 <= h).
Proof.
  intros h t k Ht Hlo Hhi.
  destruct (Z_lt_ge_dec k 0) as [Hneg|Hk].
  { (* a negative size: 2^k = 0 in Z, and the guard holds as well *)
    assert (0 < 2 ^ t) by (apply Z.pow_pos_nonneg; lia).
    split; intro H0; [rewrite Z.pow_neg_r by lia; lia | apply Z.ltb_lt; lia]. }
  assert (Hk' : 0 <= k) by lia. clear Hk.
  split; intro H.
  - apply Z.ltb_lt in H.
    assert (2 ^ k <= 2 ^ t) by (apply Z.pow_le_mono_r; lia). lia.
  - apply Z.ltb_lt. destruct (Z_lt_ge_dec k (t + 1)) as [L|G]; [exact L|exfalso].
    assert (2 ^ (t + 1) <= 2 ^ k) by (apply Z.pow_le_mono_r; lia). lia.
Qed.

Lemma lessthan_guard_exact : forall c k,
  (lessthan_range_checked c k = true <-> kbit_values_nonnegative c k).
Proof.
  intros c k. unfold lessthan_range_checked, lt_guard, kbit_values_nonnegative.
  cbn [lessthan_guard fst snd cmp_eval].
  (* half the prime lies between 2^t - 1 and 2^(t+1) - 2 for t = prime_size - 2 *)
  assert (H : exists t, prime_size c + -1 = t + 1 /\ 0 <= t /\
                        2 ^ t - 1 <= doc_prime c / 2 /\ doc_prime c / 2 < 2 ^ (t + 1) - 1).
  { destruct c; [exists 252|exists 253|exists 62]; vm_compute; repeat split; congruence. }
  destruct H as (t & -> & Ht & Hlo & Hhi). apply pow_threshold; assumption.
Qed.

Lemma lessthan_non_constant_not_checked : forall c size,
  (forall k, size <> VField k) -> lt_guard c size = false.
Proof. intros c size H. destruct size as [k| |]; [exfalso; apply (H k)|..]; reflexivity. Qed.

Lemma components_never_panic : forall s, components_panic s = false.
Proof.
  intro s. destruct s as [k var acc r| |]; try reflexivity. destruct r as [cl|]; try reflexivity.
  simpl. destruct (cargs cl) eqn:E; simpl.
  - replace (0 =? snd rangecheck_template) with false by reflexivity.
    rewrite !andb_false_r. reflexivity.
  - rewrite !andb_false_r. reflexivity.
Qed.

Lemma sizes_of_In : forall v size inputs, In size (sizes_of v inputs) <-> In (INum2Bits v size) inputs.
Proof.
  intros v size inputs. unfold sizes_of. rewrite in_flat_map. split.
  - intros [i [Hi Hs]]. destruct i as [|v' s]; [destruct Hs|].
    destruct (String.eqb v v') eqn:E; [|destruct Hs]. apply String.eqb_eq in E. subst.
    destruct Hs as [<-|[]]. exact Hi.
  - intro H. exists (INum2Bits v size). split; [exact H|]. rewrite String.eqb_refl. left. reflexivity.
Qed.

Lemma is_lt_input_In : forall v inputs, existsb (is_lt_input v) inputs = true <-> In (ILessThan v) inputs.
Proof.
  intros v inputs. rewrite existsb_exists. split.
  - intros [i [Hi H]]. destruct i as [v'|]; [|discriminate]. simpl in H. apply String.eqb_eq in H. subst. exact Hi.
  - intro H. exists (ILessThan v). split; [exact H|]. simpl. apply String.eqb_refl.
Qed.

Lemma lessthan_reports_exact : forall c prog,
  exists vs, lessthan_reports c prog = Ok vs /\
  forall v, In v vs <->
    (In (ILessThan v) (collected_inputs prog) /\
     forall k, In (INum2Bits v (VField k)) (collected_inputs prog) -> ~ kbit_values_nonnegative c k).
Proof.
  intros c prog. unfold lessthan_reports.
  assert (Hp : existsb components_panic prog = false).
  { destruct (existsb components_panic prog) eqn:E; [|reflexivity].
    apply existsb_exists in E. destruct E as [s [_ Hs]]. rewrite components_never_panic in Hs. discriminate. }
  rewrite Hp.
  replace (prime_size c + snd lessthan_guard <? 0) with false by (destruct c; vm_compute; reflexivity).
  eexists. split; [reflexivity|].
  intro v. unfold lessthan_values. rewrite filter_In, nodup_In, andb_true_iff, negb_true_iff, is_lt_input_In.
  set (I := collected_inputs prog) in *.
  split.
  - intros [_ [Hlt Hg]]. split; [exact Hlt|]. intros k Hin Hk.
    assert (E : existsb (lt_guard c) (sizes_of v I) = true).
    { apply existsb_exists. exists (VField k). split; [apply sizes_of_In; exact Hin|].
      apply (lessthan_guard_exact c k). exact Hk. }
    congruence.
  - intros [Hlt Hall]. split; [|split; [exact Hlt|]].
    + apply in_map_iff. exists (ILessThan v). split; [reflexivity|exact Hlt].
    + destruct (existsb (lt_guard c) (sizes_of v I)) eqn:E; [exfalso|reflexivity].
      apply existsb_exists in E. destruct E as [size [Hs Hg]].
      apply sizes_of_In in Hs. destruct size as [k| |]; try discriminate.
      apply (Hall k Hs). apply (lessthan_guard_exact c k). exact Hg.
Qed.

(* letters are compared through their codes, where [lia] decides *)
Lemma ascii_eqb_N : forall a b, Ascii.eqb a b = (N_of_ascii a =? N_of_ascii b)%N.
Proof.
  intros a b. destruct (Ascii.eqb_spec a b) as [->|H]; [symmetry; apply N.eqb_refl|].
  symmetry. apply N.eqb_neq. intro E. apply H.
  rewrite <- (ascii_N_embedding a), <- (ascii_N_embedding b), E. reflexivity.
Qed.

Lemma upper_ascii_N : forall a,
  N_of_ascii (upper_ascii a) = (if is_lower a then N_of_ascii a - 32 else N_of_ascii a)%N.
Proof.
  intro a. unfold upper_ascii, is_lower.
  destruct ((97 <=? N_of_ascii a)%N && (N_of_ascii a <=? 122)%N); [|reflexivity].
  apply N_ascii_embedding. pose proof (N_ascii_bounded a). lia.
Qed.

Lemma same_letter_upper : forall a b, is_lower b = false -> same_letter a b = Ascii.eqb (upper_ascii a) b.
Proof.
  intros a b Hb. unfold same_letter. rewrite !ascii_eqb_N, upper_ascii_N.
  unfold is_lower, is_upper in *. pose proof (N_ascii_bounded a).
  destruct ((97 <=? N_of_ascii a)%N && (N_of_ascii a <=? 122)%N) eqn:Ha; lia.
Qed.

Fixpoint upper_form (t : string) : bool :=
  match t with EmptyString => true | String b r => negb (is_lower b) && upper_form r end.

Lemma same_ignoring_case_upper : forall s t, upper_form t = true ->
  same_ignoring_case s t = String.eqb (upper s) t.
Proof.
  induction s as [|a s IH]; intros t Ht; destruct t as [|b t]; try reflexivity.
  simpl in Ht. apply andb_true_iff in Ht. destruct Ht as [Hb Ht]. apply negb_true_iff in Hb.
  simpl. rewrite (same_letter_upper a b Hb). rewrite (IH t Ht).
  destruct (Ascii.eqb (upper_ascii a) b) eqn:E; reflexivity.
Qed.

(* from_str normalises with to_ascii_uppercase: parse_curve is, for EVERY string
   (bytes >= 128 included), the look-up of its ASCII upper-casing *)
Lemma parse_curve_upper : forall s,
  parse_curve s = match assoc (upper s) from_str_arms with
                  | Some v => match curve_of_variant v with Some c => Accepted c | None => Unmodelled end
                  | None => Rejected
                  end.
Proof.
  intro s. unfold parse_curve, normalise.
  replace (String.eqb from_str_normaliser "to_ascii_uppercase") with true by reflexivity.
  reflexivity.
Qed.

(* what the arms of Curve::from_str answer on an upper-cased spelling *)
Lemma from_str_arms_cases : forall t,
  match assoc t from_str_arms with
  | Some v => exists c, curve_of_variant v = Some c /\ t = curve_doc_name c
  | None => forall c, t <> curve_doc_name c
  end.
Proof.
  intro t. unfold from_str_arms. cbn [assoc].
  repeat match goal with |- context [String.eqb t ?n] => destruct (String.eqb_spec t n) as [->|] end;
    try (eexists; split; reflexivity).
  intros []; assumption.
Qed.

Lemma curve_names_case_insensitive : forall s c,
  parse_curve s = Accepted c <-> same_ignoring_case s (curve_doc_name c) = true.
Proof.
  intros s c. rewrite parse_curve_upper.
  rewrite same_ignoring_case_upper by (destruct c; reflexivity).
  pose proof (from_str_arms_cases (upper s)) as H. destruct (assoc (upper s) from_str_arms) as [v|].
  - destruct H as (c' & -> & ->). destruct c, c'; vm_compute; split; congruence.
  - split; [discriminate|]. intros E. apply String.eqb_eq in E. destruct (H c E).
Qed.

Lemma parse_curve_in_model : forall s, parse_curve s <> Unmodelled.
Proof.
  intro s. rewrite parse_curve_upper. pose proof (from_str_arms_cases (upper s)) as H.
  destruct (assoc (upper s) from_str_arms) as [v|]; [destruct H as (c & -> & _)|]; discriminate.
Qed.

Lemma nothing_else_accepted : forall s,
  parse_curve s = Rejected <-> forall c, same_ignoring_case s (curve_doc_name c) = false.
Proof.
  intro s. split.
  - intros H c. destruct (same_ignoring_case s (curve_doc_name c)) eqn:E; [|reflexivity].
    apply (curve_names_case_insensitive s c) in E. congruence.
  - intro H. destruct (parse_curve s) as [c| |] eqn:E; [| reflexivity |].
    + apply (curve_names_case_insensitive s c) in E. rewrite H in E. discriminate.
    + exfalso. exact (parse_curve_in_model s E).
Qed.

Lemma same_letter_ascii : forall a b,
  same_letter a b = true -> (N_of_ascii b <? 128)%N = true -> (N_of_ascii a <? 128)%N = true.
Proof. intros a b. unfold same_letter, is_lower, is_upper. rewrite ascii_eqb_N. lia. Qed.

Lemma same_ignoring_case_ascii : forall s t, ascii_only t = true -> same_ignoring_case s t = true -> ascii_only s = true.
Proof.
  induction s as [|a s IH]; intros t Ht H; [reflexivity|].
  destruct t as [|b t]; [discriminate|]. simpl in *.
  apply andb_true_iff in Ht. destruct Ht as [Hb Ht]. apply andb_true_iff in H. destruct H as [Hab H].
  rewrite (same_letter_ascii a b Hab Hb). exact (IH t Ht H).
Qed.

Lemma non_ascii_rejected : forall s, ascii_only s = false -> parse_curve s = Rejected.
Proof.
  intros s Hs. apply nothing_else_accepted. intro c.
  destruct (same_ignoring_case s (curve_doc_name c)) eqn:E; [|reflexivity].
  apply same_ignoring_case_ascii in E; [congruence|]. destruct c; reflexivity.
Qed.

(* with str::to_uppercase as normaliser, spellings that are NOT case variants
   (dotless i, long s) would be accepted: the model of that normaliser accepts
   them, parse_curve rejects them *)
Lemma unicode_normaliser_accepts_more :
  parse_curve_unicode "goldılocks" = Accepted Goldilocks /\
  parse_curve_unicode "blſ12_381" = Accepted Bls12_381 /\
  parse_curve_unicode "goldilockſ" = Accepted Goldilocks /\
  parse_curve "goldılocks" = Rejected /\
  parse_curve "blſ12_381" = Rejected /\
  parse_curve "goldilockſ" = Rejected.
Proof. vm_compute. repeat split; reflexivity. Qed.

(* the model of str::to_uppercase (Model.Curves.unicode_upper, compared with the executed
   str::to_uppercase on every spelling of every run): on ASCII text it is [upper] *)
Definition code (a : ascii) : Z := Z.of_N (N_of_ascii a).

Lemma code_small : forall a, (N_of_ascii a <? 128)%N = true -> (Z.of_N (N_of_ascii a) <? 128) = true.
Proof. intros a Ha. apply Z.ltb_lt. apply N.ltb_lt in Ha. lia. Qed.

Lemma utf8_decode_ascii : forall s, ascii_only s = true ->
  utf8_decode s O 0 0 = Some (map code (list_ascii_of_string s)).
Proof.
  induction s as [|a s IH]; intro H; [reflexivity|].
  simpl in H. apply andb_true_iff in H. destruct H as [Ha Hs].
  cbn [utf8_decode list_ascii_of_string map]. rewrite (code_small a Ha), (IH Hs). reflexivity.
Qed.

Lemma upper_chars_ascii : forall s, ascii_only s = true ->
  upper_chars (map code (list_ascii_of_string s)) = Some (upper s).
Proof.
  induction s as [|a s IH]; intro H; [reflexivity|].
  simpl in H. apply andb_true_iff in H. destruct H as [Ha Hs].
  cbn [list_ascii_of_string map upper_chars upper]. rewrite (IH Hs).
  unfold upper_char, code. rewrite (code_small a Ha), N2Z.id, ascii_N_embedding. reflexivity.
Qed.

Lemma unicode_upper_ascii_agrees : forall s, ascii_only s = true -> unicode_upper s = Some (upper s).
Proof.
  intros s H. unfold unicode_upper. rewrite (utf8_decode_ascii s H). apply upper_chars_ascii. exact H.
Qed.

(* to_ascii_uppercase and str::to_uppercase accept the same ASCII spellings *)
Lemma normalisers_agree_on_ascii : forall s, ascii_only s = true -> parse_curve_unicode s = parse_curve s.
Proof.
  intros s H. rewrite parse_curve_upper. unfold parse_curve_unicode.
  rewrite (unicode_upper_ascii_agrees s H). reflexivity.
Qed.

(* the accept/reject table obtained by executing Curve::from_str *)
Definition decode_result (r : option string) : parse_result :=
  match r with
  | None => Rejected
  | Some v => match curve_of_variant v with Some c => Accepted c | None => Unmodelled end
  end.

Definition parse_result_eqb (a b : parse_result) : bool :=
  match a, b with
  | Accepted c, Accepted d => curve_eqb c d
  | Rejected, Rejected => true
  | _, _ => false
  end.

Lemma parse_result_eqb_eq : forall a b, parse_result_eqb a b = true -> a = b.
Proof. intros [[]| |] [[]| |]; simpl; congruence. Qed.

Lemma curve_name_table_check :
  forallb (fun e => parse_result_eqb (parse_curve (fst e)) (decode_result (snd e))) curve_name_table = true.
Proof. vm_compute. reflexivity. Qed.

Lemma curve_name_table_agrees : forall s r, In (s, r) curve_name_table -> parse_curve s = decode_result r.
Proof.
  intros s r H. pose proof curve_name_table_check as T. rewrite forallb_forall in T.
  specialize (T (s, r) H). simpl in T. apply parse_result_eqb_eq. exact T.
Qed.

Fixpoint case_variants (s : string) : list string :=
  match s with
  | EmptyString => [EmptyString]
  | String a r =>
    let rest := case_variants r in
    if is_upper a then map (String a) rest ++ map (String (ascii_of_N (N_of_ascii a + 32))) rest
    else map (String a) rest
  end.

(* the strings of [t] that start with [a], without it *)
Definition tails (a : ascii) (t : list string) : list string :=
  flat_map (fun s => match s with String b r => if Ascii.eqb a b then [r] else [] | EmptyString => [] end) t.

(* decides [incl (case_variants s) t] by descending [t] as a trie: one pass over the remaining
   entries per letter, where [incl_b] compares each of the 2^k variants with every entry *)
Fixpoint covers_variants (s : string) (t : list string) : bool :=
  match s with
  | EmptyString => existsb (String.eqb EmptyString) t
  | String a r =>
    covers_variants r (tails a t) &&
    (if is_upper a then covers_variants r (tails (ascii_of_N (N_of_ascii a + 32)) t) else true)
  end.

Lemma tails_In : forall a r t, In r (tails a t) <-> In (String a r) t.
Proof.
  intros a r t. unfold tails. rewrite in_flat_map. split.
  - intros [[|b s] [Hs Hr]]; [destruct Hr|]. destruct (Ascii.eqb_spec a b) as [->|]; [|destruct Hr].
    destruct Hr as [->|[]]. exact Hs.
  - intro H. exists (String a r). split; [exact H|]. rewrite Ascii.eqb_refl. left. reflexivity.
Qed.

Lemma covers_variants_sound : forall s t, covers_variants s t = true -> incl (case_variants s) t.
Proof.
  induction s as [|a r IH]; intros t H v Hv.
  - destruct Hv as [<-|[]]. apply existsb_eqb_In. exact H.
  - cbn [covers_variants case_variants] in H, Hv. apply andb_true_iff in H. destruct H as [H1 H2].
    assert (Hin : forall b, covers_variants r (tails b t) = true ->
                            In v (map (String b) (case_variants r)) -> In v t).
    { intros b Hb Hm. apply in_map_iff in Hm. destruct Hm as [w [<- Hw]]. apply tails_In, (IH _ Hb), Hw. }
    destruct (is_upper a); [apply in_app_or in Hv; destruct Hv|]; eauto.
Qed.

Lemma curve_name_table_covers_case_variants : forall c,
  incl_b (case_variants (curve_doc_name c)) (map fst curve_name_table) = true.
Proof. intro c. apply incl_b_spec, covers_variants_sound. destruct c; vm_compute; reflexivity. Qed.

Lemma cli_help_and_default :
  cli_help_names = map curve_doc_name all_curves /\ parse_curve cli_default_curve = Accepted Bn254.
Proof. split; vm_compute; reflexivity. Qed.
