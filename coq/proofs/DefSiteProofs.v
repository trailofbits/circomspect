(* Proofs for C09: location faithfulness.  The location carried by a finding of the mirror
   of run_side_effect_analysis about a variable is the location of the statement that defines that
   SSA name: the last non-phi assignment in visiting order (HashMap::insert semantics of the
   definitions map), which under the unique-definition property established by the verified SSA
   validator (Proofs.SsaProofs.ssa_check_unique_defs) is the ONLY assignment to that name. *)
From Coq Require Import ZArith NArith List Bool Lia.
Require Import Model.Base Model.Ir Model.VarUse Model.Taint Model.SideEffect Spec.DefSite
  Proofs.TaintProofs Proofs.SideEffectProofs.
Require Model.SsaCheck Proofs.SsaProofs.
Import ListNotations.

Definition def_of (s : stmt) : option duse :=
  match s with
  | SSubst m v _ rhe _ (Some _) => if is_phi rhe then None else Some (mkD v m (rhe_has_access rhe))
  | _ => None
  end.

Definition defs_step (defs : list duse) (s : stmt) : list duse :=
  match def_of s with Some d => dmap_insert defs d | None => defs end.

Lemma t_defs_taint_stmt D bs br bi st s :
  t_defs (taint_stmt D bs br bi st s) = defs_step (t_defs st) s.
Proof.
  destruct s as [m names t dims|m c t f|m e|m v op rhe sv stype|m l r|m args|m e]; try reflexivity.
  - unfold defs_step; cbn [def_of taint_stmt].
    apply (fold_left_inv _ (fun st' => t_defs st' = t_defs st)); [|reflexivity].
    intros a b H. exact H.
  - unfold defs_step; cbn [def_of taint_stmt].
    destruct (expr_val c); [reflexivity|].
    apply (fold_left_inv _ (fun st' => t_defs st' = t_defs st)); [|reflexivity].
    intros a i H. destruct (get_block bs i); [|exact H].
    apply (fold_left_inv _ (fun st' => t_defs st' = t_defs st)); [|exact H].
    intros a' b' H'. exact H'.
  - unfold defs_step. cbn [def_of taint_stmt].
    unfold stmt_writes_w.
    destruct stype as [[]|]; cbn [stmt_uses s_lw s_sw s_cw app fold_left t_defs w_name w_meta w_acc];
      destruct (is_phi rhe); reflexivity.
Qed.

Lemma t_defs_fold_stmts D bs br bi ss : forall st,
  t_defs (fold_left (taint_stmt D bs br bi) ss st) = fold_left defs_step ss (t_defs st).
Proof.
  induction ss as [|s ss IH]; intro st; [reflexivity|].
  cbn [fold_left]. rewrite IH, t_defs_taint_stmt. reflexivity.
Qed.

Lemma t_defs_fold_blocks D bs br l : forall st,
  t_defs (fold_left (taint_block D bs br) l st) = fold_left defs_step (flat_map b_stmts l) (t_defs st).
Proof.
  induction l as [|b l IH]; intro st; [reflexivity|].
  cbn [fold_left flat_map]. rewrite fold_left_app, IH. unfold taint_block.
  rewrite t_defs_fold_stmts. reflexivity.
Qed.

Lemma t_defs_run g br :
  t_defs (run_taint_analysis g br)
  = fold_left defs_step (cfg_stmts g) (t_defs (taint_init (c_params g))).
Proof. unfold run_taint_analysis, cfg_stmts. apply t_defs_fold_blocks. Qed.

(* HashMap::insert: keys stay distinct, the last insertion wins *)
Lemma dmap_insert_In l d x : In x (dmap_insert l d) -> x = d \/ In x l.
Proof.
  induction l as [|y l IH]; cbn.
  - intros [H|[]]. left. symmetry. exact H.
  - destruct (vname_eqb (d_name y) (d_name d)).
    + intros [H|H]; [left; symmetry; exact H | right; right; exact H].
    + intros [H|H]; [right; left; exact H|]. destruct (IH H) as [H'|H']; [left; exact H' | right; right; exact H'].
Qed.

Lemma dmap_insert_keys_in l d k :
  In k (map d_name (dmap_insert l d)) -> k = d_name d \/ In k (map d_name l).
Proof.
  intro H. apply in_map_iff in H. destruct H as [x [<- Hx]].
  apply dmap_insert_In in Hx. destruct Hx as [->|Hx]; [left; reflexivity | right; apply in_map; exact Hx].
Qed.

Lemma dmap_insert_nodup l d : NoDup (map d_name l) -> NoDup (map d_name (dmap_insert l d)).
Proof.
  induction l as [|y l IH]; cbn; intro H.
  - constructor; [intros [] | constructor].
  - inversion H as [|? ? Hy Hl]; subst.
    destruct (vname_eqb (d_name y) (d_name d)) eqn:E; cbn.
    + apply vname_eqb_eq in E. rewrite <- E. exact H.
    + constructor; [|apply IH; exact Hl].
      intro Hin. apply dmap_insert_keys_in in Hin. destruct Hin as [Hin|Hin]; [|exact (Hy Hin)].
      rewrite <- Hin in E.
      assert (vname_eqb (d_name y) (d_name y) = true) by (apply vname_eqb_eq; reflexivity). congruence.
Qed.

Lemma dmap_insert_In_strong l d x :
  NoDup (map d_name l) -> In x (dmap_insert l d) -> x = d \/ (In x l /\ d_name x <> d_name d).
Proof.
  induction l as [|y l IH]; cbn; intros H Hin.
  - destruct Hin as [Hin|[]]. left. symmetry. exact Hin.
  - inversion H as [|? ? Hy Hl]; subst.
    destruct (vname_eqb (d_name y) (d_name d)) eqn:E.
    + apply vname_eqb_eq in E. destruct Hin as [Hin|Hin]; [left; symmetry; exact Hin|].
      right. split; [right; exact Hin|]. intro Heq. apply Hy. rewrite E, <- Heq. apply in_map. exact Hin.
    + destruct Hin as [Hin|Hin].
      * right. subst x. split; [left; reflexivity|]. intro Heq. rewrite Heq in E.
        assert (vname_eqb (d_name d) (d_name d) = true) by (apply vname_eqb_eq; reflexivity). congruence.
      * destruct (IH Hl Hin) as [Hx|[Hx Hne]]; [left; exact Hx | right; split; [right; exact Hx | exact Hne]].
Qed.

Lemma defs_step_nodup defs s : NoDup (map d_name defs) -> NoDup (map d_name (defs_step defs s)).
Proof. unfold defs_step. destruct (def_of s); [apply dmap_insert_nodup | trivial]. Qed.

(* an entry of the final map comes from the LAST statement that defines its key, or from the initial
   map if no statement defines the key *)
Lemma defs_fold_last L : forall defs0 d,
  NoDup (map d_name defs0) -> In d (fold_left defs_step L defs0) ->
  (exists pre s post, L = pre ++ s :: post /\ def_of s = Some d /\
      forall s' d', In s' post -> def_of s' = Some d' -> d_name d' <> d_name d)
  \/ (In d defs0 /\ forall s' d', In s' L -> def_of s' = Some d' -> d_name d' <> d_name d).
Proof.
  induction L as [|s L IH]; intros defs0 d Hnd Hin.
  - right. split; [exact Hin | intros s' d' []].
  - cbn [fold_left] in Hin.
    destruct (IH _ _ (defs_step_nodup defs0 s Hnd) Hin) as [(pre & s0 & post & -> & Hd & Hpost) | [Hin0 Hnone]].
    + left. exists (s :: pre), s0, post. split; [reflexivity | split; assumption].
    + unfold defs_step in Hin0. destruct (def_of s) as [d0|] eqn:Es.
      * destruct (dmap_insert_In_strong _ _ _ Hnd Hin0) as [->|[Hin1 Hne]].
        -- left. exists [], s, L. split; [reflexivity | split; [exact Es | exact Hnone]].
        -- right. split; [exact Hin1|]. intros s' d' [<-|Hs'] Hd'; [|eapply Hnone; eassumption].
           rewrite Es in Hd'. injection Hd' as <-. intro Heq. apply Hne. symmetry. exact Heq.
      * right. split; [exact Hin0|]. intros s' d' [<-|Hs'] Hd'; [congruence | eapply Hnone; eassumption].
Qed.

(* TaintAnalysis::new: one entry per parameter, with the location of the parameter list *)
Lemma taint_init_fold ps : forall l acc,
  (forall p, In p l -> In p ps) ->
  NoDup (map d_name acc) /\ (forall d, In d acc -> In (d_name d) ps /\ d_meta d = meta0) ->
  let r := fold_left (fun acc p => dmap_insert acc (mkD p meta0 false)) l acc in
  NoDup (map d_name r) /\ (forall d, In d r -> In (d_name d) ps /\ d_meta d = meta0).
Proof.
  induction l as [|p l IH]; intros acc Hl [Hnd Hacc]; cbn [fold_left]; [split; assumption|].
  apply IH; [intros q Hq; apply Hl; right; exact Hq|]. split; [apply dmap_insert_nodup; exact Hnd|].
  intros d Hd. apply dmap_insert_In in Hd. destruct Hd as [->|Hd]; [|apply Hacc; exact Hd].
  cbn. split; [apply Hl; left; reflexivity | reflexivity].
Qed.

Lemma taint_init_defs ps :
  NoDup (map d_name (t_defs (taint_init ps))) /\
  (forall d, In d (t_defs (taint_init ps)) -> In (d_name d) ps /\ d_meta d = meta0).
Proof.
  unfold taint_init. cbn [t_defs]. apply (taint_init_fold ps ps []); [auto|].
  split; [constructor | intros d []].
Qed.

Lemma def_of_shape s d : def_of s = Some d ->
  exists op rhe sv t, s = SSubst (d_meta d) (d_name d) op rhe sv (Some t) /\ is_phi_expr rhe = false.
Proof.
  destruct s as [m names t dims|m c t f|m e|m v op rhe sv [t|]|m l r|m args|m e]; cbn; try discriminate.
  destruct (is_phi rhe) eqn:E; [discriminate|]. intro H. injection H as <-. cbn.
  exists op, rhe, sv, t. split; [reflexivity | exact E].
Qed.

Lemma def_of_none_is_def_of x s :
  (forall d', def_of s = Some d' -> d_name d' <> x) -> is_def_of x s = false.
Proof.
  destruct s as [m names t dims|m c t f|m e|m v op rhe sv [t|]|m l r|m args|m e]; cbn; try reflexivity.
  change (is_phi_expr rhe) with (is_phi rhe).
  destruct (is_phi rhe); [intros _; apply andb_false_r|].
  intro H. rewrite andb_true_r. destruct (vname_eqb v x) eqn:E; [|reflexivity].
  apply vname_eqb_eq in E. exfalso. eapply H; [reflexivity | exact E].
Qed.

Lemma variable_claim_from_definitions g br res f :
  run_side_effect_analysis g br = Ok res -> In f (r_findings res) -> is_variable_claim f = true ->
  exists d, In d (t_defs (run_taint_analysis g br)) /\ f_var f = d_name d /\ f_meta f = d_meta d.
Proof.
  intros Hrun Hf Hk. destruct (finding_origin _ _ _ _ Hrun Hf) as [(snk & d & _ & Hd & Hdf)|Hs].
  - exists d. split; [exact Hd|]. destruct (definition_finding_some _ _ _ _ _ _ Hdf) as (Hv & Hm & _). now split.
  - unfold is_variable_claim in Hk. destruct Hs as [H|H]; rewrite H in Hk; discriminate.
Qed.

(* The location of a claim about a variable is the location of the last assignment to the flagged
   name in visiting order; only a parameter that no statement assigns carries the (absent)
   location of the parameter list.  No hypothesis on the graph. *)
Theorem finding_location_last_definition g br res f :
  run_side_effect_analysis g br = Ok res ->
  In f (r_findings res) ->
  is_variable_claim f = true ->
  (exists pre post op rhe sv t,
      cfg_stmts g = pre ++ SSubst (f_meta f) (f_var f) op rhe sv (Some t) :: post /\
      is_phi_expr rhe = false /\
      forall s', In s' post -> is_def_of (f_var f) s' = false)
  \/ (In (f_var f) (c_params g) /\ f_meta f = meta0 /\
      forall s', In s' (cfg_stmts g) -> is_def_of (f_var f) s' = false).
Proof.
  intros Hrun Hf Hk.
  destruct (variable_claim_from_definitions _ _ _ _ Hrun Hf Hk) as [d [Hd [Hv Hm]]].
  rewrite t_defs_run in Hd. destruct (taint_init_defs (c_params g)) as [Hnd Hinit].
  destruct (defs_fold_last _ _ _ Hnd Hd) as [(pre & s & post & HL & Hs & Hpost) | [Hin0 Hnone]].
  - left. destruct (def_of_shape _ _ Hs) as (op & rhe & sv & t & -> & Hphi).
    exists pre, post, op, rhe, sv, t. rewrite Hv, Hm. split; [exact HL | split; [exact Hphi|]].
    intros s' Hs'. apply def_of_none_is_def_of. intros d' Hd'. eapply Hpost; eassumption.
  - right. destruct (Hinit _ Hin0) as [Hp Hm0]. rewrite Hv, Hm. split; [exact Hp | split; [exact Hm0|]].
    intros s' Hs'. apply def_of_none_is_def_of. intros d' Hd'. eapply Hnone; eassumption.
Qed.

Definition def_list (s : stmt) : list vname :=
  match SsaCheck.stmt_def s with Some x => [x] | None => [] end.

Lemma all_defs_flat g : SsaCheck.all_defs g = flat_map def_list (cfg_stmts g).
Proof.
  unfold SsaCheck.all_defs, cfg_stmts. induction (c_blocks g) as [|b l IH]; [reflexivity|].
  cbn [flat_map]. rewrite flat_map_app, IH. reflexivity.
Qed.

Lemma in_def_list_flat x l : In x (flat_map def_list l) <-> exists s, In s l /\ SsaCheck.stmt_def s = Some x.
Proof.
  rewrite in_flat_map. split; intros [s [Hs H]]; exists s; (split; [exact Hs|]).
  - unfold def_list in H. destruct (SsaCheck.stmt_def s); [destruct H as [->|[]]; reflexivity | destruct H].
  - unfold def_list. rewrite H. left. reflexivity.
Qed.

Lemma unique_def_of_nodup g pre m x op rhe sv st post :
  NoDup (SsaCheck.all_defs g) ->
  cfg_stmts g = pre ++ SSubst m x op rhe sv st :: post ->
  vn_version x <> None ->
  forall s', In s' (pre ++ post) -> SsaCheck.stmt_def s' <> Some x.
Proof.
  intros Hnd HL Hver s' Hs' Hdef.
  rewrite all_defs_flat, HL, flat_map_app in Hnd. cbn [flat_map] in Hnd.
  assert (Hx : def_list (SSubst m x op rhe sv st) = [x]).
  { unfold def_list. cbn. destruct (vn_version x); [reflexivity | contradiction]. }
  rewrite Hx in Hnd. cbn [app] in Hnd. apply NoDup_remove_2 in Hnd. apply Hnd.
  rewrite <- flat_map_app. apply in_def_list_flat. exists s'. split; assumption.
Qed.

(* the finding sits at the one statement that assigns its name, or at the parameter list *)
Definition at_unique_definition (g : cfg) (f : finding) : Prop :=
  (exists pre post op rhe sv t,
      cfg_stmts g = pre ++ SSubst (f_meta f) (f_var f) op rhe sv (Some t) :: post /\
      is_phi_expr rhe = false /\
      forall s', In s' (pre ++ post) -> SsaCheck.stmt_def s' <> Some (f_var f))
  \/ (In (f_var f) (c_params g) /\ f_meta f = meta0 /\
      forall s', In s' (cfg_stmts g) -> is_def_of (f_var f) s' = false).

Theorem finding_location_unique_definition_nodup g br res f :
  NoDup (SsaCheck.all_defs g) ->
  run_side_effect_analysis g br = Ok res ->
  In f (r_findings res) ->
  is_variable_claim f = true ->
  vn_version (f_var f) <> None ->
  at_unique_definition g f.
Proof.
  intros Hnd Hrun Hf Hk Hver.
  destruct (finding_location_last_definition _ _ _ _ Hrun Hf Hk)
    as [(pre & post & op & rhe & sv & t & HL & Hphi & _) | H]; [left | right; exact H].
  exists pre, post, op, rhe, sv, t. split; [exact HL | split; [exact Hphi|]].
  eapply unique_def_of_nodup; eassumption.
Qed.

Theorem finding_location_unique_definition g idom br res f :
  SsaCheck.ssa_check g idom = true ->
  run_side_effect_analysis g br = Ok res ->
  In f (r_findings res) ->
  is_variable_claim f = true ->
  vn_version (f_var f) <> None ->
  at_unique_definition g f.
Proof.
  intro Hchk. apply finding_location_unique_definition_nodup.
  eapply SsaProofs.ssa_check_unique_defs. exact Hchk.
Qed.

(* at most one claim of the definitions loop per name: the keys of the definitions map are distinct *)
Lemma defs_fold_nodup L : forall defs0, NoDup (map d_name defs0) -> NoDup (map d_name (fold_left defs_step L defs0)).
Proof.
  induction L as [|s L IH]; intros defs0 H; [exact H|]. cbn [fold_left]. apply IH, defs_step_nodup, H.
Qed.

Theorem definitions_keys_distinct g br : NoDup (map d_name (t_defs (run_taint_analysis g br))).
Proof. rewrite t_defs_run. apply defs_fold_nodup, taint_init_defs. Qed.

(* the decidable form of the one conjunct of ssa_check that is used *)
Theorem finding_location_unique_definition_nodup_b g br res f :
  SsaCheck.nodup_v (SsaCheck.all_defs g) = true ->
  run_side_effect_analysis g br = Ok res ->
  In f (r_findings res) ->
  is_variable_claim f = true ->
  vn_version (f_var f) <> None ->
  at_unique_definition g f.
Proof.
  intro H. apply finding_location_unique_definition_nodup. apply SsaProofs.nodup_v_NoDup. exact H.
Qed.
