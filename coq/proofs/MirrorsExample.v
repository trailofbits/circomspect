(* C01: the hypotheses of the C01 theorems over other properties' mirrors are met by
   concrete, non-trivial inputs.

   1. [ex_program]: a template  var x = 0; while (x < 3) { x = x + 1; }  run through the
      whole chain of Model.PipelineMirrors (desugarer, renaming + lifting + IR lifting of
      Model.LiftFull, dominator tree, SSA construction, propagation): it meets
      [program_ok], and the chain ends with DROk on a graph with a phi statement at the
      loop header.
   2. [ex_pre]: the pre-SSA graph of that template (what Model.LiftFull.lift_to_ir returns
      for the desugared body) meets the hypotheses of C01_into_ssa_never_panics /
      C01_into_ssa_fuel_suffices with the children lists of its dominator tree, and
      into_ssa returns SOk.
   3. a decidable form of the file-system hypothesis of C01_includes_never_panic
      ([canon_named_b]) and the file system of C19's example. *)
From Coq Require Import ZArith NArith List Bool String Ascii Znumtheory.
Require Import Model.Ast.
Require Model.Base Model.PipelineMirrors Model.Desugar Model.Ir Model.Includes Model.Dom Model.Ssa Model.LiftFull Spec.ExpandSpec.
Require Proofs.PipelineMirrorsProofs Proofs.SsaNoPanic Proofs.SsaFuel Proofs.IncludesProofs Proofs.DomProofs.
From stdpp Require base numbers list.
Import ListNotations.
Module PM := Model.PipelineMirrors.
Module PP := Proofs.PipelineMirrorsProofs.
Local Open Scope string_scope.

Definition m0 (a b : N) : meta := Meta a b (Some 0%N).
Definition x_ (a b : N) : expression := Variable_ (m0 a b) "x" [].

(* template T() { var x = 0; while (x < 3) { x = x + 1; } } *)
Definition ex_body : statement :=
  Block (m0 0 60)
    [InitializationBlock (m0 1 10) VVar
       [Declaration (m0 1 6) VVar "x" [] true; Substitution (m0 5 10) "x" [] AssignVar (Number (m0 9 10) 0)];
     While (m0 12 50) (InfixOp (m0 19 24) (x_ 19 20) ILesser (Number (m0 23 24) 3))
       (Block (m0 26 50)
          [Substitution (m0 28 38) "x" [] AssignVar (InfixOp (m0 32 37) (x_ 32 33) IAdd (Number (m0 36 37) 1))])].

Definition ex_lib : list (list N) := [[0%N]].
Definition ex_def : PM.definition := PM.Def "T" Ir.KTemplate [] (Some 0%N) (10%N, 12%N) ex_body.
Definition ex_program : PM.program := PM.Program ex_lib [ex_def] [].

(* a file system with one file whose name is its own canonical path *)
Definition ex_run : Base.outcome (list PM.def_result) :=
  PM.run_pipeline_mirrors Dom.id_order (fun l => l) 3%Z 9%nat 9%nat
    (fun q : nat => Some q) (fun _ => false) (fun _ => true) (fun _ => None) (fun a b => b) (fun q => q)
    (fun q => Some q) (fun _ => true) (fun _ => false) (fun _ => false) (fun _ => Includes.Parsed [])
    (fun _ => ex_program) false 5%nat 5%nat [1%nat] [].

Definition is_drok (d : PM.def_result) : bool := match d with PM.DROk _ => true | _ => false end.

(* the SSA graph handed to propagation has a phi statement in block 1 (the loop header) *)
Definition has_phi_in_block_1 (d : PM.def_result) : bool :=
  match d with
  | PM.DROk c => match nth_error (Ir.c_blocks c) 1 with
                 | Some b => existsb (fun s => match s with Ir.SSubst _ _ _ (Ir.EPhi (_ :: _ :: _) _) _ _ => true | _ => false end)
                                     (Ir.b_stmts b)
                 | None => false
                 end
  | _ => false
  end.

Lemma ex_wf_template : ExpandSpec.wf_template ex_lib ex_body.
Proof.
  unfold ExpandSpec.wf_template. repeat split.
  - vm_compute. repeat constructor; (exists 0%N; split; [reflexivity | discriminate]).
  - vm_compute. repeat constructor.
  - vm_compute. repeat constructor.
  - eexists; eexists; reflexivity.
Qed.

Lemma ex_program_ok : PP.program_ok ex_program.
Proof.
  split; [|constructor]. constructor; [|constructor].
  split; [exact ex_wf_template|]. split; [reflexivity|].
  intros b' H. vm_compute in H. injection H as <-. vm_compute. reflexivity.
Qed.

Lemma ex_orders_ok : DomSpec.order_ok Dom.id_order /\ (forall l : list nat, Permutation.Permutation ((fun l => l) l) l).
Proof. split; [intros i l; reflexivity|intros l; apply Permutation.Permutation_refl]. Qed.

Lemma ex_run_ok :
  match ex_run with
  | Base.Ok [d] => is_drok d && has_phi_in_block_1 d
  | _ => false
  end = true.
Proof. vm_compute. reflexivity. Qed.

Definition empty_cfg : Ir.cfg := {| Ir.c_kind := Ir.KTemplate; Ir.c_params := []; Ir.c_decls := []; Ir.c_blocks := [] |}.
Definition ex_pre : Ir.cfg :=
  match Desugar.desugar_template (Desugar.env_of [("T", ex_body)]) ex_lib ex_body with
  | Desugar.DOk b => match LiftFull.lift_to_ir Ir.KTemplate [] (Some 0%N) (10%N, 12%N) b with
                     | Base.Ok c => c
                     | _ => empty_cfg
                     end
  | _ => empty_cfg
  end.

(* the desugared body lifts to three blocks holding 2 + 1 + 1 statements (declaration and
   initialisation; the loop header's IfThenElse; the assignment of the loop body), and the
   declarations of the graph are the one variable *)
Lemma ex_pre_shape :
  map (fun b => List.length (Ir.b_stmts b)) (Ir.c_blocks ex_pre) = [2; 1; 1]%nat /\
  List.length (Ir.c_decls ex_pre) = 1%nat.
Proof. split; vm_compute; reflexivity. Qed.

(* the children and frontier lists DominatorTree::new computes for it: block 0 is the
   parent of block 1 (the loop header), which is the parent of block 2 (the body);
   the header is in the frontier of itself and of the body *)
Definition ex_children : list (list N) := [[1%N]; [2%N]; []].
Definition ex_frontier : list (list N) := [[]; [1%N]; [1%N]].

Lemma ex_tree_is_computed :
  match Dom.dominator_tree (Dom.dom_fuel (PM.dom_of_ir ex_pre)) Dom.id_order (PM.dom_of_ir ex_pre) with
  | Base.Ok t => PM.sets_of (fun l => l) (Dom.dt_children t) = ex_children /\
                 PM.sets_of (fun l => l) (Dom.dt_frontier t) = ex_frontier
  | _ => False
  end.
Proof. vm_compute. split; reflexivity. Qed.

Lemma ex_pre_hypotheses :
  SsaNoPanic.unversioned ex_pre /\ SsaFuel.written_declared ex_pre = true /\
  (0 < List.length (Ir.c_blocks ex_pre))%nat /\
  (forall j k, In k (SsaNoPanic.kids ex_children j) -> (j < k)%nat /\ (k < List.length (Ir.c_blocks ex_pre))%nat) /\
  (forall j, NoDup (SsaNoPanic.kids ex_children j)) /\
  (forall j j' k, In k (SsaNoPanic.kids ex_children j) -> In k (SsaNoPanic.kids ex_children j') -> j = j') /\
  exists c1, Ssa.into_ssa ex_frontier ex_children ex_pre = Ssa.SOk c1.
Proof.
  assert (K : forall j, SsaNoPanic.kids ex_children j =
                        match j with 0 => [1] | 1 => [2] | _ => [] end%nat).
  { intros [|[|[|[|j]]]]; reflexivity. }
  split; [|split; [vm_compute; reflexivity|split; [vm_compute; repeat constructor|split; [|split; [|split]]]]].
  - intros i b H. destruct i as [|[|[|i]]]; vm_compute in H; try discriminate;
      try (injection H as <-; vm_compute; reflexivity). destruct i; discriminate.
  - intros j k H. rewrite K in H. change (List.length (Ir.c_blocks ex_pre)) with 3%nat.
    destruct j as [|[|j]]; simpl in H; try contradiction; destruct H as [<-|[]]; split; repeat constructor.
  - intros j. rewrite K. destruct j as [|[|j]]; repeat constructor; simpl; tauto.
  - intros j j' k H H'. rewrite K in H, H'.
    destruct j as [|[|j]], j' as [|[|j']]; simpl in H, H'; try contradiction; try reflexivity;
      destruct H as [<-|[]]; destruct H' as [H'|[]]; discriminate.
  - eexists. vm_compute. reflexivity.
Qed.

(* a decidable form of the file-system hypothesis of C01_includes_never_panic *)
Import stdpp.base stdpp.list.

Definition canon_named_b (d : Includes.fs_data) : bool :=
  forallb (fun kv : Includes.spath * option Includes.spath =>
             match snd kv with
             | Some c => match Includes.s_file_name c with Some _ => true | None => false end
             | None => true
             end) (Includes.fs_canon d).

Lemma canon_named d : canon_named_b d = true ->
  forall q c, Includes.d_is_dir d q = false -> Includes.d_canon d q = Some c -> Includes.s_file_name c <> None.
Proof.
  intros Hb q c _ Hc. unfold Includes.d_canon in Hc.
  destruct (Includes.assoc q (Includes.fs_canon d)) as [r|] eqn:E; [|discriminate]. subst r.
  apply IncludesProofs.assoc_In in E. unfold canon_named_b in Hb. rewrite forallb_forall in Hb.
  specialize (Hb _ E). simpl in Hb. destruct (Includes.s_file_name c); [discriminate|discriminate].
Qed.

(* C19's example: a main file including a library file twice (by two spellings) with a
   directory library on the command line; every canonical path of the table has a file
   name, and the run reads both files *)
Lemma ex_fs_hypothesis :
  (forall q c, Includes.d_is_dir IncludesProofs.d23_fs q = false ->
               Includes.d_canon IncludesProofs.d23_fs q = Some c -> Includes.s_file_name c <> None) /\
  exists s, Includes.run_project false IncludesProofs.d23_fs IncludesProofs.d23_argv IncludesProofs.d23_libs = Base.Ok s /\
            List.length (Includes.ps_read s) = 2%nat.
Proof.
  split; [apply canon_named; vm_compute; reflexivity|].
  eexists. split; [vm_compute; reflexivity|reflexivity].
Qed.
