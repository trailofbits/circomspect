(* NoSilentStages — C02: what the stages of Model.FrontStages put
   into the project handed to the runner, derived from their inputs.

   * check_compiler_version / the main-component match: a file of the
     FileLibrary that parses and asks for an unsupported version has its
     CompilerVersionError among the stage items; two entries that parse and
     have a main component give the MultipleMainError.
   * the desugarer (Model.Desugar, with Proofs.DesugarErrLoc): the report of a
     rejected template / function is among the stage items and is located in
     the file of the body; a definition without an entry in the output was
     rejected with such a report.
   * the lifter (Model.LiftFull): a body that is a block and a parameter list
     with a repeated name make `try_lift_impl` answer
     `Err err_param_collision`; [stage_def] turns the error values of
     [lift_outcome] into the [d_err] of the runner's definition. *)
From Coq Require Import ZArith NArith Lia String.
Require Import Gen.Category Model.Runner Spec.RunnerSpec.
From stdpp Require Import list.
Require Import Model.Includes Model.Front Model.FrontStages Spec.NoSilentSpec.
Require Model.Ast Model.Desugar Model.LiftFull Model.PipelineMirrors Spec.ExpandSpec.
Require Proofs.DesugarErrLoc.

Section ParamCollision.
  Variable d : LiftFull.udecl.

  (* the environment while the parameters are entered: one block each, every version still absent; [gl] is the
     block of the global versions, whose keys are the parameters entered so far *)
  Definition penv (e : LiftFull.denv) (gl : list (string * option nat)) : Prop :=
    exists dl sl,
      LiftFull.declarations e = [dl] /\ LiftFull.scoped_versions e = [sl] /\ LiftFull.global_versions e = [gl] /\
      forall n v, LiftFull.assoc n gl = Some v -> v = None.

  Lemma penv_new : penv LiftFull.denv_new [].
  Proof. exists [], []. repeat split. intros n v [=]. Qed.

  Lemma add_param e gl p :
    penv e gl ->
    exists v e', LiftFull.add_declaration p d e = Base.Ok (v, e') /\
                 (v = None -> LiftFull.assoc p gl = None /\ penv e' ((p, None) :: gl)).
  Proof.
    intros (dl & sl & Hd & Hs & Hg & Hv).
    unfold LiftFull.add_declaration, LiftFull.get_next_version, LiftFull.add_variable.
    rewrite Hd. simpl. rewrite Hg, Hs. simpl.
    destruct (LiftFull.assoc p gl) as [v|] eqn:E.
    - rewrite (Hv p v E). simpl. eexists _, _. split; [reflexivity|discriminate].
    - simpl. eexists _, _. split; [reflexivity|]. intros _. split; [reflexivity|].
      exists ((p, d) :: dl), sl. simpl. repeat split.
      intros n v. destruct (String.eqb n p); [by intros [= <-]|apply Hv].
  Qed.

  Lemma env_of_params_collision : forall ps gl e,
    penv e gl ->
    ~ (List.NoDup ps /\ forall p, In p ps -> LiftFull.assoc p gl = None) ->
    LiftFull.env_of_params ps d e = Base.Err LiftFull.err_param_collision.
  Proof.
    induction ps as [|p r IH]; intros gl e He Hno.
    - exfalso. apply Hno. split; [constructor|intros p []].
    - simpl. destruct (add_param e gl p He) as ([v|] & e' & -> & H); [reflexivity|].
      destruct (H eq_refl) as [Hp He']. simpl.
      apply (IH _ e' He'). intros [Hnd Hall]. apply Hno. split.
      + constructor; [|exact Hnd]. intros Hpr. specialize (Hall p Hpr). simpl in Hall.
        by rewrite String.eqb_refl in Hall.
      + intros q [<-|Hq]; [exact Hp|]. specialize (Hall q Hq). simpl in Hall. by destruct (String.eqb q p).
  Qed.
End ParamCollision.

(* `function f(a, a)` / `template T(n, n)`: lifting answers with the collision error *)
Theorem repeated_parameter_collides kind params pfile ploc body :
  LiftFull.is_block body = true -> ~ List.NoDup params ->
  LiftFull.try_lift_impl kind params pfile ploc body = Base.Err LiftFull.err_param_collision.
Proof.
  intros Hb Hnd. unfold LiftFull.try_lift_impl, LiftFull.ensure_unique_variables. rewrite Hb. simpl.
  rewrite (env_of_params_collision (pfile, ploc) params [] LiftFull.denv_new (penv_new)); [reflexivity|].
  intros [H _]. by apply Hnd.
Qed.

Section StageFiles.
  Context {path : Type}.
  Variable content : path -> file_content path.
  Variable pragma : path -> option version.
  Variable has_main : path -> bool.
  Variable cv : version.

  Notation parses := (parses content).
  Notation version_items := (version_items content pragma cv).
  Notation main_components_from := (main_components_from content has_main).
  Notation main_items := (main_items content has_main).

  Lemma version_item_in (files : list (path * bool)) i f u incs v :
    files !! i = Some (f, u) -> content f = Parsed incs -> pragma f = Some v ->
    version_supported v cv = false ->
    In (SIVersionError f v) (version_items files).
  Proof.
    intros Hi Hc Hp Hv. unfold FrontStages.version_items. apply in_flat_map. exists (f, u). split.
    - apply elem_of_list_In. by eapply elem_of_list_lookup_2.
    - simpl. unfold FrontStages.parses. rewrite Hc. unfold check_compiler_version. rewrite Hp, Hv. by left.
  Qed.

  Lemma main_components_from_spec (files : list (path * bool)) : forall k i,
    In i (main_components_from k files) <->
    exists j f u, i = k + j /\ files !! j = Some (f, u) /\ parses f && has_main f = true.
  Proof.
    induction files as [|[f u] rest IH]; intros k i; simpl.
    - split; [intros []|]. intros (j & f & u & _ & Hj & _). by rewrite lookup_nil in Hj.
    - rewrite in_app_iff, IH. split.
      + intros [Hi|(j & f' & u' & -> & Hj & Hm)].
        * destruct (parses f && has_main f) eqn:E; [|destruct Hi]. destruct Hi as [<-|[]].
          exists 0, f, u. rewrite Nat.add_0_r. done.
        * exists (S j), f', u'. split; [lia|done].
      + intros (j & f' & u' & -> & Hj & Hm). destruct j as [|j]; simpl in Hj.
        * inversion Hj; subst. left. rewrite Hm. left. lia.
        * right. exists j, f', u'. split; [lia|done].
  Qed.

  Lemma two_mains_reported (files : list (path * bool)) i j f g u u' :
    files !! i = Some (f, u) -> files !! j = Some (g, u') -> i <> j ->
    parses f = true -> parses g = true -> has_main f = true -> has_main g = true ->
    main_items files = [SIMultipleMain].
  Proof.
    intros Hi Hj Hne Pf Pg Mf Mg. unfold FrontStages.main_items, main_components.
    assert (Ii : In i (main_components_from 0 files)).
    { apply main_components_from_spec. exists i, f, u. by rewrite Pf, Mf. }
    assert (Ij : In j (main_components_from 0 files)).
    { apply main_components_from_spec. exists j, g, u'. by rewrite Pg, Mg. }
    destruct (main_components_from 0 files) as [|x [|y r]]; [destruct Ii| |reflexivity].
    destruct Ii as [<-|[]]. destruct Ij as [<-|[]]. by destruct Hne.
  Qed.

  (* the main-component match pushes nothing or the one MultipleMainError *)
  Lemma main_items_cases (files : list (path * bool)) :
    main_items files = [] \/ main_items files = [SIMultipleMain].
  Proof. unfold FrontStages.main_items. destruct (main_components _ _ files) as [|x [|y r]]; auto. Qed.

End StageFiles.

Section Stages.
  Context {path : Type}.
  Variable pf_id pf_name : Z.
  Variable cs : codes.
  Variable spay : stage_item path -> Z.
  Variable ord : nat -> list nat -> list nat.
  Variable horder : list nat -> list nat.
  Variable prime : Z.
  Variable kv kd : nat.
  Variable err_file : PM.definition -> option N.
  Variable name_id : string -> Z.
  Variable after : PM.definition -> def.

  Notation item_report := (item_report pf_id pf_name cs spay).
  Notation lift_outcome := (lift_outcome ord horder prime kv kd).
  Notation stage_def := (stage_def pf_id pf_name cs spay ord horder prime kv kd err_file name_id after).

  (* the report with which a template / function of the library is rejected is among the stage items and lies
     in the file of the body *)
  Lemma sugar_rejection_reported pr sd n body fid r0 :
    sugar_input pr = Desugar.DOk sd ->
    (In (n, body) (PM.named_bodies (PM.pr_templates pr)) /\
     Desugar.desugar_template (Desugar.env_of (PM.named_bodies (PM.pr_templates pr))) (PM.pr_lib pr) body
       = Desugar.DErr r0) \/
    (In (n, body) (PM.named_bodies (PM.pr_functions pr)) /\
     exists rs, Desugar.check_function body = Desugar.DOk (Some rs) /\ In r0 rs) ->
    body_in_file fid body ->
    In (SISugar r0) (sugar_items (path:=path) sd) /\ Desugar.r_file r0 = fid.
  Proof.
    intros Hs Hrej Hb.
    destruct (DesugarErrLoc.remove_syntactic_sugar_drop_reported _ _ _ _ Hs) as (_ & _ & T & F).
    destruct Hrej as [[Hin Hd]|[Hin (rs & Hc & Hr)]].
    - split; [apply in_map; by eapply T|].
      pose proof (DesugarErrLoc.desugar_template_error_located _ _ _ _ _ Hb Hd) as H. simpl in H. congruence.
    - split; [apply in_map; by eapply F|].
      pose proof (DesugarErrLoc.check_function_located _ _ _ Hb Hc) as H.
      rewrite List.Forall_forall in H. specialize (H r0 Hr). simpl in H. congruence.
  Qed.

  Lemma repeated_parameter_outcome dd :
    LiftFull.is_block (PM.d_body dd) = true -> ~ List.NoDup (PM.d_params dd) ->
    lift_outcome dd = Some LEParamCollision.
  Proof.
    intros Hb Hnd. unfold FrontStages.lift_outcome.
    rewrite (repeated_parameter_collides _ _ _ _ _ Hb Hnd). reflexivity.
  Qed.

  Lemma stage_def_err dd e :
    lift_outcome dd = Some e ->
    d_err (stage_def dd) = Some (item_report (SILiftError dd e (lift_error_file err_file dd e))).
  Proof. intros H. unfold FrontStages.stage_def. simpl. by rewrite H. Qed.

  (* every stage report is error level, except the missing-pragma warning *)
  Lemma item_report_level it :
    r_level (item_report it) = match it with SINoVersion _ => Warning | _ => Error end.
  Proof. destruct it as [| | | |dd e file|]; try reflexivity. simpl. by destruct e. Qed.

  Lemma item_report_pfiles it :
    r_pfiles (item_report it) =
    match it with
    | SISugar r => [Z.of_N (Desugar.r_file r)]
    | SILiftError _ _ (Some f) => [Z.of_N f]
    | SIDuplicate d first => [def_file d; def_file first]
    | _ => []
    end.
  Proof. destruct it as [| | | |dd e file|]; try reflexivity. simpl. by destruct e. Qed.
End Stages.
