(* The calculus of Spec.PolyDeg: constants, sums, products (discrete Leibniz
   rule), scalar multiples, congruence modulo p. *)
From Coq Require Import ZArith Lia Arith.
Require Import Model.Ir Spec.PolyDeg.
Local Open Scope Z_scope.

Definition shift (f : Z -> Z) : Z -> Z := fun t => f (t + 1).

Lemma Dn_ext n : forall f g, (forall t, f t = g t) -> forall t, Dn n f t = Dn n g t.
Proof.
  induction n as [|n IH]; intros f g H t; cbn [Dn]; [apply H|].
  apply IH. intros u. unfold Dd. rewrite !H. reflexivity.
Qed.

Lemma Dn_add n : forall f g t, Dn n (fun u => f u + g u) t = Dn n f t + Dn n g t.
Proof.
  induction n as [|n IH]; intros f g t; cbn [Dn]; [reflexivity|].
  rewrite <- IH. apply Dn_ext. intros u. unfold Dd. lia.
Qed.

Lemma Dn_shift n : forall f t, Dn n (shift f) t = Dn n f (t + 1).
Proof.
  induction n as [|n IH]; intros f t; cbn [Dn]; [reflexivity|].
  rewrite <- IH. apply Dn_ext. intros u. reflexivity.
Qed.

Lemma Dn_S_out n : forall f t, Dn (S n) f t = Dd (Dn n f) t.
Proof.
  induction n as [|n IH]; intros f t; [reflexivity|].
  change (Dn (S (S n)) f t) with (Dn (S n) (Dd f) t). rewrite IH. reflexivity.
Qed.

Section Mod.
Variable p : Z.

Lemma Dn_cong n : forall f g, (forall t, f t mod p = g t mod p) -> forall t, Dn n f t mod p = Dn n g t mod p.
Proof.
  induction n as [|n IH]; intros f g H t; cbn [Dn]; [apply H|].
  apply IH. intros u. unfold Dd. rewrite Zminus_mod, (Zminus_mod (g (u + 1))), !H. reflexivity.
Qed.

Lemma zero_after_0_all k f : zero_after p 0 f -> zero_after p k f.
Proof.
  intros H t. rewrite (Dn_cong k f (fun _ => 0)).
  - clear. revert t. induction k as [|k IH]; intros t; cbn [Dn]; [apply Zmod_0_l|].
    rewrite (Dn_ext k (Dd (fun _ => 0)) (fun _ => 0)); [apply IH|]. intros u. unfold Dd. lia.
  - intros u. specialize (H u). cbn [Dn] in H. rewrite H. symmetry. apply Zmod_0_l.
Qed.

Lemma zero_after_S k f : zero_after p k f -> zero_after p (S k) f.
Proof.
  intros H t. rewrite Dn_S_out. unfold Dd. rewrite Zminus_mod, !H. reflexivity.
Qed.

Lemma zero_after_le j k f : (j <= k)%nat -> zero_after p j f -> zero_after p k f.
Proof. intros Hle. induction Hle as [|k Hle IH]; [auto|]. intros Hz. apply zero_after_S. auto. Qed.

Lemma zero_after_shift k f : zero_after p k f -> zero_after p k (shift f).
Proof. intros H t. rewrite Dn_shift. apply H. Qed.

Lemma zero_after_Dd k f : zero_after p (S k) f -> zero_after p k (Dd f).
Proof. intros H t. apply H. Qed.

Lemma zero_after_add k f g : zero_after p k f -> zero_after p k g -> zero_after p k (fun t => f t + g t).
Proof. intros Hf Hg t. rewrite Dn_add, <- Zplus_mod_idemp_l, Hf, Z.add_0_l. apply Hg. Qed.

Lemma zero_mul_l f g : zero_after p 0 f -> zero_after p 0 (fun t => f t * g t).
Proof. unfold zero_after. cbn [Dn]. intros H t. rewrite Zmult_mod, (H t), Z.mul_0_l. apply Zmod_0_l. Qed.

Lemma zero_mul_r f g : zero_after p 0 g -> zero_after p 0 (fun t => f t * g t).
Proof. unfold zero_after. cbn [Dn]. intros H t. rewrite Zmult_mod, (H t), Z.mul_0_r. apply Zmod_0_l. Qed.

Lemma Dd_mul f g t : Dd (fun u => f u * g u) t = shift f t * Dd g t + Dd f t * g t.
Proof. unfold Dd, shift. lia. Qed.

Lemma zero_after_mul : forall n i j f g,
  (i + j = n)%nat -> zero_after p i f -> zero_after p j g ->
  zero_after p (Nat.pred (i + j)) (fun t => f t * g t).
Proof.
  induction n as [|n IH]; intros i j f g Hn Hf Hg.
  - assert (i = 0%nat) by lia. assert (j = 0%nat) by lia. subst. cbn. apply zero_mul_l. exact Hf.
  - destruct i as [|i].
    { apply zero_after_0_all. apply zero_mul_l. exact Hf. }
    destruct j as [|j].
    { apply zero_after_0_all. apply zero_mul_r. exact Hg. }
    replace (Nat.pred (S i + S j)) with (S (i + j)) by lia.
    intros t. change (Dn (S (i + j)) (fun u => f u * g u) t) with (Dn (i + j) (Dd (fun u => f u * g u)) t).
    rewrite (Dn_ext (i + j) _ (fun u => shift f u * Dd g u + Dd f u * g u)) by (intros u; apply Dd_mul).
    apply (zero_after_add (i + j)).
    + assert (H := IH (S i) j (shift f) (Dd g) ltac:(lia) (zero_after_shift _ _ Hf) (zero_after_Dd _ _ Hg)).
      replace (Nat.pred (S i + j)) with (i + j)%nat in H by lia. exact H.
    + assert (H := IH i (S j) (Dd f) g ltac:(lia) (zero_after_Dd _ _ Hf) Hg).
      replace (Nat.pred (i + S j)) with (i + j)%nat in H by lia. exact H.
Qed.

Lemma zero_after_const k c : zero_after p (S k) (fun _ => c).
Proof.
  apply (zero_after_le 1 (S k)); [lia|]. intros t. cbn [Dn]. unfold Dd. rewrite Z.sub_diag. apply Zmod_0_l.
Qed.

Lemma zero_after_scale k c f : zero_after p k f -> zero_after p k (fun t => c * f t).
Proof.
  intros H. destruct k as [|k].
  - apply zero_mul_r. exact H.
  - assert (Hm := zero_after_mul (1 + S k) 1 (S k) (fun _ => c) f eq_refl (zero_after_const 0 c) H).
    exact Hm.
Qed.

Lemma zero_after_mod k f : zero_after p k f -> zero_after p k (fun t => f t mod p).
Proof.
  intros H t. rewrite (Dn_cong k (fun u => f u mod p) f); [apply H|].
  intros u. apply Zmod_mod.
Qed.

Lemma zero_after_opp k f : zero_after p k f -> zero_after p k (fun t => - f t).
Proof.
  intros H. assert (Hs := zero_after_scale k (-1) f H).
  intros t. rewrite (Dn_ext k _ (fun u => -1 * f u)); [apply Hs|]. intros u. lia.
Qed.
End Mod.

Section Val.
Variable V : Type.
Variable line : V -> V -> Z -> V.
Variable p : Z.
Notation Deg := (Deg V line p).
Notation Constant := (Constant V).
Notation SemDeg := (SemDeg V line p).

Lemma Deg_mono m n F : (m <= n)%nat -> Deg m F -> Deg n F.
Proof. intros Hle H rho delta. apply (zero_after_le p (S m) (S n)); [lia|]. apply H. Qed.

Lemma Constant_Deg n F : Constant F -> Deg n F.
Proof.
  intros H rho delta t.
  rewrite (Dn_ext (S n) _ (fun _ => F rho)) by (intros u; apply H).
  apply zero_after_const.
Qed.

Lemma Deg_add m n F G : Deg m F -> Deg n G -> Deg (Nat.max m n) (fun r => (F r + G r) mod p).
Proof.
  intros HF HG rho delta. apply zero_after_mod.
  apply (zero_after_add p (S (Nat.max m n)) (fun t => F (line rho delta t)) (fun t => G (line rho delta t))).
  - apply (zero_after_le p (S m)); [lia|]. apply HF.
  - apply (zero_after_le p (S n)); [lia|]. apply HG.
Qed.

Lemma Deg_ext n (F G : V -> Z) : (forall r, F r = G r) -> Deg n G -> Deg n F.
Proof.
  intros E H rho delta t. rewrite (Dn_ext _ _ (fun u => G (line rho delta u))) by (intros; apply E). apply H.
Qed.

Lemma Deg_sub m n F G : Deg m F -> Deg n G -> Deg (Nat.max m n) (fun r => (F r - G r) mod p).
Proof.
  intros HF HG. apply (Deg_ext _ _ (fun r => (F r + - G r) mod p)); [intros; f_equal; lia|].
  apply Deg_add; [exact HF|]. intros rho delta. apply zero_after_opp. apply HG.
Qed.

Lemma Deg_mul m n F G : Deg m F -> Deg n G -> Deg (m + n) (fun r => (F r * G r) mod p).
Proof.
  intros HF HG rho delta. apply zero_after_mod.
  assert (H := zero_after_mul p (S m + S n) (S m) (S n) (fun t => F (line rho delta t)) (fun t => G (line rho delta t))
                              eq_refl (HF rho delta) (HG rho delta)).
  replace (Nat.pred (S m + S n)) with (S (m + n)) in H by lia. exact H.
Qed.

Lemma Deg_scale n c F : Deg n F -> Deg n (fun r => (F r * c) mod p).
Proof.
  intros HF rho delta. apply zero_after_mod.
  intros t. rewrite (Dn_ext _ _ (fun u => c * F (line rho delta u))) by (intros; lia).
  apply zero_after_scale. apply HF.
Qed.

Lemma Constant_binop (h : Z -> Z -> Z) F G : Constant F -> Constant G -> Constant (fun r => h (F r) (G r)).
Proof. intros HF HG r r'. rewrite (HF r r'), (HG r r'). reflexivity. Qed.

Lemma Constant_unop (h : Z -> Z) F : Constant F -> Constant (fun r => h (F r)).
Proof. intros HF r r'. rewrite (HF r r'). reflexivity. Qed.

Lemma SemDeg_mono a b F : deg_leb a b = true -> SemDeg a F -> SemDeg b F.
Proof.
  destruct a, b; cbn; try discriminate; intros _ H; try exact H; try exact I.
  - apply Constant_Deg. exact H.
  - apply Constant_Deg. exact H.
  - apply (Deg_mono 1 2); [lia|exact H].
Qed.
End Val.
