(* C12: the counting step behind `let complexity = 2 + edges - nodes;` of
   /repo/program_analysis/src/definition_complexity.rs (usize arithmetic,
   evaluated as (2 + edges) - nodes, where edges is the sum of
   `basic_block.successors().len()` and nodes the number of blocks): the
   subtraction cannot underflow on a lifted graph.

   Proved from LiftTheorems.descending_path only: every block j > 0 is the end
   of a non-empty path from block 0, hence the target of an edge; edges with
   different targets are different members of the successor lists; so the
   successor lists together have at least (number of blocks - 1) members.
   ([b_succs] is duplicate-free by C12_at_most_two_succs, so its length is the
   size of the `HashSet` the code asks for.) *)
From stdpp Require Import list list_numbers.
Require Import Model.Lift Spec.CfgSpec Proofs.LiftTheorems.
Import Base(outcome, Ok).

(* edges, as run_complexity_analysis accumulates it *)
Definition edge_count (g : graph) : nat := list_sum (map (fun b => length (b_succs b)) g).

Lemma path_nil_eq g i j : path g i [] j -> i = j.
Proof. by inversion 1. Qed.

Lemma path_last_edge g i l j : path g i l j -> l <> [] -> exists k, edge g k j.
Proof.
  induction 1 as [i Hi|i k l j He Hp IH]; intros Hne; [done|].
  destruct l as [|x l]; [|by apply IH].
  apply path_nil_eq in Hp as <-. by exists i.
Qed.

Lemma nonentry_block_has_incoming_edge body g :
  lift body = Ok g -> forall j, 0 < j -> j < length g -> exists i, edge g i j.
Proof.
  intros Hl j H0 Hj. destruct (descending_path body g Hl j Hj) as (l & Hp & _).
  destruct l as [|x l]; [apply path_nil_eq in Hp; lia|]. by eapply path_last_edge.
Qed.

Lemma edge_target_in_succs g i j : edge g i j -> j ∈ concat (map b_succs g).
Proof.
  intros (b & Hb & Hj). apply elem_of_list_In, in_concat. exists (b_succs b).
  split; [|by apply elem_of_list_In]. apply in_map, elem_of_list_In. by eapply elem_of_list_lookup_2.
Qed.

Lemma edge_count_concat g : edge_count g = length (concat (map b_succs g)).
Proof.
  unfold edge_count. induction g as [|b g IH]; simpl; [done|]. by rewrite app_length, IH.
Qed.

Lemma nodes_le_one_plus_edges body g : lift body = Ok g -> length g <= 1 + edge_count g.
Proof.
  intros Hl. rewrite edge_count_concat.
  assert (H : seq 1 (length g - 1) ⊆+ concat (map b_succs g)).
  { apply NoDup_submseteq; [apply NoDup_seq|]. intros j Hj. apply elem_of_seq in Hj.
    destruct (nonentry_block_has_incoming_edge body g Hl j) as (i & He); [lia|lia|].
    by eapply edge_target_in_succs. }
  apply submseteq_length in H. rewrite seq_length in H. lia.
Qed.

(* the statement in the terms of the code: with nodes = length g and
   edges = edge_count g, nodes <= 2 + edges (no usize underflow) and the
   computed complexity is at least 1 *)
Lemma complexity_no_underflow body g :
  lift body = Ok g ->
  length g <= 1 + list_sum (map (fun b => length (b_succs b)) g) /\
  1 <= 2 + list_sum (map (fun b => length (b_succs b)) g) - length g.
Proof. intros Hl. pose proof (nodes_le_one_plus_edges body g Hl) as H. unfold edge_count in H. lia. Qed.

(* C01 asks for the first half only: `2 + edges - nodes`, evaluated left to right
   on usize (overflow checks on in debug builds), cannot underflow *)
Corollary complexity_does_not_underflow body g : lift body = Ok g ->
  length g <= 2 + list_sum (map (fun b => length (b_succs b)) g).
Proof. intros Hl. destruct (complexity_no_underflow body g Hl). lia. Qed.
