(* C01, bridge between C12 (lifting), C15 (dominator tree) and the three order
   facts that Proofs.SsaNoPanic / Proofs.SsaFuel ask of the children lists:

   * the predecessor / successor lists of a lifted graph form a [rooted] graph in
     the sense of Spec.DomSpec (C12_entry_no_pred, C12_preds_succs_mirror,
     C12_all_reachable), so DominatorTree::new returns a tree (C15_no_panic);
   * a member k of the children set of j in that tree is a block of the graph
     whose immediate dominator is j (the invariant of idom_loop, which also bounds
     the members), j strictly dominates k, hence j < k (C12_dom_implies_le);
   * a children set enumerates without duplicates, and a block has one immediate
     dominator (C15_idom_unique).
   The two path definitions (Spec.CfgSpec: nodes after the start; Spec.DomSpec: all
   nodes) are related by [path_to_dom]. *)
From Coq Require Import ZArith Lia.
From stdpp Require Import list list_numbers sets.
Require Model.Base Model.Lift Model.Dom Spec.CfgSpec Spec.DomSpec Spec.CtlSpec.
Require Proofs.LiftTheorems Proofs.DomProofs.
Require Model.PipelineMirrors Proofs.SsaNoPanic Proofs.SsaDomBridge.

Definition to_dom (g : list Lift.block) : list Dom.node :=
  (λ b, Dom.Node (Lift.b_preds b) (Lift.b_succs b)) <$> g.

Lemma to_dom_length g : length (to_dom g) = length g.
Proof. apply fmap_length. Qed.

Lemma to_dom_lookup g i x :
  to_dom g !! i = Some x ↔ ∃ b, g !! i = Some b ∧ x = Dom.Node (Lift.b_preds b) (Lift.b_succs b).
Proof.
  unfold to_dom. rewrite list_lookup_fmap. destruct (g !! i) as [b|]; simpl; split.
  - intros [= <-]. eauto.
  - intros (b' & [= <-] & ->). done.
  - done.
  - intros (b' & ? & _). done.
Qed.

Lemma edge_to_dom g i k : CfgSpec.edge g i k ↔ DomSpec.edge (to_dom g) i k.
Proof.
  split.
  - intros (b & Hb & Hk). exists (Dom.Node (Lift.b_preds b) (Lift.b_succs b)). split; [|done].
    apply to_dom_lookup. eauto.
  - intros (x & (b & Hb & ->)%to_dom_lookup & Hk). by exists b.
Qed.

Lemma path_to_dom g i l j : CfgSpec.path g i l j → DomSpec.path (to_dom g) i j (i :: l).
Proof.
  induction 1 as [i Hi|i k l j He _ IH].
  - apply DomSpec.path_one. by rewrite to_dom_length.
  - eapply DomSpec.path_cons; [by apply edge_to_dom|done].
Qed.

Lemma path_from_dom g i j l : DomSpec.path (to_dom g) i j l → ∃ l', l = i :: l' ∧ CfgSpec.path g i l' j.
Proof.
  induction 1 as [a Ha|a c b l He _ (l' & -> & Hp)].
  - exists []. split; [done|]. apply CfgSpec.path_nil. by rewrite to_dom_length in Ha.
  - exists (c :: l'). split; [done|]. eapply CfgSpec.path_cons; [by apply edge_to_dom|done].
Qed.

Lemma dom_to_dominates g i j : DomSpec.dom (to_dom g) i j ↔ CfgSpec.dominates g i j.
Proof.
  split.
  - intros H l Hp. apply H. by apply path_to_dom.
  - intros H l (l' & -> & Hp)%path_from_dom. by apply H.
Qed.

Lemma idom_to_dom g d j : DomSpec.idom_spec (to_dom g) d j ↔ CtlSpec.idom_of g d j.
Proof.
  unfold DomSpec.idom_spec, DomSpec.sdom, CtlSpec.idom_of, CtlSpec.sdominates.
  by setoid_rewrite dom_to_dominates.
Qed.

Section Lifted.
  Context (body : Lift.sk) (g : list Lift.block) (Hl : Lift.lift body = Base.Ok g).

  Lemma lifted_nonempty : 0 < length g.
  Proof.
    destruct (LiftTheorems.entry_no_pred body g Hl) as (_ & b0 & H0 & _).
    apply lookup_lt_Some in H0. lia.
  Qed.

  Lemma lifted_rooted : DomSpec.rooted (to_dom g).
  Proof.
    pose proof (LiftTheorems.preds_succs_mirror body g Hl) as Hm.
    split.
    - rewrite to_dom_length. apply lifted_nonempty.
    - intros a x b (ba & Ha & ->)%to_dom_lookup Hb. simpl in Hb. rewrite to_dom_length.
      destruct (proj1 (Hm a b)) as (bj & Hbj & _); [eauto|]. by eapply lookup_lt_Some.
    - intros a x b (ba & Ha & ->)%to_dom_lookup Hb. simpl in Hb. rewrite to_dom_length.
      destruct (proj2 (Hm b a)) as (bi & Hbi & _); [eauto|]. by eapply lookup_lt_Some.
    - intros a b xa xb (ba & Ha & ->)%to_dom_lookup (bb & Hb & ->)%to_dom_lookup. simpl. split.
      + intros H. destruct (proj1 (Hm a b)) as (bj & Hbj & Hin); [eauto|]. congruence.
      + intros H. destruct (proj2 (Hm a b)) as (bi & Hbi & Hin); [eauto|]. congruence.
    - intros x (b0 & H0 & ->)%to_dom_lookup. simpl.
      destruct (LiftTheorems.entry_no_pred body g Hl) as (_ & b0' & H0' & Hp). congruence.
    - intros j Hj. rewrite to_dom_length in Hj.
      destruct (LiftTheorems.all_reachable body g Hl j Hj) as (l & Hp).
      exists (0 :: l). by apply path_to_dom.
  Qed.

  Context (ord : nat → list nat → list nat) (Hord : DomSpec.order_ok ord).

  Lemma lifted_tree : ∃ t, Dom.dominator_tree (Dom.dom_fuel (to_dom g)) ord (to_dom g) = Base.Ok t.
  Proof.
    destruct (DomProofs.dominator_tree_correct (to_dom g) ord lifted_rooted Hord) as (t & Ht & _). eauto.
  Qed.

  Context (t : Dom.dom_tree)
          (Ht : Dom.dominator_tree (Dom.dom_fuel (to_dom g)) ord (to_dom g) = Base.Ok t).

  Lemma children_length : length (Dom.dt_children t) = length g.
  Proof.
    rewrite <- to_dom_length.
    apply (DomProofs.ok_ch_len _ _ (DomProofs.tree_is_ok (to_dom g) ord t lifted_rooted Hord Ht)).
  Qed.

  Lemma frontier_length : length (Dom.dt_frontier t) = length g.
  Proof.
    rewrite <- to_dom_length.
    apply (DomProofs.ok_df_len _ _ (DomProofs.tree_is_ok (to_dom g) ord t lifted_rooted Hord Ht)).
  Qed.

  (* the members of a children set are blocks of the graph with that immediate dominator *)
  Lemma child_spec j k : j < length g → Dom.mem k (Dom.dt_children t !!! j) = true →
    k < length g ∧ DomSpec.idom_spec (to_dom g) j k.
  Proof.
    rewrite <- to_dom_length. exact (DomProofs.child_spec (to_dom g) ord t lifted_rooted Hord Ht j k).
  Qed.

  Lemma child_gt j k : j < length g → Dom.mem k (Dom.dt_children t !!! j) = true → j < k.
  Proof.
    intros Hj Hk. destruct (child_spec j k Hj Hk) as [Hlt [[Hd Hne] _]].
    pose proof (LiftTheorems.dom_implies_le body g Hl j k Hlt (proj1 (dom_to_dominates g j k) Hd)). lia.
  Qed.

  Lemma child_one_parent j j' k : j < length g → j' < length g →
    Dom.mem k (Dom.dt_children t !!! j) = true → Dom.mem k (Dom.dt_children t !!! j') = true → j = j'.
  Proof.
    intros Hj Hj' Hk Hk'. destruct (child_spec j k Hj Hk) as [Hlt Hs]. destruct (child_spec j' k Hj' Hk') as [_ Hs'].
    apply (DomProofs.idom_spec_unique (to_dom g) j j' k lifted_rooted); [by rewrite to_dom_length|done|done].
  Qed.

  Context (horder : list nat → list nat) (Hh : ∀ l, horder l ≡ₚ l).

  (* PipelineMirrors.sets_of is SsaDomBridge.sets_of *)
  Lemma kids_members j k :
    In k (SsaNoPanic.kids (PipelineMirrors.sets_of horder (Dom.dt_children t)) j) ↔
    j < length g ∧ Dom.mem k (Dom.dt_children t !!! j) = true.
  Proof.
    rewrite (SsaDomBridge.kids_sets_of horder Hh), <- children_length. split.
    - intros (m & Hm & Hk). rewrite (list_lookup_total_correct _ _ _ Hm). split; [by eapply lookup_lt_Some|done].
    - intros [Hj Hk]. exists (Dom.dt_children t !!! j). split; [by apply list_lookup_lookup_total_lt|done].
  Qed.

  (* the three order facts of Proofs.SsaNoPanic / Proofs.SsaFuel *)
  Theorem lifted_children_facts :
    let children := PipelineMirrors.sets_of horder (Dom.dt_children t) in
    (∀ j k, In k (SsaNoPanic.kids children j) → j < k ∧ k < length g) ∧
    (∀ j, List.NoDup (SsaNoPanic.kids children j)) ∧
    (∀ j j' k, In k (SsaNoPanic.kids children j) → In k (SsaNoPanic.kids children j') → j = j').
  Proof.
    cbn zeta. split_and!.
    - intros j k [Hj Hk]%kids_members. split; [by apply child_gt|by apply (child_spec j k)].
    - apply (SsaDomBridge.kids_sets_of_nodup horder Hh).
    - intros j j' k [Hj Hk]%kids_members [Hj' Hk']%kids_members. by apply (child_one_parent j j' k).
  Qed.
End Lifted.
