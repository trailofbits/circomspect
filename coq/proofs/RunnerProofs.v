From Coq Require Import ZArith List Bool String Arith Lia Permutation.
Require Import Model.Base Gen.Category Model.Runner Spec.RunnerSpec.
Require Export Proofs.BaseFacts.
Import ListNotations.

Lemma cmp_is_rank_order : forall a b, Category.cmp a b = Nat.compare (rank a) (rank b).
Proof. destruct a, b; reflexivity. Qed.
Lemma ge_is_rank_order : forall a b, Category.ge a b = (rank b <=? rank a)%nat.
Proof. destruct a, b; reflexivity. Qed.
Lemma rank_injective : forall a b, rank a = rank b -> a = b.
Proof. destruct a, b; simpl; congruence. Qed.
Lemma to_level_table :
  Category.to_level Info = SNote /\ Category.to_level Warning = SWarning /\ Category.to_level Error = SError.
Proof. repeat split; reflexivity. Qed.
Lemma from_str_table_covers :
  forall s, In s ["info"; "INFO"; "Info"; "warning"; "WARNING"; "Warning"; "error"; "ERROR"; "Error"; "note"; "warn"; ""]%string ->
  In s (map fst Category.from_str_table).
Proof. intros s H. vm_compute in H. vm_compute. tauto. Qed.

Theorem category_total_order :
  (forall a b, Category.cmp a b = Nat.compare (rank a) (rank b)) /\
  (forall a b, Category.ge a b = (rank b <=? rank a)%nat) /\
  (forall a b, Category.gt a b = (rank b <? rank a)%nat) /\
  (forall a b, Category.le a b = (rank a <=? rank b)%nat) /\
  (forall a b, Category.lt a b = (rank a <? rank b)%nat) /\
  (forall a b, Category.eqb a b = Nat.eqb (rank a) (rank b)) /\
  (Category.to_level Info = SNote /\ Category.to_level Warning = SWarning /\ Category.to_level Error = SError) /\
  forallb (fun e => option_level_eqb (snd e) (spec_from_str (fst e))) Category.from_str_table = true /\
  spec_from_str Category.default_level = Some Warning.
Proof.
  split; [exact cmp_is_rank_order|]. split; [exact ge_is_rank_order|].
  do 4 (split; [intros [] []; reflexivity|]). split; [exact to_level_table|].
  split; vm_compute; reflexivity.
Qed.

Lemma key_eqb_eq : forall a b : key, key_eqb a b = true <-> a = b.
Proof.
  intros [[] na] [[] nb]; unfold key_eqb; simpl; rewrite ?Z.eqb_eq; split; congruence.
Qed.

Lemma key_eqb_spec : forall a b : key, reflect (a = b) (key_eqb a b).
Proof. intros. apply iff_reflect. symmetry. apply key_eqb_eq. Qed.

Lemma key_eqb_refl : forall a, key_eqb a a = true.
Proof. intros. apply key_eqb_eq. reflexivity. Qed.

Lemma key_eqb_neq : forall a b : key, a <> b -> key_eqb a b = false.
Proof. intros a b H. destruct (key_eqb_spec a b); [contradiction|reflexivity]. Qed.

Lemma key_eqb_sym : forall a b, key_eqb a b = key_eqb b a.
Proof. intros. destruct (key_eqb_spec a b), (key_eqb_spec b a); congruence. Qed.

Lemma key_eq_dec : forall a b : key, {a = b} + {a <> b}.
Proof. intros. destruct (key_eqb_spec a b); auto. Qed.

Lemma existsb_eqb_In : forall (A : Type) (eqb : A -> A -> bool),
  (forall a b, eqb a b = true <-> a = b) -> forall x l, existsb (eqb x) l = true <-> In x l.
Proof.
  intros A eqb H x l. rewrite existsb_exists. setoid_rewrite H. split.
  - intros [y [Hy ->]]. exact Hy.
  - eauto.
Qed.

Lemma kmem_In : forall k l, kmem k l = true <-> In k l.
Proof. intros. apply existsb_eqb_In, key_eqb_eq. Qed.

Lemma kmem_insert : forall x k l, kmem x (kinsert k l) = key_eqb x k || kmem x l.
Proof.
  intros. unfold kinsert. destruct (kmem k l) eqn:E; [|reflexivity].
  destruct (key_eqb_spec x k) as [->|]; auto.
Qed.

Lemma kmem_remove : forall x k l, kmem x (kremove k l) = negb (key_eqb k x) && kmem x l.
Proof.
  intros. induction l as [|a l IH]; simpl.
  - symmetry. apply andb_false_r.
  - destruct (key_eqb_spec k a) as [<-|Ha]; simpl; rewrite IH.
    + rewrite (key_eqb_sym x k). destruct (key_eqb k x); reflexivity.
    + destruct (key_eqb_spec x a) as [->|]; [|reflexivity]. rewrite (key_eqb_neq k a Ha). reflexivity.
Qed.

(* the report cache as a finite map: [rc_get] is the lookup, [rc_mem] its domain *)
Lemma rc_mem_get : forall k c, rc_mem k c = match rc_get k c with Some _ => true | None => false end.
Proof.
  intros. induction c as [|[k' rs'] c IH]; simpl; [reflexivity|]. destruct (key_eqb k k'); auto.
Qed.

Lemma rc_mem_false_get : forall k c, rc_mem k c = false -> rc_get k c = None.
Proof. intros k c. rewrite rc_mem_get. destruct (rc_get k c); [discriminate|reflexivity]. Qed.

Lemma rc_get_append : forall x k rs c,
  rc_get x (rc_append k rs c) =
  if key_eqb x k then Some (match rc_get k c with Some rs' => rs' ++ rs | None => rs end) else rc_get x c.
Proof.
  intros. induction c as [|[k' rs'] c IH]; simpl.
  - destruct (key_eqb x k); reflexivity.
  - destruct (key_eqb_spec k k') as [<-|Hk]; simpl.
    + destruct (key_eqb x k); reflexivity.
    + rewrite IH. destruct (key_eqb_spec x k) as [->|]; [|reflexivity]. rewrite (key_eqb_neq k k' Hk). reflexivity.
Qed.

Lemma rc_get_remove : forall x k c, rc_get x (rc_remove k c) = if key_eqb k x then None else rc_get x c.
Proof.
  intros. induction c as [|[k' rs'] c IH]; simpl.
  - destruct (key_eqb k x); reflexivity.
  - destruct (key_eqb_spec k k') as [<-|Hk]; simpl; rewrite IH.
    + rewrite (key_eqb_sym x k). destruct (key_eqb k x); reflexivity.
    + destruct (key_eqb_spec x k') as [->|]; [|reflexivity]. rewrite (key_eqb_neq k k' Hk). reflexivity.
Qed.

Lemma rc_mem_append : forall x k rs c, rc_mem x (rc_append k rs c) = key_eqb x k || rc_mem x c.
Proof. intros. rewrite !rc_mem_get, rc_get_append. destruct (key_eqb x k); reflexivity. Qed.

Lemma rc_mem_remove : forall x k c, rc_mem x (rc_remove k c) = negb (key_eqb k x) && rc_mem x c.
Proof. intros. rewrite !rc_mem_get, rc_get_remove. destruct (key_eqb k x); reflexivity. Qed.

Lemma find_def_In : forall ds k d, find_def ds k = Some d -> In d ds /\ d_key d = k.
Proof.
  induction ds as [|a ds IH]; simpl; intros k d H. discriminate.
  destruct (key_eqb_spec k (d_key a)) as [->|].
  - inversion H; subst. auto.
  - apply IH in H. tauto.
Qed.

Lemma find_def_NoDup : forall ds d, NoDup (map d_key ds) -> In d ds -> find_def ds (d_key d) = Some d.
Proof.
  induction ds as [|a ds IH]; simpl; intros d Hnd Hin. contradiction.
  inversion Hnd as [|? ? Hn Hnd']; subst. destruct Hin as [-> | Hin].
  - rewrite key_eqb_refl. reflexivity.
  - destruct (key_eqb_spec (d_key d) (d_key a)) as [E|]; [|auto].
    destruct Hn. rewrite <- E. apply in_map. assumption.
Qed.

Lemma zmem_In : forall x l, zmem x l = true <-> In x l.
Proof. intros. apply existsb_eqb_In, Z.eqb_eq. Qed.

(* filter_by_file, spelled out *)
Lemma filter_by_file_true : forall r user,
  filter_by_file r user = true <-> r_pfiles r = [] \/ exists f, In f (r_pfiles r) /\ In f user.
Proof.
  intros r user. unfold filter_by_file. destruct (r_pfiles r) as [|f fs].
  - split; auto.
  - rewrite existsb_exists. setoid_rewrite zmem_In. split; [auto|]. intros [H|H]; [discriminate|exact H].
Qed.

Lemma filter_by_file_spec : forall r user,
  filter_by_file r user = true <-> ~ located_only_in_included user r.
Proof.
  intros r user. rewrite filter_by_file_true. unfold located_only_in_included. split.
  - intros [E|(f & Hf & Hu)] [Hne Hall]; [auto|exact (Hall f Hf Hu)].
  - intros H. destruct (r_pfiles r) as [|f fs] eqn:E; [auto|right].
    destruct (existsb (fun x => zmem x user) (f :: fs)) eqn:Ex.
    + apply existsb_exists in Ex. setoid_rewrite zmem_In in Ex. exact Ex.
    + destruct H. split; [discriminate|]. intros x Hx Hu.
      rewrite <- not_true_iff_false, existsb_exists in Ex. apply Ex. exists x. rewrite zmem_In. auto.
Qed.

Lemma passes_filters_keep : forall o user r, passes_filters o user r = true <-> keep o user r.
Proof.
  intros. unfold passes_filters, keep, filter_by_level, filter_by_id.
  rewrite !andb_true_iff, ge_is_rank_order, Nat.leb_le, filter_by_file_spec, negb_true_iff,
    <- not_true_iff_false, zmem_In.
  tauto.
Qed.

Lemma existsb_forallb_negb : forall (A : Type) (f : A -> bool) l,
  existsb f l = negb (forallb (fun x => negb (f x)) l).
Proof. intros. induction l as [|a l IH]; simpl; [reflexivity|]. rewrite IH. destruct (f a); reflexivity. Qed.

(* the executable [keep_b] of the specification is the filter chain *)
Lemma pf_keep_b : forall o user r, passes_filters o user r = keep_b o user r.
Proof.
  intros. unfold passes_filters, keep_b, filter_by_level, filter_by_id, filter_by_file.
  rewrite ge_is_rank_order, <- !andb_assoc. f_equal. rewrite andb_comm. f_equal.
  destruct (r_pfiles r) as [|f fs]; [reflexivity|]. apply existsb_forallb_negb.
Qed.

Lemma keep_b_keep : forall o user r, keep_b o user r = true <-> keep o user r.
Proof. intros. rewrite <- pf_keep_b. apply passes_filters_keep. Qed.

Lemma user_def_b_is_user : forall user d, user_def_b user d = is_user user d.
Proof. reflexivity. Qed.

Lemma user_keys_spec : forall p, user_keys p = map d_key (user_defs p).
Proof. reflexivity. Qed.

Definition lifts (ds : list def) (k : key) : Prop := exists d, find_def ds k = Some d /\ d_err d = None.

Definition lift_reports (d : def) : list report := d_lift d ++ match d_err d with Some e => [e] | None => [] end.

(* P: the definitions still to be analysed *)
Record Inv (ds : list def) (P : key -> Prop) (s : rstate) : Prop := {
  inv_cfg : forall k, kmem k (cfgs s) = true -> lifts ds k;
  inv_failed : forall k, rc_mem k (rcache s) = true -> kmem k (cfgs s) = false -> ~ lifts ds k;
  inv_cached : forall k, P k -> rc_mem k (rcache s) = true ->
      exists d, find_def ds k = Some d /\ rc_get k (rcache s) = Some (lift_reports d) /\
                (d_err d = None -> kmem k (cfgs s) = true);
  inv_fresh : forall k, P k -> rc_mem k (rcache s) = false -> kmem k (cfgs s) = false
}.

Lemma Inv_weaken : forall ds (P Q : key -> Prop) s, Inv ds P s -> (forall k, Q k -> P k) -> Inv ds Q s.
Proof. intros ds P Q s [H1 H2 H3 H4] HQ. constructor; eauto. Qed.

Lemma Inv_init : forall ds P, Inv ds P init.
Proof. intros. constructor; simpl; intros; try discriminate; auto. Qed.

(* states that differ only in the writer part *)
Definition same_caches (s s' : rstate) : Prop := cfgs s' = cfgs s /\ rcache s' = rcache s.

Lemma Inv_same_caches : forall ds P s s', same_caches s s' -> Inv ds P s -> Inv ds P s'.
Proof. intros ds P s s' [E1 E2] [H1 H2 H3 H4]. constructor; rewrite ?E1, ?E2; auto. Qed.

Definition same_writer (s s' : rstate) : Prop :=
  shown s' = shown s /\ written s' = written s /\ cached s' = cached s /\ log s' = log s.

Lemma same_writer_trans : forall s1 s2 s3, same_writer s1 s2 -> same_writer s2 s3 -> same_writer s1 s3.
Proof. unfold same_writer. intros s1 s2 s3 (A & B & C & D) (A' & B' & C' & D'). repeat split; congruence. Qed.

Lemma cache_same_writer : forall ds k s, same_writer s (fst (cache ds k s)).
Proof.
  intros. unfold cache, same_writer.
  destruct (kmem k (cfgs s)); simpl; auto.
  destruct (rc_mem k (rcache s)); simpl; auto.
  destruct (find_def ds k) as [d|]; simpl; auto.
  destruct (d_err d); simpl; auto.
Qed.

Lemma take_same_writer : forall ds k s, same_writer s (fst (take ds k s)).
Proof.
  intros ds k s. unfold take. pose proof (cache_same_writer ds k s) as H.
  destruct (cache ds k s) as [s1 []]; exact H.
Qed.

(* the result of a lookup is a function of the sources *)
Lemma cache_result : forall ds P k s, Inv ds P s -> (snd (cache ds k s) = true <-> lifts ds k).
Proof.
  intros ds P k s [H1 H2 H3 H4]. unfold cache.
  destruct (kmem k (cfgs s)) eqn:E1; simpl; [split; auto|].
  destruct (rc_mem k (rcache s)) eqn:E2; simpl.
  { split; [discriminate|]. intros H. destruct (H2 k E2 E1 H). }
  unfold lifts. destruct (find_def ds k) as [d|]; simpl.
  - destruct (d_err d) eqn:E4; simpl; split; auto.
    + discriminate.
    + intros [d' [[= <-] He]]. congruence.
    + intros _. exists d. auto.
  - split; [discriminate|]. intros [d' [[=] _]].
Qed.

(* a definition enters the caches with the reports of its lift, and with its CFG iff the lift succeeds *)
Lemma Inv_cached : forall ds P k d s s',
  Inv ds P s -> find_def ds k = Some d -> rc_mem k (rcache s) = false ->
  rcache s' = rc_append k (lift_reports d) (rcache s) ->
  (forall x, kmem x (cfgs s') =
             (key_eqb x k && match d_err d with None => true | Some _ => false end) || kmem x (cfgs s)) ->
  Inv ds P s'.
Proof.
  intros ds P k d s s' [H1 H2 H3 H4] Hd E2 Er Ec.
  constructor; intros x; rewrite ?Er, ?Ec, ?rc_mem_append, ?rc_get_append, ?(rc_mem_false_get k _ E2);
    destruct (key_eqb_spec x k) as [->|]; simpl; auto.
  - destruct (d_err d) eqn:E; simpl; [auto|]. intros _. exists d. auto.
  - destruct (d_err d) eqn:E; simpl; [|intros _ [=]]. intros _ _ [d' [Hd' He]]. congruence.
  - intros _ _. exists d. split; [exact Hd|]. split; [reflexivity|]. intros ->. reflexivity.
  - discriminate.
Qed.

Lemma cache_preserves : forall ds P k s, Inv ds P s -> Inv ds P (fst (cache ds k s)).
Proof.
  intros ds P k s HI. unfold cache.
  destruct (kmem k (cfgs s)) eqn:E1; simpl; auto.
  destruct (rc_mem k (rcache s)) eqn:E2; simpl; auto.
  destruct (find_def ds k) as [d|] eqn:E3; simpl; auto.
  destruct (d_err d) as [e|] eqn:E4; simpl; apply (Inv_cached ds P k d s); auto; unfold lift_reports; simpl;
    rewrite ?E4, ?app_nil_r; auto.
  - intros x. rewrite andb_false_r. reflexivity.
  - intros x. rewrite kmem_insert, andb_true_r. reflexivity.
Qed.

Lemma lookups_preserve : forall ds P ns s, Inv ds P s -> Inv ds P (fold_left (lookup ds) ns s).
Proof.
  intros ds P ns. induction ns as [|n ns IH]; simpl; intros s HI; auto.
  apply IH. unfold lookup. apply cache_preserves. assumption.
Qed.

Lemma lookups_same_writer : forall ds ns s, same_writer s (fold_left (lookup ds) ns s).
Proof.
  intros ds ns. induction ns as [|n ns IH]; simpl; intros s.
  - unfold same_writer; auto.
  - apply (same_writer_trans _ (lookup ds s n)); [apply cache_same_writer|apply IH].
Qed.

(* after any lookups a further lookup returns Ok exactly when the template lifts
   ([cache_result] in the state [lookups_preserve] gives) *)
Lemma lookups_results : forall ds P ns s, Inv ds P s ->
  forall pre n post, ns = pre ++ n :: post ->
  (snd (cache ds (KTemplate, n) (fold_left (lookup ds) pre s)) = true <-> lifts ds (KTemplate, n)).
Proof.
  intros ds P ns s HI pre n post _. eapply cache_result. apply lookups_preserve. eassumption.
Qed.

(* what writing the reports [rs] adds, after a message and steps that leave the writer alone *)
Lemma write_after_message : forall m o user rs s s2, same_writer (write_message m s) s2 ->
  let s' := write_reports o user rs s2 in
  let out := filter (passes_filters o user) rs in
  shown s' = shown s ++ out /\ written s' = (written s + length out)%nat /\
  cached s' = cached s ++ rs /\ log s' = log s ++ [m].
Proof. intros m o user rs s s2 (A & B & C & D). simpl. rewrite A, B, C, D. auto. Qed.

(* a lookup of a definition still to be analysed leaves the reports of its lift in the cache *)
Lemma cache_entry : forall ds P k d s, Inv ds P s -> P k -> find_def ds k = Some d ->
  rc_get k (rcache (fst (cache ds k s))) = Some (lift_reports d) /\
  (snd (cache ds k s) = true <-> d_err d = None).
Proof.
  intros ds P k d s HI Pk Hd.
  assert (Hm : rc_mem k (rcache (fst (cache ds k s))) = true).
  { unfold cache. destruct (rc_mem k (rcache s)) eqn:E2.
    - destruct (kmem k (cfgs s)); exact E2.
    - rewrite (inv_fresh _ _ _ HI k Pk E2), Hd. destruct (d_err d); simpl; rewrite rc_mem_append, key_eqb_refl; reflexivity. }
  destruct (inv_cached _ _ _ (cache_preserves ds P k s HI) k Pk Hm) as [d' [Hd' [Hg _]]].
  rewrite Hd in Hd'. injection Hd' as <-. split; [exact Hg|].
  rewrite (cache_result ds P k s HI). unfold lifts. rewrite Hd. split; [|eauto].
  intros [d' [[= <-] He]]. exact He.
Qed.

(* the definition is taken out of both caches *)
Lemma Inv_taken : forall ds P k s s', Inv ds P s ->
  rcache s' = rc_remove k (rcache s) ->
  (forall x, kmem x (cfgs s') = negb (key_eqb k x) && kmem x (cfgs s)) ->
  Inv ds (fun x => P x /\ x <> k) s'.
Proof.
  intros ds P k s s' [H1 H2 H3 H4] Er Ec.
  constructor; intros x; rewrite ?Er, ?Ec, ?rc_mem_remove, ?rc_get_remove;
    destruct (key_eqb_spec k x) as [->|]; simpl; auto; try discriminate.
  - intros [Px _]. auto.
  - intros [Px _]. auto.
Qed.

(* its CFG is put back *)
Lemma Inv_replace : forall ds (P : key -> Prop) k s, Inv ds P s -> lifts ds k -> ~ P k -> Inv ds P (replace k s).
Proof.
  intros ds P k s [H1 H2 H3 H4] Hl Hk.
  constructor; simpl; intros x; rewrite kmem_insert; destruct (key_eqb_spec x k) as [->|]; simpl; auto;
    try contradiction.
  intros _ [=].
Qed.

Lemma produced_def_alt : forall d, produced_def d = lift_reports d ++ match d_err d with Some _ => [] | None => d_pass d end.
Proof. intros. unfold produced_def, lift_reports. destruct (d_err d); simpl; rewrite app_nil_r; reflexivity. Qed.

Lemma analyze_spec : forall ds o user (P : key -> Prop) s k d,
  Inv ds P s -> P k -> find_def ds k = Some d ->
  let s' := analyze ds o user s k in
  let out := filter (passes_filters o user) (produced_def d) in
  shown s' = shown s ++ out /\
  written s' = (written s + length out)%nat /\
  cached s' = cached s ++ produced_def d /\
  log s' = log s ++ [MAnalyzing k] /\
  Inv ds (fun x => P x /\ x <> k) s'.
Proof.
  intros ds o user P s k d HI Pk Hd. unfold analyze, take.
  set (s0 := write_message (MAnalyzing k) s).
  assert (HI0 : Inv ds P s0) by (revert HI; apply Inv_same_caches; split; reflexivity).
  destruct (cache_entry ds P k d s0 HI0 Pk Hd) as [Hg Hok].
  pose proof (cache_preserves ds P k s0 HI0) as HI1.
  pose proof (cache_same_writer ds k s0) as Hw.
  destruct (cache ds k s0) as [s1 ok]. cbn [fst snd] in *.
  rewrite produced_def_alt.
  destruct ok; unfold take_reports; cbv beta iota; cbn [rcache]; rewrite Hg.
  - (* the lift succeeds: the passes run *)
    rewrite Hd, (proj1 Hok eq_refl).
    set (s2 := mkState _ _ _ _ _ _).
    assert (HI2 : Inv ds (fun x => P x /\ x <> k) s2).
    { apply (Inv_taken ds P k s1); [exact HI1|reflexivity|]. intros x. apply kmem_remove. }
    repeat apply conj;
      try apply (write_after_message _ o user _ s (replace k (fold_left (lookup ds) (d_lookups d) s2))
                   (same_writer_trans s0 s2 _ Hw (lookups_same_writer ds (d_lookups d) s2))).
    apply (Inv_same_caches _ _ (replace k (fold_left (lookup ds) (d_lookups d) s2))); [split; reflexivity|].
    apply Inv_replace; [apply lookups_preserve; exact HI2| |intros [_ H]; exact (H eq_refl)].
    exists d. split; [exact Hd|]. apply Hok. reflexivity.
  - (* the lift fails: the cached reports end with the error *)
    assert (He : d_err d <> None) by (intros He; apply Hok in He; discriminate).
    destruct (d_err d) as [e|] eqn:Ee; [|contradiction]. rewrite app_nil_r.
    set (s2 := mkState _ _ _ _ _ _).
    repeat apply conj; try apply (write_after_message _ o user _ s s2 Hw).
    apply (Inv_same_caches _ _ s2); [split; reflexivity|].
    apply (Inv_taken ds P k s1); [exact HI1|reflexivity|]. intros x. cbn [cfgs s2].
    destruct (key_eqb_spec k x) as [<-|]; [|reflexivity].
    destruct (kmem k (cfgs s1)) eqn:Ek; [|reflexivity].
    apply (inv_cfg _ _ _ HI1) in Ek as [d' [Hd' He']]. congruence.
Qed.

(* In every state of every run (any project, any order) stdout is the cache of
   the writer, filtered, and [written] counts it. *)
Definition tidy (o : opts) (user : list Z) (s : rstate) : Prop :=
  shown s = filter (passes_filters o user) (cached s) /\ written s = length (shown s).

Lemma tidy_same_writer : forall o user s s', same_writer s s' -> tidy o user s -> tidy o user s'.
Proof. unfold tidy. intros o user s s' (A & B & C & _) H. rewrite A, B, C. exact H. Qed.

Lemma write_reports_tidy : forall o user rs s, tidy o user s -> tidy o user (write_reports o user rs s).
Proof. unfold tidy. intros o user rs s [A B]. simpl. rewrite B, A, filter_app, app_length. auto. Qed.

Lemma analyze_tidy : forall ds o user s k, tidy o user s -> tidy o user (analyze ds o user s k).
Proof.
  intros ds o user s k H. unfold analyze.
  pose proof (take_same_writer ds k (write_message (MAnalyzing k) s)) as T.
  destruct (take ds k (write_message (MAnalyzing k) s)) as [s1 ok]. cbn [fst] in T. unfold take_reports.
  set (s2 := mkState _ _ _ _ _ _).
  assert (H2 : tidy o user s2) by exact (tidy_same_writer o user (write_message (MAnalyzing k) s) s2 T H).
  destruct ok; [destruct (find_def ds k) as [d|]|]; apply write_reports_tidy; try exact H2.
  exact (tidy_same_writer o user s2 _ (lookups_same_writer ds (d_lookups d) s2) H2).
Qed.

Lemma fold_analyze_tidy : forall ds o user order s,
  tidy o user s -> tidy o user (fold_left (analyze ds o user) order s).
Proof.
  intros ds o user order. induction order as [|k rest IH]; simpl; intros s H; auto using analyze_tidy.
Qed.

(* main, for every project, option set and list of keys *)
Lemma run_keys_any : forall p o order,
  let s1 := fold_left (analyze (p_defs p) o (p_user p)) order (write_reports o (p_user p) (p_parse p) init) in
  let out := filter (passes_filters o (p_user p)) (cached s1) in
  let r := run_keys p o order in
  res_shown r = out /\
  res_summary r = length out /\
  res_exit r = (match length out with O => 0 | _ => 1 end)%Z /\
  res_sarif r = (if o_sarif o then Some (out, rules_of out) else None) /\
  res_log r = log s1
              ++ (if o_sarif o && (0 <? length out)%nat then [MSarifWritten] else [])
              ++ [MSummary (length out)].
Proof.
  intros p o order s1 out.
  assert (T : tidy o (p_user p) s1).
  { apply fold_analyze_tidy, write_reports_tidy. split; reflexivity. }
  destruct T as [A B]. fold out in A. rewrite A in B.
  unfold run_keys. fold s1. fold out.
  destruct (o_sarif o); [destruct (0 <? length out)%nat|]; simpl; rewrite A, B, <- ?app_assoc; auto.
Qed.

Lemma exit_by_count : forall p o order,
  res_exit (run_keys p o order) = match length (res_shown (run_keys p o order)) with O => 0%Z | S _ => 1%Z end.
Proof. intros. destruct (run_keys_any p o order) as (A & _ & C & _). rewrite C, A. reflexivity. Qed.

Definition produced_of_key (ds : list def) (k : key) : list report :=
  match find_def ds k with Some d => produced_def d | None => [] end.

(* the definitions of [pre] are analysed, those of [rest] are still to come *)
Lemma fold_analyze_spec : forall ds o user pre rest s,
  NoDup (pre ++ rest) -> (forall k, In k pre -> exists d, find_def ds k = Some d) ->
  Inv ds (fun x => In x (pre ++ rest)) s ->
  let s' := fold_left (analyze ds o user) pre s in
  cached s' = cached s ++ flat_map (produced_of_key ds) pre /\
  log s' = log s ++ map MAnalyzing pre /\
  Inv ds (fun x => In x rest) s'.
Proof.
  intros ds o user pre. induction pre as [|k pre IH]; intros rest s Hnd Hdef HI; simpl.
  - rewrite !app_nil_r. auto.
  - inversion Hnd as [|? ? Hnotin Hnd']; subst.
    destruct (Hdef k (or_introl eq_refl)) as [d Hd].
    destruct (analyze_spec ds o user _ s k d HI (or_introl eq_refl) Hd) as (_ & _ & C & D & HI1).
    destruct (IH rest (analyze ds o user s k) Hnd' (fun x Hx => Hdef x (or_intror Hx))) as (C' & D' & HI').
    { apply (Inv_weaken _ _ _ _ HI1). intros x Hx. split; [right; exact Hx|]. intros ->. contradiction. }
    unfold produced_of_key at 1. rewrite Hd, C', D', C, D, <- !app_assoc. auto.
Qed.

Definition all_reports (p : project) (order : list key) : list report :=
  p_parse p ++ flat_map (produced_of_key (p_defs p)) order.

Definition ok_order (p : project) (order : list key) : Prop :=
  NoDup order /\ forall k, In k order -> exists d, find_def (p_defs p) k = Some d.

Lemma run_keys_spec : forall p o order, ok_order p order ->
  let out := filter (passes_filters o (p_user p)) (all_reports p order) in
  let r := run_keys p o order in
  res_shown r = out /\
  res_summary r = length out /\
  res_exit r = (match length out with O => 0 | _ => 1 end)%Z /\
  res_sarif r = (if o_sarif o then Some (out, rules_of out) else None) /\
  res_log r = map MAnalyzing order
              ++ (if o_sarif o && (0 <? length out)%nat then [MSarifWritten] else [])
              ++ [MSummary (length out)].
Proof.
  intros p o order [Hnd Hdef].
  destruct (fold_analyze_spec (p_defs p) o (p_user p) order [] (write_reports o (p_user p) (p_parse p) init))
    as (C & D & _).
  - rewrite app_nil_r. exact Hnd.
  - exact Hdef.
  - apply (Inv_same_caches _ _ init); [split; reflexivity|apply Inv_init].
  - pose proof (run_keys_any p o order) as H. cbv zeta in H. rewrite C, D in H. exact H.
Qed.

Lemma NoDup_map_filter : forall (A B : Type) (f : A -> B) g l, NoDup (map f l) -> NoDup (map f (filter g l)).
Proof.
  intros A B f g l. induction l as [|a l IH]; simpl; intros H; auto.
  inversion H as [|? ? Hn Hl]; subst. destruct (g a); simpl; auto.
  constructor; auto. intro Hin. apply Hn. apply in_map_iff in Hin. destruct Hin as [x [Hx Hin]].
  apply filter_In in Hin. destruct Hin. apply in_map_iff. eauto.
Qed.

Lemma user_def_found : forall p d, wf_project p -> In d (user_defs p) -> find_def (p_defs p) (d_key d) = Some d.
Proof. intros p d Hwf Hd. apply filter_In in Hd. apply find_def_NoDup; tauto. Qed.

Lemma analysis_order_ok : forall p order, wf_project p -> analysis_order p order -> ok_order p order.
Proof.
  intros p order Hwf Hperm. split.
  - apply (Permutation_NoDup (Permutation_sym Hperm)). apply NoDup_map_filter. exact Hwf.
  - intros k Hk. apply (Permutation_in _ Hperm), in_map_iff in Hk. destruct Hk as [d [<- Hd]].
    exists d. apply user_def_found; assumption.
Qed.

Lemma Permutation_filter' : forall (A : Type) (f : A -> bool) l l', Permutation l l' -> Permutation (filter f l) (filter f l').
Proof.
  intros A f l l' H. induction H; simpl.
  - constructor.
  - destruct (f x); auto.
  - destruct (f x), (f y); auto. apply perm_swap.
  - eapply Permutation_trans; eauto.
Qed.


Lemma flat_map_ext_in : forall (A B : Type) (f g : A -> list B) l,
  (forall x, In x l -> f x = g x) -> flat_map f l = flat_map g l.
Proof.
  intros A B f g l. induction l as [|a l IH]; simpl; intros H; auto.
  rewrite (H a (or_introl eq_refl)), IH; auto.
Qed.

Lemma all_reports_produced : forall p order, wf_project p -> analysis_order p order ->
  Permutation (all_reports p order) (produced p).
Proof.
  intros p order Hwf Hperm. unfold all_reports, produced. apply Permutation_app_head.
  rewrite Hperm, flat_map_concat_map, map_map, <- flat_map_concat_map.
  erewrite flat_map_ext_in; [reflexivity|]. intros d Hd. unfold produced_of_key.
  rewrite (user_def_found p d Hwf Hd). reflexivity.
Qed.

Lemma filter_pf_keep_b : forall o user l, filter (passes_filters o user) l = filter (keep_b o user) l.
Proof. intros. apply filter_ext. intros. apply pf_keep_b. Qed.

Theorem conservation : forall p o order, wf_project p -> analysis_order p order ->
  Permutation (res_shown (run_keys p o order)) (filter (keep_b o (p_user p)) (produced p)).
Proof.
  intros p o order Hwf Hord.
  destruct (run_keys_spec p o order (analysis_order_ok p order Hwf Hord)) as [A _]. rewrite A.
  rewrite filter_pf_keep_b. apply Permutation_filter'. apply all_reports_produced; assumption.
Qed.

Theorem displayed_iff_kept : forall p o order r, wf_project p -> analysis_order p order ->
  (In r (res_shown (run_keys p o order)) <-> In r (produced p) /\ keep o (p_user p) r).
Proof.
  intros p o order r Hwf Hord. pose proof (conservation p o order Hwf Hord) as H.
  rewrite <- keep_b_keep, <- filter_In. split; apply Permutation_in; [|symmetry]; exact H.
Qed.

Theorem exit_zero_iff_nothing_displayed : forall p o order, wf_project p -> analysis_order p order ->
  (res_exit (run_keys p o order) = 0%Z <-> res_shown (run_keys p o order) = []) /\
  (res_exit (run_keys p o order) = 0%Z \/ res_exit (run_keys p o order) = 1%Z).
Proof.
  intros p o order _ _. rewrite exit_by_count.
  destruct (res_shown (run_keys p o order)); simpl; (split; [split|]); auto; discriminate.
Qed.

Theorem summary_counts_displayed : forall p o order, wf_project p -> analysis_order p order ->
  res_summary (run_keys p o order) = length (res_shown (run_keys p o order)) /\
  exists pre, res_log (run_keys p o order) = pre ++ [MSummary (length (res_shown (run_keys p o order)))].
Proof.
  intros p o order _ _. destruct (run_keys_any p o order) as (A & B & _ & _ & E).
  rewrite A, B, E. split; auto. eexists. rewrite app_assoc. reflexivity.
Qed.

Lemma rule_eqb_eq : forall a b, rule_eqb a b = true <-> a = b.
Proof.
  intros [n i] [n' i']. unfold rule_eqb. simpl. rewrite andb_true_iff, !Z.eqb_eq. split; [intros [-> ->]|intros [= -> ->]]; auto.
Qed.

Lemma rules_of_spec : forall rs, NoDup (rules_of rs) /\ forall x, In x (rules_of rs) <-> exists r, In r rs /\ x = (r_name r, r_id r).
Proof.
  induction rs as [|r rs [IH1 IH2]]; simpl.
  - split; [constructor|]. intros x. split; [intros []|intros [r [[] _]]].
  - pose proof (existsb_eqb_In _ _ rule_eqb_eq (r_name r, r_id r) (rules_of rs)) as Hex.
    destruct (existsb (rule_eqb (r_name r, r_id r)) (rules_of rs)).
    + split; [exact IH1|]. intros x. rewrite IH2. split.
      * intros [r' [Hr' Hx]]. eauto.
      * intros [r' [[<- | Hr'] ->]]; [|eauto]. apply IH2, Hex. reflexivity.
    + split.
      * constructor; [|exact IH1]. rewrite <- Hex. discriminate.
      * intros x. simpl. rewrite IH2. split.
        -- intros [<- | [r' [Hr' Hx]]]; eauto.
        -- intros [r' [[<- | Hr'] Hx]]; eauto.
Qed.

Theorem sarif_equals_displayed : forall p o order, wf_project p -> analysis_order p order ->
  match res_sarif (run_keys p o order) with
  | None => o_sarif o = false
  | Some (results, rules) =>
      o_sarif o = true /\
      results = res_shown (run_keys p o order) /\
      NoDup rules /\
      (forall x, In x rules <-> exists r, In r results /\ x = (r_name r, r_id r)) /\
      (In MSarifWritten (res_log (run_keys p o order)) <-> results <> [])
  end.
Proof.
  intros p o order Hwf Hord.
  destruct (run_keys_spec p o order (analysis_order_ok p order Hwf Hord)) as [A [_ [_ [D E]]]].
  rewrite D, A, E. destruct (o_sarif o); auto.
  split; auto. split; auto. destruct (rules_of_spec (filter (passes_filters o (p_user p)) (all_reports p order))) as [R1 R2].
  split; auto. split; auto. simpl.
  destruct (filter (passes_filters o (p_user p)) (all_reports p order)) as [|x l]; simpl.
  - split. 2: congruence. intros Hin. apply in_app_or in Hin. destruct Hin as [Hin | [Hin | []]]; [|discriminate].
    apply in_map_iff in Hin. destruct Hin as [k [Hk _]]. discriminate.
  - split. discriminate. intros _. apply in_or_app. right. left. reflexivity.
Qed.

Lemma filter_nil : forall (A : Type) (f : A -> bool) l, (forall x, In x l -> f x = false) -> filter f l = [].
Proof.
  intros A f l. induction l as [|a l IH]; simpl; intros H; [reflexivity|].
  rewrite (H a (or_introl eq_refl)). apply IH. intros x Hx. apply H. right. exact Hx.
Qed.

Lemma filter_filter_implies : forall (A : Type) (f g : A -> bool) l,
  (forall x, f x = true -> g x = true) -> filter f (filter g l) = filter f l.
Proof.
  intros A f g l H. induction l as [|a l IH]; simpl; auto.
  destruct (g a) eqn:Eg; simpl.
  - destruct (f a); rewrite IH; reflexivity.
  - destruct (f a) eqn:Ef. rewrite (H a Ef) in Eg. discriminate. assumption.
Qed.

(* the displayed list under any options is the displayed list under the most
   permissive options, filtered (as lists, not only as multisets) *)
Theorem filter_law : forall p o order, wf_project p -> analysis_order p order ->
  res_shown (run_keys p o order) =
  filter (keep_b o (p_user p)) (res_shown (run_keys p (bottom o) order)) /\
  Permutation (res_shown (run_keys p (bottom o) order)) (filter (fun r => negb (match r_pfiles r with [] => false | _ => true end && forallb (fun f => negb (existsb (Z.eqb f) (p_user p))) (r_pfiles r))) (produced p)).
Proof.
  intros p o order Hwf Hord. split.
  - pose proof (analysis_order_ok p order Hwf Hord) as Hok.
    destruct (run_keys_spec p o order Hok) as [A _]. destruct (run_keys_spec p (bottom o) order Hok) as [A' _].
    rewrite A, A'. rewrite <- filter_pf_keep_b. symmetry. apply filter_filter_implies.
    intros x Hx. unfold passes_filters in *. simpl. apply andb_true_iff in Hx. destruct Hx as [Hx _].
    apply andb_true_iff in Hx. destruct Hx as [_ Hx]. rewrite Hx. unfold filter_by_level.
    destruct (r_level x); reflexivity.
  - rewrite (conservation p (bottom o) order Hwf Hord). erewrite filter_ext; [reflexivity|].
    intros r. unfold keep_b, bottom. simpl. destruct (r_pfiles r); reflexivity.
Qed.

(* monotonicity over the lattice of levels and allow-sets *)
Theorem filter_monotone : forall p o1 o2 order r, wf_project p -> analysis_order p order ->
  (rank (o_level o1) <= rank (o_level o2))%nat -> incl (o_allow o1) (o_allow o2) ->
  In r (res_shown (run_keys p o2 order)) -> In r (res_shown (run_keys p o1 order)).
Proof.
  intros p o1 o2 order r Hwf Hord Hl Ha Hin.
  apply displayed_iff_kept in Hin; auto. apply displayed_iff_kept; auto.
  destruct Hin as [Hp [K1 [K2 K3]]]. split; auto. split. lia. split; auto.
Qed.

Theorem verbose_invariant : forall p o order,
  let o' := mkOpts (o_level o) (o_allow o) (negb (o_verbose o)) (o_sarif o) in
  res_shown (run_keys p o' order) = res_shown (run_keys p o order) /\
  res_exit (run_keys p o' order) = res_exit (run_keys p o order) /\
  res_summary (run_keys p o' order) = res_summary (run_keys p o order) /\
  res_sarif (run_keys p o' order) = res_sarif (run_keys p o order) /\
  res_log (run_keys p o' order) = res_log (run_keys p o order).
Proof.
  intros p o order o'.
  assert (Hf : forall l s, fold_left (analyze (p_defs p) o' (p_user p)) l s = fold_left (analyze (p_defs p) o (p_user p)) l s).
  { induction l; simpl; intros; auto. }
  unfold run_keys. rewrite Hf. repeat split; reflexivity.
Qed.

Lemma error_passes_level : forall r lv, r_level r = Error -> (rank lv <= rank (r_level r))%nat.
Proof. intros r lv H. rewrite H. destruct lv; simpl; lia. Qed.

(* Two projects that produce the same findings up to a renaming [g] of the
   reports which the filters do not see display the same (renamed) findings
   and exit alike.  The order theorems below are instances. *)
Theorem renamed_findings_same_display : forall (g : report -> report) p1 p2 o order1 order2,
  wf_project p1 -> wf_project p2 -> analysis_order p1 order1 -> analysis_order p2 order2 ->
  Permutation (produced p1) (map g (produced p2)) ->
  (forall r, keep_b o (p_user p1) (g r) = keep_b o (p_user p2) r) ->
  Permutation (res_shown (run_keys p1 o order1)) (map g (res_shown (run_keys p2 o order2))) /\
  res_exit (run_keys p1 o order1) = res_exit (run_keys p2 o order2).
Proof.
  intros g p1 p2 o order1 order2 W1 W2 O1 O2 Hp Hk.
  assert (HP : Permutation (res_shown (run_keys p1 o order1)) (map g (res_shown (run_keys p2 o order2)))).
  { rewrite (conservation p1 o order1 W1 O1), (conservation p2 o order2 W2 O2).
    rewrite <- (filter_map_comm g _ _ _ Hk). apply Permutation_filter', Hp. }
  split; [exact HP|]. rewrite !exit_by_count, (Permutation_length HP), map_length. reflexivity.
Qed.

Corollary same_findings_same_display : forall p1 p2 o order1 order2,
  wf_project p1 -> wf_project p2 -> analysis_order p1 order1 -> analysis_order p2 order2 ->
  Permutation (produced p1) (produced p2) -> p_user p1 = p_user p2 ->
  Permutation (res_shown (run_keys p1 o order1)) (res_shown (run_keys p2 o order2)) /\
  res_exit (run_keys p1 o order1) = res_exit (run_keys p2 o order2).
Proof.
  intros p1 p2 o order1 order2 W1 W2 O1 O2 Hp Hu.
  rewrite <- (map_id (res_shown (run_keys p2 o order2))).
  apply renamed_findings_same_display; rewrite ?map_id, ?Hu; auto.
Qed.

Theorem runner_order_independent : forall p o order1 order2,
  wf_project p -> analysis_order p order1 -> analysis_order p order2 ->
  Permutation (res_shown (run_keys p o order1)) (res_shown (run_keys p o order2)) /\
  res_exit (run_keys p o order1) = res_exit (run_keys p o order2) /\
  res_summary (run_keys p o order1) = res_summary (run_keys p o order2) /\
  match res_sarif (run_keys p o order1), res_sarif (run_keys p o order2) with
  | Some (r1, _), Some (r2, _) => Permutation r1 r2
  | None, None => True
  | _, _ => False
  end.
Proof.
  intros p o o1 o2 Hwf H1 H2.
  destruct (same_findings_same_display p p o o1 o2 Hwf Hwf H1 H2 (Permutation_refl _) eq_refl) as [HP He].
  destruct (run_keys_any p o o1) as (A1 & B1 & _ & D1 & _).
  destruct (run_keys_any p o o2) as (A2 & B2 & _ & D2 & _).
  split; [exact HP|]. split; [exact He|]. rewrite B1, B2, D1, D2, <- A1, <- A2.
  split; [exact (Permutation_length HP)|]. destruct (o_sarif o); [exact HP|exact I].
Qed.


Definition add_defs (p : project) (extra : list def) : project :=
  mkProject (p_parse p) (p_defs p ++ extra) (p_user p).

Theorem unreferenced_definitions_irrelevant : forall p extra o order order',
  wf_project (add_defs p extra) -> analysis_order p order -> analysis_order (add_defs p extra) order' ->
  Permutation (res_shown (run_keys (add_defs p extra) o order'))
              (res_shown (run_keys p o order)
               ++ filter (keep_b o (p_user p)) (flat_map produced_def (filter (user_def_b (p_user p)) extra))).
Proof.
  intros p extra o order order' Hwf' Hord Hord'.
  assert (Hwf : wf_project p).
  { unfold wf_project in *. simpl in Hwf'. rewrite map_app in Hwf'. eapply NoDup_app_l. exact Hwf'. }
  rewrite (conservation _ o order' Hwf' Hord'), (conservation p o order Hwf Hord).
  unfold produced, user_defs, add_defs. simpl.
  rewrite (filter_app (user_def_b (p_user p))), flat_map_app, app_assoc, (filter_app (keep_b o (p_user p))).
  reflexivity.
Qed.

Corollary included_definitions_irrelevant : forall p extra o order,
  wf_project (add_defs p extra) -> analysis_order p order ->
  (forall d, In d extra -> user_def_b (p_user p) d = false) ->
  analysis_order (add_defs p extra) order /\
  Permutation (res_shown (run_keys (add_defs p extra) o order)) (res_shown (run_keys p o order)).
Proof.
  intros p extra o order Hwf' Hord Hnu.
  pose proof (filter_nil _ _ extra Hnu) as Hf.
  assert (Hord' : analysis_order (add_defs p extra) order).
  { unfold analysis_order, user_defs, add_defs in *. simpl. rewrite filter_app, Hf, app_nil_r. assumption. }
  split; auto.
  rewrite (unreferenced_definitions_irrelevant p extra o order order Hwf' Hord Hord'), Hf. simpl.
  rewrite app_nil_r. reflexivity.
Qed.

Lemma lib_insert_fresh : forall d m, ~ In (d_key d) (map d_key m) -> lib_insert d m = m ++ [d].
Proof.
  intros d m. induction m as [|a m IH]; simpl; intros H; auto.
  rewrite key_eqb_neq. rewrite IH; auto. intro E. apply H. left. auto.
Qed.

Lemma has_duplicate_b_NoDup : forall l, has_duplicate_b l = false <-> NoDup l.
Proof.
  induction l as [|k l IH]; simpl.
  - split; auto. constructor.
  - rewrite orb_false_iff, IH, <- not_true_iff_false, kmem_In. split.
    + intros [H1 H2]. constructor; auto.
    + intros H. inversion H; subst. auto.
Qed.

Lemma KF_duplicate_definition_decides : forall srcs,
  KF_duplicate_definition_b srcs = false <-> NoDup (map d_key srcs).
Proof. intros. apply has_duplicate_b_NoDup. Qed.

Lemma build_library_nodup_gen : forall srcs m, NoDup (map d_key (m ++ srcs)) ->
  fold_left (fun m d => lib_insert d m) srcs m = m ++ srcs.
Proof.
  induction srcs as [|d srcs IH]; simpl; intros m H.
  - rewrite app_nil_r. reflexivity.
  - rewrite lib_insert_fresh.
    + rewrite IH. rewrite <- app_assoc. reflexivity. rewrite <- app_assoc. simpl. assumption.
    + rewrite map_app in H. simpl in H. apply NoDup_remove_2 in H. intro Hin. apply H. apply in_or_app. left. assumption.
Qed.

Lemma build_library_nodup : forall srcs, KF_duplicate_definition_b srcs = false -> build_library srcs = srcs.
Proof.
  intros srcs H. unfold build_library. rewrite build_library_nodup_gen; auto.
  simpl. apply has_duplicate_b_NoDup. assumption.
Qed.

Definition with_defs (p : project) (ds : list def) : project := mkProject (p_parse p) ds (p_user p).

Lemma produced_perm : forall parse1 parse2 ds1 ds2 user,
  Permutation parse1 parse2 -> Permutation ds1 ds2 ->
  Permutation (produced (mkProject parse1 ds1 user)) (produced (mkProject parse2 ds2 user)).
Proof.
  intros. unfold produced, user_defs. simpl. apply Permutation_app; auto.
  apply Permutation_flat_map. apply Permutation_filter'. assumption.
Qed.

Theorem file_order_irrelevant : forall parse1 parse2 srcs1 srcs2 user o order1 order2,
  Permutation parse1 parse2 -> Permutation srcs1 srcs2 ->
  KF_duplicate_definition_b srcs1 = false ->
  let p1 := mkProject parse1 (build_library srcs1) user in
  let p2 := mkProject parse2 (build_library srcs2) user in
  analysis_order p1 order1 -> analysis_order p2 order2 ->
  Permutation (res_shown (run_keys p1 o order1)) (res_shown (run_keys p2 o order2)) /\
  res_exit (run_keys p1 o order1) = res_exit (run_keys p2 o order2).
Proof.
  intros parse1 parse2 srcs1 srcs2 user o order1 order2 Hp Hs Hkf p1 p2 H1 H2.
  assert (Hkf2 : KF_duplicate_definition_b srcs2 = false).
  { apply has_duplicate_b_NoDup in Hkf. apply has_duplicate_b_NoDup. rewrite <- Hs. exact Hkf. }
  unfold p1, p2 in *. rewrite (build_library_nodup _ Hkf), (build_library_nodup _ Hkf2) in *.
  apply same_findings_same_display; auto; try (apply has_duplicate_b_NoDup; assumption).
  apply produced_perm; assumption.
Qed.

(* D22: with a duplicated name the order in which the sources are inserted
   decides which definition is analysed *)
Definition kf_report : report := mkReport Warning 5 5 [0%Z] 1.
Definition kf_def_a : def := mkDef KTemplate 7 0 [] None [] [].
Definition kf_def_b : def := mkDef KTemplate 7 1 [] None [kf_report] [].
Definition kf_opts : opts := mkOpts Warning [] false false.

Theorem file_order_refuted_with_duplicates :
  exists srcs1 srcs2 user o order,
    Permutation srcs1 srcs2 /\ KF_duplicate_definition_b srcs1 = true /\
    analysis_order (mkProject [] (build_library srcs1) user) order /\
    analysis_order (mkProject [] (build_library srcs2) user) order /\
    ~ Permutation (res_shown (run_keys (mkProject [] (build_library srcs1) user) o order))
                  (res_shown (run_keys (mkProject [] (build_library srcs2) user) o order)) /\
    res_exit (run_keys (mkProject [] (build_library srcs1) user) o order) <>
    res_exit (run_keys (mkProject [] (build_library srcs2) user) o order).
Proof.
  exists [kf_def_a; kf_def_b], [kf_def_b; kf_def_a], [0%Z; 1%Z], kf_opts, [(KTemplate, 7%Z)].
  split. apply perm_swap. split. reflexivity.
  split. vm_compute. apply Permutation_refl.
  split. vm_compute. apply Permutation_refl.
  split.
  - vm_compute. intro H. apply Permutation_length in H. discriminate.
  - vm_compute. discriminate.
Qed.

(* the same at the level of the duplicate-overwriting map: one definition is
   dropped without any report (C02) *)
Theorem duplicate_definition_dropped_silently :
  exists srcs user o order d,
    KF_duplicate_definition_b srcs = true /\ In d srcs /\ user_def_b user d = true /\
    analysis_order (mkProject [] (build_library srcs) user) order /\
    ~ In d (build_library srcs) /\
    res_exit (run_keys (mkProject [] (build_library srcs) user) o order) = 0%Z.
Proof.
  exists [kf_def_b; kf_def_a], [0%Z; 1%Z], kf_opts, [(KTemplate, 7%Z)], kf_def_b.
  split. reflexivity. split. left; reflexivity. split. reflexivity.
  split. vm_compute. apply Permutation_refl.
  split.
  - vm_compute. intros [H | []]. discriminate.
  - vm_compute. reflexivity.
Qed.
