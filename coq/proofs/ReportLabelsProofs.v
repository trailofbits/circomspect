(* Lemmas for Model.ReportLabels (C03). *)
From Coq Require Import ZArith List Bool Lia.
Require Import Model.ReportLabels.
(* [zmem] is Model.Runner's, word for word: its membership lemma is taken from Proofs.RunnerProofs *)
Require Model.Runner Spec.RunnerSpec Proofs.RunnerProofs.
Import ListNotations.
Local Open Scope Z_scope.

Definition primary_ops (ops : list label_op) : list label :=
  flat_map (fun op => match op with OpPrimary l => [l] | OpSecondary _ => [] end) ops.
Definition secondary_ops (ops : list label_op) : list label :=
  flat_map (fun op => match op with OpSecondary l => [l] | OpPrimary _ => [] end) ops.

Lemma fold_build : forall ops r,
  lr_pfiles (fold_left apply_op ops r) = lr_pfiles r ++ map l_file (primary_ops ops) /\
  lr_primary (fold_left apply_op ops r) = lr_primary r ++ primary_ops ops /\
  lr_secondary (fold_left apply_op ops r) = lr_secondary r ++ secondary_ops ops.
Proof.
  induction ops as [|op ops IH]; intros r; simpl.
  - rewrite !app_nil_r. auto.
  - destruct (IH (apply_op r op)) as (H1 & H2 & H3). rewrite H1, H2, H3.
    destruct op; simpl; rewrite <- ?app_assoc; simpl; auto.
Qed.

(* whatever sequence of add_primary / add_secondary calls built the report: primary_file_ids is the list of the file
   ids of the primary labels, in order; secondary labels never contribute *)
Lemma pfiles_are_primary_label_files : forall ops,
  lr_pfiles (build ops) = map l_file (lr_primary (build ops)) /\
  lr_primary (build ops) = primary_ops ops /\
  lr_secondary (build ops) = secondary_ops ops.
Proof.
  intros ops. unfold build. destruct (fold_build ops new_report) as (H1 & H2 & H3).
  simpl in *. rewrite H1, H2, H3. auto.
Qed.

(* the file filter, read on the labels: a report built by any producer passes iff it has no primary label or one of
   its primary labels lies in a user input — i.e. it is dropped iff it HAS primary labels and ALL of them lie in files
   that were only included *)
Lemma filter_by_file_on_labels : forall user ops,
  filter_by_file user (lr_pfiles (build ops)) = true <->
  (lr_primary (build ops) = [] \/ exists l, In l (lr_primary (build ops)) /\ In (l_file l) user).
Proof.
  intros user ops. destruct (pfiles_are_primary_label_files ops) as (-> & _ & _).
  destruct (lr_primary (build ops)) as [|l0 ls]; [split; auto|].
  change (filter_by_file user ?fs) with (existsb (fun f => zmem f user) fs).
  rewrite existsb_exists. split.
  - intros (f & Hf & Hm). apply in_map_iff in Hf. destruct Hf as (l & <- & Hl).
    apply RunnerProofs.zmem_In in Hm. right. exists l. auto.
  - intros [E|(l & Hl & Hu)]; [discriminate|].
    exists (l_file l). split; [apply in_map; exact Hl|apply RunnerProofs.zmem_In; exact Hu].
Qed.

Lemma dropped_iff_all_primary_labels_included_only : forall user ops,
  filter_by_file user (lr_pfiles (build ops)) = false <->
  (lr_primary (build ops) <> [] /\ forall l, In l (lr_primary (build ops)) -> ~ In (l_file l) user).
Proof.
  intros user ops. rewrite <- not_true_iff_false, filter_by_file_on_labels. split.
  - intros H. split.
    + intros E. apply H. left. exact E.
    + intros l Hl Hu. apply H. right. exists l. auto.
  - intros (Hne & Hall) [E|(l & Hl & Hu)].
    + exact (Hne E).
    + exact (Hall l Hl Hu).
Qed.

(* ---- the link to Model.Runner / Spec.RunnerSpec: for a report whose [r_pfiles] a producer built with
   add_primary / add_secondary, "located solely in a file that was only included" (the spec's reading of r_pfiles) is a
   statement about its primary LABELS, and Model.Runner's file filter is the one above ---- *)

Lemma runner_filter_is_filter_by_file : forall r user,
  Runner.filter_by_file r user = filter_by_file user (Runner.r_pfiles r).
Proof. intros r user. unfold Runner.filter_by_file, filter_by_file. destruct (Runner.r_pfiles r); reflexivity. Qed.

Lemma located_only_in_included_on_labels : forall user ops (r : Runner.report),
  Runner.r_pfiles r = lr_pfiles (build ops) ->
  (RunnerSpec.located_only_in_included user r <->
   lr_primary (build ops) <> [] /\ forall l, In l (lr_primary (build ops)) -> ~ In (l_file l) user).
Proof.
  intros user ops r E. unfold RunnerSpec.located_only_in_included. rewrite E.
  destruct (pfiles_are_primary_label_files ops) as (-> & _ & _).
  split; intros (Hne & Hall); split.
  - intros E0. apply Hne. rewrite E0. reflexivity.
  - intros l Hl. apply Hall, in_map, Hl.
  - intros E0. apply Hne, (map_eq_nil _ _ E0).
  - intros f Hf. apply in_map_iff in Hf. destruct Hf as (l & <- & Hl). apply Hall, Hl.
Qed.
