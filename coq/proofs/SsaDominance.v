(* C14: the SSA construction mirror Model.Ssa.into_ssa yields a graph on which every path from
   the entry executes (Spec.SsaSpec.exec_path): the argument of Cytron et al.
   H1 (Proofs.SsaPhiPlacement): when the work list of phi insertion ends, placement is closed
     under the frontier table: a block that assigns x, or has a phi for x, gives every block of
     its frontier row a phi for x.
   H2 ([no_phi_same_version]): if s has no phi for x then along every edge p -> s the version of
     x at the end of p is the version where renaming enters s.  Renaming enters s with the
     environment at the end of idom(s); a block on the tree path from idom(s) down to p that
     assigned x would dominate p and not strictly dominate s, so s would lie in its frontier and
     have a phi for x by H1.
   The tree walk is followed through a ghost log (Proofs.SsaRenameInv): one entry per renamed
   block, with the environment at its entry, its renamed statements and the environment at its
   exit; [eanc] is the tree order among the entries.  A walk through the output then executes
   edge by edge ([step]): the phis of s list the version at the end of p (the invariant of the
   log), and behind the phis the running map is the environment in which the body of s was
   renamed (H2).
   Each hypothesis is used (Module Needed): without the tag agreement phi insertion (reads the
   tag) and renaming (reads the declarations) disagree about which variables are versioned; an
   update expression below the top of an assignment, or of another variable, introduces a version
   the validator's running map does not know; a repeated parameter gets version 1 in the
   environment and 0 in the parameter list. *)
From Coq Require Import ZArith NArith List Bool Arith.
Require Import Model.Base Model.Ir Model.SsaCheck Model.SsaErase Model.Ssa Model.SsaPre.
Require Import Spec.SsaSpec Spec.SsaDomSpec.
Require Import Proofs.IrInd Proofs.IrFacts Proofs.SsaNoPanic Proofs.SsaFuel Proofs.SsaConstruction Proofs.SsaProofs.
Require Import Proofs.SsaDomTheory Proofs.SsaPhiPlacement Proofs.SsaRenameSem Proofs.SsaRenameInv.
Import ListNotations.

Lemma NoDup_map_inj {A B} (f : A -> B) : forall l x y, NoDup (map f l) -> In x l -> In y l -> f x = f y -> x = y.
Proof.
  induction l as [|a tl IH]; intros x y Hnd Hx Hy Hf; [destruct Hx|].
  cbn [map] in Hnd. inversion Hnd as [|? ? Hn Hnd']; subst.
  destruct Hx as [<-|Hx], Hy as [<-|Hy].
  - reflexivity.
  - exfalso. apply Hn. rewrite Hf. apply in_map. exact Hy.
  - exfalso. apply Hn. rewrite <- Hf. apply in_map. exact Hx.
  - eapply IH; eassumption.
Qed.

Lemma stmt_nophi_not_phi s : stmt_nophi s = true -> is_phi_stmt s = false.
Proof.
  destruct s as [| | |m v op rhe sv st| | |]; try reflexivity. destruct rhe; try reflexivity. discriminate.
Qed.

Lemma fold_track_strip : forall ss m, fold_left track (map strip ss) m = fold_left track ss m.
Proof. induction ss as [|s tl IH]; intros m; [reflexivity|]. cbn [map fold_left]. rewrite track_strip. apply IH. Qed.

Lemma map_strip_nophi l : Forall (fun s => is_phi_stmt s = false) l -> map strip l = l.
Proof. induction 1 as [|s tl Hs _ IH]; [reflexivity|]. cbn [map]. rewrite (strip_not_phi s Hs), IH. reflexivity. Qed.

Lemma leading_phis_map (f : stmt -> stmt) : (forall s, is_phi_stmt (f s) = is_phi_stmt s) ->
  forall ss, leading_phis (map f ss) = (map f (fst (leading_phis ss)), map f (snd (leading_phis ss))).
Proof.
  intros Hf. induction ss as [|s tl IH]; [reflexivity|]. cbn [map leading_phis]. rewrite Hf.
  destruct (is_phi_stmt s); [|reflexivity]. rewrite IH. destruct (leading_phis tl). reflexivity.
Qed.

Lemma update_decl_stmt_phi_id env s : is_phi_stmt s = true -> update_decl_stmt env s = s.
Proof. destruct s; try discriminate. reflexivity. Qed.

Lemma body_run_update_decl env : forall ss m,
  body_run m (map (update_decl_stmt env) ss) = body_run m ss.
Proof.
  induction ss as [|s tl IH]; intros m; [reflexivity|]. cbn [map body_run].
  pose proof (update_decl_stmt_same (fun s => (body_stmt_ok m s, track m s)) (fun _ _ _ _ => eq_refl) env s) as E.
  injection E as E1 E2. rewrite E1, E2, IH. reflexivity.
Qed.

(* update_decl_stmt changes nothing the dynamic statement looks at *)
Lemma enter_block_update_decl env L b :
  enter_block L (set_stmts b (map (update_decl_stmt env) (b_stmts b))) = enter_block L b.
Proof.
  unfold enter_block. cbn [set_stmts b_stmts]. rewrite (leading_phis_map _ (update_decl_stmt_phi env)).
  pose proof (leading_phis_are_phis (b_stmts b) _ _ (surjective_pairing _)) as HP.
  destruct (leading_phis (b_stmts b)) as [phis body]. cbn [fst snd] in *.
  assert (E : map (update_decl_stmt env) phis = phis).
  { clear -HP. induction HP as [|p tl Hp _ IH]; [reflexivity|]. cbn [map]. rewrite (update_decl_stmt_phi_id env p Hp), IH. reflexivity. }
  rewrite E, body_run_update_decl. reflexivity.
Qed.

Lemma fold_next_params : forall ps env m,
  se_scoped env = [m] -> (forall p, In p ps -> vget (se_global env) (key_of p) = None) -> NoDup (map key_of ps) ->
  se_scoped (fold_left (fun e x => snd (next_version e x)) ps env) =
  [fold_left (fun m0 x => vset m0 (key_of x) 0%N) ps m].
Proof.
  induction ps as [|p tl IH]; intros env m Hs Hg Hnd; [exact Hs|]. cbn [fold_left map] in *.
  inversion Hnd as [|? ? Hn Hnd']; subst. apply IH.
  - unfold next_version. cbn [snd se_scoped]. rewrite Hs, (Hg p (or_introl eq_refl)). reflexivity.
  - intros q Hq. unfold next_version. cbn [snd se_global]. rewrite vget_vset.
    destruct (key_eqb (key_of p) (key_of q)) eqn:Ek.
    + apply key_eqb_eq in Ek. exfalso. apply Hn. rewrite Ek. apply in_map. exact Hq.
    + apply Hg. right. exact Hq.
  - exact Hnd'.
Qed.

Lemma params_map_versioned : forall ps m,
  fold_left (fun m0 x => match vn_version x with Some n => vset m0 (key_of x) n | None => m0 end)
            (map (fun x => with_version x 0%N) ps) m =
  fold_left (fun m0 x => vset m0 (key_of x) 0%N) ps m.
Proof. induction ps as [|p tl IH]; intros m; [reflexivity|]. cbn [map fold_left]. apply IH. Qed.

Lemma params_env0 ps : NoDup (map key_of ps) ->
  meq (params_map (map (fun x => with_version x 0%N) ps))
      (flat (fold_left (fun e x => snd (next_version e x)) ps {| se_global := []; se_scoped := [[]] |})).
Proof.
  intros Hnd. unfold flat.
  rewrite (fold_next_params ps {| se_global := []; se_scoped := [[]] |} [] eq_refl); [|intros; reflexivity|exact Hnd].
  unfold params_map. rewrite params_map_versioned. cbn [concat]. rewrite app_nil_r. apply meq_refl.
Qed.

Lemma fold_next_scoped_ne : forall ps env, se_scoped env <> [] ->
  se_scoped (fold_left (fun e x => snd (next_version e x)) ps env) <> [].
Proof. induction ps as [|p tl IH]; intros env H; [exact H|]. cbn [fold_left]. apply IH. apply next_scoped_ne. Qed.

Lemma forallb2_In {A B} (f : A -> list B) (g : B -> bool) l :
  forallb (fun a => forallb g (f a)) l = true -> forall a b, In a l -> In b (f a) -> g b = true.
Proof.
  intros H a b Ha Hb. rewrite forallb_forall in H. specialize (H a Ha). rewrite forallb_forall in H. exact (H b Hb).
Qed.

Lemma wr_stmt b v : In v (wr b) ->
  exists m op rhe sv, In (SSubst m v op rhe sv (Some TLocal)) (b_stmts b).
Proof.
  unfold wr. intros H. apply in_flat_map in H. destruct H as (s & Hs & Hv).
  destruct s as [| | |m x op rhe sv st| | |]; try (destruct Hv; fail). cbn [stmt_local_written] in Hv.
  destruct st as [[]|]; try (destruct Hv; fail). destruct Hv as [<-|[]]. eauto.
Qed.

Lemma stmt_wr b m v op rhe sv : In (SSubst m v op rhe sv (Some TLocal)) (b_stmts b) -> In v (wr b).
Proof. intros H. unfold wr. apply in_flat_map. eexists. split; [exact H|]. left. reflexivity. Qed.

Record dyn_hyps (c : cfg) : Prop := {
  dh_nophi : forall b s, In b (c_blocks c) -> In s (b_stmts b) -> stmt_nophi s = true;
  dh_pos : 0 < length (c_blocks c);
  dh_unv : forall b s, In b (c_blocks c) -> In s (b_stmts b) -> stmt_unvb s = true;
  dh_upd : forall b s, In b (c_blocks c) -> In s (b_stmts b) -> stmt_upd_ok s = true;
  dh_tag : forall b s, In b (c_blocks c) -> In s (b_stmts b) -> stmt_tag_ok (c_decls c) s = true;
  dh_par : NoDup (map key_of (c_params c));
  dh_suc : forall b s, In b (c_blocks c) -> In s (b_succs b) -> N.to_nat s < length (c_blocks c) /\ s <> 0%N
}.

Lemma dyn_pre_unpack c : ssa_dyn_pre_ok c = true -> dyn_hyps c.
Proof.
  unfold ssa_dyn_pre_ok. rewrite !andb_true_iff. intros ((((((Hp & Hn) & Hu) & Hd) & Ht) & Hk) & Hs).
  unfold pre_ssa_ok in Hp. rewrite !andb_true_iff in Hp. destruct Hp as ((Hpf & _) & _).
  constructor.
  - exact (forallb2_In b_stmts stmt_nophi _ Hpf).
  - apply Nat.ltb_lt. exact Hn.
  - exact (forallb2_In b_stmts stmt_unvb _ Hu).
  - exact (forallb2_In b_stmts stmt_upd_ok _ Hd).
  - exact (forallb2_In b_stmts (stmt_tag_ok (c_decls c)) _ Ht).
  - exact (nodupb_NoDup key_eqb keys_nodup key_eqb_refl (fun _ _ => eq_refl) _ Hk).
  - intros b s Hb Hs0. pose proof (forallb2_In b_succs _ _ Hs b s Hb Hs0) as H. cbn beta in H.
    apply andb_true_iff in H as [H1 H2]. split; [apply Nat.ltb_lt; exact H1|].
    apply negb_true_iff in H2. apply N.eqb_neq. exact H2.
Qed.

Lemma children_tree_unpack children n : children_treeb children n = true ->
  NoDup (preorder (S n) children 0) /\ (forall i, In i (preorder (S n) children 0) -> i < n) /\
  (forall i, i < n -> In i (preorder (S n) children 0)).
Proof.
  unfold children_treeb. rewrite !andb_true_iff. intros ((H1 & H2) & H3). split; [exact (nodupb_NoDup Nat.eqb nats_nodup Nat.eqb_refl (fun _ _ => eq_refl) _ H1)|]. split.
  - intros i Hi. rewrite forallb_forall in H2. apply Nat.ltb_lt. exact (H2 i Hi).
  - exact (children_coverb_spec children n H3).
Qed.

Section Main.
Variable c : cfg.
Variables frontier children : list (list N).
Notation bs0 := (c_blocks c).
Notation decls := (c_decls c).
Notation n := (length (c_blocks c)).

Hypothesis HH : dyn_hyps c.
Hypothesis Hnd : NoDup (preorder (S n) children 0).
Hypothesis Hrange : forall i, In i (preorder (S n) children 0) -> i < n.
Hypothesis Hcover : forall i, i < n -> In i (preorder (S n) children 0).
Hypothesis Hreach : creach c.
Hypothesis Hkids : children_sound c children.
Hypothesis Hfr : frontier_exact c frontier.

Variable fuel : nat.
Variables bs1 bs2 : list block.
Variable envF : senv.
Definition env0 : senv :=
  fold_left (fun env x => snd (next_version env x)) (c_params c) {| se_global := []; se_scoped := [[]] |}.
Hypothesis Hins : insert_phis fuel frontier bs0 (rev (seq 0 n)) = SOk bs1.
Hypothesis Hren : rename_tree (S n) decls children 0 bs1 env0 = SOk (bs2, envF).

Lemma wr_facts b0 v : In b0 bs0 -> In v (wr b0) -> vn_version v = None /\ is_local_in decls v = true.
Proof.
  intros Hb Hv. destruct (wr_stmt _ _ Hv) as (m & op & rhe & sv & Hs). split.
  - pose proof (dh_unv c HH _ _ Hb Hs) as Hu. cbn [stmt_unvb] in Hu. apply andb_true_iff in Hu as [Hu _].
    apply isnoneb_true. exact Hu.
  - pose proof (dh_tag c HH _ _ Hb Hs) as Ht. cbn [stmt_tag_ok] in Ht. apply eqb_prop in Ht. exact Ht.
Qed.

Lemma placement : Forall2 (placed bs0) bs0 bs1 /\ forall a, closed_at frontier bs1 a.
Proof. exact (phi_placement frontier bs0 (fun b0 v Hb Hv => proj1 (wr_facts b0 v Hb Hv)) fuel bs1 Hins). Qed.

Lemma len1 : length bs1 = n.
Proof. destruct placement as [H _]. clear -H. induction H; simpl; congruence. Qed.

(* block i after phi insertion *)
Lemma block1 i b1 : nth_error bs1 i = Some b1 ->
  exists b0 vs, nth_error bs0 i = Some b0 /\ b_succs b1 = b_succs b0 /\
    b_stmts b1 = map phi_stmt_for vs ++ b_stmts b0 /\
    forall v, In v vs -> vn_version v = None /\ is_local_in decls v = true.
Proof.
  intros Hb1. destruct placement as [HP _]. destruct (forall2_nth _ _ _ _ _ HP Hb1) as (b0 & Hb0 & (Su & vs & Hs & Hvs)).
  exists b0, vs. repeat split; auto.
  - apply Hvs. exact H.
  - destruct (Hvs v H) as [_ (b00 & Hb00 & Hw)]. exact (proj2 (wr_facts b00 v Hb00 Hw)).
Qed.

Lemma block0_stmts i b0 s : nth_error bs0 i = Some b0 -> In s (b_stmts b0) ->
  stmt_nophi s = true /\ stmt_unvb s = true /\ stmt_upd_ok s = true /\ stmt_tag_ok decls s = true.
Proof.
  intros Hb Hs. apply nth_error_In in Hb. repeat split.
  - eapply (dh_nophi c HH); eassumption. - eapply (dh_unv c HH); eassumption.
  - eapply (dh_upd c HH); eassumption. - eapply (dh_tag c HH); eassumption.
Qed.

(* the inserted phis are as the hypotheses say of the original statements *)
Lemma block1_stmts i b1 s : nth_error bs1 i = Some b1 -> In s (b_stmts b1) ->
  stmt_unvb s = true /\ stmt_upd_ok s = true /\ stmt_tag_ok decls s = true.
Proof.
  intros Hb1 Hs. destruct (block1 i b1 Hb1) as (b0 & vs & Hb0 & _ & E & Hvs). rewrite E in Hs.
  apply in_app_or in Hs as [Hs|Hs]; [|apply (block0_stmts i b0 s Hb0 Hs)].
  apply in_map_iff in Hs as (v & <- & Hv). repeat split. cbn [phi_stmt_for stmt_tag_ok].
  rewrite (is_local_in_key decls (without_version v) v eq_refl), (proj2 (Hvs v Hv)). reflexivity.
Qed.

Lemma block0_forallb i b0 (f : stmt -> bool) : nth_error bs0 i = Some b0 ->
  (forall s, In s (b_stmts b0) -> f s = true) -> forallb f (b_stmts b0) = true.
Proof. intros _ H. apply forallb_forall. exact H. Qed.

Lemma block0_no_phi i b0 : nth_error bs0 i = Some b0 -> Forall (fun s => is_phi_stmt s = false) (b_stmts b0).
Proof. intros Hb0. apply Forall_forall. intros s Hs. apply stmt_nophi_not_phi. apply (block0_stmts i b0 s Hb0 Hs). Qed.

Lemma block1_strip i b1 : nth_error bs1 i = Some b1 -> map strip (b_stmts b1) = b_stmts b1.
Proof.
  intros Hb1. destruct (block1 i b1 Hb1) as (b0 & vs & Hb0 & _ & Hs & _). rewrite Hs, map_app. f_equal.
  - rewrite map_map. apply map_ext. intros v. reflexivity.
  - apply map_strip_nophi. eapply block0_no_phi. exact Hb0.
Qed.

Lemma all_phis_placed vs : all_phis (map phi_stmt_for vs).
Proof. apply Forall_forall. intros s Hs. apply in_map_iff in Hs. destruct Hs as (v & <- & _). reflexivity. Qed.

Lemma head_ok (B : list stmt) : Forall (fun s => is_phi_stmt s = false) B ->
  match B with [] => True | s :: _ => is_phi_stmt s = false end.
Proof. intros H. destruct B; [exact I|]. inversion H. assumption. Qed.

Lemma block1_phis i b1 b0 vs : nth_error bs0 i = Some b0 -> b_stmts b1 = map phi_stmt_for vs ++ b_stmts b0 ->
  phis_of b1 = map phi_stmt_for vs.
Proof.
  intros Hb0 Hs. unfold phis_of. rewrite Hs, leading_phis_split; [reflexivity|apply all_phis_placed|].
  apply head_ok. eapply block0_no_phi. exact Hb0.
Qed.

Lemma block1_keyed i b1 : nth_error bs1 i = Some b1 -> args_keyed b1.
Proof.
  intros Hb1. destruct (block1 i b1 Hb1) as (b0 & vs & Hb0 & _ & Hs & _).
  intros p x args a Hp Hpp Ha. rewrite (block1_phis i b1 b0 vs Hb0 Hs) in Hp. apply in_map_iff in Hp.
  destruct Hp as (v & <- & _). cbn in Hpp. inversion Hpp; subst. destruct Ha.
Qed.

(* a phi for v stands in block b1 exactly when v is among the inserted variables *)
Lemma has_phi_vs i b1 b0 vs v : nth_error bs0 i = Some b0 -> b_stmts b1 = map phi_stmt_for vs ++ b_stmts b0 ->
  (forall w, In w vs -> vn_version w = None) -> has_phi v b1 = true -> In v vs.
Proof.
  intros Hb0 Hs Hvs H. apply has_phi_exists in H. destruct H as (s & Hin & Hp). rewrite Hs in Hin.
  apply in_app_or in Hin. destruct Hin as [Hin|Hin].
  - apply in_map_iff in Hin. destruct Hin as (w & <- & Hw). cbn [phi_stmt_for is_phi_for] in Hp.
    apply vname_eqb_eq in Hp. rewrite (without_version_unv w (Hvs w Hw)) in Hp. subst v. exact Hw.
  - exfalso. pose proof (block0_no_phi i b0 Hb0) as HF. rewrite Forall_forall in HF. specialize (HF s Hin).
    destruct s as [| | |m x op rhe sv st| | |]; try discriminate Hp. destruct rhe; try discriminate Hp. discriminate HF.
Qed.

Lemma env0_ne : se_scoped env0 <> [].
Proof. unfold env0. apply fold_next_scoped_ne. discriminate. Qed.

Lemma inv2_init : inv2 decls bs1 bs1 [].
Proof.
  constructor.
  - reflexivity.
  - intros i b b1 H1 H2. congruence.
  - exact block1_keyed.
  - intros e [].
  - intros e [].
  - intros i b _ Hb. exists b. split; [exact Hb|]. eapply block1_strip. exact Hb.
  - intros e s b1 bsucc [].
Qed.

Lemma walk_log : exists e0 rest,
  let LOG := e0 :: rest in
  inv2 decls bs1 bs2 LOG /\ map le_idx LOG = preorder (S n) children 0 /\ le_idx e0 = 0 /\ le_in e0 = env0 /\
  (forall e, In e LOG -> eanc children LOG e0 e).
Proof.
  destruct (rename_tree_log decls children bs1 (S n) 0 bs1 env0 bs2 envF [] Hren inv2_init) as (e0 & rest & H1 & H2 & H3 & H4 & _ & H6).
  - intros i _ [].
  - exact Hnd.
  - exact env0_ne.
  - exists e0, rest. cbn [app] in H1. auto.
Qed.

Section WithLog.
Variable e0 : lentry.
Variable rest : list lentry.
Notation LOG := (e0 :: rest).
Hypothesis HI : inv2 decls bs1 bs2 LOG.
Hypothesis Hidx : map le_idx LOG = preorder (S n) children 0.
Hypothesis He0i : le_idx e0 = 0.
Hypothesis He0e : le_in e0 = env0.
Hypothesis Hanc : forall e, In e LOG -> eanc children LOG e0 e.

Lemma log_unique x y : In x LOG -> In y LOG -> le_idx x = le_idx y -> x = y.
Proof. intros Hx Hy. apply (NoDup_map_inj le_idx LOG x y); [rewrite Hidx; exact Hnd|exact Hx|exact Hy]. Qed.

Lemma log_cover i : i < n -> exists e, In e LOG /\ le_idx e = i.
Proof.
  intros Hi. pose proof (Hcover i Hi) as H. rewrite <- Hidx in H. apply in_map_iff in H.
  destruct H as (e & He & Hin). eauto.
Qed.

Lemma log_lt e : In e LOG -> le_idx e < n.
Proof. intros He. apply Hrange. rewrite <- Hidx. apply in_map. exact He. Qed.

Lemma parent_idom pe e : parent_of children pe e -> cidom c (le_idx pe) (le_idx e).
Proof.
  intros [Hk _]. unfold kids in Hk. apply in_map_iff in Hk. destruct Hk as (k & <- & Hk). apply Hkids. exact Hk.
Qed.

Lemma eanc_dom x y : eanc children LOG x y -> cdom c (le_idx x) (le_idx y).
Proof.
  induction 1 as [He|b d Hab IH Hd Hbd]; [apply cdom_refl|].
  eapply cdom_trans; [exact IH|]. apply cidom_dom. apply parent_idom. exact Hbd.
Qed.

(* every dominator of a block is met on the way up the tree *)
Lemma dom_chain e : eanc children LOG e0 e -> forall d, cdom c d (le_idx e) ->
  exists pe, In pe LOG /\ le_idx pe = d /\ eanc children LOG pe e.
Proof.
  induction 1 as [He|b x Hab IH Hx Hbx]; intros d Hd.
  - exists e0. split; [exact He|]. split; [|apply eanc_refl; exact He].
    rewrite He0i in *. symmetry. apply (cdom_entry c d (dh_pos c HH) Hd).
  - destruct (Nat.eq_dec d (le_idx x)) as [->|Hne].
    + exists x. split; [exact Hx|]. split; [reflexivity|apply eanc_refl; exact Hx].
    + destruct (parent_idom b x Hbx) as [_ Hall]. assert (Hdb : cdom c d (le_idx b)) by (apply Hall; split; assumption).
      destruct (IH d Hdb) as (pe & Hpe & Hpi & Hpa). exists pe. split; [exact Hpe|]. split; [exact Hpi|].
      eapply eanc_step; eassumption.
Qed.

Definition writes_key (i : nat) (k : key) : Prop :=
  exists b1 v, nth_error bs1 i = Some b1 /\ In v (wr b1) /\ key_of v = k.

Lemma phis_define : forall vs env P' emid,
  ssa_stmts decls env (map phi_stmt_for vs) = SOk (P', emid) ->
  (forall v, In v vs -> vn_version v = None /\ is_local_in decls v = true) ->
  forall v, In v vs -> defines P' (key_of v).
Proof.
  induction vs as [|w tl IH]; intros env P' emid H Hvs v Hv; [destruct Hv|].
  cbn [map ssa_stmts] in H. sb2 H. sb2 H. inversion H; subst.
  destruct Hv as [<-|Hv].
  - unfold phi_stmt_for in E. cbn [ssa_stmt without_version vn_version ssa_expr sbind] in E.
    rewrite (is_local_in_key decls (without_version w) w eq_refl), (proj2 (Hvs w (or_introl eq_refl))) in E.
    destruct (next_version env (without_version w)) as [nv e2]. inversion E; subst.
    eexists _, _, nv. split; [left; reflexivity|]. split; [reflexivity|]. split; reflexivity.
  - destruct (IH _ _ _ E0 (fun u Hu => Hvs u (or_intror Hu)) v Hv) as (s & y & ny & Hs & Hd & Hver & Hk).
    exists s, y, ny. split; [right; exact Hs|auto].
Qed.

Lemma block1_forallb e b1 : nth_error bs1 (le_idx e) = Some b1 ->
  forallb stmt_upd_ok (b_stmts b1) = true /\ forallb stmt_unvb (b_stmts b1) = true.
Proof.
  intros Hb1. split; apply forallb_forall; intros s Hs; apply (block1_stmts _ b1 s Hb1 Hs).
Qed.

(* a block changes the version of the variables it assigns only *)
Lemma entry_nowrite e k : In e LOG -> ~ writes_key (le_idx e) k ->
  vget (flat (le_out e)) k = vget (flat (le_in e)) k.
Proof.
  intros He Hnw. destruct (i_run _ _ _ _ HI e He) as (b1 & Hb1 & Hrun & Hne).
  destruct (block1_forallb e b1 Hb1) as [Hup Hun].
  destruct (ssa_stmts_sem decls _ _ _ _ Hrun Hup Hun Hne) as (Hm & _ & _).
  rewrite <- (Hm k). apply fold_track_other. intros s' x' Hs' Hd Hk.
  destruct (ssa_stmts_def_src decls _ _ _ _ _ _ Hrun Hun Hs' Hd) as (m & x & op & rhe & sv & st & Hin & Hkx & Hl).
  apply Hnw. exists b1, x. split; [exact Hb1|]. split; [|congruence].
  pose proof (proj2 (proj2 (block1_stmts _ b1 _ Hb1 Hin))) as Ht. cbn [stmt_tag_ok] in Ht. rewrite Hl in Ht.
  destruct st as [[]|]; try discriminate Ht. eapply stmt_wr. exact Hin.
Qed.

Lemma parent_flat pe e : parent_of children pe e -> flat (le_in e) = flat (le_out pe).
Proof. intros [_ H]. unfold flat. rewrite H. reflexivity. Qed.

(* going down the tree from a to b, a variable that no block strictly below a (down to b) assigns keeps its version *)
Lemma chain_keeps k a b : eanc children LOG a b ->
  (forall x, eanc children LOG a x -> eanc children LOG x b -> x <> a -> ~ writes_key (le_idx x) k) ->
  vget (flat (le_out b)) k = vget (flat (le_out a)) k.
Proof.
  induction 1 as [Ha|b x Hab IH Hx Hbx]; intros Hnw; [reflexivity|].
  assert (Hdec : x = a \/ x <> a).
  { destruct (Nat.eq_dec (le_idx x) (le_idx a)) as [E|E].
    - left. apply log_unique; [exact Hx|eapply eanc_in_l; exact Hab|exact E].
    - right. intros ->. apply E. reflexivity. }
  destruct Hdec as [->|Hne]; [reflexivity|].
  rewrite (entry_nowrite x k Hx).
  - rewrite (parent_flat b x Hbx). apply IH. intros y Hay Hyb Hya. apply Hnw; [exact Hay| |exact Hya].
    eapply eanc_step; eassumption.
  - apply Hnw; [eapply eanc_step; eassumption|apply eanc_refl; exact Hx|exact Hne].
Qed.

Lemma cedge_facts p s : cedge c p s -> s < n /\ s <> 0.
Proof.
  intros (x & Hx & Hin). destruct (dh_suc c HH x _ (nth_error_In _ _ Hx) Hin) as [H1 H2].
  rewrite Nat2N.id in H1. split; [exact H1|]. intros ->. apply H2. reflexivity.
Qed.

(* H2: a block s without a phi for the variable sees, along every incoming edge, the version that is
   current where the renaming enters s *)
Lemma no_phi_same_version e es k : In e LOG -> In es LOG -> cedge c (le_idx e) (le_idx es) ->
  (forall b1 v, nth_error bs1 (le_idx es) = Some b1 -> has_phi v b1 = true -> key_of v <> k) ->
  vget (flat (le_out e)) k = vget (flat (le_in es)) k.
Proof.
  intros He Hes Hedge Hnophi. destruct (cedge_facts _ _ Hedge) as [Hsn Hs0].
  pose proof (Hanc es Hes) as Ha. inversion Ha as [E|pe x Hpe Hx Hpar]; [rewrite <- H in Hs0; congruence|]. subst x.
  pose proof (eanc_in_r _ _ _ _ Hpe) as Hpein.
  pose proof (parent_idom pe es Hpar) as Hid.
  pose proof (cidom_dom_pred c _ _ _ Hid Hedge Hsn) as Hdp.
  destruct (dom_chain e (Hanc e He) _ Hdp) as (pe' & Hpe' & Hpi & Hpa).
  assert (pe' = pe) by (apply log_unique; assumption). subst pe'.
  rewrite (parent_flat pe es Hpar). apply (chain_keeps k pe e Hpa).
  intros x Hpx Hxe Hxne (b1 & v & Hb1 & Hv & Hk).
  pose proof (eanc_in_r _ _ _ _ Hpx) as Hxin.
  pose proof (log_lt x Hxin) as Hxn.
  (* x dominates the predecessor but not strictly s: s is in the frontier of x *)
  assert (Hdf : cdf c (le_idx x) (le_idx es)).
  { split; [exists (le_idx e); split; [exact Hedge|apply eanc_dom; exact Hxe]|].
    intros Hsd. destruct Hid as [_ Hall]. pose proof (Hall _ Hsd) as Hxd. pose proof (eanc_dom pe x Hpx) as Hdx.
    apply Hxne. apply log_unique; [exact Hxin|exact Hpein|].
    apply (cdom_antisym c _ _ (Hreach _ (log_lt pe Hpein)) Hxd Hdx). }
  apply (Hfr _ _ Hxn Hsn) in Hdf.
  assert (Hbf : exists bf, nth_error bs1 (le_idx es) = Some bf).
  { destruct (nth_error bs1 (le_idx es)) as [bf|] eqn:E; [eauto|]. apply nth_error_None in E. rewrite len1 in E. destruct (proj1 (Nat.lt_nge _ _) Hsn E). }
  destruct Hbf as (bf & Hbf).
  pose proof (proj2 placement (le_idx x) b1 v (N.of_nat (le_idx es)) bf Hb1 (proj2 (vars_written_iff b1 v) Hv) Hdf) as Hclosed.
  rewrite Nat2N.id in Hclosed. specialize (Hclosed Hbf).
  exact (Hnophi bf v Hbf Hclosed Hk).
Qed.

(* the final statements of a logged block: phis Phi (the renamed inserted phis, with arguments), then the
   renamed original statements B' *)
Lemma entry_block e : In e LOG ->
  exists b2 b1 b0 vs Phi P' B' emid,
    nth_error bs2 (le_idx e) = Some b2 /\ nth_error bs1 (le_idx e) = Some b1 /\ nth_error bs0 (le_idx e) = Some b0 /\
    b_stmts b1 = map phi_stmt_for vs ++ b_stmts b0 /\
    leading_phis (b_stmts b2) = (Phi, B') /\ map strip Phi = P' /\ (vs = [] -> Phi = []) /\
    meq (fold_left track P' (flat (le_in e))) (flat emid) /\
    (forall k, ~ defines P' k -> forall v, has_phi v b1 = true -> key_of v <> k) /\
    (forall L, meq L (flat emid) -> exists L', body_run L B' = Some L' /\ meq L' (flat (le_out e))).
Proof.
  intros He. destruct (i_run _ _ _ _ HI e He) as (b1 & Hb1 & Hrun & Hne).
  destruct (block1 _ _ Hb1) as (b0 & vs & Hb0 & _ & Hs & Hvs). rewrite Hs in Hrun.
  destruct (ssa_stmts_app _ _ _ _ _ _ Hrun) as (P' & B' & emid & Hss & HP & HB).
  destruct (i_done _ _ _ _ HI e He) as (b2 & Hb2 & Hst). rewrite Hss in Hst.
  pose proof (ssa_stmts_phis decls _ _ _ _ HP (all_phis_placed vs)) as HallP.
  pose proof (ssa_stmts_Forall decls _ (fun s env s' env' H Hs => eq_trans (ssa_stmt_is_phi decls _ _ _ _ H) Hs)
                _ _ _ _ HB (block0_no_phi _ b0 Hb0)) as HnoB.
  pose proof (leading_phis_map strip is_phi_strip (b_stmts b2)) as Hlp.
  rewrite Hst, (leading_phis_split P' B' HallP (head_ok _ HnoB)) in Hlp.
  destruct (leading_phis (b_stmts b2)) as [Phi Body] eqn:El. injection Hlp as HSP HBo. symmetry in HSP.
  assert (HnoBody : Forall (fun s => is_phi_stmt s = false) Body).
  { rewrite HBo, Forall_map in HnoB. eapply Forall_impl; [|exact HnoB]. intros s Hs0. rewrite <- is_phi_strip. exact Hs0. }
  rewrite (map_strip_nophi Body HnoBody) in HBo. subst Body.
  destruct (block1_forallb e b1 Hb1) as [Hup Hun]. rewrite Hs, forallb_app in Hup, Hun.
  apply andb_true_iff in Hup as [Hup1 Hup2]. apply andb_true_iff in Hun as [Hun1 Hun2].
  destruct (ssa_stmts_sem decls _ _ _ _ HP Hup1 Hun1 Hne) as (Hm1 & Hne1 & _).
  destruct (ssa_stmts_sem decls _ _ _ _ HB Hup2 Hun2 Hne1) as (_ & _ & Hbody).
  specialize (Hbody (block0_no_phi _ b0 Hb0)).
  exists b2, b1, b0, vs, Phi, P', B', emid. repeat split; auto.
  - intros ->. cbn [map ssa_stmts] in HP. inversion HP; subst. destruct Phi; [reflexivity|discriminate].
  - intros k Hk v Hv Hkv. apply Hk. rewrite <- Hkv.
    eapply phis_define; [exact HP|exact Hvs|].
    eapply has_phi_vs; [exact Hb0|exact Hs| |exact Hv]. intros w Hw. apply Hvs. exact Hw.
Qed.

Lemma step e L s : In e LOG -> meq L (flat (le_out e)) -> cedge c (le_idx e) s ->
  exists b2 L' es, nth_error bs2 s = Some b2 /\ enter_block L b2 = Some L' /\
                   In es LOG /\ le_idx es = s /\ meq L' (flat (le_out es)).
Proof.
  intros He HL Hedge. destruct (cedge_facts _ _ Hedge) as [Hsn Hs0].
  destruct (log_cover s Hsn) as (es & Hes & His). subst s.
  destruct (entry_block es Hes) as (b2 & b1 & b0 & vs & Phi & P' & B' & emid & Hb2 & Hb1 & Hb0 & Hs & Hlp & HSP & _ & Hm1 & Hdef & Hbody).
  exists b2. unfold enter_block. rewrite Hlp.
  (* the phis find the arriving version among their arguments *)
  assert (Hphis : forallb (phi_read_ok L) Phi = true).
  { apply forallb_forall. intros p Hp.
    pose proof (leading_phis_are_phis _ _ _ Hlp) as HF. rewrite Forall_forall in HF.
    destruct (is_phi_parts p (HF p Hp)) as (x & args & Hpp). unfold phi_read_ok. rewrite Hpp.
    destruct Hedge as (x0 & Hx0 & Hin).
    destruct (i_run _ _ _ _ HI e He) as (b1p & Hb1p & _).
    destruct (block1 _ _ Hb1p) as (b0p & _ & Hb0p & Hsu & _). rewrite Hx0 in Hb0p. inversion Hb0p; subst b0p.
    assert (Hb2' : nth_error bs2 (N.to_nat (N.of_nat (le_idx es))) = Some b2) by (rewrite Nat2N.id; exact Hb2).
    rewrite <- Hsu in Hin.
    pose proof (i_args _ _ _ _ HI e _ b1p b2 He Hb1p Hin Hb2' p x args) as Hok.
    rewrite (HL (key_of x)), vget_flat. apply Hok; [unfold phis_of; rewrite Hlp; exact Hp|exact Hpp]. }
  rewrite Hphis.
  (* after the phis the running map is the environment in which the body was renamed *)
  assert (Hmid : meq (apply_phis L Phi) (flat emid)).
  { unfold apply_phis. rewrite <- (fold_track_strip Phi L), HSP.
    eapply meq_trans; [|exact Hm1]. apply fold_track_agree. intros k Hk. rewrite (HL k).
    apply (no_phi_same_version e es k He Hes Hedge). intros b1' v Hb1' Hv. rewrite Hb1 in Hb1'. inversion Hb1'; subst b1'.
    exact (Hdef k Hk v Hv). }
  destruct (Hbody _ Hmid) as (L' & HL' & Hm'). exists L', es. auto.
Qed.

Lemma block0_untouched : nth_error bs1 0 = nth_error bs0 0.
Proof.
  apply (insert_phis_untouched frontier 0 fuel bs0 (rev (seq 0 n)) bs1 Hins).
  intros a Ha Hin. apply in_map_iff in Hin. destruct Hin as (f & Hf0 & Hf).
  apply (f_equal N.of_nat) in Hf0. rewrite N2Nat.id in Hf0. subst f.
  apply (Hfr a 0 Ha (dh_pos c HH)) in Hf. destruct Hf as [(q & Hq & _) _].
  destruct (cedge_facts _ _ Hq) as [_ H0]. congruence.
Qed.

Lemma entry_ok : exists b2 L', nth_error bs2 0 = Some b2 /\
  enter_block (params_map (map (fun x => with_version x 0%N) (c_params c))) b2 = Some L' /\ meq L' (flat (le_out e0)).
Proof.
  assert (He : In e0 LOG) by (left; reflexivity).
  destruct (entry_block e0 He) as (b2 & b1 & b0 & vs & Phi & P' & B' & emid & Hb2 & Hb1 & Hb0 & Hs & Hlp & HSP & Hvs & Hm1 & _ & Hbody).
  rewrite He0i in *. pose proof block0_untouched as Hu. rewrite Hb1, Hb0 in Hu. inversion Hu; subst b1.
  assert (vs = []).
  { apply (app_inv_tail (b_stmts b0) [] (map phi_stmt_for vs)) in Hs. destruct vs; [reflexivity|discriminate Hs]. }
  specialize (Hvs H). subst vs Phi. cbn [map] in HSP. subst P'. cbn [fold_left] in Hm1.
  exists b2. unfold enter_block. rewrite Hlp. cbn [forallb apply_phis fold_left].
  destruct (Hbody (params_map (map (fun x => with_version x 0%N) (c_params c)))) as (L' & HL' & Hm').
  - eapply meq_trans; [|exact Hm1]. rewrite He0e. exact (params_env0 _ (dh_par c HH)).
  - exists L'. auto.
Qed.

(* every walk from a logged block executes *)
Lemma walk_ok (cF : cfg) :
  c_blocks cF = map (fun b => set_stmts b (map (update_decl_stmt envF) (b_stmts b))) bs2 ->
  forall pi e L, In e LOG -> meq L (flat (le_out e)) -> is_walk cF (le_idx e) pi ->
  exists L', exec_path cF L pi = Some L'.
Proof.
  intros HcF. induction pi as [|s tl IH]; intros e L He HL Hw; cbn [exec_path]; [eauto|].
  cbn [is_walk] in Hw. destruct Hw as [(bp & Hbp & Hin) Hw].
  rewrite HcF, nth_error_map in Hbp.
  destruct (nth_error bs2 (le_idx e)) as [b2p|] eqn:Eb2p; [|discriminate]. cbn [option_map] in Hbp. inversion Hbp; subst bp.
  cbn [set_stmts b_succs] in Hin.
  destruct (i_run _ _ _ _ HI e He) as (b1p & Hb1p & _).
  destruct (block1 _ _ Hb1p) as (b0p & _ & Hb0p & Hsu & _).
  rewrite (i_succs _ _ _ _ HI _ _ _ Eb2p Hb1p), Hsu in Hin.
  assert (Hedge : cedge c (le_idx e) s) by (exists b0p; auto).
  destruct (step e L s He HL Hedge) as (b2 & L' & es & Hb2 & Hen & Hes & His & Hm').
  rewrite HcF, (map_nth_error _ _ _ Hb2), enter_block_update_decl, Hen.
  subst s. eapply IH; eassumption.
Qed.
End WithLog.

Lemma stages_paths_ok (cF : cfg) :
  c_blocks cF = map (fun b => set_stmts b (map (update_decl_stmt envF) (b_stmts b))) bs2 ->
  c_params cF = map (fun x => with_version x 0%N) (c_params c) ->
  forall pi, path_from_entry cF pi -> exists L, exec_path cF (params_map (c_params cF)) pi = Some L.
Proof.
  intros Hblocks Hpar pi Hpi. destruct walk_log as (e0 & rest & HI & Hidx & He0i & He0e & Hanc).
  destruct pi as [|[|k] tl]; cbn [path_from_entry] in Hpi; try contradiction. cbn [exec_path].
  destruct (entry_ok e0 rest HI He0i He0e) as (b2 & L' & Hb2 & Hen & Hm').
  rewrite Hblocks, (map_nth_error _ _ _ Hb2), enter_block_update_decl, Hpar, Hen.
  apply (walk_ok e0 rest HI Hidx He0i Hanc cF Hblocks tl e0 L' (or_introl eq_refl) Hm'). rewrite He0i. exact Hpi.
Qed.
End Main.

Theorem into_ssa_paths_ok : forall frontier children c c',
  ssa_dyn_pre_ok c = true ->
  children_treeb children (length (c_blocks c)) = true ->
  creach c -> children_sound c children -> frontier_exact c frontier ->
  into_ssa frontier children c = SOk c' ->
  forall pi, path_from_entry c' pi -> exists L, exec_path c' (params_map (c_params c')) pi = Some L.
Proof.
  intros frontier children c c' Hpre Htree Hreach Hkids Hfr H.
  destruct (children_tree_unpack _ _ Htree) as (Hnd & Hrange & Hcover).
  destruct (into_ssa_stages _ _ _ _ H) as (fuel & bs1 & e0' & bs2 & envF & Hins & -> & Hren & ->).
  apply (stages_paths_ok c frontier children (dyn_pre_unpack c Hpre) Hnd Hrange Hcover Hreach Hkids Hfr
           fuel bs1 bs2 envF Hins Hren); reflexivity.
Qed.

(* the hypotheses are needed *)
Module Needed.
Definition k0 : know := {| kval := None; kdeg := None |}.
Definition m0 : meta := {| m_start := 0%N; m_end := 0%N; m_file := None |}.
Definition xu : vname := {| vn_name := [120%N]; vn_suffix := None; vn_version := None |}.
Definition yu : vname := {| vn_name := [121%N]; vn_suffix := None; vn_version := None |}.
Definition blk i ss su := {| b_index := i; b_depth := 0%N; b_stmts := ss; b_preds := []; b_succs := su |}.
(* a diamond  0 -> 1 -> 2, 0 -> 2  with dominator tree 0 - {1, 2} and DF(1) = {2} *)
Definition diamond (s0 s1 s2 : list stmt) (ps : list vname) : cfg :=
  {| c_kind := KFunction; c_params := ps; c_decls := [(xu, TLocal); (yu, TLocal)];
     c_blocks := [ blk 0%N s0 [1%N; 2%N]; blk 1%N s1 [2%N]; blk 2%N s2 [] ] |}.
Definition fr : list (list N) := [[]; [2%N]; []].
Definition ch : list (list N) := [[1%N; 2%N]; []; []].
Definition fails (c : cfg) (pi : list nat) : Prop :=
  exists c', into_ssa fr ch c = SOk c' /\ path_from_entry c' pi /\ exec_path c' (params_map (c_params c')) pi = None.

(* an assignment to a declared local whose tag does not say Local: no phi is inserted for x
   at block 2, the read there names x.0 although x.1 arrives from block 1 *)
Example tag_agreement_needed :
  let c := diamond [SSubst m0 xu OpVar (ENum 0 k0) None None] [SSubst m0 xu OpVar (ENum 1 k0) None None]
                   [SRet m0 (EVar xu k0)] [] in
  ssa_dyn_pre_ok c = false /\ children_treeb ch 3 = true /\ fails c [0; 1; 2].
Proof.
  split; [vm_compute; reflexivity|]. split; [vm_compute; reflexivity|].
  eexists. split; [vm_compute; reflexivity|]. split; [|vm_compute; reflexivity].
  cbn. repeat split; eexists; (split; [reflexivity|]); cbn; auto.
Qed.

(* an update expression of ANOTHER variable: y gets a fresh version that no statement defines *)
Example update_placement_needed :
  let c := diamond [SSubst m0 xu OpVar (EUpdate yu [] (ENum 0 k0) k0) None (Some TLocal); SRet m0 (EVar yu k0)] [] [] [] in
  ssa_dyn_pre_ok c = false /\ fails c [0].
Proof.
  split; [vm_compute; reflexivity|].
  eexists. split; [vm_compute; reflexivity|]. split; [|vm_compute; reflexivity]. exact I.
Qed.

(* a parameter listed twice: version 1 in the environment, version 0 in the parameter list *)
Example distinct_parameters_needed :
  let c := diamond [SRet m0 (EVar xu k0)] [] [] [xu; xu] in
  ssa_dyn_pre_ok c = false /\ fails c [0].
Proof.
  split; [vm_compute; reflexivity|].
  eexists. split; [vm_compute; reflexivity|]. split; [|vm_compute; reflexivity]. exact I.
Qed.
End Needed.

(* in the output of the construction, on every path from the entry that ends in the block of a read,
   the version the read names has been assigned by a statement of that path (or is the parameter's
   version, or the fresh base version of an element-wise update): the definition dominates the read *)
Theorem into_ssa_read_defined_on_path : forall frontier children c c' pi bi b s v n,
  ssa_dyn_pre_ok c = true ->
  children_treeb children (length (c_blocks c)) = true ->
  creach c -> children_sound c children -> frontier_exact c frontier ->
  into_ssa frontier children c = SOk c' ->
  path_from_entry c' (pi ++ [bi]) ->
  nth_error (c_blocks c') bi = Some b -> In s (b_stmts b) -> is_phi_stmt s = false ->
  In v (stmt_reads s) -> vn_version v = Some n ->
  update_base s = Some v \/
  vget (params_map (c_params c')) (key_of v) = Some n \/
  defined_on c' (pi ++ [bi]) (key_of v) n.
Proof.
  intros frontier children c c' pi bi b s v n H1 H2 H3 H4 H5 H6.
  apply paths_ok_read_defined. exact (into_ssa_paths_ok frontier children c c' H1 H2 H3 H4 H5 H6).
Qed.
