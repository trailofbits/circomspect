(* C14, SSA construction: what renaming the statements of one block does, in the validator's
   own words (SsaCheck.track / body_run / read_ok).  [flat env] is the scoped version
   environment read as one map.  For unversioned statements in which element-wise updates
   stand only at the top of an assignment to the same variable (ssa_stmts_sem): the
   environment after renaming is the defined versions of the renamed statements tracked over
   the environment before, and the renamed body statements pass body_run from any map
   equivalent to the environment before, ending equivalent to the one after. *)
From Coq Require Import ZArith NArith List Bool Arith.
Require Import Model.Base Model.Ir Model.SsaCheck Model.SsaErase Model.Ssa Model.SsaPre.
Require Import Proofs.IrInd Proofs.IrFacts Proofs.SsaNoPanic Proofs.SsaConstruction Proofs.SsaProofs.
Import ListNotations.

Definition flat (env : senv) : vmap := concat (se_scoped env).

Lemma vget_app a b k : vget (a ++ b) k = match vget a k with Some n => Some n | None => vget b k end.
Proof.
  induction a as [|[k' n] tl IH]; simpl; [reflexivity|]. destruct (key_eqb k' k); [reflexivity|exact IH].
Qed.

Lemma vget_concat ss k : vget (concat ss) k = scoped_get ss k.
Proof.
  induction ss as [|b tl IH]; simpl; [reflexivity|]. rewrite vget_app, IH. reflexivity.
Qed.

Lemma vget_flat env v : vget (flat env) (key_of v) = cur_version env v.
Proof. apply vget_concat. Qed.

Lemma flat_next env v : se_scoped env <> [] ->
  flat (snd (next_version env v)) = vset (flat env) (key_of v) (fst (next_version env v)).
Proof.
  intros H. unfold flat, next_version. cbn [snd fst se_scoped]. destruct (se_scoped env) as [|b tl]; [congruence|].
  reflexivity.
Qed.

Lemma next_scoped_ne env v : se_scoped (snd (next_version env v)) <> [].
Proof. unfold next_version. cbn [snd se_scoped]. destruct (se_scoped env); discriminate. Qed.

Lemma meq_vset_shadow L k n n' : meq (vset L k n') (vset (vset L k n) k n').
Proof. intros k'. rewrite !vget_vset. destruct (key_eqb k k'); reflexivity. Qed.

Fixpoint list_reads (es : list expr) : list vname :=
  match es with [] => [] | x :: tl => expr_reads x ++ list_reads tl end.
Fixpoint acc_reads (acc : list (access expr)) : list vname :=
  match acc with
  | [] => []
  | AIdx x :: tl => expr_reads x ++ acc_reads tl
  | AComp _ :: tl => acc_reads tl
  end.

Lemma expr_reads_access v acc k : expr_reads (EAccess v acc k) = v :: acc_reads acc.
Proof. reflexivity. Qed.
Lemma expr_reads_update v acc rhe k : expr_reads (EUpdate v acc rhe k) = v :: expr_reads rhe ++ acc_reads acc.
Proof. reflexivity. Qed.

Lemma list_reads_flat_map es : list_reads es = flat_map expr_reads es.
Proof. induction es as [|x tl IH]; simpl; [reflexivity|]. rewrite IH. reflexivity. Qed.

Lemma expr_unvb_call n args k : expr_unvb (ECall n args k) = list_unvb args.
Proof. reflexivity. Qed.
Lemma expr_unvb_array vs k : expr_unvb (EArray vs k) = list_unvb vs.
Proof. reflexivity. Qed.
Lemma expr_unvb_access v acc k : expr_unvb (EAccess v acc k) = isnoneb (vn_version v) && acc_unvb acc.
Proof. reflexivity. Qed.
Lemma expr_unvb_update v acc rhe k :
  expr_unvb (EUpdate v acc rhe k) = isnoneb (vn_version v) && acc_unvb acc && expr_unvb rhe.
Proof. reflexivity. Qed.

Lemma expr_noupd_call n args k : expr_noupd (ECall n args k) = list_noupd args.
Proof. reflexivity. Qed.
Lemma expr_noupd_array vs k : expr_noupd (EArray vs k) = list_noupd vs.
Proof. reflexivity. Qed.
Lemma expr_noupd_access v acc k : expr_noupd (EAccess v acc k) = acc_noupd acc.
Proof. reflexivity. Qed.

Lemma isnoneb_true {A} (o : option A) : isnoneb o = true -> o = None.
Proof. destruct o; [discriminate|reflexivity]. Qed.

Definition reads_ok (m : vmap) (f : option vname) (l : list vname) : Prop := forallb (read_ok m f) l = true.

Lemma reads_ok_app m f a b : reads_ok m f a -> reads_ok m f b -> reads_ok m f (a ++ b).
Proof. unfold reads_ok. intros Ha Hb. rewrite forallb_app, Ha, Hb. reflexivity. Qed.

Lemma reads_ok_nil m f : reads_ok m f [].
Proof. reflexivity. Qed.

Lemma reads_ok_cons m f v l : read_ok m f v = true -> reads_ok m f l -> reads_ok m f (v :: l).
Proof. unfold reads_ok. intros Hv Hl. cbn [forallb]. rewrite Hv, Hl. reflexivity. Qed.

Lemma read_ok_fresh_mono m f v : read_ok m None v = true -> read_ok m f v = true.
Proof.
  unfold read_ok. destruct (vn_version v); [|auto]. destruct (vget m (key_of v)); [auto|discriminate].
Qed.

Lemma reads_ok_fresh_mono m f l : reads_ok m None l -> reads_ok m f l.
Proof.
  unfold reads_ok. rewrite !forallb_forall. intros H v Hv. apply read_ok_fresh_mono. apply H. exact Hv.
Qed.

Lemma read_ok_unv m f v : vn_version v = None -> read_ok m f v = true.
Proof. unfold read_ok. intros ->. reflexivity. Qed.

Lemma read_ok_cur env f v n : cur_version env v = Some n -> read_ok (flat env) f (with_version v n) = true.
Proof.
  intros Ec. unfold read_ok. cbn [with_version vn_version]. change (key_of (with_version v n)) with (key_of v).
  rewrite vget_flat, Ec. apply N.eqb_refl.
Qed.

(* without update and version, renaming leaves the environment alone and takes the running versions *)
Definition pure {X} (reads : X -> list vname) (nu un : X -> bool) (env : senv) (x x' : X) (env' : senv) : Prop :=
  nu x = true -> un x = true -> env' = env /\ reads_ok (flat env) None (reads x').

Lemma pure_seq env env1 env2 (a b a' b' : bool) ra rb :
  (a = true -> a' = true -> env1 = env /\ reads_ok (flat env) None ra) ->
  (b = true -> b' = true -> env2 = env1 /\ reads_ok (flat env1) None rb) ->
  a && b = true -> a' && b' = true -> env2 = env /\ reads_ok (flat env) None (ra ++ rb).
Proof.
  intros Ha Hb Hn Hu. apply andb_true_iff in Hn as [Hn1 Hn2]. apply andb_true_iff in Hu as [Hu1 Hu2].
  destruct (Ha Hn1 Hu1) as [-> R1]. destruct (Hb Hn2 Hu2) as [-> R2]. split; [reflexivity|apply reads_ok_app; assumption].
Qed.

Section Sem.
Variable decls : list (vname * vtype).

Lemma read_as_ok env v v' : read_as decls env v v' -> vn_version v = None -> read_ok (flat env) None v' = true.
Proof.
  unfold read_as. destruct (is_local_in decls v).
  - intros (n & Ec & ->) _. apply read_ok_cur. exact Ec.
  - intros ->. apply read_ok_unv.
Qed.

Lemma ssa_pure :
  (forall e env e' env', ssa_expr decls env e = SOk (e', env') -> pure expr_reads expr_noupd expr_unvb env e e' env') /\
  (forall es env es' env', ssa_exprs decls env es = SOk (es', env') -> pure list_reads list_noupd list_unvb env es es' env') /\
  (forall acc env acc' env', ssa_acc decls env acc = SOk (acc', env') -> pure acc_reads acc_noupd acc_unvb env acc acc' env').
Proof.
  apply (ssa_expr_ind decls (pure expr_reads expr_noupd expr_unvb) (pure list_reads list_noupd list_unvb)
           (pure acc_reads acc_noupd acc_unvb)); unfold pure.
  - intros env _ _. split; [reflexivity|apply reads_ok_nil].
  - intros env x x' env1 tl tl' env2 Hx Htl. exact (pure_seq _ _ _ _ _ _ _ _ _ Hx Htl).
  - intros env _ _. split; [reflexivity|apply reads_ok_nil].
  - intros env n tl tl' env2 H. exact H.
  - intros env x x' env1 tl tl' env2 Hx Htl. exact (pure_seq _ _ _ _ _ _ _ _ _ Hx Htl).
  - intros env z k _ _. split; [reflexivity|apply reads_ok_nil].
  - intros env args k _ _. split; [reflexivity|apply reads_ok_nil].
  - intros env v v' k Hr _ Hu. split; [reflexivity|]. apply reads_ok_cons; [|apply reads_ok_nil].
    exact (read_as_ok _ _ _ Hr (isnoneb_true _ Hu)).
  - intros env op l r k l' env1 r' env2 Hl Hr. exact (pure_seq _ _ _ _ _ _ _ _ _ Hl Hr).
  - intros env op x k x' env1 H. exact H.
  - intros env c t f k c' env1 t' env2 f' env3 Hc Ht Hf Hn Hu. cbn [expr_reads]. rewrite app_assoc.
    exact (pure_seq _ _ _ _ _ _ _ _ _ (pure_seq _ _ _ _ _ _ _ _ _ Hc Ht) Hf Hn Hu).
  - intros env n args k args' env1 H. exact H.
  - intros env vs k vs' env1 H. exact H.
  - intros env v acc k acc' env1 v' Ha Hr Hn Hu. apply andb_true_iff in Hu as [Hv Hu]. destruct (Ha Hn Hu) as [-> R].
    split; [reflexivity|]. apply reads_ok_cons; [|exact R]. exact (read_as_ok _ _ _ Hr (isnoneb_true _ Hv)).
  - intros; discriminate.
Qed.

Definition ssa_expr_pure := proj1 ssa_pure.
Definition ssa_acc_pure := proj2 (proj2 ssa_pure).

Lemma ssa_exprs_pure es env r env' :
  ssa_exprs decls env es = SOk (r, env') -> list_noupd es = true -> list_unvb es = true ->
  env' = env /\ reads_ok (flat env) None (flat_map expr_reads r).
Proof. rewrite <- list_reads_flat_map. apply (proj1 (proj2 ssa_pure)). Qed.

Definition logargs_reads (args : list logarg) : list vname :=
  flat_map (fun a => match a with LExpr e => expr_reads e | LStr => [] end) args.

Lemma ssa_logargs_pure : forall es env r env',
  ssa_logargs decls env es = SOk (r, env') -> forallb logarg_noupd es = true -> forallb logarg_unvb es = true ->
  env' = env /\ reads_ok (flat env) None (logargs_reads r).
Proof.
  induction es as [|[|x] tl IH]; intros env r env' H Hn Hu; simpl in H.
  - inversion H; subst. split; [reflexivity|apply reads_ok_nil].
  - cbn [forallb logarg_noupd logarg_unvb andb] in Hn, Hu. sb2 H. inversion H; subst.
    destruct (IH _ _ _ E Hn Hu) as [-> R]. split; [reflexivity|exact R].
  - cbn [forallb logarg_noupd logarg_unvb] in Hn, Hu.
    apply andb_true_iff in Hn as [Hn1 Hn2]. apply andb_true_iff in Hu as [Hu1 Hu2].
    sb2 H. sb2 H. inversion H; subst.
    destruct (ssa_expr_pure _ _ _ _ E Hn1 Hu1) as [-> R1]. destruct (IH _ _ _ E0 Hn2 Hu2) as [-> R2].
    split; [reflexivity|]. unfold logargs_reads. cbn [flat_map]. apply reads_ok_app; assumption.
Qed.

Definition is_phi_expr (e : expr) : bool := match e with EPhi _ _ => true | _ => false end.

Lemma is_phi_stmt_subst m w op x sv st : is_phi_stmt (SSubst m w op x sv st) = is_phi_expr x.
Proof. destruct x; reflexivity. Qed.

Lemma ssa_expr_is_phi e env e' env' : ssa_expr decls env e = SOk (e', env') -> is_phi_expr e' = is_phi_expr e.
Proof.
  revert e env e' env'.
  apply (ssa_expr_ind decls (fun _ e e' _ => is_phi_expr e' = is_phi_expr e) (fun _ _ _ _ => True) (fun _ _ _ _ => True)); auto.
Qed.

Lemma track_nodef L s : stmt_def s = None -> track L s = L.
Proof. unfold track. intros ->. reflexivity. Qed.

Lemma body_stmt_ok_intro m s :
  is_phi_stmt s = false -> reads_ok m (update_base s) (stmt_reads s) -> body_stmt_ok m s = true.
Proof. intros Hp Hr. unfold body_stmt_ok. rewrite Hp, Hr. reflexivity. Qed.

Lemma is_local_in_with decls0 v n : is_local_in decls0 (with_version v n) = is_local_in decls0 v.
Proof. apply is_local_in_key. reflexivity. Qed.

Lemma let_pair {A B C} (p : A * B) (f : A -> B -> C) : (let '(a, b) := p in f a b) = f (fst p) (snd p).
Proof. destruct p. reflexivity. Qed.

Lemma SOk_pair_inj {A B} (a a' : A) (b b' : B) : SOk (a, b) = SOk (a', b') -> a = a' /\ b = b'.
Proof. intros H. inversion H. auto. Qed.

(* s' is what renaming makes of s; a statement that defines no version only reads the environment *)
Lemma pure_sem env s s' :
  stmt_def s' = None -> se_scoped env <> [] -> is_phi_stmt s' = is_phi_stmt s -> reads_ok (flat env) None (stmt_reads s') ->
  meq (track (flat env) s') (flat env) /\ se_scoped env <> [] /\ (is_phi_stmt s = false -> body_stmt_ok (flat env) s' = true).
Proof.
  intros Hd Hne Hp R. rewrite (track_nodef _ _ Hd). split; [apply meq_refl|]. split; [exact Hne|].
  intros HP. apply body_stmt_ok_intro; [congruence|]. apply reads_ok_fresh_mono. exact R.
Qed.

(* an assignment to a local: the next version of the target runs afterwards *)
Lemma local_sem env s v m op e sv st :
  let s' := SSubst m (with_version v (fst (next_version env v))) op e sv st in
  se_scoped env <> [] -> is_phi_stmt s' = is_phi_stmt s -> reads_ok (flat env) (update_base s') (expr_reads e) ->
  meq (track (flat env) s') (flat (snd (next_version env v))) /\ se_scoped (snd (next_version env v)) <> [] /\
  (is_phi_stmt s = false -> body_stmt_ok (flat env) s' = true).
Proof.
  intros s' Hne Hp R. split; [|split; [apply next_scoped_ne|]].
  - unfold track. cbn [s' stmt_def with_version vn_version]. change (key_of (with_version v _)) with (key_of v).
    rewrite flat_next by exact Hne. apply meq_refl.
  - intros HP. apply body_stmt_ok_intro; [congruence|exact R].
Qed.

Lemma ssa_stmt_sem0 s env s' env' :
  ssa_stmt decls env s = SOk (s', env') -> stmt_upd_ok s = true -> stmt_unvb s = true -> se_scoped env <> [] ->
  meq (track (flat env) s') (flat env') /\ se_scoped env' <> [] /\
  (is_phi_stmt s = false -> body_stmt_ok (flat env) s' = true).
Proof.
  apply (ssa_stmt_cases decls (fun env s s' env' => stmt_upd_ok s = true -> stmt_unvb s = true -> se_scoped env <> [] ->
    meq (track (flat env) s') (flat env') /\ se_scoped env' <> [] /\
    (is_phi_stmt s = false -> body_stmt_ok (flat env) s' = true))); clear; cbn [stmt_upd_ok stmt_unvb].
  - intros env m names t dims dims' env1 E Hup Hun Hne. destruct (ssa_exprs_pure _ _ _ _ E Hup Hun) as [-> R]. apply pure_sem; auto.
  - intros env m c t f c' env1 E Hup Hun Hne. destruct (ssa_expr_pure _ _ _ _ E Hup Hun) as [-> R]. apply pure_sem; auto.
  - intros env m e e' env1 E Hup Hun Hne. destruct (ssa_expr_pure _ _ _ _ E Hup Hun) as [-> R]. apply pure_sem; auto.
  - (* assignment *)
    intros env m v op rhe sval stype rhe' env1 v' env2 Hv E D Hup Hun Hne. apply andb_true_iff in Hun as [_ Hur].
    assert (Hnd : forall e', stmt_def (SSubst m v op e' sval stype) = None) by (intros e'; cbn [stmt_def]; rewrite Hv; reflexivity).
    unfold def_as, fresh_as in D. destruct (expr_noupd rhe) eqn:Enu.
    + (* the right-hand side holds no element-wise update *)
      destruct (ssa_expr_pure _ _ _ _ E Enu Hur) as [-> R].
      assert (Hphi : forall w, is_phi_stmt (SSubst m w op rhe' sval stype) = is_phi_stmt (SSubst m v op rhe sval stype)).
      { intros w. rewrite !is_phi_stmt_subst. exact (ssa_expr_is_phi _ _ _ _ E). }
      destruct (is_local_in decls v); destruct D as [-> ->]; [|apply pure_sem; auto].
      apply local_sem; [exact Hne|apply Hphi|]. apply reads_ok_fresh_mono. exact R.
    + (* x = update(x, acc, e) *)
      destruct rhe as [| | | | | | | |w acc r k|]; try (cbn [stmt_upd_ok] in Hup; congruence).
      apply andb_true_iff in Hup as [Hup Hnr]. apply andb_true_iff in Hup as [Hk Hna]. apply key_eqb_eq in Hk.
      rewrite expr_unvb_update in Hur. apply andb_true_iff in Hur as [Hur Hurr]. apply andb_true_iff in Hur as [Hw Hua].
      apply isnoneb_true in Hw.
      rewrite ssa_expr_update in E. sb2 E. destruct (ssa_expr_pure _ _ _ _ E0 Hnr Hurr) as [-> Rr].
      sb2 E. destruct (ssa_acc_pure _ _ _ _ E1 Hna Hua) as [-> Ra].
      pose proof (reads_ok_app _ _ _ _ Rr Ra) as Rra.
      rewrite (is_local_in_key decls v w Hk) in D.
      destruct (is_local_in decls w) eqn:El.
      * rewrite Hw in E. destruct D as [-> ->]. destruct (cur_version env w) as [nw|] eqn:Ec.
        -- apply SOk_pair_inj in E as [<- <-].
           apply local_sem; [exact Hne|reflexivity|]. rewrite expr_reads_update.
           apply reads_ok_cons; [apply read_ok_cur; exact Ec|apply reads_ok_fresh_mono; exact Rra].
        -- (* the base is a fresh version that only this statement reads *)
           rewrite let_pair in E. apply SOk_pair_inj in E as [<- <-].
           split; [|split; [apply next_scoped_ne|]].
           ++ unfold track. cbn [stmt_def with_version vn_version]. change (key_of (with_version v _)) with (key_of v).
              rewrite !flat_next by (exact Hne || apply next_scoped_ne). rewrite <- Hk. apply meq_vset_shadow.
           ++ intros _. apply body_stmt_ok_intro; [reflexivity|]. cbn [stmt_reads update_base]. rewrite expr_reads_update.
              apply reads_ok_cons; [|apply reads_ok_fresh_mono; exact Rra].
              unfold read_ok. cbn [with_version vn_version]. change (key_of (with_version w _)) with (key_of w).
              rewrite vget_flat, Ec. apply vname_eqb_refl.
      * apply SOk_pair_inj in E as [<- <-]. destruct D as [-> ->]. apply pure_sem; auto. cbn [stmt_reads]. rewrite expr_reads_update.
        apply reads_ok_cons; [apply read_ok_unv; exact Hw|exact Rra].
  - intros env m l r l' env1 r' env2 E1 E2 Hup Hun Hne.
    apply andb_true_iff in Hup as [Hn1 Hn2]. apply andb_true_iff in Hun as [Hu1 Hu2].
    destruct (ssa_expr_pure _ _ _ _ E1 Hn1 Hu1) as [-> R1]. destruct (ssa_expr_pure _ _ _ _ E2 Hn2 Hu2) as [-> R2].
    apply pure_sem; auto. apply reads_ok_app; assumption.
  - intros env m args args' env1 E Hup Hun Hne. destruct (ssa_logargs_pure _ _ _ _ E Hup Hun) as [-> R]. apply pure_sem; auto.
  - intros env m e e' env1 E Hup Hun Hne. destruct (ssa_expr_pure _ _ _ _ E Hup Hun) as [-> R]. apply pure_sem; auto.
Qed.

Lemma ssa_stmts_sem : forall ss env ss' env',
  ssa_stmts decls env ss = SOk (ss', env') ->
  forallb stmt_upd_ok ss = true -> forallb stmt_unvb ss = true -> se_scoped env <> [] ->
  meq (fold_left track ss' (flat env)) (flat env') /\ se_scoped env' <> [] /\
  (Forall (fun s => is_phi_stmt s = false) ss ->
   forall L, meq L (flat env) -> exists L', body_run L ss' = Some L' /\ meq L' (flat env')).
Proof.
  induction ss as [|s tl IH]; intros env ss' env' H Hup Hun Hne; simpl in H.
  - inversion H; subst. split; [apply meq_refl|]. split; [exact Hne|]. intros _ L HL. exists L. split; [reflexivity|exact HL].
  - cbn [forallb] in Hup, Hun. apply andb_true_iff in Hup as [Hup1 Hup2]. apply andb_true_iff in Hun as [Hun1 Hun2].
    sb2 H. sb2 H. inversion H; subst. rename x into s1. rename env0 into env1. rename x0 into tl1.
    destruct (ssa_stmt_sem0 _ _ _ _ E Hup1 Hun1 Hne) as (T1 & Hne1 & B1).
    destruct (IH _ _ _ E0 Hup2 Hun2 Hne1) as (T2 & Hne2 & B2).
    split; [|split; [exact Hne2|]].
    + cbn [fold_left]. eapply meq_trans; [apply fold_track_meq; exact T1|exact T2].
    + intros Hnp L HL. inversion Hnp as [|? ? Hnp1 Hnp2]; subst. cbn [body_run].
      rewrite (body_stmt_ok_meq L (flat env) s1 HL), (B1 Hnp1).
      apply (B2 Hnp2). eapply meq_trans; [apply meq_track; exact HL|exact T1].
Qed.

(* every version a renamed statement defines comes from an assignment to a declared local *)
Lemma ssa_stmt_def_src s env s' env' x' :
  ssa_stmt decls env s = SOk (s', env') -> stmt_unvb s = true -> stmt_def s' = Some x' ->
  exists m x op rhe sv st, s = SSubst m x op rhe sv st /\ key_of x' = key_of x /\ is_local_in decls x = true.
Proof.
  apply (ssa_stmt_cases decls (fun _ s s' _ => stmt_unvb s = true -> stmt_def s' = Some x' ->
    exists m x op rhe sv st, s = SSubst m x op rhe sv st /\ key_of x' = key_of x /\ is_local_in decls x = true));
    try discriminate.
  intros env0 m v op rhe sv st rhe' env1 v' env2 Hv _ D _ Hd. exists m, v, op, rhe, sv, st. split; [reflexivity|].
  pose proof (def_as_key decls _ _ _ _ D) as Hk. unfold def_as in D. destruct (is_local_in decls v).
  - cbn [stmt_def] in Hd. destruct (vn_version v'); inversion Hd; subst x'. auto.
  - destruct D as [-> _]. cbn [stmt_def] in Hd. rewrite Hv in Hd. discriminate Hd.
Qed.

Lemma ssa_stmts_def_src : forall ss env ss' env' s' x',
  ssa_stmts decls env ss = SOk (ss', env') -> forallb stmt_unvb ss = true -> In s' ss' -> stmt_def s' = Some x' ->
  exists m x op rhe sv st, In (SSubst m x op rhe sv st) ss /\ key_of x' = key_of x /\ is_local_in decls x = true.
Proof.
  induction ss as [|s tl IH]; intros env ss' env' s' x' H Hun Hin Hd; simpl in H.
  - inversion H; subst. destruct Hin.
  - cbn [forallb] in Hun. apply andb_true_iff in Hun as [Hun1 Hun2]. sb2 H. sb2 H. inversion H; subst.
    destruct Hin as [<-|Hin].
    + destruct (ssa_stmt_def_src _ _ _ _ _ E Hun1 Hd) as (m & x1 & op & rhe & sv & st & -> & Hk).
      exists m, x1, op, rhe, sv, st. split; [left; reflexivity|exact Hk].
    + destruct (IH _ _ _ _ _ E0 Hun2 Hin Hd) as (m & x1 & op & rhe & sv & st & Hs0 & Hk).
      exists m, x1, op, rhe, sv, st. split; [right; exact Hs0|exact Hk].
Qed.
End Sem.

(* tracking leaves alone the keys that no statement defines *)
Lemma fold_track_other k : forall ss m,
  (forall s x, In s ss -> stmt_def s = Some x -> key_of x <> k) -> vget (fold_left track ss m) k = vget m k.
Proof.
  induction ss as [|s tl IH]; intros m H; [reflexivity|]. cbn [fold_left]. rewrite IH.
  - unfold track. destruct (stmt_def s) as [x|] eqn:Ed; [|reflexivity].
    destruct (vn_version x); [|reflexivity]. rewrite vget_vset.
    destruct (key_eqb (key_of x) k) eqn:Ek; [|reflexivity]. apply key_eqb_eq in Ek.
    exfalso. exact (H s x (or_introl eq_refl) Ed Ek).
  - intros s0 x Hs0. apply H. right. exact Hs0.
Qed.

Definition defines (ss : list stmt) (k : key) : Prop :=
  exists s x n, In s ss /\ stmt_def s = Some x /\ vn_version x = Some n /\ key_of x = k.

(* two maps that agree outside the keys some statements define are equivalent after tracking them *)
Lemma fold_track_agree : forall ss a b,
  (forall k, ~ defines ss k -> vget a k = vget b k) -> meq (fold_left track ss a) (fold_left track ss b).
Proof.
  induction ss as [|s tl IH]; intros a b H; cbn [fold_left].
  - intros k. apply H. intros (s & x & n & [] & _).
  - apply IH. intros k Hk. unfold track. destruct (stmt_def s) as [x|] eqn:Ed.
    + destruct (vn_version x) as [n|] eqn:Ev.
      * rewrite !vget_vset. destruct (key_eqb (key_of x) k) eqn:Ek; [reflexivity|].
        apply H. intros (s0 & x0 & n0 & [<-|Hin] & Hd0 & Hv0 & Hk0).
        -- rewrite Ed in Hd0. inversion Hd0; subst x0. rewrite Hk0, key_eqb_refl in Ek. discriminate.
        -- apply Hk. exists s0, x0, n0. auto.
      * apply H. intros (s0 & x0 & n0 & [<-|Hin] & Hd0 & Hv0 & Hk0).
        -- rewrite Ed in Hd0. inversion Hd0; subst x0. congruence.
        -- apply Hk. exists s0, x0, n0. auto.
    + apply H. intros (s0 & x0 & n0 & [<-|Hin] & Hd0 & Hv0 & Hk0); [congruence|].
      apply Hk. exists s0, x0, n0. auto.
Qed.
