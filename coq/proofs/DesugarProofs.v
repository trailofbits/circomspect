(* The desugarer mirror Model.Desugar (syntax_sugar_remover.rs /
   syntax_sugar_traits.rs) against Spec.ExpandSpec: the ContainsExpression
   traversal is complete; what holds of the nodes the two passes return
   (ras_nodes, rts_nodes), hence the output is sugar free; the loops of
   remove_syntactic_sugar in closed form. *)
From Coq Require Import ZArith NArith List Bool String Lia.
Require Import Model.Ast Model.Desugar Spec.ExpandSpec.
Import ListNotations.
Local Open Scope list_scope.

Definition access_all (P : expression -> Prop) (a : access) : Prop :=
  match a with ArrayAccess i => P i | ComponentAccess _ => True end.

Section ExprInd.
  Variable P : expression -> Prop.
  Hypothesis HInfix : forall m l o r, P l -> P r -> P (InfixOp m l o r).
  Hypothesis HPrefix : forall m o r, P r -> P (PrefixOp m o r).
  Hypothesis HSwitch : forall m c t f, P c -> P t -> P f -> P (InlineSwitchOp m c t f).
  Hypothesis HPar : forall m r, P r -> P (ParallelOp m r).
  Hypothesis HVar : forall m n acc, Forall (access_all P) acc -> P (Variable_ m n acc).
  Hypothesis HNum : forall m v, P (Number m v).
  Hypothesis HCall : forall m id args, Forall P args -> P (Call m id args).
  Hypothesis HAnon : forall m id par ps ss names, Forall P ps -> Forall P ss ->
    P (AnonymousComponent m id par ps ss names).
  Hypothesis HArr : forall m vs, Forall P vs -> P (ArrayInLine m vs).
  Hypothesis HTuple : forall m vs, Forall P vs -> P (Tuple m vs).

  Fixpoint expression_ind' (e : expression) : P e :=
    let list_ind := fix go (l : list expression) : Forall P l :=
      match l with
      | [] => Forall_nil _
      | x :: r => Forall_cons _ (expression_ind' x) (go r)
      end in
    match e with
    | InfixOp m l o r => HInfix m l o r (expression_ind' l) (expression_ind' r)
    | PrefixOp m o r => HPrefix m o r (expression_ind' r)
    | InlineSwitchOp m c t f =>
        HSwitch m c t f (expression_ind' c) (expression_ind' t) (expression_ind' f)
    | ParallelOp m r => HPar m r (expression_ind' r)
    | Variable_ m n acc =>
        HVar m n acc
          ((fix go (l : list access) : Forall (access_all P) l :=
              match l with
              | [] => Forall_nil _
              | a :: r =>
                  Forall_cons _
                    (match a as a0 return access_all P a0 with
                     | ArrayAccess i => expression_ind' i
                     | ComponentAccess _ => I
                     end) (go r)
              end) acc)
    | Number m v => HNum m v
    | Call m id args => HCall m id args (list_ind args)
    | AnonymousComponent m id par ps ss names => HAnon m id par ps ss names (list_ind ps) (list_ind ss)
    | ArrayInLine m vs => HArr m vs (list_ind vs)
    | Tuple m vs => HTuple m vs (list_ind vs)
    end.
End ExprInd.

Section StmtInd.
  Variable P : statement -> Prop.
  Hypothesis HIf : forall m c i e, P i -> (forall e', e = Some e' -> P e') -> P (IfThenElse m c i e).
  Hypothesis HWhile : forall m c b, P b -> P (While m c b).
  Hypothesis HReturn : forall m v, P (Return m v).
  Hypothesis HInit : forall m t l, Forall P l -> P (InitializationBlock m t l).
  Hypothesis HDecl : forall m t n d c, P (Declaration m t n d c).
  Hypothesis HSub : forall m v a o r, P (Substitution m v a o r).
  Hypothesis HMSub : forall m l o r, P (MultiSubstitution m l o r).
  Hypothesis HCeq : forall m l r, P (ConstraintEquality m l r).
  Hypothesis HLog : forall m a, P (LogCall m a).
  Hypothesis HBlock : forall m l, Forall P l -> P (Block m l).
  Hypothesis HAssert : forall m a, P (Assert m a).

  Fixpoint statement_ind' (s : statement) : P s :=
    let list_ind := fix go (l : list statement) : Forall P l :=
      match l with
      | [] => Forall_nil _
      | x :: r => Forall_cons _ (statement_ind' x) (go r)
      end in
    match s with
    | IfThenElse m c i e =>
        HIf m c i e (statement_ind' i)
          (match e as e0 return forall e', e0 = Some e' -> P e' with
           | Some x => fun e' H => match H in _ = y return match y with Some z => P z | None => True end
                                   with eq_refl => statement_ind' x end
           | None => fun e' H => match H in _ = y return match y with Some z => P z | None => True end
                                 with eq_refl => I end
           end)
    | While m c b => HWhile m c b (statement_ind' b)
    | Return m v => HReturn m v
    | InitializationBlock m t l => HInit m t l (list_ind l)
    | Declaration m t n d c => HDecl m t n d c
    | Substitution m v a o r => HSub m v a o r
    | MultiSubstitution m l o r => HMSub m l o r
    | ConstraintEquality m l r => HCeq m l r
    | LogCall m a => HLog m a
    | Block m l => HBlock m l (list_ind l)
    | Assert m a => HAssert m a
    end.
End StmtInd.
(* `ParallelOp` over an anonymous component desugars the component made parallel
   (make_anonymous_parallel), which is no subterm: the parallel case gets an
   induction hypothesis for it as well. *)
Lemma expression_ind_par : forall P : expression -> Prop,
  (forall m l o r, P l -> P r -> P (InfixOp m l o r)) ->
  (forall m o r, P r -> P (PrefixOp m o r)) ->
  (forall m c t f, P c -> P t -> P f -> P (InlineSwitchOp m c t f)) ->
  (forall m r, P r -> P (make_anonymous_parallel r) -> P (ParallelOp m r)) ->
  (forall m n acc, Forall (access_all P) acc -> P (Variable_ m n acc)) ->
  (forall m v, P (Number m v)) ->
  (forall m id args, Forall P args -> P (Call m id args)) ->
  (forall m id par ps ss names, Forall P ps -> Forall P ss -> P (AnonymousComponent m id par ps ss names)) ->
  (forall m vs, Forall P vs -> P (ArrayInLine m vs)) ->
  (forall m vs, Forall P vs -> P (Tuple m vs)) ->
  forall e, P e.
Proof.
  intros P HInfix HPrefix HSwitch HPar HVar HNum HCall HAnon HArr HTuple e.
  enough (H : P e /\ P (make_anonymous_parallel e)) by apply H.
  induction e using expression_ind'; simpl.
  - destruct IHe1, IHe2. split; auto.
  - destruct IHe. split; auto.
  - destruct IHe1, IHe2, IHe3. split; auto.
  - destruct IHe. split; auto.
  - split; apply HVar; (eapply Forall_impl; [|exact H]); intros [?|i]; simpl; tauto.
  - split; auto.
  - split; apply HCall; (eapply Forall_impl; [|exact H]); intros a Ha; apply Ha.
  - split; apply HAnon; (eapply Forall_impl; [|eassumption]); intros a Ha; apply Ha.
  - split; apply HArr; (eapply Forall_impl; [|exact H]); intros a Ha; apply Ha.
  - split; apply HTuple; (eapply Forall_impl; [|exact H]); intros a Ha; apply Ha.
Qed.

Lemma existsb_false_Forall : forall {A} (p : A -> bool) l,
  existsb p l = false <-> Forall (fun x => p x = false) l.
Proof.
  induction l as [|x l IH]; simpl.
  - split; auto.
  - rewrite orb_false_iff, IH, Forall_cons_iff. reflexivity.
Qed.

Lemma find_none_Forall : forall {A} (p : A -> bool) l,
  find p l = None <-> Forall (fun x => p x = false) l.
Proof.
  induction l as [|x l IH]; simpl.
  - split; auto.
  - rewrite Forall_cons_iff, <- IH. destruct (p x); intuition discriminate.
Qed.

Lemma fold_left_orb : forall {A} (f : A -> bool) l b,
  fold_left (fun res a => f a || res) l b = existsb f l || b.
Proof.
  induction l as [|x l IH]; intros b; simpl.
  - reflexivity.
  - rewrite IH. destruct (f x), (existsb f l), b; reflexivity.
Qed.

Lemma existsb_flat_map : forall {A B} (p : B -> bool) (g : A -> list B) l,
  existsb p (flat_map g l) = existsb (fun x => existsb p (g x)) l.
Proof.
  induction l as [|x l IH]; simpl; [reflexivity|].
  rewrite existsb_app, IH. reflexivity.
Qed.

Lemma existsb_ext_Forall : forall {A} (f g : A -> bool) l,
  Forall (fun x => f x = g x) l -> existsb f l = existsb g l.
Proof.
  induction 1; simpl; [reflexivity|]. rewrite H, IHForall. reflexivity.
Qed.

Lemma access_fold_existsb : forall (f : expression -> bool) acc,
  access_fold f acc =
  existsb (fun a => match a with ArrayAccess i => f i | ComponentAccess _ => false end) acc.
Proof.
  intros f acc. unfold access_fold.
  assert (H : forall b,
    fold_left (fun res a => match a with ArrayAccess i => f i || res | ComponentAccess _ => res end) acc b =
    existsb (fun a => match a with ArrayAccess i => f i | ComponentAccess _ => false end) acc || b).
  { induction acc as [|a acc IH]; intros b; simpl; [reflexivity|].
    rewrite IH. destruct a as [s|i]; simpl.
    - reflexivity.
    - destruct (f i), (existsb _ acc), b; reflexivity. }
  rewrite H. apply orb_false_r.
Qed.

Lemma contains_expr_existsb : forall matcher e,
  contains_expr matcher e = existsb matcher (sub_exprs e).
Proof.
  intros matcher. induction e using expression_ind'; simpl;
    destruct (matcher _) eqn:Hm; simpl; try reflexivity;
    rewrite ?fold_left_orb, ?access_fold_existsb, ?existsb_app, ?existsb_flat_map, ?orb_false_r.
  - rewrite IHe1, IHe2. apply orb_comm.
  - exact IHe.
  - rewrite IHe1, IHe2, IHe3. destruct (existsb _ (sub_exprs e1)), (existsb _ (sub_exprs e2)), (existsb _ (sub_exprs e3)); reflexivity.
  - exact IHe.
  - apply existsb_ext_Forall. eapply Forall_impl; [|exact H].
    intros [s|i]; simpl; auto.
  - apply existsb_ext_Forall. exact H.
  - rewrite (existsb_ext_Forall _ _ _ H), (existsb_ext_Forall _ _ _ H0). apply orb_comm.
  - apply existsb_ext_Forall. exact H.
  - apply existsb_ext_Forall. exact H.
Qed.

Lemma contains_expr_stmt_existsb : forall matcher s,
  contains_expr_stmt matcher s = existsb matcher (stmt_exprs s).
Proof.
  intros matcher. induction s using statement_ind'; simpl;
    rewrite ?fold_left_orb, ?access_fold_existsb, ?existsb_app, ?existsb_flat_map, ?orb_false_r,
            ?contains_expr_existsb.
  - rewrite IHs. destruct e as [e'|].
    + rewrite (H e' eq_refl).
      destruct (existsb _ (sub_exprs c)), (existsb _ (stmt_exprs s)), (existsb _ (stmt_exprs e')); reflexivity.
    + simpl. rewrite orb_false_r. apply orb_comm.
  - rewrite IHs. apply orb_comm.
  - reflexivity.
  - apply existsb_ext_Forall. exact H.
  - apply existsb_ext_Forall. apply Forall_forall. intros. apply contains_expr_existsb.
  - unfold access_exprs. rewrite existsb_flat_map. rewrite orb_comm. f_equal.
    apply existsb_ext_Forall. apply Forall_forall. intros [?|i] _; simpl; auto using contains_expr_existsb.
  - apply orb_comm.
  - apply orb_comm.
  - apply existsb_ext_Forall. apply Forall_forall. intros [?|x] _; simpl; auto using contains_expr_existsb.
  - apply existsb_ext_Forall. exact H.
  - reflexivity.
Qed.

Lemma contains_expr_complete : forall matcher e,
  contains_expr matcher e = false -> forall x, In x (sub_exprs e) -> matcher x = false.
Proof.
  intros matcher e H. apply Forall_forall. apply existsb_false_Forall.
  rewrite <- contains_expr_existsb. exact H.
Qed.

Lemma contains_expr_sound : forall matcher e,
  contains_expr matcher e = true -> exists x, In x (sub_exprs e) /\ matcher x = true.
Proof. intros matcher e H. rewrite contains_expr_existsb in H. apply existsb_exists in H. exact H. Qed.

Lemma contains_expr_stmt_complete : forall matcher s,
  contains_expr_stmt matcher s = false -> forall x, In x (stmt_exprs s) -> matcher x = false.
Proof.
  intros matcher s H. apply Forall_forall. apply existsb_false_Forall.
  rewrite <- contains_expr_stmt_existsb. exact H.
Qed.

Lemma contains_expr_stmt_sound : forall matcher s,
  contains_expr_stmt matcher s = true -> exists x, In x (stmt_exprs s) /\ matcher x = true.
Proof. intros matcher s H. rewrite contains_expr_stmt_existsb in H. apply existsb_exists in H. exact H. Qed.

Lemma dbind_ok : forall {A B} (m : dres A) (f : A -> dres B) b,
  dbind m f = DOk b -> exists a, m = DOk a /\ f a = DOk b.
Proof. intros A B [a|r|s|] f b H; simpl in H; try discriminate. eauto. Qed.

Lemma fail_not_ok : forall {A} c m msg (a : A), fail c m msg <> DOk a.
Proof. intros A c m msg a. unfold fail, mk_report. destruct (m_file m); simpl; discriminate. Qed.

(* the `unreachable!()` of remove_tuple_from_expression *)
Definition not_anon_site (s : Z) : Prop := s <> site_rte_anon.

Ltac inv_ok :=
  repeat match goal with
  | H : dbind _ _ = DOk _ |- _ =>
      let a := fresh "a" in let Ha := fresh "Ha" in
      apply dbind_ok in H; destruct H as [a [Ha H]]
  | H : fail _ _ _ = DOk _ |- _ => exfalso; exact (fail_not_ok _ _ _ _ H)
  | H : DOk _ = DOk _ |- _ => inversion H; subst; clear H
  | H : DErr _ = DOk _ |- _ => discriminate H
  | H : DPanic _ = DOk _ |- _ => discriminate H
  | H : DOutOfFuel = DOk _ |- _ => discriminate H
  | a : (_ * _)%type |- _ => destruct a
  end.

(* what the two passes return: the new expression or statement, the statements
   to run before it, the declarations to hoist *)
Definition rae_res (E : expression -> Prop) (S D : statement -> Prop) (r : rae_result) : Prop :=
  forall ss ds e', r = DOk (ss, ds, e') -> E e' /\ Forall S ss /\ Forall D ds.

Definition ras_res (S D : statement -> Prop) (r : dres (statement * list statement)) : Prop :=
  forall s' d, r = DOk (s', d) -> S s' /\ Forall D d.

Lemma rae_res_plain : forall (E : expression -> Prop) S D e, E e -> rae_res E S D (DOk ([], [], e)).
Proof. intros E S D e H ss ds e' Hr. inv_ok. auto. Qed.

Lemma rae_res_fail : forall E S D c m msg, rae_res E S D (fail c m msg).
Proof. intros E S D c m msg ss ds e' Hr. inv_ok. Qed.

Lemma collect_tuple_res : forall (E : expression -> Prop) (S D : statement -> Prop) results ss ds vs ss' ds' vs',
  Forall (rae_res E S D) results -> Forall S ss -> Forall D ds -> Forall E vs ->
  collect_tuple results ss ds vs = DOk (ss', ds', vs') ->
  Forall S ss' /\ Forall D ds' /\ Forall E vs'.
Proof.
  intros E S D. induction results as [|r rest IH]; intros ss ds vs ss' ds' vs' Hres Hss Hds Hvs H; simpl in H.
  - inv_ok. auto.
  - inversion Hres; subst. inv_ok. destruct (H2 _ _ _ Ha) as (?&?&?).
    eapply IH; [exact H3 | | | | exact H]; rewrite Forall_app; auto.
Qed.

Lemma ras_list_res : forall (S D : statement -> Prop) (f : statement -> dres (statement * list statement)) l ns ds ns' ds',
  Forall (fun s => ras_res S D (f s)) l -> Forall S ns -> Forall D ds ->
  ras_list f l ns ds = DOk (ns', ds') -> Forall S ns' /\ Forall D ds'.
Proof.
  intros S D f. induction l as [|s rest IH]; intros ns ds ns' ds' Hl Hns Hds H; simpl in H.
  - inv_ok. auto.
  - inversion Hl; subst. inv_ok. destruct (H2 _ _ Ha) as [? ?].
    eapply IH; [exact H3 | | | exact H]; rewrite Forall_app; auto.
Qed.

Lemma rts_list_res : forall (S : statement -> Prop) (f : statement -> dres statement) l acc acc',
  Forall (fun s => forall s', f s = DOk s' -> S s') l -> Forall S acc ->
  rts_list f l acc = DOk acc' -> Forall S acc'.
Proof.
  intros S f. induction l as [|s rest IH]; intros acc acc' Hl Hacc H; simpl in H.
  - inv_ok. auto.
  - inversion Hl; subst. inv_ok. eapply IH; [exact H3 | | exact H]. apply Forall_app. split; auto.
Qed.

Lemma separate_declarations_forall : forall (P : statement -> Prop) decls c v s c' v' s',
  separate_declarations decls c v s = DOk (c', v', s') ->
  Forall P decls -> Forall P c -> Forall P v -> Forall P s ->
  Forall P c' /\ Forall P v' /\ Forall P s'.
Proof.
  intros P. induction decls as [|d rest IH]; intros c v s c' v' s' H Hd Hc Hv Hs; simpl in H.
  - inv_ok. auto.
  - inversion Hd; subst. destruct d; try discriminate H.
    + destruct (variable_type_is_component xtype).
      * eapply IH; [exact H | ..]; auto. apply Forall_app; auto.
      * destruct (variable_type_is_var xtype); [|discriminate H].
        eapply IH; [exact H | ..]; auto. apply Forall_app; auto.
    + eapply IH; [exact H | ..]; auto. apply Forall_app; auto.
Qed.


Definition log_exprs (args : list log_argument) : list expression :=
  flat_map (fun a => match a with LogExp e => sub_exprs e | LogStr _ => [] end) args.

Lemma split_string_S : forall fuel c str',
  split_string (S fuel) (String c str') =
  let cur := String c str' in
  let k := back_off cur (Nat.min sub_len (String.length cur)) in
  dbind (split_string fuel (drop_bytes k cur)) (fun v => DOk (LogStr (take_bytes k cur) :: v)).
Proof. reflexivity. Qed.

Lemma split_string_nil : forall fuel, split_string fuel EmptyString = DOk [].
Proof. destruct fuel; reflexivity. Qed.

Lemma take_bytes_len : forall k s, String.length (take_bytes k s) <= k.
Proof. induction k; destruct s; simpl; auto with arith. Qed.

Lemma back_off_le : forall cur e, back_off cur e <= e.
Proof.
  induction e; simpl.
  - lia.
  - match goal with |- (if ?c then _ else _) <= _ => destruct c end; lia.
Qed.

Lemma split_string_chunks : forall fuel s v,
  split_string fuel s = DOk v -> Forall short_arg v /\ log_exprs v = [].
Proof.
  induction fuel as [|fuel IH]; intros s v H; (destruct s as [|c s']; [rewrite split_string_nil in H; inv_ok; auto|]).
  - discriminate H.
  - rewrite split_string_S in H. cbv zeta in H.
    pose proof (back_off_le (String c s') (Nat.min sub_len (String.length (String c s')))) as Hb.
    pose proof (Nat.le_min_l sub_len (String.length (String c s'))) as Hm.
    remember (back_off (String c s') (Nat.min sub_len (String.length (String c s')))) as k eqn:Ek.
    remember (String c s') as cur eqn:Ec. clear Ek Ec.
    inv_ok. destruct (IH _ _ Ha) as [I1 I2]. split; [|exact I2].
    constructor; [|exact I1]. pose proof (take_bytes_len k cur). unfold short_arg, sub_len in *. lia.
Qed.

Arguments split_string : simpl never.

Lemma build_log_args_chunks : forall args v,
  build_log_args args = DOk v -> Forall short_arg v /\ log_exprs v = log_exprs args.
Proof.
  induction args as [|a rest IH]; intros v H; simpl in H.
  - inv_ok. auto.
  - destruct a as [s|e]; inv_ok.
    + destruct (split_string_chunks _ _ _ Ha) as [C1 C2]. destruct (IH _ Ha0) as [I1 I2].
      unfold log_exprs in *. rewrite flat_map_app, C2, I2, Forall_app. auto.
    + destruct (IH _ Ha) as [I1 I2]. unfold log_exprs in *. simpl. rewrite I2. split; [constructor|]; auto. exact I.
Qed.

Definition AllE (p : expression -> Prop) (e : expression) : Prop := Forall p (sub_exprs e).
Definition AllS (p : expression -> Prop) (q : statement -> Prop) (s : statement) : Prop :=
  Forall p (stmt_exprs s) /\ Forall q (sub_stmts s).

Lemma Forall_conj : forall {A} (P R : A -> Prop) l,
  Forall (fun x => P x /\ R x) l <-> Forall P l /\ Forall R l.
Proof. intros. split; [apply Forall_and_inv | intros [? ?]; apply Forall_and; assumption]. Qed.

Lemma Forall_iff_ext : forall {A} (R S : A -> Prop) l,
  Forall (fun x => R x <-> S x) l -> (Forall R l <-> Forall S l).
Proof. induction 1; [split; constructor|]. rewrite !Forall_cons_iff. tauto. Qed.

Section All.
  Variables (p : expression -> Prop) (q : statement -> Prop).

  Lemma AllE_node : forall e, AllE p e -> p e.
  Proof. intros e H. destruct e; inversion H; assumption. Qed.

  Lemma AllE_par : forall m r, AllE p (ParallelOp m r) <-> p (ParallelOp m r) /\ AllE p r.
  Proof. intros. unfold AllE. simpl. apply Forall_cons_iff. Qed.

  Lemma AllE_var : forall m n acc,
    AllE p (Variable_ m n acc) <-> p (Variable_ m n acc) /\ Forall p (access_exprs acc).
  Proof. intros. unfold AllE. simpl. apply Forall_cons_iff. Qed.

  Lemma AllE_anon : forall m id par ps ss names,
    AllE p (AnonymousComponent m id par ps ss names) <->
    p (AnonymousComponent m id par ps ss names) /\ Forall p (flat_map sub_exprs ps) /\ Forall (AllE p) ss.
  Proof. intros. unfold AllE. simpl. rewrite Forall_cons_iff, Forall_app. do 2 apply and_iff_compat_l. apply Forall_flat_map. Qed.

  Lemma AllE_tuple : forall m vs, AllE p (Tuple m vs) <-> p (Tuple m vs) /\ Forall (AllE p) vs.
  Proof. intros. unfold AllE. simpl. rewrite Forall_cons_iff, Forall_flat_map. reflexivity. Qed.

  Lemma AllS_if : forall m c i e, AllS p q (IfThenElse m c i e) <->
    q (IfThenElse m c i e) /\ AllE p c /\ AllS p q i /\ match e with Some e' => AllS p q e' | None => True end.
  Proof.
    intros. unfold AllS, AllE. simpl. rewrite Forall_cons_iff, !Forall_app.
    destruct e; [tauto|]. intuition constructor.
  Qed.

  Lemma AllS_while : forall m c b, AllS p q (While m c b) <-> q (While m c b) /\ AllE p c /\ AllS p q b.
  Proof. intros. unfold AllS, AllE. simpl. rewrite Forall_cons_iff, Forall_app. tauto. Qed.

  Lemma AllS_init : forall m t l,
    AllS p q (InitializationBlock m t l) <-> q (InitializationBlock m t l) /\ Forall (AllS p q) l.
  Proof. intros. unfold AllS. simpl. rewrite Forall_cons_iff, !Forall_flat_map, Forall_conj. tauto. Qed.

  Lemma AllS_block : forall m l, AllS p q (Block m l) <-> q (Block m l) /\ Forall (AllS p q) l.
  Proof. intros. unfold AllS. simpl. rewrite Forall_cons_iff, !Forall_flat_map, Forall_conj. tauto. Qed.

  Lemma AllS_decl : forall m t n d c,
    AllS p q (Declaration m t n d c) <-> q (Declaration m t n d c) /\ Forall p (flat_map sub_exprs d).
  Proof. intros. unfold AllS. simpl. rewrite Forall_cons_iff. intuition constructor. Qed.

  Lemma AllS_sub : forall m v acc o r, AllS p q (Substitution m v acc o r) <->
    q (Substitution m v acc o r) /\ Forall p (access_exprs acc) /\ AllE p r.
  Proof. intros. unfold AllS, AllE. simpl. rewrite Forall_cons_iff, Forall_app. intuition constructor. Qed.

  Lemma AllS_msub : forall m l o r, AllS p q (MultiSubstitution m l o r) <->
    q (MultiSubstitution m l o r) /\ AllE p l /\ AllE p r.
  Proof. intros. unfold AllS, AllE. simpl. rewrite Forall_cons_iff, Forall_app. intuition constructor. Qed.

  Lemma AllS_log : forall m args,
    AllS p q (LogCall m args) <-> q (LogCall m args) /\ Forall p (log_exprs args).
  Proof. intros. unfold AllS. simpl. rewrite Forall_cons_iff. intuition constructor. Qed.

  (* Return, ConstraintEquality, Assert, and the leaves above *)
  Lemma AllS_leaf : forall s, sub_stmts s = [s] -> (AllS p q s <-> q s /\ Forall p (stmt_exprs s)).
  Proof. intros s E. unfold AllS. rewrite E, Forall_cons_iff. intuition constructor. Qed.
End All.

(* no sub-expression satisfies m *)
Definition CL (m : expression -> bool) (e : expression) : Prop := contains_expr m e = false.
Definition CLs (m : expression -> bool) (s : statement) : Prop := contains_expr_stmt m s = false.
Notation NA := (CL is_anonymous_component).
Notation NT := (CL is_tuple).
Notation NAs := (CLs is_anonymous_component).
Notation NTs := (CLs is_tuple).

Lemma CL_unfold : forall m e, CL m e <-> existsb m (sub_exprs e) = false.
Proof. intros. unfold CL. rewrite contains_expr_existsb. tauto. Qed.
Lemma CLs_unfold : forall m s, CLs m s <-> existsb m (stmt_exprs s) = false.
Proof. intros. unfold CLs. rewrite contains_expr_stmt_existsb. tauto. Qed.

Lemma CL_all : forall m e, CL m e <-> AllE (fun x => m x = false) e.
Proof. intros. rewrite CL_unfold. apply existsb_false_Forall. Qed.
Lemma CLs_all : forall m s, CLs m s <-> Forall (fun x => m x = false) (stmt_exprs s).
Proof. intros. rewrite CLs_unfold. apply existsb_false_Forall. Qed.

Lemma CL_list : forall m l,
  existsb m (flat_map sub_exprs l) = false <-> Forall (CL m) l.
Proof.
  intros. rewrite existsb_flat_map, existsb_false_Forall.
  split; apply Forall_impl; intros a; rewrite CL_unfold; auto.
Qed.

Lemma CLs_decl : forall m mm t n d c, CLs m (Declaration mm t n d c) <-> Forall (CL m) d.
Proof. intros. rewrite CLs_unfold. simpl. apply CL_list. Qed.
Lemma CLs_ceq : forall m mm l r, CLs m (ConstraintEquality mm l r) <-> CL m l /\ CL m r.
Proof. intros. rewrite CLs_unfold. simpl. rewrite existsb_app, orb_false_iff, <- !CL_unfold. tauto. Qed.
Lemma CLs_return : forall m mm v, CLs m (Return mm v) <-> CL m v.
Proof. intros. rewrite CLs_unfold, CL_unfold. simpl. tauto. Qed.
Lemma CLs_assert : forall m mm v, CLs m (Assert mm v) <-> CL m v.
Proof. intros. rewrite CLs_unfold, CL_unfold. simpl. tauto. Qed.
Lemma CL_node : forall m e, CL m e -> m e = false.
Proof. intros m e H. apply CL_all in H. exact (AllE_node _ _ H). Qed.

(* the checks of the passes: a node none of whose children contains a match *)
Lemma CL_infix : forall m mm l o r,
  m (InfixOp mm l o r) = false -> CL m l -> CL m r -> CL m (InfixOp mm l o r).
Proof. intros m mm l o r Hm Hl Hr. unfold CL in *. simpl. rewrite Hm, Hl, Hr. reflexivity. Qed.

Lemma CL_prefix : forall m mm o r, m (PrefixOp mm o r) = false -> CL m r -> CL m (PrefixOp mm o r).
Proof. intros m mm o r Hm Hr. unfold CL in *. simpl. rewrite Hm. exact Hr. Qed.

Lemma CL_switch : forall m mm c t f,
  m (InlineSwitchOp mm c t f) = false -> CL m c -> CL m t -> CL m f -> CL m (InlineSwitchOp mm c t f).
Proof. intros m mm c t f Hm Hc Ht Hf. unfold CL in *. simpl. rewrite Hm, Hc, Ht, Hf. reflexivity. Qed.

Lemma CL_par : forall m mm r, m (ParallelOp mm r) = false -> CL m r -> CL m (ParallelOp mm r).
Proof. intros m mm r Hm Hr. unfold CL in *. simpl. rewrite Hm. exact Hr. Qed.

Lemma CL_call : forall m mm id args,
  m (Call mm id args) = false -> Forall (CL m) args -> CL m (Call mm id args).
Proof. intros m mm id args Hm H. apply CL_unfold. simpl. rewrite Hm. apply CL_list. exact H. Qed.

Lemma CL_array : forall m mm vs,
  m (ArrayInLine mm vs) = false -> Forall (CL m) vs -> CL m (ArrayInLine mm vs).
Proof. intros m mm vs Hm H. apply CL_unfold. simpl. rewrite Hm. apply CL_list. exact H. Qed.

Lemma CL_tuple : forall m mm vs, m (Tuple mm vs) = false -> Forall (CL m) vs -> CL m (Tuple mm vs).
Proof. intros m mm vs Hm H. apply CL_unfold. simpl. rewrite Hm. apply CL_list. exact H. Qed.

Lemma CL_tuple_inv : forall m mm vs, CL m (Tuple mm vs) -> Forall (CL m) vs.
Proof. intros m mm vs H. apply CL_unfold in H. simpl in H. apply orb_false_iff in H. apply CL_list. tauto. Qed.

Lemma access_first_such_none : forall m acc,
  access_first_such (contains_expr m) acc = None -> Forall (fun x => m x = false) (access_exprs acc).
Proof.
  intros m acc H. unfold access_first_such in H. apply Forall_flat_map.
  destruct (find _ acc) as [a|] eqn:Hf.
  - apply find_some in Hf. destruct Hf as [_ Hp]. destruct a; [discriminate Hp | discriminate H].
  - apply find_none_Forall in Hf. eapply Forall_impl; [|exact Hf].
    intros [s|i]; simpl; [constructor | apply CL_all].
Qed.

(* a pass hands on unchanged the trees in which its check [contains_expr mt]
   finds nothing: what holds of the input nodes that [mt] rejects holds of them *)
Section Keep.
  Variables (mt : expression -> bool) (qe pe : expression -> Prop) (qs ps : statement -> Prop).
  Hypothesis Hkeep : forall x, qe x -> mt x = false -> pe x.

  Lemma keep : forall l, Forall qe l -> Forall (fun x => mt x = false) l -> Forall pe l.
  Proof.
    intros l H1 H2. eapply Forall_impl; [|exact (Forall_and H1 H2)].
    intros x [? ?]. apply Hkeep; assumption.
  Qed.

  Lemma keepE : forall e, AllE qe e -> CL mt e -> AllE pe e.
  Proof. intros e Hq Hc. apply keep; [exact Hq | apply CL_all; exact Hc]. Qed.

  Lemma keepS : forall s, AllS qe qs s -> CLs mt s -> Forall pe (stmt_exprs s).
  Proof. intros s [Hq _] Hc. apply keep; [exact Hq | apply CLs_all; exact Hc]. Qed.

  Lemma keep_leaf : forall s, AllS qe qs s -> CLs mt s -> sub_stmts s = [s] -> (qs s -> ps s) -> AllS pe ps s.
  Proof.
    intros s Hq Hc E Hn. apply AllS_leaf; [exact E|]. split; [|exact (keepS _ Hq Hc)].
    apply AllS_leaf in Hq; [|exact E]. apply Hn, Hq.
  Qed.
End Keep.
Arguments keep {mt qe pe} Hkeep.
Arguments keepE {mt qe pe} Hkeep.
Arguments keepS {mt qe pe qs} Hkeep.
Arguments keep_leaf {mt qe pe qs ps} Hkeep.

(* Every expression node pass 1 returns is a node of the input that is no
   anonymous component, or a new call, variable, number, sum, tuple or parallel
   operator carrying the meta of an input node; every statement node carries the
   meta of an input node and its log strings are short.  [pe] and [ps] are any
   predicates that hold of such nodes, [pd] any that holds of the hoisted
   declarations. *)
Record pass1_preds (Q : meta -> Prop) (pe : expression -> Prop) (ps pd : statement -> Prop) : Prop := {
  p1_expr : forall x, Q (expr_meta x) -> is_anonymous_component x = false -> pe x;
  p1_stmt : forall t, Q (stmt_meta t) -> short_node t -> ps t;
  p1_decl : forall m t x dims,
    variable_type_is_component t || variable_type_is_var t = true -> pd (Declaration m t x dims true);
  p1_init : forall m x acc o e, pd (Substitution m x acc o e) }.

Section Pass1.
  Variables (env : tenv) (lib : file_library) (Q : meta -> Prop).
  Variables (pe : expression -> Prop) (ps pd : statement -> Prop).
  Hypothesis Hp : pass1_preds Q pe ps pd.

  Notation Hpe := (p1_expr _ _ _ _ Hp).
  Notation Hps := (p1_stmt _ _ _ _ Hp).
  Notation qe := (fun x => Q (expr_meta x)).
  Notation qs := (fun t => Q (stmt_meta t)).
  Notation PS := (AllS pe ps).
  Notation PD := (fun d => AllS pe ps d /\ pd d).
  Notation rae_all := (rae_res (AllE pe) PS PD).
  Notation ras_all := (ras_res PS PD).

  Definition va_all (va : option expression) : Prop :=
    match va with Some v => AllE pe v | None => True end.

  (* a statement node that is no log call, at a meta of which Q is known *)
  Local Ltac ps_node := apply Hps; [assumption | exact I].

  Lemma acc_all : forall va o, va_all va -> Forall pe (access_exprs (acc_prefix va ++ [ComponentAccess o])).
  Proof.
    intros [v|] o H; unfold access_exprs; simpl; [rewrite !app_nil_r; exact H | constructor].
  Qed.

  Lemma out_exp_all : forall va m x o, va_all va -> Q m ->
    AllE pe (Variable_ m x (acc_prefix va ++ [ComponentAccess o])).
  Proof. intros. apply AllE_var. split; [apply Hpe; auto | apply acc_all; auto]. Qed.

  Lemma assign_inputs_all : forall va m id results sel inputs i ss ds ss' ds',
    va_all va -> Q m -> Forall rae_all results -> Forall PS ss -> Forall PD ds ->
    assign_inputs va m id results sel inputs i ss ds = DOk (ss', ds') ->
    Forall PS ss' /\ Forall PD ds'.
  Proof.
    intros va m id results sel inputs. induction inputs as [|inp rest IH];
      intros i ss ds ss' ds' Hva Hm Hres Hss Hds H; simpl in H.
    - inv_ok. auto.
    - destruct (nth_error sel i) as [[pos o]|]; [|discriminate].
      destruct (nth_error results pos) as [r|] eqn:Hr; [|discriminate].
      apply nth_error_In in Hr. pose proof (proj1 (Forall_forall _ _) Hres _ Hr) as Hr'.
      inv_ok. destruct (contains_anon e) eqn:Hc; inv_ok.
      destruct (Hr' _ _ _ Ha) as (He & Hl & Hl0).
      eapply IH; [exact Hva | exact Hm | exact Hres | | | exact H].
      + rewrite !Forall_app. repeat split; auto. constructor; auto.
        apply AllS_sub. repeat split; auto; [ps_node | apply acc_all; auto].
      + rewrite Forall_app. auto.
  Qed.

  Lemma anon_component_all : forall va m id par ps ss names results,
    va_all va -> Q m -> Forall qe (flat_map sub_exprs ps) -> Forall rae_all results ->
    rae_all (anon_component env lib va m id par ps ss names results).
  Proof.
    intros va m id par ps0 ss names results Hva Hm Hps0 Hres stmts decls e' H.
    unfold anon_component in H.
    destruct (lookup_template id env) as [template|]; [|inv_ok].
    inv_ok. destruct (contains_anon (Call m id ps0)) eqn:Hcall; inv_ok.
    match type of H with (if ?c then _ else _) = _ => destruct c end; inv_ok.
    assert (Hc : AllE pe (Call m id ps0)) by (apply (keepE Hpe); [constructor; assumption | exact Hcall]).
    assert (Ht : forall outs : list (string * nat), AllE pe (Tuple m
              (map (fun o => Variable_ m a (acc_prefix va ++ [ComponentAccess (fst o)])) outs))).
    { intros outs. apply AllE_tuple. split; [apply Hpe; auto|].
      apply Forall_map. apply Forall_forall. intros. apply out_exp_all; auto. }
    eapply assign_inputs_all in Ha1; eauto.
    - destruct Ha1 as [H1 H2].
      assert (Hb : Forall PS [Block m l]).
      { constructor; [|constructor]. apply AllS_block. split; auto. ps_node. }
      destruct (ti_outputs template) as [|o [|o2 outs]]; inv_ok; repeat split; auto;
        first [apply out_exp_all; auto | exact (Ht []) | exact (Ht (_ :: _ :: _))].
    - constructor; [|constructor]. apply AllS_sub. split; [ps_node|].
      split; [destruct va; unfold access_exprs; simpl; [rewrite app_nil_r; exact Hva | constructor]|].
      destruct par; [apply AllE_par; split; [apply Hpe; auto|]|]; exact Hc.
    - destruct va as [v|]; (constructor; [split|constructor]); try (apply (p1_decl _ _ _ _ Hp); reflexivity);
        apply AllS_decl; (split; [ps_node|]); simpl; [rewrite app_nil_r; exact Hva | constructor].
  Qed.

  Lemma make_parallel_q : forall e, AllE qe e -> AllE qe (make_anonymous_parallel e).
  Proof. intros e H. destruct e; try exact H. inversion H; subst. constructor; assumption. Qed.

  Lemma rae_parallel : forall va m e,
    remove_anonymous_from_expression env lib va (ParallelOp m e) =
    if negb (is_call e) && negb (is_anonymous_component e) && contains_anon e
    then fail RCAnonymousComponentError m MAnonParallel
    else if is_call e && contains_anon e then fail RCAnonymousComponentError m MAnonParallelParam
    else if is_anonymous_component e
    then remove_anonymous_from_expression env lib va (make_anonymous_parallel e)
    else DOk ([], [], ParallelOp m e).
  Proof. intros. destruct e; reflexivity. Qed.

  Theorem rae_nodes : forall va e, va_all va -> AllE qe e ->
    rae_all (remove_anonymous_from_expression env lib va e).
  Proof.
    intros va e Hva. induction e using expression_ind_par; intros Hq.
    - simpl. destruct (contains_anon e1 || contains_anon e2) eqn:Hc; [apply rae_res_fail|].
      apply orb_false_iff in Hc. destruct Hc. apply rae_res_plain, (keepE Hpe), CL_infix; auto.
    - simpl. destruct (contains_anon e) eqn:Hc; [apply rae_res_fail|].
      apply rae_res_plain, (keepE Hpe), CL_prefix; auto.
    - simpl. destruct (contains_anon e1 || contains_anon e2 || contains_anon e3) eqn:Hc; [apply rae_res_fail|].
      apply orb_false_iff in Hc. destruct Hc as [Hc ?]. apply orb_false_iff in Hc. destruct Hc.
      apply rae_res_plain, (keepE Hpe), CL_switch; auto.
    - rewrite rae_parallel.
      destruct (negb (is_call e) && negb (is_anonymous_component e) && contains_anon e) eqn:C1; [apply rae_res_fail|].
      destruct (is_call e && contains_anon e) eqn:C2; [apply rae_res_fail|].
      destruct (is_anonymous_component e) eqn:Ea.
      + apply IHe0. apply make_parallel_q. apply AllE_par in Hq. tauto.
      + apply rae_res_plain, (keepE Hpe), CL_par; auto. destruct (is_call e); [exact C2 | exact C1].
    - cbn [remove_anonymous_from_expression].
      destruct (contains_anon (Variable_ m n acc)) eqn:Hc; [apply rae_res_fail|].
      apply rae_res_plain, (keepE Hpe); auto.
    - apply rae_res_plain, (keepE Hpe); auto. reflexivity.
    - simpl. unfold first_such. destruct (find contains_anon args) eqn:Hf; [apply rae_res_fail|].
      apply find_none_Forall in Hf. apply rae_res_plain, (keepE Hpe), CL_call; auto.
    - apply AllE_anon in Hq. destruct Hq as (Hm & Hps0 & Hss).
      apply anon_component_all; auto. apply Forall_map.
      rewrite Forall_forall in *. intros x Hx. apply H0; auto.
    - simpl. unfold first_such. destruct (find contains_anon vs) eqn:Hf; [apply rae_res_fail|].
      apply find_none_Forall in Hf. apply rae_res_plain, (keepE Hpe), CL_array; auto.
    - apply AllE_tuple in Hq. destruct Hq as (Hm & Hvs).
      intros ss ds e' E. simpl in E. inv_ok.
      eapply (collect_tuple_res (AllE pe) PS PD) in Ha; [| |constructor|constructor|constructor].
      + destruct Ha as (?&?&?). repeat split; auto. apply AllE_tuple. split; [apply Hpe|]; auto.
      + apply Forall_map. rewrite Forall_forall in *. intros x Hx. apply H; auto.
  Qed.

  Lemma seq_all : forall m pre s, Q m -> Forall PS pre -> PS s -> PS (Block m (pre ++ [s])).
  Proof.
    intros. apply AllS_block. split; [ps_node|]. apply Forall_app. auto.
  Qed.

  (* the Block and InitializationBlock cases *)
  Lemma ras_list_all : forall (mk : list statement -> statement) l va,
    (forall l', Forall PS l' -> PS (mk l')) ->
    Forall (fun s => forall va, va_all va -> AllS qe qs s ->
                     ras_all (remove_anonymous_from_statement env lib va s)) l ->
    va_all va -> Forall (AllS qe qs) l ->
    ras_all ('(new, decls) <- ras_list (remove_anonymous_from_statement env lib va) l [] [] ;;
             DOk (mk new, decls)).
  Proof.
    intros mk l va Hmk IH Hva Hl s1 d1 Hr. inv_ok.
    eapply (ras_list_res PS PD) in Ha; [| |constructor|constructor].
    - destruct Ha. split; auto.
    - rewrite Forall_forall in *. intros x Hx. apply IH; auto.
  Qed.

  Theorem ras_nodes : forall s va, va_all va -> AllS qe qs s ->
    ras_all (remove_anonymous_from_statement env lib va s).
  Proof.
    induction s using statement_ind'; intros va Hva Hq s1 d1 Hr; simpl in Hr.
    - apply AllS_if in Hq. destruct Hq as (Hm & Hqc & Hqi & Hqe).
      destruct (contains_anon c) eqn:Hc; inv_ok.
      destruct (IHs va Hva Hqi _ _ Ha) as [? ?].
      destruct e as [e'|]; inv_ok.
      + destruct (H e' eq_refl va Hva Hqe _ _ Ha0) as [? ?]. split; [|apply Forall_app; auto].
        apply AllS_if. split; [ps_node | split; [apply (keepE Hpe); auto | split; auto]].
      + split; auto. apply AllS_if. split; [ps_node | split; [apply (keepE Hpe); auto | split; auto]].
    - apply AllS_while in Hq. destruct Hq as (Hm & Hqc & Hqb). simpl in Hm.
      destruct (contains_anon c) eqn:Hc; inv_ok.
      assert (Hva' : va_all (Some (Variable_ m a []))) by (repeat constructor; apply Hpe; auto).
      destruct (IHs _ Hva' Hqb _ _ Ha0) as [? ?].
      destruct (existsb (decl_uses_counter a) l); inv_ok.
      + split.
        * apply AllS_while. split; [ps_node | split; [apply (keepE Hpe); auto|]].
          apply AllS_block. split; [ps_node|]. constructor; [assumption|].
          repeat constructor; try (apply Hpe; auto). ps_node.
        * repeat constructor; auto; try (apply Hpe; auto); try ps_node;
            [apply (p1_decl _ _ _ _ Hp); reflexivity | apply (p1_init _ _ _ _ Hp)].
      + split; auto. apply AllS_while. split; [ps_node | split; [apply (keepE Hpe); auto | assumption]].
    - destruct (contains_anon v) eqn:Hc; inv_ok. split; auto.
      refine (keep_leaf Hpe _ Hq Hc eq_refl _). intro. ps_node.
    - apply AllS_init in Hq. destruct Hq as (Hm & Hl).
      refine (ras_list_all (InitializationBlock m t) l va _ H Hva Hl _ _ Hr).
      intros l' Hl'. apply AllS_init. split; [ps_node | exact Hl'].
    - unfold first_such in Hr. destruct (find contains_anon d) eqn:Hf; inv_ok. split; auto.
      apply find_none_Forall in Hf. apply (CLs_decl _ m t n d c) in Hf.
      pose proof (keepS Hpe _ Hq Hf) as Hk. apply AllS_decl in Hq. destruct Hq as [Hm _].
      apply AllS_decl. split; [ps_node | exact Hk].
    - apply AllS_sub in Hq. destruct Hq as (Hm & Hqa & Hqr).
      destruct (access_first_such contains_anon a) eqn:Hacc; inv_ok.
      destruct (rae_nodes va r Hva Hqr _ _ _ Ha) as (He & Hl & Hl0).
      assert (Hsub : PS (Substitution m v a o e)).
      { apply AllS_sub. split; [ps_node | split; [|exact He]].
        apply (keep Hpe); [exact Hqa | exact (access_first_such_none _ _ Hacc)]. }
      destruct (is_nil l); inv_ok; split; auto. apply seq_all; auto.
    - apply AllS_msub in Hq. destruct Hq as (Hm & Hql & Hqr).
      destruct (contains_anon l) eqn:Hc; inv_ok.
      destruct (rae_nodes va r Hva Hqr _ _ _ Ha) as (He & Hl & Hl0).
      assert (Hsub : PS (MultiSubstitution m l o e)).
      { apply AllS_msub. split; [ps_node | split; [apply (keepE Hpe); auto | exact He]]. }
      destruct (is_nil l0); inv_ok; split; auto. apply seq_all; auto.
    - destruct (contains_anon l || contains_anon r) eqn:Hc; inv_ok. split; auto.
      apply orb_false_iff in Hc. apply (CLs_ceq _ m) in Hc.
      refine (keep_leaf Hpe _ Hq Hc eq_refl _). intro. ps_node.
    - destruct (existsb (log_arg_contains is_anonymous_component) a) eqn:Hc; inv_ok.
      unfold build_log_call in Ha. inv_ok. split; auto.
      destruct (build_log_args_chunks _ _ Ha0) as [Hsh He].
      assert (Hk : Forall pe (log_exprs a)).
      { refine (keepS Hpe (LogCall m a) Hq _). unfold CLs. simpl. rewrite fold_left_orb, orb_false_r. exact Hc. }
      apply AllS_log in Hq. destruct Hq as [Hm _].
      apply AllS_log. rewrite He. split; [apply Hps; [exact Hm | exact Hsh] | exact Hk].
    - apply AllS_block in Hq. destruct Hq as (Hm & Hl).
      refine (ras_list_all (Block m) l va _ H Hva Hl _ _ Hr).
      intros l' Hl'. apply AllS_block. split; [ps_node | exact Hl'].
    - destruct (contains_anon a) eqn:Hc; inv_ok. split; auto.
      refine (keep_leaf Hpe _ Hq Hc eq_refl _). intro. ps_node.
  Qed.
End Pass1.

Lemma AllE_trivial : forall (p : expression -> Prop) e, (forall x, p x) -> AllE p e.
Proof. intros. apply Forall_forall. auto. Qed.
Lemma AllS_trivial : forall (p : expression -> Prop) (q : statement -> Prop) s,
  (forall x, p x) -> (forall t, q t) -> AllS p q s.
Proof. intros. split; apply Forall_forall; auto. Qed.

Lemma NAs_all : forall s, NAs s <-> AllS (fun x => is_anonymous_component x = false) (fun _ => True) s.
Proof.
  intros. rewrite CLs_all. unfold AllS. intuition. apply Forall_forall. auto.
Qed.

Definition va_ok (va : option expression) : Prop :=
  match va with Some v => NA v | None => True end.

Lemma NA_tuple : forall m vs, Forall NA vs -> NA (Tuple m vs).
Proof. intros. apply CL_tuple; auto. Qed.

Lemma va_ok_all : forall va, va_ok va -> va_all (fun x => is_anonymous_component x = false) va.
Proof. intros [v|] H; [apply CL_all; exact H | exact I]. Qed.

Lemma preds_na :
  pass1_preds (fun _ => True) (fun x => is_anonymous_component x = false) (fun _ => True) (fun _ => True).
Proof. split; auto. Qed.

(* pass 1 removes every anonymous component *)
Lemma rae_na : forall env lib va e, va_ok va ->
  rae_res NA NAs NAs (remove_anonymous_from_expression env lib va e).
Proof.
  intros env lib va e Hva ss ds e' H.
  destruct (rae_nodes env lib _ _ _ _ preds_na va e (va_ok_all _ Hva) (AllE_trivial _ _ (fun _ => I)) _ _ _ H)
    as (He & Hs & Hd).
  split; [apply CL_all; exact He|].
  split; (eapply Forall_impl; [|eassumption]); intros a Ha; apply NAs_all; apply Ha.
Qed.

Lemma ras_na : forall env lib s va, va_ok va ->
  ras_res NAs NAs (remove_anonymous_from_statement env lib va s).
Proof.
  intros env lib s va Hva s' d H.
  destruct (ras_nodes env lib _ _ _ _ preds_na s va (va_ok_all _ Hva)
              (AllS_trivial _ _ _ (fun _ => I) (fun _ => I)) _ _ H) as (Hs & Hd).
  split; [apply NAs_all; exact Hs|].
  eapply Forall_impl; [|exact Hd]. intros a Ha. apply NAs_all. apply Ha.
Qed.

Lemma rte_nontuple : forall e e', is_tuple e = false ->
  remove_tuple_from_expression e = DOk e' -> e' = e /\ NT e.
Proof.
  intros e e' Ht H. destruct e; try discriminate Ht; cbn [remove_tuple_from_expression] in H.
  - destruct (contains_tuple e1 || contains_tuple e2) eqn:Hc; inv_ok.
    apply orb_false_iff in Hc. destruct Hc. split; auto. apply CL_infix; auto.
  - destruct (contains_tuple e) eqn:Hc; inv_ok. split; auto.
  - destruct (contains_tuple e1 || contains_tuple e2 || contains_tuple e3) eqn:Hc; inv_ok.
    apply orb_false_iff in Hc. destruct Hc as [Hc ?]. apply orb_false_iff in Hc. destruct Hc.
    split; auto. apply CL_switch; auto.
  - destruct (contains_tuple e) eqn:Hc; inv_ok. split; auto.
  - destruct (contains_tuple (Variable_ m name acc)) eqn:Hc; inv_ok. split; auto.
  - inv_ok. split; auto.
  - destruct (existsb contains_tuple args) eqn:Hc; inv_ok. split; auto.
    apply existsb_false_Forall in Hc. apply CL_call; auto.
  - discriminate H.
  - destruct (existsb contains_tuple values) eqn:Hc; inv_ok. split; auto.
    apply existsb_false_Forall in Hc. apply CL_array; auto.
Qed.

(* [R] of the results, [E] of the elements of the flattened list *)
Lemma unfold_values_res : forall R E : expression -> Prop,
  (forall v, R v -> match v with Tuple _ inner => Forall E inner | _ => E v end) ->
  forall results acc acc',
  Forall (fun r => forall v, r = DOk v -> R v) results -> Forall E acc ->
  unfold_values results acc = DOk acc' -> Forall E acc'.
Proof.
  intros R E HR. induction results as [|r rest IH]; intros acc acc' Hres Hacc H; simpl in H.
  - inv_ok. auto.
  - inversion Hres; subst. inv_ok. pose proof (HR _ (H2 _ Ha)) as Hv.
    destruct a; (eapply IH; [exact H3 | | exact H]); apply Forall_app; auto.
Qed.

Lemma tuple_substs_res : forall (L R : expression -> Prop) (S : statement -> Prop),
  (forall m x acc o e, L (Variable_ m x acc) -> R e -> S (Substitution m x acc o e)) ->
  forall m o ls rs acc acc', Forall L ls -> Forall R rs -> Forall S acc ->
  tuple_substs m o ls rs acc = DOk acc' -> Forall S acc'.
Proof.
  intros L R S HS m o. induction ls as [|l ls IH]; intros rs acc acc' Hl Hr Hacc H; simpl in H.
  - inv_ok. auto.
  - inversion Hl; subst.
    destruct l; try (exfalso; exact (fail_not_ok _ _ _ _ H)).
    destruct rs as [|r rs]; [discriminate|]. inversion Hr; subst.
    eapply IH; [eassumption | eassumption | | exact H].
    destruct (String.eqb name "_"); auto. apply Forall_app. auto.
Qed.

Lemma sep_log_exprs : forall (p : expression -> Prop) e, AllE p e -> Forall p (log_exprs (sep_log e)).
Proof.
  intros p. induction e using expression_ind'; intros Hp;
    try (unfold log_exprs; cbn [sep_log flat_map]; rewrite app_nil_r; exact Hp).
  apply AllE_tuple in Hp. destruct Hp as [_ Hvs]. unfold log_exprs. simpl. rewrite flat_map_app, Forall_app. simpl.
  split; [|constructor]. apply Forall_flat_map, Forall_flat_map.
  rewrite Forall_forall in *. intros x Hx. apply Forall_flat_map. apply H; auto.
Qed.

Definition log_all (P : expression -> Prop) (a : log_argument) : Prop :=
  match a with LogExp e => P e | LogStr _ => True end.

Lemma sep_log_nontuple : forall e, Forall (log_all (fun x => is_tuple x = false)) (sep_log e).
Proof.
  induction e using expression_ind'; simpl; try (repeat constructor; fail).
  constructor; [exact I|]. apply Forall_app. split; [apply Forall_flat_map; exact H | repeat constructor].
Qed.

(* remove_tuple_from_expression and the log arguments hand on the input nodes
   that are no tuples *)
Section Rte.
  Variables qe pe : expression -> Prop.
  Hypothesis Hpe : forall x, qe x -> is_tuple x = false -> pe x.

  (* the result of remove_tuple_from_expression: tuple free, or one flat tuple *)
  Definition flat (e : expression) : Prop :=
    match e with Tuple _ vs => Forall (AllE pe) vs | _ => AllE pe e end.

  Lemma rte_nodes : forall e v, AllE qe e -> remove_tuple_from_expression e = DOk v -> flat v.
  Proof.
    induction e using expression_ind'; intros v0 Hq Hr;
      try (apply rte_nontuple in Hr; [|reflexivity]; destruct Hr as [-> Hnt]; exact (keepE Hpe _ Hq Hnt)).
    cbn [remove_tuple_from_expression] in Hr. inv_ok. apply AllE_tuple in Hq. destruct Hq as [_ Hvs].
    eapply (unfold_values_res flat (AllE pe)); [| |constructor|exact Ha].
    - intros v Hv. exact Hv.
    - apply Forall_map. rewrite Forall_forall in *. intros x Hx v Hv. eapply H; eauto.
  Qed.

  Lemma check_log_args_nodes : forall args,
    Forall (log_all (fun x => is_tuple x = false)) args -> Forall qe (log_exprs args) ->
    check_log_args args = DOk tt -> Forall pe (log_exprs args).
  Proof.
    unfold log_exprs. induction args as [|a rest IH]; intros Hall Hq H; simpl in *; [constructor|].
    inversion Hall; subst. apply Forall_app in Hq. destruct Hq as [Ha Hrest].
    destruct a as [s|x]; inv_ok; apply Forall_app; (split; [|auto]); [constructor|].
    apply rte_nontuple in Ha0; [|assumption]. apply (keepE Hpe); [exact Ha | apply Ha0].
  Qed.

  Lemma log_new_args_nodes : forall args acc acc',
    Forall qe (log_exprs args) -> Forall pe (log_exprs acc) ->
    log_new_args args acc = DOk acc' -> Forall pe (log_exprs acc').
  Proof.
    unfold log_exprs. induction args as [|a rest IH]; intros acc acc' Hargs Hacc H; simpl in H.
    - inv_ok. auto.
    - simpl in Hargs. apply Forall_app in Hargs. destruct Hargs as [Ha Hrest].
      destruct a as [s|x]; inv_ok; (eapply IH; [exact Hrest | | exact H]); rewrite flat_map_app, Forall_app;
        (split; [exact Hacc|]).
      + constructor.
      + destruct a. unfold separate_tuple_for_log_call in *. simpl in *. rewrite !app_nil_r in *.
        apply check_log_args_nodes; [apply sep_log_nontuple | apply sep_log_exprs; exact Ha | exact Ha0].
  Qed.

End Rte.
Arguments rte_nodes {qe pe} Hpe.
Arguments log_new_args_nodes {qe pe} Hpe.

(* Every expression node pass 2 returns is a node of the input that is no tuple;
   every statement node carries the meta of a statement node of the input or is
   an assignment to a variable of the input, and none is a multi-assignment. *)
Record pass2_preds (qe pe : expression -> Prop) (qs ps : statement -> Prop) : Prop := {
  p2_expr : forall x, qe x -> is_tuple x = false -> pe x;
  p2_sub : forall m x acc o e, pe (Variable_ m x acc) -> ps (Substitution m x acc o e);
  p2_meta : forall s t,
    qs s -> stmt_meta t = stmt_meta s -> is_multi_substitution t = false -> ps t }.

Section Pass2.
  Variables (qe pe : expression -> Prop) (qs ps : statement -> Prop).
  Hypothesis Hp : pass2_preds qe pe qs ps.
  Notation Hpe := (p2_expr _ _ _ _ Hp).
  Notation Hmeta := (p2_meta _ _ _ _ Hp).

  (* the Block and InitializationBlock cases *)
  Lemma rts_list_nodes : forall (mk : list statement -> statement) l s',
    (forall l', Forall (AllS pe ps) l' -> AllS pe ps (mk l')) ->
    Forall (fun s => forall s', AllS qe qs s -> remove_tuples_from_statement s = DOk s' -> AllS pe ps s') l ->
    Forall (AllS qe qs) l ->
    (new <- rts_list remove_tuples_from_statement l [] ;; DOk (mk new)) = DOk s' -> AllS pe ps s'.
  Proof.
    intros mk l s' Hmk IH Hl Hr. inv_ok. apply Hmk.
    eapply rts_list_res; [| constructor | exact Ha].
    rewrite Forall_forall in *. intros x Hx s0 Hs0. eapply IH; eauto.
  Qed.

  Theorem rts_nodes : forall s s', AllS qe qs s -> remove_tuples_from_statement s = DOk s' -> AllS pe ps s'.
  Proof.
    induction s using statement_ind'; intros s' Hq Hr; cbn [remove_tuples_from_statement] in Hr.
    - apply AllS_if in Hq. destruct Hq as (Hm & Hc & Hi & He).
      destruct (contains_tuple c) eqn:Hct; inv_ok. pose proof (IHs _ Hi Ha).
      destruct e as [e'|]; inv_ok; apply AllS_if;
        (split; [apply (Hmeta _ _ Hm); reflexivity | split; [apply (keepE Hpe); auto | split; eauto]]).
    - apply AllS_while in Hq. destruct Hq as (Hm & Hc & Hb).
      destruct (contains_tuple c) eqn:Hct; inv_ok. apply AllS_while.
      split; [apply (Hmeta _ _ Hm); reflexivity | split; [apply (keepE Hpe); auto | eauto]].
    - destruct (contains_tuple v) eqn:Hc; inv_ok.
      refine (keep_leaf Hpe _ Hq Hc eq_refl _). intros Hm. apply (Hmeta _ _ Hm); reflexivity.
    - apply AllS_init in Hq. destruct Hq as (Hm & Hl).
      refine (rts_list_nodes (InitializationBlock m t) l s' _ H Hl Hr).
      intros l' Hl'. apply AllS_init. split; [apply (Hmeta _ _ Hm); reflexivity | exact Hl'].
    - destruct (existsb contains_tuple d) eqn:Hc; inv_ok.
      apply existsb_false_Forall, (CLs_decl _ m t n d c) in Hc. pose proof (keepS Hpe _ Hq Hc) as Hk.
      apply AllS_decl in Hq. destruct Hq as [Hm _].
      apply AllS_decl. split; [apply (Hmeta _ _ Hm); reflexivity | exact Hk].
    - apply AllS_sub in Hq. destruct Hq as (Hm & Hacc & Hrhe). inv_ok.
      pose proof (rte_nodes Hpe _ _ Hrhe Ha) as Hfl.
      destruct (is_tuple a0) eqn:Et; inv_ok.
      destruct (access_first_such contains_tuple a) eqn:Hf; inv_ok.
      destruct (negb (String.eqb v "_")); inv_ok.
      + apply AllS_sub. split; [apply (Hmeta _ _ Hm); reflexivity | split].
        * apply (keep Hpe); [exact Hacc | exact (access_first_such_none _ _ Hf)].
        * destruct a0; try exact Hfl. discriminate Et.
      + apply AllS_block. split; [apply (Hmeta _ _ Hm); reflexivity | constructor].
    - apply AllS_msub in Hq. destruct Hq as (Hm & Hl & Hrhe). inv_ok.
      pose proof (rte_nodes Hpe _ _ Hl Ha) as Hl'. pose proof (rte_nodes Hpe _ _ Hrhe Ha0) as Hr'.
      destruct a as [| | | | | | | | |ml lvals];
        try solve [match type of Hr with (if ?c then _ else _) = _ => destruct c end; inv_ok].
      destruct a0 as [| | | | | | | | |mr rvals];
        try solve [match type of Hr with (if ?c then _ else _) = _ => destruct c end; inv_ok].
      destruct (Nat.eqb (List.length lvals) (List.length rvals)).
      + inv_ok. apply AllS_block. split; [apply (Hmeta _ _ Hm); reflexivity|].
        eapply (tuple_substs_res (AllE pe) (AllE pe)); [|exact Hl'|exact Hr'|constructor|exact Ha1].
        intros m0 x acc o0 e Hx He. apply AllE_var in Hx. destruct Hx. apply AllS_sub. split; [apply (p2_sub _ _ _ _ Hp)|]; auto.
      + destruct (negb (is_nil lvals)); inv_ok.
    - destruct (contains_tuple l || contains_tuple r) eqn:Hc; inv_ok.
      apply orb_false_iff, (CLs_ceq _ m) in Hc. refine (keep_leaf Hpe _ Hq Hc eq_refl _). intros Hm. apply (Hmeta _ _ Hm); reflexivity.
    - apply AllS_log in Hq. destruct Hq as (Hm & Hargs). inv_ok.
      unfold build_log_call in Hr. inv_ok.
      destruct (build_log_args_chunks _ _ Ha0) as [_ He].
      apply AllS_log. rewrite He. split; [apply (Hmeta _ _ Hm); reflexivity|].
      eapply (log_new_args_nodes Hpe); [exact Hargs | | exact Ha]. constructor.
    - apply AllS_block in Hq. destruct Hq as (Hm & Hl).
      refine (rts_list_nodes (Block m) l s' _ H Hl Hr).
      intros l' Hl'. apply AllS_block. split; [apply (Hmeta _ _ Hm); reflexivity | exact Hl'].
    - destruct (contains_tuple a) eqn:Hc; inv_ok.
      refine (keep_leaf Hpe _ Hq Hc eq_refl _). intros Hm. apply (Hmeta _ _ Hm); reflexivity.
  Qed.
End Pass2.

(* remove_tuple_from_expression alone: whatever holds of the nodes and of a tuple
   with other elements *)
Lemma rte_all : forall pe : expression -> Prop,
  (forall m vs vs', pe (Tuple m vs) -> pe (Tuple m vs')) ->
  forall e e', AllE pe e -> remove_tuple_from_expression e = DOk e' -> AllE pe e'.
Proof.
  intros pe Htuple e e' Hp Hr. pose proof (rte_nodes (fun _ H _ => H) _ _ Hp Hr) as Hfl.
  destruct (is_tuple e) eqn:Et; [|apply rte_nontuple in Hr; [destruct Hr as [-> _]; exact Hp | exact Et]].
  destruct e; try discriminate Et. cbn [remove_tuple_from_expression] in Hr. inv_ok.
  apply AllE_tuple. split; [|exact Hfl]. apply AllE_tuple in Hp. exact (Htuple _ _ _ (proj1 Hp)).
Qed.

Definition no_msub (s : statement) : Prop :=
  forallb (fun t => negb (is_multi_substitution t)) (sub_stmts s) = true.

Definition clean_stmt (s : statement) : Prop := NAs s /\ NTs s /\ no_msub s.

Lemma clean_sugar_free : forall s, clean_stmt s -> sugar_free_stmt s.
Proof.
  intros s (Ha & Ht & Hm). split.
  - intros x Hx. split.
    + eapply contains_expr_stmt_complete; eauto.
    + eapply contains_expr_stmt_complete; eauto.
  - intros t Ht'. unfold no_msub in Hm. rewrite forallb_forall in Hm.
    specialize (Hm _ Ht'). destruct (is_multi_substitution t); auto; discriminate.
Qed.

Lemma sugar_free_clean : forall s, sugar_free_stmt s -> clean_stmt s.
Proof.
  intros s [He Hm]. repeat split.
  - apply CLs_all. apply Forall_forall. intros x Hx. apply He; auto.
  - apply CLs_all. apply Forall_forall. intros x Hx. apply He; auto.
  - unfold no_msub. apply forallb_forall. intros t Ht. rewrite (Hm _ Ht). reflexivity.
Qed.

Lemma desugar_template_passes : forall env lib body body',
  desugar_template env lib body = DOk body' ->
  exists m stmts decls c v su,
    remove_anonymous_from_statement env lib None body = DOk (Block m stmts, decls) /\
    separate_declarations decls [] [] [] = DOk (c, v, su) /\
    remove_tuples_from_statement
      (Block m ([InitializationBlock m VVar v] ++ su ++ [InitializationBlock m VComponent c] ++ stmts)) = DOk body'.
Proof.
  intros env lib body body' H. unfold desugar_template in H. inv_ok.
  destruct s; try discriminate H. inv_ok. repeat eexists; eauto.
Qed.

(* what holds of the nodes pass 1 returns holds of the block handed to pass 2 *)
Lemma init_block_all : forall (p : expression -> Prop) (q : statement -> Prop) m stmts decls c v su,
  (q (Block m stmts) -> forall t, stmt_meta t = m -> short_node t -> q t) ->
  AllS p q (Block m stmts) -> Forall (AllS p q) decls ->
  separate_declarations decls [] [] [] = DOk (c, v, su) ->
  AllS p q (Block m ([InitializationBlock m VVar v] ++ su ++ [InitializationBlock m VComponent c] ++ stmts)).
Proof.
  intros p q m stmts decls c v su Hq Hs Hd Hsep.
  eapply separate_declarations_forall in Hsep; eauto. destruct Hsep as (Hc & Hv & Hsu).
  apply AllS_block in Hs. destruct Hs as [Hm Hst]. specialize (Hq Hm).
  apply AllS_block. split; [apply Hq; [reflexivity | exact I]|]. simpl.
  constructor; [apply AllS_init; split; [apply Hq; [reflexivity | exact I] | exact Hv]|].
  apply Forall_app. split; [exact Hsu|].
  constructor; [apply AllS_init; split; [apply Hq; [reflexivity | exact I] | exact Hc] | exact Hst].
Qed.

Theorem desugar_output_sugar_free : forall env lib body body',
  desugar_template env lib body = DOk body' -> sugar_free_stmt body'.
Proof.
  intros env lib body body' H.
  apply desugar_template_passes in H. destruct H as (m & stmts & decls & c & v & su & H1 & H2 & H3).
  destruct (ras_na env lib body None I _ _ H1) as [Hs Hd].
  assert (Hin : AllS (fun x => is_anonymous_component x = false) (fun _ => True)
            (Block m ([InitializationBlock m VVar v] ++ su ++ [InitializationBlock m VComponent c] ++ stmts))).
  { apply (init_block_all _ _ m stmts decls c v su); auto.
    - apply NAs_all. exact Hs.
    - eapply Forall_impl; [|exact Hd]. intros a. apply NAs_all. }
  assert (Hp : pass2_preds (fun x => is_anonymous_component x = false)
                 (fun x => is_tuple x = false /\ is_anonymous_component x = false)
                 (fun _ => True) (fun t => is_multi_substitution t = false)) by (split; auto).
  destruct (rts_nodes _ _ _ _ Hp _ _ Hin H3) as [He Hm].
  split; apply Forall_forall; assumption.
Qed.

Lemma find_app_first : forall {A} (p : A -> bool) l1 l2,
  find p (l1 ++ l2) = match find p l1 with Some x => Some x | None => find p l2 end.
Proof. induction l1 as [|x l1 IH]; intros l2; simpl; [reflexivity|]. destruct (p x); auto. Qed.

(* the first multi-assignment in pre-order *)
Lemma find_multi_substitution_find : forall s,
  find_multi_substitution s = option_map stmt_meta (find is_multi_substitution (sub_stmts s)).
Proof.
  assert (L : forall l,
    Forall (fun s => find_multi_substitution s = option_map stmt_meta (find is_multi_substitution (sub_stmts s))) l ->
    find_list find_multi_substitution l = option_map stmt_meta (find is_multi_substitution (flat_map sub_stmts l))).
  { induction 1; simpl; [reflexivity|]. rewrite find_app_first, H.
    destruct (find _ (sub_stmts x)); simpl; [reflexivity | exact IHForall]. }
  induction s using statement_ind'; simpl; auto.
  rewrite find_app_first, IHs. destruct (find _ (sub_stmts s)); simpl; [reflexivity|].
  destruct e as [e'|]; [apply (H e' eq_refl) | reflexivity].
Qed.

Lemma find_multi_substitution_complete : forall s,
  find_multi_substitution s = None -> no_msub s.
Proof.
  intros s H. rewrite find_multi_substitution_find in H.
  destruct (find _ (sub_stmts s)) eqn:E; [discriminate|].
  apply forallb_forall. intros t Ht. rewrite (find_none _ _ E _ Ht). reflexivity.
Qed.

Lemma find_multi_substitution_sound : forall s m,
  find_multi_substitution s = Some m ->
  exists t, In t (sub_stmts s) /\ is_multi_substitution t = true.
Proof.
  intros s m H. rewrite find_multi_substitution_find in H.
  destruct (find _ (sub_stmts s)) eqn:E; [|discriminate]. apply find_some in E. eauto.
Qed.

Lemma flat_map_nil_Forall : forall {A B} (f : A -> list B) (R : A -> Prop) l,
  Forall (fun x => f x = [] -> R x) l -> flat_map f l = [] -> Forall R l.
Proof.
  induction 1; intros Hn; simpl in Hn; [constructor|].
  apply app_eq_nil in Hn. destruct Hn. constructor; auto.
Qed.

(* the callback is invoked at least once whenever the traversal answers true *)
Lemma matching_metas_nil : forall matcher e,
  matching_metas matcher e = [] -> AllE (fun x => matcher x = false) e.
Proof.
  intros matcher. unfold AllE.
  induction e using expression_ind'; simpl; destruct (matcher _) eqn:Hm; try discriminate; intros Hn;
    (constructor; [exact Hm|]); rewrite ?Forall_app, ?Forall_flat_map;
    repeat (apply app_eq_nil in Hn; destruct Hn as [? Hn]); auto;
    try exact (flat_map_nil_Forall _ _ _ H Hn).
  - refine (flat_map_nil_Forall _ _ _ _ Hn). eapply Forall_impl; [|exact H]. intros [?|i]; simpl; auto.
  - split; [exact (flat_map_nil_Forall _ _ _ H H1) | exact (flat_map_nil_Forall _ _ _ H0 Hn)].
Qed.

Lemma matching_metas_stmt_nil : forall matcher s,
  matching_metas_stmt matcher s = [] -> CLs matcher s.
Proof.
  intros matcher s H. apply CLs_all. revert H.
  induction s using statement_ind'; simpl; unfold access_exprs; intros Hn; rewrite ?Forall_app, ?Forall_flat_map;
    repeat (apply app_eq_nil in Hn; destruct Hn as [? Hn]); repeat split;
    try (apply matching_metas_nil; assumption); auto;
    try exact (flat_map_nil_Forall _ _ _ H Hn).
  - destruct e as [e'|]; [apply (H e' eq_refl); assumption | constructor].
  - refine (flat_map_nil_Forall _ _ _ _ Hn). apply Forall_forall. intros x _. apply matching_metas_nil.
  - refine (flat_map_nil_Forall _ _ _ _ H). apply Forall_forall.
    intros [?|i] _; simpl; [constructor | apply matching_metas_nil].
  - refine (flat_map_nil_Forall _ _ _ _ Hn). apply Forall_forall.
    intros [?|x] _; simpl; [constructor | apply matching_metas_nil].
Qed.

Lemma reports_at_spec : forall msg label metas rs,
  reports_at msg label metas = DOk rs ->
  List.length rs = List.length metas /\ Forall (fun r => r_msg r = msg) rs.
Proof.
  intros msg label. induction metas as [|m rest IH]; intros rs H; simpl in H.
  - inv_ok. split; auto.
  - inv_ok. destruct (IH _ Ha0). unfold mk_report in Ha. destruct (m_file m); inv_ok.
    split; simpl; auto.
Qed.

Definition fun_msg (m : dmsg) : Prop := m = MFunTuple \/ m = MFunAnon \/ m = MFunMultiSub.

Lemma check_function_kept : forall body,
  check_function body = DOk None -> sugar_free_stmt body.
Proof.
  intros body H. unfold check_function in H.
  destruct (contains_expr_stmt is_tuple body) eqn:Ht; [inv_ok|].
  destruct (contains_expr_stmt is_anonymous_component body) eqn:Ha; [inv_ok|].
  destruct (find_multi_substitution body) eqn:Hm; [inv_ok|].
  apply clean_sugar_free. repeat split; auto. apply find_multi_substitution_complete; auto.
Qed.

Lemma reports_at_matches : forall matcher msg label body rs,
  contains_expr_stmt matcher body = true ->
  reports_at msg label (matching_metas_stmt matcher body) = DOk rs ->
  rs <> [] /\ Forall (fun r => r_msg r = msg) rs /\ exists x, In x (stmt_exprs body) /\ matcher x = true.
Proof.
  intros matcher msg label body rs Hc H. apply reports_at_spec in H. destruct H as [Hl Hm]. repeat split.
  - intros ->. simpl in Hl. symmetry in Hl. apply length_zero_iff_nil in Hl.
    apply matching_metas_stmt_nil in Hl. congruence.
  - exact Hm.
  - apply contains_expr_stmt_sound. exact Hc.
Qed.

Lemma check_function_dropped : forall body rs,
  check_function body = DOk (Some rs) ->
  rs <> [] /\ Forall (fun r => fun_msg (r_msg r)) rs /\ has_sugar body.
Proof.
  intros body rs H. unfold check_function in H.
  destruct (contains_expr_stmt is_tuple body) eqn:Ht.
  { inv_ok. destruct (reports_at_matches _ _ _ _ _ Ht Ha) as (Hne & Hm & x & Hx & Hxt).
    repeat split; [exact Hne | | left; eauto]. eapply Forall_impl; [|exact Hm]. intros r ->. left; auto. }
  destruct (contains_expr_stmt is_anonymous_component body) eqn:Han.
  { inv_ok. destruct (reports_at_matches _ _ _ _ _ Han Ha) as (Hne & Hm & x & Hx & Hxt).
    repeat split; [exact Hne | | left; eauto]. eapply Forall_impl; [|exact Hm]. intros r ->. right; left; auto. }
  destruct (find_multi_substitution body) eqn:Hm; inv_ok.
  unfold mk_report in Ha. destruct (m_file m); inv_ok. repeat split.
  - discriminate.
  - constructor; [right; right; reflexivity | constructor].
  - right. eapply find_multi_substitution_sound; eauto.
Qed.

Section Loops.
  Variables (env : tenv) (lib : file_library).

  Definition t_ok (t : string * statement) : list (string * statement) :=
    match desugar_template env lib (snd t) with DOk b => [(fst t, b)] | _ => [] end.
  Definition t_err (t : string * statement) : list report :=
    match desugar_template env lib (snd t) with DErr r => [r] | _ => [] end.
  Definition t_stuck (t : string * statement) : bool :=
    match desugar_template env lib (snd t) with DPanic _ | DOutOfFuel => true | _ => false end.

  Lemma desugar_templates_spec : forall ts acc reps,
    if existsb t_stuck ts
    then forall x, desugar_templates env lib ts acc reps <> DOk x
    else desugar_templates env lib ts acc reps = DOk (acc ++ flat_map t_ok ts, reps ++ flat_map t_err ts).
  Proof.
    induction ts as [|[name body] ts IH]; intros acc reps; simpl.
    - rewrite !app_nil_r. reflexivity.
    - unfold t_stuck at 1, t_ok at 1, t_err at 1. simpl.
      destruct (desugar_template env lib body) as [b|r|site|]; simpl.
      + specialize (IH (acc ++ [(name, b)]) reps). destruct (existsb t_stuck ts); auto.
        rewrite IH, <- app_assoc. reflexivity.
      + specialize (IH acc (reps ++ [r])). destruct (existsb t_stuck ts); auto.
        rewrite IH, <- app_assoc. reflexivity.
      + intros x; discriminate.
      + intros x; discriminate.
  Qed.
End Loops.

Definition f_ok (f : string * statement) : list (string * statement) :=
  match check_function (snd f) with DOk None => [f] | _ => [] end.
Definition f_err (f : string * statement) : list report :=
  match check_function (snd f) with DOk (Some rs) => rs | _ => [] end.
Definition f_stuck (f : string * statement) : bool :=
  match check_function (snd f) with DOk _ => false | _ => true end.

Lemma desugar_functions_spec : forall fs acc reps,
  if existsb f_stuck fs
  then forall x, desugar_functions fs acc reps <> DOk x
  else desugar_functions fs acc reps = DOk (acc ++ flat_map f_ok fs, reps ++ flat_map f_err fs).
Proof.
  induction fs as [|[name body] fs IH]; intros acc reps; simpl.
  - rewrite !app_nil_r. reflexivity.
  - unfold f_stuck at 1, f_ok at 1, f_err at 1. simpl.
    destruct (check_function body) as [[rs|]|r|site|]; simpl.
    + specialize (IH acc (reps ++ rs)). destruct (existsb f_stuck fs); auto.
      rewrite IH, <- app_assoc. reflexivity.
    + specialize (IH (acc ++ [(name, body)]) reps). destruct (existsb f_stuck fs); auto.
      rewrite IH, <- app_assoc. reflexivity.
    + intros x; discriminate.
    + intros x; discriminate.
    + intros x; discriminate.
Qed.

Lemma remove_syntactic_sugar_spec : forall lib ts fs,
  if existsb (t_stuck (env_of ts) lib) ts || existsb f_stuck fs
  then forall d, remove_syntactic_sugar lib ts fs <> DOk d
  else remove_syntactic_sugar lib ts fs =
       DOk (Desugared (flat_map (t_ok (env_of ts) lib) ts) (flat_map f_ok fs)
              (flat_map (t_err (env_of ts) lib) ts ++ flat_map f_err fs)).
Proof.
  intros lib ts fs. unfold remove_syntactic_sugar.
  pose proof (desugar_templates_spec (env_of ts) lib ts [] []) as T.
  destruct (existsb _ ts); simpl.
  - intros d E. inv_ok. exact (T _ Ha).
  - rewrite T. simpl.
    pose proof (desugar_functions_spec fs [] (flat_map (t_err (env_of ts) lib) ts)) as F.
    destruct (existsb f_stuck fs).
    + intros d E. inv_ok. exact (F _ Ha).
    + rewrite F. reflexivity.
Qed.

Lemma desugar_templates_reports_grow : forall env lib ts acc reps acc' reps',
  desugar_templates env lib ts acc reps = DOk (acc', reps') -> forall r, In r reps -> In r reps'.
Proof.
  intros env lib ts acc reps acc' reps' H r Hr.
  pose proof (desugar_templates_spec env lib ts acc reps) as T.
  destruct (existsb _ ts); [elim (T _ H)|]. rewrite T in H. inv_ok. apply in_or_app. auto.
Qed.

(* Every template handed on is sugar free; every function handed on is an input
   function and sugar free; every input function containing sugar is answered
   by an error report. *)
Theorem remove_syntactic_sugar_sugar_free : forall lib ts fs d,
  remove_syntactic_sugar lib ts fs = DOk d ->
  (forall n b, In (n, b) (d_templates d) -> sugar_free_stmt b) /\
  (forall n b, In (n, b) (d_functions d) -> In (n, b) fs /\ sugar_free_stmt b) /\
  (forall n b, In (n, b) fs -> ~ sugar_free_stmt b ->
     ~ In (n, b) (d_functions d) /\ exists r, In r (d_reports d) /\ fun_msg (r_msg r)).
Proof.
  intros lib ts fs d H. pose proof (remove_syntactic_sugar_spec lib ts fs) as S.
  destruct (existsb _ ts || existsb f_stuck fs) eqn:Est; [elim (S _ H)|].
  rewrite S in H. inv_ok. simpl. apply orb_false_iff in Est. destruct Est as [_ Ef].
  assert (Hfs : forall n b, In (n, b) (flat_map f_ok fs) -> In (n, b) fs /\ sugar_free_stmt b).
  { intros n b Hin. apply in_flat_map in Hin. destruct Hin as (f & Hf & Hin). unfold f_ok in Hin.
    destruct (check_function (snd f)) as [[rs|]| | |] eqn:Ec; try contradiction. destruct Hin as [->|[]].
    split; [exact Hf | exact (check_function_kept _ Ec)]. }
  split; [|split; [exact Hfs|]].
  - intros n b Hin. apply in_flat_map in Hin. destruct Hin as (t & _ & Hin). unfold t_ok in Hin.
    destruct (desugar_template (env_of ts) lib (snd t)) eqn:Ed; try contradiction.
    destruct Hin as [[= _ <-]|[]]. exact (desugar_output_sugar_free _ _ _ _ Ed).
  - intros n b Hin Hns. split; [intros Hin'; apply Hns, (Hfs _ _ Hin')|].
    rewrite existsb_false_Forall, Forall_forall in Ef. specialize (Ef _ Hin). unfold f_stuck in Ef. simpl in Ef.
    destruct (check_function b) as [[rs|]| | |] eqn:Ec; try discriminate Ef.
    + destruct (check_function_dropped _ _ Ec) as (Hne & Hmsg & _). destruct rs as [|r rs]; [congruence|].
      exists r. split; [|inversion Hmsg; auto]. apply in_or_app. right. apply in_flat_map. exists (n, b).
      split; [exact Hin|]. unfold f_err. simpl. rewrite Ec. left. reflexivity.
    + elim Hns. exact (check_function_kept _ Ec).
Qed.
