(* Propagation rewrites statements only: whatever the pass budgets, every block of the
   result is the corresponding block of the input with other statements (set_stmts), so
   every projection of a block that ignores its statements - index, depth, predecessor and
   successor lists, the node DominatorTree::new reads - is unchanged (C07: the graph facts
   proved of the graph handed to propagation hold of the annotated graph). *)
From Coq Require Import ZArith NArith List Bool.
Require Import Model.Base Model.Ir Model.Propagate Model.DegGraph.
Import ListNotations.

Section Shape.
Variable A : Type.
Variable f : block -> A.
Hypothesis Hf : forall b ss, f (set_stmts b ss) = f b.

Lemma pd_blocks_shape idom : forall bs env res pre b bs' env',
  pd_blocks idom env res pre bs = (b, bs', env') -> map f bs' = map f bs.
Proof.
  induction bs as [|blk tl IH]; intros env res pre b bs' env'; cbn [pd_blocks].
  - intros [= <- <- <-]. reflexivity.
  - destruct res; [intros [= <- <- <-]; reflexivity|].
    destruct (pd_stmts _ false (b_stmts blk)) as [[r1 ss'] env1].
    destruct (pd_blocks idom env1 r1 (pre ++ [set_stmts blk ss']) tl) as [[r2 tl'] env2] eqn:Et. intros [= <- <- <-].
    cbn [map]. rewrite (IH _ _ _ _ _ _ Et), Hf. reflexivity.
Qed.

Lemma degrees_passes_shape idom : forall k env bs bs' env',
  degrees_passes k idom env bs = (bs', env') -> map f bs' = map f bs.
Proof.
  induction k as [|k IH]; intros env bs bs' env'; cbn [degrees_passes].
  - intros [= <- <-]. reflexivity.
  - destruct (pd_blocks idom env false [] bs) as [[rerun bs1] env1] eqn:Ep.
    pose proof (pd_blocks_shape idom _ _ _ _ _ _ _ Ep) as H1. destruct rerun.
    + intros Hk. rewrite (IH _ _ _ _ Hk). exact H1.
    + intros [= <- <-]. exact H1.
Qed.

Lemma pv_blocks_shape p : forall bs env res b bs' env',
  pv_blocks p env res bs = Ok (b, bs', env') -> map f bs' = map f bs.
Proof.
  induction bs as [|blk tl IH]; intros env res b bs' env'; cbn [pv_blocks].
  - intros [= <- <- <-]. reflexivity.
  - destruct res; [intros [= <- <- <-]; reflexivity|].
    destruct (pv_stmts p env false (b_stmts blk)) as [[[r1 ss'] env1]| | |] eqn:Es; try discriminate. cbn [bind].
    destruct (pv_blocks p env1 r1 tl) as [[[r2 tl'] env2]| | |] eqn:Et; try discriminate. cbn [bind].
    intros [= <- <- <-]. cbn [map]. rewrite (IH _ _ _ _ _ Et), Hf. reflexivity.
Qed.

Lemma values_passes_shape p : forall k env bs bs' env',
  values_passes k p env bs = Ok (bs', env') -> map f bs' = map f bs.
Proof.
  induction k as [|k IH]; intros env bs bs' env'; cbn [values_passes].
  - intros [= <- <-]. reflexivity.
  - destruct (pv_blocks p env false bs) as [[[rerun bs1] env1]| | |] eqn:Ep; try discriminate. cbn [bind].
    pose proof (pv_blocks_shape p _ _ _ _ _ _ Ep) as H1. destruct rerun.
    + intros Hk. rewrite (IH _ _ _ _ Hk). exact H1.
    + intros [= <- <-]. exact H1.
Qed.

Lemma propagate_shape kv kd p idom c c' : propagate kv kd p idom c = Ok c' ->
  map f (c_blocks c') = map f (c_blocks c).
Proof.
  unfold propagate.
  destruct (values_passes kv p [] (c_blocks c)) as [[bs1 env1]| | |] eqn:Ev; try discriminate. cbn [bind].
  destruct (degrees_passes kd idom (denv_init (c_kind c) (c_params c)) bs1) as [bs2 env2] eqn:Ed.
  intros [= <-]. cbn [set_blocks c_blocks].
  rewrite (degrees_passes_shape idom _ _ _ _ _ Ed). exact (values_passes_shape p _ _ _ _ _ Ev).
Qed.
End Shape.

Theorem propagate_keeps_dom_graph kv kd p idom c c' : propagate kv kd p idom c = Ok c' ->
  dom_graph_of c' = dom_graph_of c.
Proof.
  intros H. unfold dom_graph_of.
  exact (propagate_shape _ (fun b => Dom.Node (map N.to_nat (b_preds b)) (map N.to_nat (b_succs b)))
                         (fun b ss => eq_refl) kv kd p idom c c' H).
Qed.
