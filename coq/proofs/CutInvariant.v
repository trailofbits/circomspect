(* C20, the universal statement: whatever the number of passes, the value
   claims Model.Propagate has attached so far are accepted by the validator
   Justify.vjust_cfg (hence true, by Proofs.ValueProofs).
   Justification relative to the value environment ([ejust], [sjust]) is monotone in
   the environment and kept, together with the claims already made, by every visit;
   the invariant [Inv] adds that every binding of the environment is the claim of all
   defining assignments, which is what the validator asks of a read. *)
From Coq Require Import ZArith List Bool Lia.
Require Import Model.Base Model.Field Model.Ir Model.Propagate Model.Justify Model.Clean.
Require Import Spec.ValueSem Proofs.IrInd Proofs.ValueProofs Proofs.PropagateVisit.
Import ListNotations.
Local Open Scope Z_scope.

Definition env_le (e1 e2 : venv) : Prop := forall v x, venv_get e1 v = Some x -> venv_get e2 v = Some x.

Lemma env_le_refl e : env_le e e. Proof. intros v x H. exact H. Qed.

Lemma venv_add_spec env v x env' : venv_add env v x = Ok env' ->
  (forall z, venv_get env v = Some z -> z = x) /\
  forall w, venv_get env' w = if vname_eqb v w then Some x else venv_get env w.
Proof.
  unfold venv_add. destruct (venv_get env v) as [y|] eqn:E.
  - destruct (vred_eqb y x) eqn:Ey; [|discriminate]. apply vred_eqb_eq in Ey. intros [= <-].
    split; [congruence|]. intros w. destruct (vname_eqb v w) eqn:Ev; [|reflexivity].
    apply vname_eqb_eq in Ev. congruence.
  - intros [= <-]. split; [discriminate|reflexivity].
Qed.

(* [claims kval], written out *)
Definition claim_is (k : know) (o : option vred) : Prop :=
  match kval k with None => True | Some c => o = Some c end.

Inductive ejust (p : Z) (env : venv) : expr -> Prop :=
| ej_num z k : 0 <= z -> claim_is k (Some (VField (Z.rem z p))) -> ejust p env (ENum z k)
| ej_var v k : claim_is k (venv_get env v) -> ejust p env (EVar v k)
| ej_infix op l r k : ejust p env l -> ejust p env r ->
    (forall c, kval k = Some c -> infix_values op (expr_val l) (expr_val r) p = Ok (Some c)) ->
    ejust p env (EInfix op l r k)
| ej_prefix op e k : ejust p env e -> claim_is k (prefix_values op (expr_val e) p) -> ejust p env (EPrefix op e k)
| ej_switch c t f k : ejust p env c -> ejust p env t -> ejust p env f ->
    claim_is k (switch_value (expr_val c) (expr_val t) (expr_val f)) -> ejust p env (ESwitch c t f k)
| ej_call n args k : Forall (ejust p env) args -> kval k = None -> ejust p env (ECall n args k)
| ej_array vs k : Forall (ejust p env) vs -> kval k = None -> ejust p env (EArray vs k)
| ej_access v acc k : Forall (ejust p env) (acc_exprs acc) -> kval k = None -> ejust p env (EAccess v acc k)
| ej_update v acc rhe k : Forall (ejust p env) (acc_exprs acc) -> ejust p env rhe -> kval k = None ->
    ejust p env (EUpdate v acc rhe k)
| ej_phi args k :
    (forall c, kval k = Some c -> args <> [] /\ forall a, In a args -> venv_get env a = Some c) ->
    ejust p env (EPhi args k).

Lemma ejust_inv p env e : ejust p env e ->
  match e with
  | ENum z k => 0 <= z /\ claim_is k (Some (VField (Z.rem z p)))
  | EVar v k => claim_is k (venv_get env v)
  | EInfix op l r k => ejust p env l /\ ejust p env r /\
      forall c, kval k = Some c -> infix_values op (expr_val l) (expr_val r) p = Ok (Some c)
  | EPrefix op e k => ejust p env e /\ claim_is k (prefix_values op (expr_val e) p)
  | ESwitch c t f k => ejust p env c /\ ejust p env t /\ ejust p env f /\
      claim_is k (switch_value (expr_val c) (expr_val t) (expr_val f))
  | ECall _ args k | EArray args k => Forall (ejust p env) args /\ kval k = None
  | EAccess _ acc k => Forall (ejust p env) (acc_exprs acc) /\ kval k = None
  | EUpdate _ acc rhe k => Forall (ejust p env) (acc_exprs acc) /\ ejust p env rhe /\ kval k = None
  | EPhi args k => forall c, kval k = Some c -> args <> [] /\ forall a, In a args -> venv_get env a = Some c
  end.
Proof. intros H. destruct H; auto. Qed.

Lemma ejust_mono p env env' e : env_le env env' -> ejust p env e -> ejust p env' e.
Proof.
  intros Hle. induction e as [z k|v k|op l r k IHl IHr|op e k IHe|c t f k IHc IHt IHf|n args k IHargs|vs k IHvs
                  |v acc k IHacc|v acc rhe k IHacc IHrhe|args k] using expr_ind'; intros H; apply ejust_inv in H.
  - destruct H. constructor; assumption.
  - constructor. apply (claims_mono kval) with (2 := H). intros c. apply Hle.
  - destruct H as (Hl & Hr & Hk). constructor; auto.
  - destruct H. constructor; auto.
  - destruct H as (Hc & Ht & Hf & Hk). constructor; auto.
  - destruct H as [Ha Hk]. constructor; [exact (Forall_mp _ _ _ IHargs Ha)|exact Hk].
  - destruct H as [Ha Hk]. constructor; [exact (Forall_mp _ _ _ IHvs Ha)|exact Hk].
  - destruct H as [Ha Hk]. constructor; [exact (Forall_mp _ _ _ IHacc Ha)|exact Hk].
  - destruct H as (Ha & Hr & Hk). constructor; [exact (Forall_mp _ _ _ IHacc Ha)|auto|exact Hk].
  - constructor. intros c Hc. destruct (H c Hc) as [Hne Hall]. split; [exact Hne|]. intros a Ha. apply Hle. auto.
Qed.

Lemma sc_set_val_val res e v b e' : sc_set_val res e v = (b, e') ->
  (res = true /\ e' = e) \/ (res = false /\ expr_val e' = Some v).
Proof.
  unfold sc_set_val. destruct res.
  - intros [= <- <-]. left. auto.
  - unfold set_val. intros [= <- <-]. right. split; [reflexivity|]. destruct e; reflexivity.
Qed.

Lemma prefix_values_ext op a a' p : oext a a' -> oext (prefix_values op a p) (prefix_values op a' p).
Proof. intros Ha c H. destruct (prefix_values_some _ _ _ _ H) as (y & ->). rewrite (Ha _ eq_refl). exact H. Qed.

Lemma switch_value_ext a b c a' b' c' :
  oext a a' -> oext b b' -> oext c c' -> oext (switch_value a b c) (switch_value a' b' c').
Proof.
  intros Ha Hb Hc x. unfold switch_value.
  destruct a as [[[|]|z]|]; try discriminate; rewrite (Ha _ eq_refl).
  - destruct b; [|discriminate]. intros [= <-]. rewrite (Hb _ eq_refl). reflexivity.
  - destruct c; [|discriminate]. intros [= <-]. rewrite (Hc _ eq_refl). reflexivity.
  - destruct (negb (z =? 0)).
    + destruct b; [|discriminate]. intros [= <-]. rewrite (Hb _ eq_refl). reflexivity.
    + destruct c; [|discriminate]. intros [= <-]. rewrite (Hc _ eq_refl). reflexivity.
Qed.

(* the claim the infix rule gives: none unless the operator table returns a value *)
Definition infix_val (op : infix_op) (a b : option vred) (p : Z) : option vred :=
  match infix_values op a b p with Ok o => o | _ => None end.

Lemma infix_val_ext op a a' b b' p : oext a a' -> oext b b' -> oext (infix_val op a b p) (infix_val op a' b' p).
Proof.
  intros Ha Hb c. unfold infix_val. destruct (infix_values op a b p) as [o| | |] eqn:E; try discriminate. intros ->.
  destruct (infix_values_some _ _ _ _ _ E) as (x & y & -> & ->). rewrite (Ha _ eq_refl), (Hb _ eq_refl), E. reflexivity.
Qed.

Lemma infix_claim op a b p k :
  (forall c, kval k = Some c -> infix_values op a b p = Ok (Some c)) <-> claim_is k (infix_val op a b p).
Proof.
  unfold claim_is, infix_val. split.
  - intros H. destruct (kval k) as [c|]; [|exact I]. rewrite (H c eq_refl). reflexivity.
  - intros H c Hc. rewrite Hc in H. destruct (infix_values op a b p) as [o| | |]; try discriminate. congruence.
Qed.

Lemma wp_infix J op a b p (Q : option vred -> Prop) :
  wp J (infix_values op a b p) (fun _ => True) -> Q (infix_val op a b p) -> wp J (infix_values op a b p) Q.
Proof. unfold infix_val. destruct (infix_values op a b p); cbn [wp]; auto. Qed.

Lemma phi_values_spec env args xs : phi_values env args = Some xs ->
  length xs = length args /\ forall i a, nth_error args i = Some a -> exists x, nth_error xs i = Some x /\ venv_get env a = Some x.
Proof.
  revert xs. induction args as [|a tl IH]; intros xs; cbn [phi_values].
  - intros [= <-]. split; [reflexivity|]. intros [|i] b; discriminate.
  - destruct (venv_get env a) as [x|] eqn:Ea; [|discriminate].
    destruct (phi_values env tl) as [ys|]; [|discriminate]. intros [= <-].
    destruct (IH ys eq_refl) as [Hl Hn]. split; [cbn; lia|].
    intros [|i] b; cbn [nth_error].
    + intros [= <-]. eauto.
    + apply Hn.
Qed.

Lemma phi_value_spec env args c : phi_value env args = Some c ->
  args <> [] /\ forall a, In a args -> venv_get env a = Some c.
Proof.
  unfold phi_value. destruct (phi_values env args) as [[|x xs]|] eqn:E; try discriminate.
  destruct (forallb (vred_eqb x) xs) eqn:Ef; [|discriminate]. intros [= <-].
  destruct (phi_values_spec env args _ E) as [Hl Hn].
  split; [intros ->; discriminate|].
  intros a Ha. apply In_nth_error in Ha as [i Hi].
  destruct (Hn i a Hi) as (y & Hy & Hg). rewrite Hg. f_equal.
  destruct i as [|i]; cbn [nth_error] in Hy; [congruence|].
  rewrite forallb_forall in Ef. apply nth_error_In in Hy. specialize (Ef y Hy).
  apply vred_eqb_eq in Ef. congruence.
Qed.

Lemma phi_value_complete env args c :
  args <> [] -> (forall a, In a args -> venv_get env a = Some c) -> phi_value env args = Some c.
Proof.
  intros Hne Hall. unfold phi_value.
  assert (H : phi_values env args = Some (map (fun _ => c) args)).
  { clear Hne. induction args as [|a tl IH]; [reflexivity|]. cbn [phi_values map].
    rewrite (Hall a (or_introl eq_refl)), IH; [reflexivity|]. intros b Hb. apply Hall. right. exact Hb. }
  rewrite H. destruct args as [|a tl]; [congruence|]. cbn [map].
  replace (forallb (vred_eqb c) (map (fun _ => c) tl)) with true; [reflexivity|].
  symmetry. apply forallb_forall. intros y Hy. apply in_map_iff in Hy as (_ & <- & _). apply vred_eqb_eq. reflexivity.
Qed.

Definition stable (e e' : expr) : Prop := oext (expr_val e) (expr_val e').

Section Expr.
Variables (J : Prop) (p : Z) (env : venv).
(* the operator table returns on the claims of justified operands, unless failed runs
   are not spoken of ([J] true) *)
Hypothesis Hinfix : forall op l r, ejust p env l -> ejust p env r ->
  wp J (infix_values op (expr_val l) (expr_val r) p) (fun _ => True).

Definition kept (e e' : expr) : Prop := ejust p env e' /\ stable e e' /\ is_update e' = is_update e.
Definition keeps (e e' : expr) : Prop := ejust p env e -> kept e e'.

Lemma keeps_refl e : keeps e e.
Proof. intros H. split; [exact H|]. split; [apply oext_refl|reflexivity]. Qed.

Definition good (e : expr) : Prop := ejust p env e -> pv_lifts J p env keeps e.

Lemma keeps_ejust (x y : expr) : keeps x y -> ejust p env x -> ejust p env y.
Proof. intros H Hx. exact (proj1 (H Hx)). Qed.

Lemma pv_exprs_good es : Forall good es -> Forall (ejust p env) es -> forall res,
  wp J (pv_exprs p env res es) (fun r => Forall (ejust p env) (snd r)).
Proof.
  intros Hg Hj res. eapply wp_mono; [|exact (pv_exprs_lift _ _ _ _ keeps_refl es (Forall_mp _ _ _ Hg Hj) res)].
  intros r H. exact (Forall2_transfer _ _ _ _ _ H keeps_ejust Hj).
Qed.

Lemma pv_accs_good acc : Forall good (acc_exprs acc) -> Forall (ejust p env) (acc_exprs acc) -> forall res,
  wp J (pv_accs p env res acc) (fun r => Forall (ejust p env) (acc_exprs (snd r))).
Proof.
  intros Hg Hj res. eapply wp_mono; [|exact (pv_accs_lift _ _ _ _ keeps_refl acc (Forall_mp _ _ _ Hg Hj) res)].
  intros r H. exact (Forall2_transfer _ _ _ _ _ (acc_rel_exprs _ _ _ H) keeps_ejust Hj).
Qed.

Lemma good_run e : good e -> ejust p env e ->
  wp J (pv_expr p env e) (fun r => ejust p env (snd r) /\ stable e (snd r)).
Proof. intros Hg Hj. eapply wp_mono; [|exact (Hg Hj)]. intros r H. destruct (H Hj) as (H1 & H2 & _). auto. Qed.

Lemma pv_expr_good : forall e, good e.
Proof.
  induction e as [z k|v k|op l r k IHl IHr|op e k IHe|c t f k IHc IHt IHf|n args k IHargs|vs k IHvs
                  |v acc k IHacc|v acc rhe k IHacc IHrhe|args k] using expr_ind';
    intros Hj0; pose proof (ejust_inv _ _ _ Hj0) as Hj; unfold pv_lifts; cbn [pv_expr].
  - destruct Hj as [Hz Hk]. intros _. split; [|split; [|reflexivity]].
    + apply ej_num; [assumption|]. reflexivity.
    + intros c Hc. change (kval k = Some c) in Hc. unfold claim_is in Hk. rewrite Hc in Hk. exact Hk.
  - destruct (venv_get env v) as [x|] eqn:Ev; [|apply keeps_refl]. intros _. split; [|split; [|reflexivity]].
    + apply ej_var. exact Ev.
    + intros c Hc. change (kval k = Some c) in Hc. unfold claim_is in Hj. rewrite Hc, Ev in Hj. exact Hj.
  - destruct Hj as (Hl & Hr & Hk). apply infix_claim in Hk.
    apply wp_bind. eapply wp_mono; [|exact (good_run l IHl Hl)]. intros [b1 l'] [Hjl Hsl].
    assert (Hr' : wp J (if b1 then Ok (true, r) else pv_expr p env r) (fun x => ejust p env (snd x) /\ stable r (snd x)))
      by (destruct b1; [split; [exact Hr|apply oext_refl]|exact (good_run r IHr Hr)]).
    apply wp_bind. eapply wp_mono; [|exact Hr']. intros [b2 r'] [Hjr Hsr].
    apply wp_bind. apply (wp_infix _ _ _ _ _ _ (Hinfix op l' r' Hjl Hjr)). apply wp_opt. intros _.
    apply (sc_finish_snd kval put_val (fun _ _ => eq_refl) (kept (EInfix op l r k)) (EInfix op l' r' k) _ _ b2 Hk (infix_val_ext op _ _ _ _ p Hsl Hsr)).
    intros k' Hk' Hst. split; [|split; [exact Hst|reflexivity]]. apply ej_infix; [exact Hjl|exact Hjr|apply infix_claim; exact Hk'].
  - destruct Hj as (He & Hk).
    apply wp_bind. eapply wp_mono; [|exact (good_run e IHe He)]. intros [b1 x'] [Hjx Hsx]. apply wp_opt. intros _.
    apply (sc_finish_snd kval put_val (fun _ _ => eq_refl) (kept (EPrefix op e k)) (EPrefix op x' k) _ _ b1 Hk (prefix_values_ext op _ _ p Hsx)).
    intros k' Hk' Hst. split; [|split; [exact Hst|reflexivity]]. apply ej_prefix; assumption.
  - destruct Hj as (Hc & Ht & Hf & Hk).
    apply wp_bind. eapply wp_mono; [|exact (good_run c IHc Hc)]. intros [bc c'] [Hjc Hsc].
    apply wp_bind. eapply wp_mono; [|exact (good_run t IHt Ht)]. intros [bt t'] [Hjt Hst].
    apply wp_bind. eapply wp_mono; [|exact (good_run f IHf Hf)]. intros [bf f'] [Hjf Hsf]. apply wp_opt. intros _.
    apply (sc_finish_snd kval put_val (fun _ _ => eq_refl) (kept (ESwitch c t f k)) (ESwitch c' t' f' k) _ _ _ Hk (switch_value_ext _ _ _ _ _ _ Hsc Hst Hsf)).
    intros k' Hk' Hst'. split; [|split; [exact Hst'|reflexivity]]. apply ej_switch; assumption.
  - destruct Hj as (Ha & Hk). rewrite pv_list_eq.
    apply wp_bind. eapply wp_mono; [|exact (pv_exprs_good _ IHargs Ha false)]. intros [b args'] Ha' _.
    split; [|split; [apply oext_refl|reflexivity]]. apply ej_call; [exact Ha'|exact Hk].
  - destruct Hj as (Ha & Hk). rewrite pv_list_eq.
    apply wp_bind. eapply wp_mono; [|exact (pv_exprs_good _ IHvs Ha false)]. intros [b vs'] Ha' _.
    split; [|split; [apply oext_refl|reflexivity]]. apply ej_array; [exact Ha'|exact Hk].
  - destruct Hj as (Ha & Hk). rewrite pv_acc_eq.
    apply wp_bind. eapply wp_mono; [|exact (pv_accs_good _ IHacc Ha false)]. intros [b acc'] Ha' _.
    split; [|split; [apply oext_refl|reflexivity]]. apply ej_access; [exact Ha'|exact Hk].
  - destruct Hj as (Ha & Hr & Hk).
    apply wp_bind. eapply wp_mono; [|exact (good_run rhe IHrhe Hr)]. intros [b1 rhe'] [Hjr _]. rewrite pv_acc_eq.
    apply wp_bind. eapply wp_mono; [|exact (pv_accs_good _ IHacc Ha b1)]. intros [b acc'] Ha' _.
    split; [|split; [apply oext_refl|reflexivity]]. apply ej_update; [exact Ha'|exact Hjr|exact Hk].
  - destruct (phi_value env args) as [x|] eqn:Ep; [|apply keeps_refl]. intros _. split; [|split; [|reflexivity]].
    + apply ej_phi. cbn [kval]. intros c [= <-]. apply phi_value_spec. exact Ep.
    + intros c Hc. destruct (Hj c Hc) as [Hne Hall]. rewrite (phi_value_complete env args c Hne Hall) in Ep. injection Ep as <-. reflexivity.
Qed.
End Expr.

(* the visits that return, nothing being said of the others *)
Lemma pv_expr_kept p env e b e' : ejust p env e -> pv_expr p env e = Ok (b, e') -> kept p env e e'.
Proof. intros Hj E. exact (wp_ok _ _ _ _ (pv_expr_good True p env (fun _ _ _ _ _ => wp_trivial _) e Hj) E Hj). Qed.

Lemma all_good p env es : Forall (good True p env) es.
Proof. apply Forall_forall. intros e _. apply pv_expr_good. intros. apply wp_trivial. Qed.

Lemma pv_exprs_kept p env es res b es' :
  Forall (ejust p env) es -> pv_exprs p env res es = Ok (b, es') -> Forall (ejust p env) es'.
Proof. intros Hj E. exact (wp_ok _ _ _ _ (pv_exprs_good True p env es (all_good p env es) Hj res) E). Qed.

Definition ljust (p : Z) (env : venv) (a : logarg) : Prop :=
  match a with LStr => True | LExpr e => ejust p env e end.

Definition sjust (p : Z) (env : venv) (s : stmt) : Prop :=
  match s with
  | SDecl _ _ _ dims => Forall (ejust p env) dims
  | SIf _ c _ _ => ejust p env c
  | SRet _ e => ejust p env e
  | SAssert _ e => ejust p env e
  | SSubst _ _ _ rhe sval _ =>
    ejust p env rhe /\ (forall c, sval = Some c -> is_update rhe = false /\ expr_val rhe = Some c)
  | SCeq _ l r => ejust p env l /\ ejust p env r
  | SLog _ args => Forall (ljust p env) args
  end.

Lemma sjust_mono p env env' s : env_le env env' -> sjust p env s -> sjust p env' s.
Proof.
  intros Hle. destruct s; cbn [sjust].
  - intros H. rewrite Forall_forall in *. intros e He. eapply ejust_mono; eauto.
  - apply ejust_mono; assumption.
  - apply ejust_mono; assumption.
  - intros [H1 H2]. split; [eapply ejust_mono; eauto|exact H2].
  - intros [H1 H2]. split; eapply ejust_mono; eauto.
  - intros H. rewrite Forall_forall in *. intros a Ha. specialize (H a Ha). destruct a; cbn in *; [exact I|]. eapply ejust_mono; eauto.
  - apply ejust_mono; assumption.
Qed.

Definition sigq (s : stmt) : option vname * bool := (tgt s, is_ldef s).
Definition def_claim (s : stmt) : option vred := match s with SSubst _ _ _ rhe _ _ => expr_val rhe | _ => None end.
Definition def_upd (s : stmt) : bool := match s with SSubst _ _ _ rhe _ _ => is_update rhe | _ => false end.

Lemma pv_logargs_good p env es : Forall (ljust p env) es -> forall res b es',
  pv_logargs p env res es = Ok (b, es') -> Forall (ljust p env) es'.
Proof.
  intros Hj res b es' E.
  refine (Forall2_transfer _ _ _ _ _ (wp_ok _ _ _ _ (pv_logargs_lift _ _ _ _ (keeps_refl p env) es _ res) E) _ Hj).
  - apply Forall_forall. intros e _. apply wp_partial. intros [b0 e0] E0 He. exact (pv_expr_kept p env e _ _ He E0).
  - intros [|x] [|y]; try contradiction; [auto|apply keeps_ejust].
Qed.

(* what one statement visit leaves behind *)
Definition visit_post (p : Z) (env : venv) (s s' : stmt) (env' : venv) : Prop :=
  env_le env env' /\ sjust p env' s' /\ sigq s' = sigq s /\ def_upd s' = def_upd s /\
  oext (def_claim s) (def_claim s') /\
  (forall w x, venv_get env' w = Some x ->
     venv_get env w = Some x \/
     (tgt s' = Some w /\ is_ldef s' = true /\ def_upd s' = false /\ def_claim s' = Some x)).

Lemma same_env_post p env s s' :
  sjust p env s' -> sigq s' = sigq s -> def_upd s' = def_upd s -> oext (def_claim s) (def_claim s') ->
  visit_post p env s s' env.
Proof. intros H1 H2 H3 H4. split; [apply env_le_refl|]. repeat split; auto. Qed.

Lemma subst_post p env env' m v op rhe rhe' sval sv' stype :
  env_le env env' -> ejust p env' rhe' -> stable rhe rhe' -> is_update rhe' = is_update rhe ->
  (forall c, sv' = Some c -> is_update rhe' = false /\ expr_val rhe' = Some c) ->
  (forall w y, venv_get env' w = Some y ->
     venv_get env w = Some y \/ (w = v /\ stype_is_local stype = true /\ is_update rhe' = false /\ expr_val rhe' = Some y)) ->
  visit_post p env (SSubst m v op rhe sval stype) (SSubst m v op rhe' sv' stype) env'.
Proof.
  intros Hle Hj Hst Hup Hsv Hnew. split; [exact Hle|]. split; [split; assumption|]. split; [reflexivity|].
  split; [exact Hup|]. split; [exact Hst|]. intros w y Hw.
  destruct (Hnew w y Hw) as [H|(-> & H)]; [left; exact H|right; split; [reflexivity|exact H]].
Qed.

Lemma pv_stmt_good p env s b s' env' :
  sjust p env s -> pv_stmt p env s = Ok (b, s', env') -> visit_post p env s s' env'.
Proof.
  destruct s; cbn [sjust pv_stmt]; intros Hj.
  - destruct (pv_exprs p env false dims) as [[b1 dims']| | |] eqn:E; try discriminate. cbn [bind]. intros [= <- <- <-].
    apply same_env_post; [|reflexivity|reflexivity|apply oext_refl]. exact (pv_exprs_kept _ _ _ _ _ _ Hj E).
  - destruct (pv_expr p env c) as [[b1 c']| | |] eqn:E; try discriminate. cbn [bind]. intros [= <- <- <-].
    apply same_env_post; [|reflexivity|reflexivity|apply oext_refl]. exact (proj1 (pv_expr_kept _ _ _ _ _ Hj E)).
  - destruct (pv_expr p env e) as [[b1 e']| | |] eqn:E; try discriminate. cbn [bind]. intros [= <- <- <-].
    apply same_env_post; [|reflexivity|reflexivity|apply oext_refl]. exact (proj1 (pv_expr_kept _ _ _ _ _ Hj E)).
  - destruct Hj as [Hje Hsv].
    destruct (pv_expr p env rhe) as [[b1 rhe']| | |] eqn:E; try discriminate. cbn [bind].
    destruct (pv_expr_kept _ _ _ _ _ Hje E) as (Hje' & Hst & Hup).
    assert (Hsv' : forall c, sval = Some c -> is_update rhe' = false /\ expr_val rhe' = Some c).
    { intros c Hc. destruct (Hsv c Hc) as [H1 H2]. split; [congruence|exact (Hst _ H2)]. }
    assert (Hsame : visit_post p env (SSubst m v op rhe sval stype) (SSubst m v op rhe' sval stype) env)
      by (apply subst_post; auto using env_le_refl).
    destruct (is_update rhe') eqn:Eu; [intros [= <- <- <-]; exact Hsame|].
    destruct (expr_val rhe') as [x|] eqn:Ev; [|intros [= <- <- <-]; exact Hsame].
    destruct (if stype_is_local stype then venv_add env v x else Ok env) as [env1| | |] eqn:Ea; try discriminate.
    cbn [bind].
    assert (H1 : env_le env env1 /\ forall w y, venv_get env1 w = Some y ->
                 venv_get env w = Some y \/ (w = v /\ stype_is_local stype = true /\ false = false /\ Some x = Some y)).
    { destruct (stype_is_local stype); [|injection Ea as <-; split; [apply env_le_refl|auto]].
      destruct (venv_add_spec _ _ _ _ Ea) as [Hold Hget]. split; intros w y Hw.
      - rewrite Hget. destruct (vname_eqb v w) eqn:Evw; [|exact Hw].
        apply vname_eqb_eq in Evw. subst w. rewrite (Hold _ Hw). reflexivity.
      - rewrite Hget in Hw. destruct (vname_eqb v w) eqn:Evw; [|left; exact Hw]. apply vname_eqb_eq in Evw. auto. }
    destruct H1 as [Hle Hnew]. pose proof (ejust_mono p env env1 rhe' Hle Hje') as Hje1.
    destruct b1; intros [= <- <- <-]; apply subst_post; rewrite ?Eu, ?Ev; auto.
  - destruct Hj as [Hl Hr].
    destruct (pv_expr p env l) as [[b1 l']| | |] eqn:El; try discriminate. cbn [bind].
    pose proof (proj1 (pv_expr_kept _ _ _ _ _ Hl El)) as Hl'. destruct b1.
    + intros [= <- <- <-]. apply same_env_post; [|reflexivity|reflexivity|apply oext_refl]. split; assumption.
    + destruct (pv_expr p env r) as [[b2 r']| | |] eqn:Er; try discriminate. cbn [bind]. intros [= <- <- <-].
      apply same_env_post; [|reflexivity|reflexivity|apply oext_refl]. split; [exact Hl'|exact (proj1 (pv_expr_kept _ _ _ _ _ Hr Er))].
  - destruct (pv_logargs p env false args) as [[b1 args']| | |] eqn:E; try discriminate. cbn [bind]. intros [= <- <- <-].
    apply same_env_post; [|reflexivity|reflexivity|apply oext_refl]. exact (pv_logargs_good _ _ _ Hj _ _ _ E).
  - destruct (pv_expr p env e) as [[b1 e']| | |] eqn:E; try discriminate. cbn [bind]. intros [= <- <- <-].
    apply same_env_post; [|reflexivity|reflexivity|apply oext_refl]. exact (proj1 (pv_expr_kept _ _ _ _ _ Hj E)).
Qed.

(* every binding of the environment is the claim of all defining assignments *)
Definition env_backed (ss : list stmt) (env : venv) : Prop :=
  forall v x, venv_get env v = Some x -> all_defs_claim ss v x = true.

(* a variable that has a local defining assignment has no other assignment *)
Definition uniq (l : list (option vname * bool)) : Prop :=
  forall A B v, l = A ++ (Some v, true) :: B -> forall y, In y (A ++ B) -> fst y <> Some v.

Lemma defines_tgt v s : defines v s = true <-> tgt s = Some v.
Proof.
  destruct s; cbn; try (split; [discriminate|discriminate]).
  rewrite vname_eqb_eq. split; congruence.
Qed.

Lemma def_ok_spec v x s :
  def_ok v x s = true <->
  (tgt s = Some v -> is_ldef s = true /\ def_upd s = false /\ def_claim s = Some x).
Proof.
  destruct s; cbn [def_ok tgt is_ldef def_upd def_claim]; try (split; [discriminate|reflexivity]).
  destruct (vname_eqb v0 v) eqn:E.
  - apply vname_eqb_eq in E. subst v0. rewrite !andb_true_iff, negb_true_iff, opt_vred_eqb_eq. tauto.
  - split; [|reflexivity]. intros _ [= ->]. rewrite vname_eqb_refl in E. discriminate.
Qed.

Lemma all_defs_claim_iff ss v x : all_defs_claim ss v x = true <->
  (forall t, In t ss -> tgt t = Some v -> is_ldef t = true /\ def_upd t = false /\ def_claim t = Some x) /\
  exists t, In t ss /\ tgt t = Some v.
Proof.
  unfold all_defs_claim. rewrite andb_true_iff, forallb_forall, existsb_exists.
  split; intros [H1 (t & Ht & Hd)]; (split; [|exists t; split; [exact Ht|apply defines_tgt; exact Hd]]);
    intros t0 Ht0; apply def_ok_spec; auto.
Qed.

Lemma uniq_others A s B w t :
  uniq (map sigq (A ++ s :: B)) -> tgt s = Some w -> is_ldef s = true -> In t (A ++ B) -> tgt t <> Some w.
Proof.
  intros Hu Ht Hl Hin. rewrite map_app in Hu. cbn [map] in Hu. unfold sigq at 2 in Hu. rewrite Ht, Hl in Hu.
  apply (Hu _ _ w eq_refl (sigq t)). rewrite <- map_app. apply in_map. exact Hin.
Qed.

Section Lists.
Variable p : Z.

Definition Inv (ss : list stmt) (env : venv) : Prop :=
  Forall (sjust p env) ss /\ env_backed ss env.

Lemma step_inv A s B env b s' env' :
  uniq (map sigq (A ++ s :: B)) ->
  Inv (A ++ s :: B) env -> pv_stmt p env s = Ok (b, s', env') ->
  Inv (A ++ s' :: B) env' /\ map sigq (A ++ s' :: B) = map sigq (A ++ s :: B) /\ env_le env env'.
Proof.
  intros Hu [Hj Hb] Hpv.
  destruct (pv_stmt_good p env s b s' env' (Forall_elt _ _ _ Hj) Hpv) as (Hle & Hjs' & Hsig & Hupd & Hext & Hnew).
  injection Hsig as Htg Hld.
  split; [split|split; [|exact Hle]].
  - apply Forall_app in Hj as [HA HB]. apply Forall_cons_iff in HB as [_ HB].
    apply Forall_app. split; [|constructor; [exact Hjs'|]]; eapply Forall_impl; try eassumption; intros t; apply sjust_mono; exact Hle.
  - intros w x Hw. apply all_defs_claim_iff. destruct (Hnew w x Hw) as [Hold|(Ht & Hl & Hu' & Hc)].
    + apply Hb, all_defs_claim_iff in Hold as [Hall (t & Hin & Ht)]. split.
      * intros t0 Hin0 Ht0. apply in_elt_inv in Hin0 as [<-|Hin0]; [|apply Hall; [apply in_app_mid; exact Hin0|exact Ht0]].
        rewrite Htg in Ht0. destruct (Hall s (in_elt _ _ _) Ht0) as (H1 & H2 & H3). rewrite Hld, Hupd. auto.
      * apply in_elt_inv in Hin as [<-|Hin]; [exists s'; split; [apply in_elt|congruence]|].
        exists t. split; [apply in_app_mid; exact Hin|exact Ht].
    + (* a new binding, produced by this very statement *)
      split; [|exists s'; split; [apply in_elt|exact Ht]].
      intros t0 Hin0 Ht0. apply in_elt_inv in Hin0 as [<-|Hin0]; [auto|].
      exfalso. apply (uniq_others A s B w t0 Hu); congruence.
  - rewrite !map_app. cbn [map]. unfold sigq. rewrite Htg, Hld. reflexivity.
Qed.

Lemma passes_inv k env bs bs' env' :
  uniq (map sigq (all_stmts bs)) -> Inv (all_stmts bs) env ->
  values_passes k p env bs = Ok (bs', env') -> Inv (all_stmts bs') env'.
Proof.
  intros Hu Hi Hk.
  refine (proj2 (wp_ok _ _ _ _ (values_passes_wp True p (fun ss env => uniq (map sigq ss) /\ Inv ss env) _ k env bs (conj Hu Hi)) Hk)).
  intros A s B env0 [Hu0 Hi0]. apply wp_partial. intros [[b s'] env1] E. cbn [fst snd].
  destruct (step_inv A s B env0 b s' env1 Hu0 Hi0 E) as (Hi1 & Hm & _). split; [rewrite Hm; exact Hu0|exact Hi1].
Qed.
End Lists.

Lemma claim_is_vred k o :
  claim_is k o -> match kval k with None => true | Some c => opt_vred_eqb o c end = true.
Proof.
  unfold claim_is. destruct (kval k); [|reflexivity]. intros ->. apply opt_vred_eqb_eq. reflexivity.
Qed.

Lemma ejust_vjust p env ss e : env_backed ss env -> ejust p env e -> vjust_expr ss p e = true.
Proof.
  intros Hb.
  induction e as [z k|v k|op l r k IHl IHr|op e k IHe|c t f k IHc IHt IHf|n args k IHargs|vs k IHvs
                  |v acc k IHacc|v acc rhe k IHacc IHrhe|args k] using expr_ind';
    intros Hj; apply ejust_inv in Hj; cbn [vjust_expr]; rewrite ?list_forallb, ?acc_forallb.
  - destruct Hj as [Hz Hk]. apply andb_true_iff. split; [apply Z.leb_le; exact Hz|].
    unfold claim_is in Hk. destruct (kval k); [|reflexivity]. injection Hk as <-. apply vred_eqb_eq. reflexivity.
  - unfold claim_is in Hj. destruct (kval k) as [c|]; [|reflexivity]. apply Hb. exact Hj.
  - destruct Hj as (Hl & Hr & Hk). rewrite IHl, IHr by assumption. cbn [andb].
    destruct (kval k) as [c|]; [|reflexivity]. rewrite (Hk c eq_refl). apply vred_eqb_eq. reflexivity.
  - destruct Hj as (He & Hk). rewrite IHe by assumption. apply claim_is_vred. exact Hk.
  - destruct Hj as (Hc & Ht & Hf & Hk). rewrite IHc, IHt, IHf by assumption. apply claim_is_vred. exact Hk.
  - destruct Hj as (Ha & Hk). unfold claim_none. rewrite Hk, andb_true_r. apply forallb_Forall. exact (Forall_mp _ _ _ IHargs Ha).
  - destruct Hj as (Ha & Hk). unfold claim_none. rewrite Hk, andb_true_r. apply forallb_Forall. exact (Forall_mp _ _ _ IHvs Ha).
  - destruct Hj as (Ha & Hk). unfold claim_none. rewrite Hk, andb_true_r. apply forallb_Forall. exact (Forall_mp _ _ _ IHacc Ha).
  - destruct Hj as (Ha & Hr & Hk). unfold claim_none. rewrite Hk, andb_true_r, IHrhe by assumption.
    apply forallb_Forall. exact (Forall_mp _ _ _ IHacc Ha).
  - destruct (kval k) as [c|]; [|reflexivity].
    destruct (Hj c eq_refl) as [Hne Hall]. apply andb_true_iff. split.
    + destruct args; [congruence|reflexivity].
    + apply forallb_forall. intros a Ha. apply Hb. apply Hall. exact Ha.
Qed.

Lemma sjust_vjust p env ss s : env_backed ss env -> sjust p env s -> vjust_stmt ss p s = true.
Proof.
  intros Hb. destruct s; cbn [sjust vjust_stmt].
  - intros H. apply forallb_forall. intros e He. rewrite Forall_forall in H. eapply ejust_vjust; eauto.
  - eapply ejust_vjust; eauto.
  - eapply ejust_vjust; eauto.
  - intros [H1 H2]. rewrite (ejust_vjust p env ss rhe Hb H1). cbn [andb].
    destruct sval as [c|]; [|reflexivity]. destruct (H2 c eq_refl) as [Hu Hv]. rewrite Hu. cbn [negb andb].
    apply opt_vred_eqb_eq. exact Hv.
  - intros [H1 H2]. rewrite (ejust_vjust p env ss l Hb H1), (ejust_vjust p env ss r Hb H2). reflexivity.
  - intros H. apply forallb_forall. intros a Ha. rewrite Forall_forall in H. specialize (H a Ha).
    destruct a; [reflexivity|]. cbn in *. eapply ejust_vjust; eauto.
  - eapply ejust_vjust; eauto.
Qed.

Lemma Inv_validated p ss env : Inv p ss env -> forallb (vjust_stmt ss p) ss = true.
Proof.
  intros [Hj Hb]. apply forallb_forall. intros s Hs. rewrite Forall_forall in Hj.
  eapply sjust_vjust; eauto.
Qed.

Lemma clean_ejust p e : clean_expr e = true -> ejust p [] e.
Proof.
  induction e as [z k|v k|op l r k IHl IHr|op e k IHe|c t f k IHc IHt IHf|n args k IHargs|vs k IHvs
                  |v acc k IHacc|v acc rhe k IHacc IHrhe|args k] using expr_ind';
    cbn [clean_expr expr_know]; rewrite ?list_forallb, ?acc_forallb, ?andb_true_iff, ?forallb_Forall;
    unfold claim_none; intros [Hk H]; destruct (kval k) eqn:Ek; try discriminate.
  - apply ej_num; [apply Z.leb_le; exact H|]. apply (claims_none kval). exact Ek.
  - apply ej_var. apply (claims_none kval). exact Ek.
  - destruct H. apply ej_infix; auto. intros c Hc. congruence.
  - apply ej_prefix; auto. apply (claims_none kval). exact Ek.
  - destruct H as [[H1 H2] H3]. apply ej_switch; auto. apply (claims_none kval). exact Ek.
  - apply ej_call; [exact (Forall_mp _ _ _ IHargs H)|exact Ek].
  - apply ej_array; [exact (Forall_mp _ _ _ IHvs H)|exact Ek].
  - apply ej_access; [exact (Forall_mp _ _ _ IHacc H)|exact Ek].
  - destruct H as [Hr Ha]. apply ej_update; [exact (Forall_mp _ _ _ IHacc Ha)|auto|exact Ek].
  - apply ej_phi. intros c Hc. congruence.
Qed.

Lemma clean_sjust p s : clean_stmt s = true -> sjust p [] s.
Proof.
  destruct s; cbn [clean_stmt sjust]; intros H.
  - rewrite forallb_forall in H. apply Forall_forall. intros e He. apply clean_ejust. auto.
  - apply clean_ejust. exact H.
  - apply clean_ejust. exact H.
  - apply andb_true_iff in H as [H1 H2]. split; [apply clean_ejust; exact H1|].
    destruct sval; [discriminate|]. intros c Hc. discriminate.
  - apply andb_true_iff in H as [H1 H2]. split; apply clean_ejust; assumption.
  - rewrite forallb_forall in H. apply Forall_forall. intros a Ha. specialize (H a Ha).
    destruct a; [exact I|]. cbn. apply clean_ejust. exact H.
  - apply clean_ejust. exact H.
Qed.

Lemma clean_Inv p ss : forallb clean_stmt ss = true -> Inv p ss [].
Proof.
  intros H. split.
  - apply Forall_forall. intros s Hs. rewrite forallb_forall in H. apply clean_sjust. auto.
  - intros v x Hv. discriminate.
Qed.

Lemma ldefs_unique_uniq ss : ldefs_unique ss = true -> uniq (map sigq ss).
Proof.
  intros H A B v Heq y Hy Hfst.
  (* split ss along the decomposition of its signature list *)
  apply map_eq_app in Heq as (A' & R & -> & <- & HR).
  destruct R as [|s B']; [discriminate|]. cbn [map] in HR. unfold sigq at 1 in HR. injection HR as Ht Hl HB. subst B.
  unfold ldefs_unique in H. rewrite forallb_forall in H. specialize (H s (in_elt _ _ _)).
  rewrite Hl, Ht in H. cbn [negb orb] in H.
  apply Nat.eqb_eq in H. rewrite filter_app, app_length in H. cbn [filter] in H.
  assert (Hd : defines v s = true) by (apply defines_tgt; exact Ht). rewrite Hd in H. cbn [length] in H.
  rewrite <- map_app in Hy. apply in_map_iff in Hy as (t & <- & Ht').
  apply defines_tgt in Hfst.
  assert (Hin : In t (filter (defines v) A' ++ filter (defines v) B')).
  { apply in_app_or in Ht' as [Hin|Hin]; apply in_or_app; [left|right]; apply filter_In; auto. }
  destruct (filter (defines v) A' ++ filter (defines v) B') eqn:E; [exact Hin|].
  apply (f_equal (@length _)) in E. rewrite app_length in E. cbn [length] in E. lia.
Qed.

Theorem mirror_validated_at_every_budget k p c bs env :
  clean_cfg c = true -> ldefs_unique (all_stmts (c_blocks c)) = true ->
  values_passes k p [] (c_blocks c) = Ok (bs, env) ->
  vjust_cfg p (set_blocks c bs) = true.
Proof.
  intros Hclean Hu Hk. unfold vjust_cfg. cbn [set_blocks c_blocks]. apply Inv_validated with (env := env).
  exact (passes_inv p k [] (c_blocks c) bs env (ldefs_unique_uniq _ Hu) (clean_Inv p _ Hclean) Hk).
Qed.
