From Coq Require Import ZArith List Bool.
Require Import Model.Base Model.Field Model.Ir Model.Propagate Model.Justify Model.Clean Proofs.CutInvariant.
Import ListNotations.
Local Open Scope Z_scope.

Lemma clean_cfg_validated p c : clean_cfg c = true -> vjust_cfg p c = true.
Proof. intros H. exact (Inv_validated p _ [] (clean_Inv p _ H)). Qed.

Lemma budget_zero_identity p idom c : propagate 0 0 p idom c = Ok (set_blocks c (c_blocks c)).
Proof. reflexivity. Qed.

(* one more unit of budget is one more pass, taken only if the previous pass reported a first write *)
Lemma values_passes_succ k p env bs :
  values_passes (S k) p env bs =
  bind (pv_blocks p env false bs)
       (fun r => let '(rerun, bs', env') := r in
                 if rerun then values_passes k p env' bs' else Ok (bs', env')).
Proof. reflexivity. Qed.

Lemma values_passes_fix k p env bs bs' env' :
  pv_blocks p env false bs = Ok (false, bs', env') ->
  values_passes (S k) p env bs = Ok (bs', env').
Proof. intros H. cbn [values_passes]. rewrite H. reflexivity. Qed.

Lemma degrees_passes_fix k idom env bs bs' env' :
  pd_blocks idom env false [] bs = (false, bs', env') ->
  degrees_passes (S k) idom env bs = (bs', env').
Proof. intros H. cbn [degrees_passes]. rewrite H. reflexivity. Qed.
