(* C13, last sentence: the expansions the parser builds (mirrored by
   Model.Lift.desugar / for_into_while and Model.Shortcuts.parse_substitution)
   refine the independent semantics of the source forms (Spec.SurfaceSpec). *)
From stdpp Require Import list.
Require Import Model.Lift Model.Shortcuts Spec.CfgSpec Spec.SurfaceSpec
  Proofs.LiftProofs Proofs.LiftSim Proofs.RunFuel Proofs.CfgContains.
Import Base(outcome, Ok).

Lemma expected_statement_sem {N V} `{EqDecision N, EqDecision V}
    (bop : binop -> V -> V -> V) (num : nat -> V) (fld : N -> V) (s : cstmt N) (st : store N V) :
  exec_stmt bop num fld (expected_statement s) st = exec_stmt bop num fld s st.
Proof. destruct s; reflexivity. Qed.

Lemma parse_substitution_sem {N V} `{EqDecision N, EqDecision V}
    (bop : binop -> V -> V -> V) (num : nat -> V) (fld : N -> V) (s : cstmt N) (st : store N V) :
  exec_stmt bop num fld (parse_substitution s) st = exec_stmt bop num fld s st.
Proof. destruct s; reflexivity. Qed.

(* the specification's expansion and the mirror of ast_shortcuts.rs are the same
   function: the two lemmas above are one fact; only the one
   about the mirror is an obligation (C13_compound_mirror_sem) *)
Lemma parse_substitution_is_expected_statement {N} (s : cstmt N) :
  parse_substitution s = expected_statement s.
Proof. destruct s; reflexivity. Qed.

(* the statement is sharp: with the operands the other way round, or with
   another constant, the assignment means something else *)
Lemma swapped_operands_differ :
  exists (bop : binop -> nat -> nat -> nat) (num : nat -> nat) (st : store nat nat) (e : ex nat),
    exec_stmt bop num (fun _ => 0) (CAssign 0 [] (EInfix Sub e (EVar 0 []))) st 0 []
    <> exec_stmt bop num (fun _ => 0) (COpAssign Sub 0 [] e) st 0 [].
Proof.
  exists (fun op a b => match op with Sub => a - b | _ => 0 end), (fun n => n), (fun _ _ => 5), (ENum 3).
  vm_compute. discriminate.
Qed.

Lemma plus_two_differs :
  exists (bop : binop -> nat -> nat -> nat) (num : nat -> nat) (st : store nat nat),
    exec_stmt bop num (fun _ => 0) (CAssign 0 [] (EInfix Add (EVar 0 []) (ENum 2))) st 0 []
    <> exec_stmt bop num (fun _ => 0) (CInc 0 []) st 0 [].
Proof.
  exists (fun op a b => match op with Add => a + b | _ => 0 end), (fun n => n), (fun _ _ => 5).
  vm_compute. discriminate.
Qed.

Lemma desugar_for i c stp b :
  desugar (UFor i c stp b) = SBlock [desugar i; SWhile c (SBlock [desugar b; desugar stp])].
Proof. reflexivity. Qed.

Lemma run_seq_two s1 s2 ds :
  run_seq [s1; s2] ds =
    let '(tr1, ds1, st1) := run s1 ds in
    match st1 with
    | Running => let '(tr2, ds2, st2) := run s2 ds1 in (tr1 ++ tr2, ds2, st2)
    | _ => (tr1, ds1, st1)
    end.
Proof.
  simpl. destruct (run s1 ds) as [[tr1 ds1] st1]. destruct st1; try done.
  destruct (run s2 ds1) as [[tr2 ds2] st2]. destruct st2; by rewrite ?app_nil_r.
Qed.

Lemma run_loop_unfold c rb fuel ds :
  run_loop c rb (S fuel) ds =
    match ds with
    | [] => ([KCond c], [], Exhausted)
    | false :: ds1 => ([KCond c], ds1, Running)
    | true :: ds1 =>
        let '(tr1, ds2, st1) := rb ds1 in
        match st1 with
        | Running => let '(tr2, ds3, st2) := run_loop c rb fuel ds2 in (KCond c :: tr1 ++ tr2, ds3, st2)
        | _ => (KCond c :: tr1, ds2, st1)
        end
    end.
Proof. reflexivity. Qed.

Definition P_exec (u : usk) (ds : list bool) (tr : list key) (ds' : list bool) (st : status) : Prop :=
  run (desugar u) ds = (tr, ds', st).
Definition P_seq (ss : list usk) (ds : list bool) (tr : list key) (ds' : list bool) (st : status) : Prop :=
  run_seq (map desugar ss) ds = (tr, ds', st).
Definition P_while (c : nat) (b : usk) (ds : list bool) (tr : list key) (ds' : list bool) (st : status) : Prop :=
  forall fuel, length ds < fuel -> run_loop c (run (desugar b)) fuel ds = (tr, ds', st).
Definition P_for (c : nat) (stp b : usk) (ds : list bool) (tr : list key) (ds' : list bool) (st : status) : Prop :=
  forall fuel, length ds < fuel ->
    run_loop c (run (SBlock [desugar b; desugar stp])) fuel ds = (tr, ds', st).

Lemma uexec_run_all :
  (forall u ds tr ds' st, uexec u ds tr ds' st -> P_exec u ds tr ds' st) /\
  (forall ss ds tr ds' st, useq ss ds tr ds' st -> P_seq ss ds tr ds' st) /\
  (forall c b ds tr ds' st, uwhile c b ds tr ds' st -> P_while c b ds tr ds' st) /\
  (forall c stp b ds tr ds' st, ufor c stp b ds tr ds' st -> P_for c stp b ds tr ds' st).
Proof.
  apply uexec_mutind; unfold P_exec, P_seq, P_while, P_for.
  - (* leaf *) intros id r ds. simpl. by destruct r.
  - (* compound *) done.
  - (* init *) intros ss ds tr ds' st _ IH. simpl desugar. by rewrite run_init.
  - (* block *) intros ss ds tr ds' st _ IH. simpl desugar. by rewrite run_block.
  - (* while *) intros c b ds tr ds' st _ IH. simpl desugar. rewrite run_while. apply IH. lia.
  - (* if, no decision *) done.
  - (* if true *) intros c t e ds tr ds' st _ IH. simpl. by rewrite IH.
  - (* if false, else *) intros c t e ds tr ds' st _ IH. simpl. by rewrite IH.
  - (* if false, no else *) done.
  - (* for: init stops *)
    intros i c stp b ds tr ds' st _ IH Hst. rewrite desugar_for, run_block, run_seq_two, IH.
    by destruct st.
  - (* for *)
    intros i c stp b ds tr1 ds1 tr2 ds2 st _ IHi _ IHf.
    rewrite desugar_for, run_block, run_seq_two, IHi, run_while, IHf by lia. done.
  - (* seq nil *) done.
  - (* seq stop *) intros s r ds tr ds' st _ IH Hst. simpl. rewrite IH. by destruct st.
  - (* seq next *) intros s r ds tr1 ds1 tr2 ds2 st _ IH1 _ IH2. simpl. by rewrite IH1, IH2.
  - (* while, no decision *) intros c b [|fuel] Hf; [simpl in Hf; lia|done].
  - (* while false *) intros c b ds [|fuel] Hf; [simpl in Hf; lia|done].
  - (* while: body stops *)
    intros c b ds tr ds' st _ IH Hst [|fuel] Hf; [simpl in Hf; lia|].
    rewrite run_loop_unfold, IH. by destruct st.
  - (* while: again *)
    intros c b ds tr1 ds1 tr2 ds2 st _ IH1 _ IH2 [|fuel] Hf; [simpl in Hf; lia|].
    rewrite run_loop_unfold, IH1, IH2; [done|].
    destruct (run_shrinks _ _ _ _ _ IH1). simpl in Hf. lia.
  - (* for, no decision *) intros c stp b [|fuel] Hf; [simpl in Hf; lia|done].
  - (* for false *) intros c stp b ds [|fuel] Hf; [simpl in Hf; lia|done].
  - (* for: body stops *)
    intros c stp b ds tr ds' st _ IH Hst [|fuel] Hf; [simpl in Hf; lia|].
    rewrite run_loop_unfold, run_block, run_seq_two, IH. by destruct st.
  - (* for: step stops *)
    intros c stp b ds tr1 ds1 tr2 ds2 st _ IH1 _ IH2 Hst [|fuel] Hf; [simpl in Hf; lia|].
    rewrite run_loop_unfold, run_block, run_seq_two, IH1, IH2. by destruct st.
  - (* for: again *)
    intros c stp b ds tr1 ds1 tr2 ds2 tr3 ds3 st _ IH1 _ IH2 _ IH3 [|fuel] Hf; [simpl in Hf; lia|].
    rewrite run_loop_unfold, run_block, run_seq_two, IH1, IH2, IH3.
    + by rewrite <- app_assoc.
    + destruct (run_shrinks _ _ _ _ _ IH1). destruct (run_shrinks _ _ _ _ _ IH2). simpl in Hf. lia.
Qed.

Theorem uexec_run u ds tr ds' st : uexec u ds tr ds' st -> run (desugar u) ds = (tr, ds', st).
Proof. apply uexec_run_all. Qed.

Section usk_induction.
  Variable Q : usk -> Prop.
  Hypothesis HL : forall id r, Q (ULeaf id r).
  Hypothesis HC : forall id, Q (UCompound id).
  Hypothesis HN : forall ss, Forall Q ss -> Q (UInit ss).
  Hypothesis HB : forall ss, Forall Q ss -> Q (UBlock ss).
  Hypothesis HW : forall c b, Q b -> Q (UWhile c b).
  Definition Qopt (e : option usk) : Prop := match e with Some e' => Q e' | None => True end.
  Hypothesis HI : forall c t e, Q t -> Qopt e -> Q (UIf c t e).
  Hypothesis HF : forall i c stp b, Q i -> Q stp -> Q b -> Q (UFor i c stp b).

  Fixpoint usk_ind' (u : usk) : Q u :=
    let fix go ss : Forall Q ss :=
      match ss with
      | [] => Forall_nil_2 Q
      | s :: r => Forall_cons_2 Q s r (usk_ind' s) (go r)
      end in
    match u with
    | ULeaf id r => HL id r
    | UCompound id => HC id
    | UInit ss => HN ss (go ss)
    | UBlock ss => HB ss (go ss)
    | UWhile c b => HW c b (usk_ind' b)
    | UIf c t e => HI c t e (usk_ind' t)
                     (match e as e0 return Qopt e0 with
                      | Some e1 => usk_ind' e1
                      | None => I
                      end)
    | UFor i c stp b => HF i c stp b (usk_ind' i) (usk_ind' stp) (usk_ind' b)
    end.
End usk_induction.

Definition complete_for (u : usk) : Prop :=
  forall ds tr ds' st, run (desugar u) ds = (tr, ds', st) -> uexec u ds tr ds' st.

Lemma not_diverged s ds tr ds' st : run s ds = (tr, ds', st) -> st <> Diverged.
Proof. intros H. by destruct (run_shrinks s _ _ _ _ H). Qed.

Lemma run_seq_useq ss : Forall complete_for ss ->
  forall ds tr ds' st, run_seq (map desugar ss) ds = (tr, ds', st) -> useq ss ds tr ds' st.
Proof.
  induction 1 as [|s r Hs _ IH]; intros ds tr ds' st Hr; simpl in Hr.
  - injection Hr as <- <- <-. constructor.
  - destruct (run (desugar s) ds) as [[tr1 ds1] st1] eqn:E. apply Hs in E.
    destruct st1; try (injection Hr as <- <- <-; by apply us_stop).
    destruct (run_seq (map desugar r) ds1) as [[tr2 ds2] st2] eqn:E2. injection Hr as <- <- <-.
    eapply us_next; [exact E|by apply IH].
Qed.

Lemma run_loop_uwhile c b : complete_for b ->
  forall fuel ds tr ds' st, run_loop c (run (desugar b)) fuel ds = (tr, ds', st) -> st <> Diverged ->
  uwhile c b ds tr ds' st.
Proof.
  intros Hb. induction fuel as [|fuel IH]; intros ds tr ds' st Hr Hnd.
  - simpl in Hr. injection Hr as <- <- <-. done.
  - rewrite run_loop_unfold in Hr. destruct ds as [|[] ds1].
    + injection Hr as <- <- <-. constructor.
    + destruct (run (desugar b) ds1) as [[tr1 ds2] st1] eqn:E. apply Hb in E.
      destruct st1; try (injection Hr as <- <- <-; by apply uw_body_stops).
      destruct (run_loop c (run (desugar b)) fuel ds2) as [[tr2 ds3] st2] eqn:E2. injection Hr as <- <- <-.
      eapply uw_again; [exact E|by apply IH].
    + injection Hr as <- <- <-. constructor.
Qed.

Lemma run_loop_ufor c stp b : complete_for stp -> complete_for b ->
  forall fuel ds tr ds' st,
    run_loop c (run (SBlock [desugar b; desugar stp])) fuel ds = (tr, ds', st) -> st <> Diverged ->
    ufor c stp b ds tr ds' st.
Proof.
  intros Hs Hb. induction fuel as [|fuel IH]; intros ds tr ds' st Hr Hnd.
  - simpl in Hr. injection Hr as <- <- <-. done.
  - rewrite run_loop_unfold in Hr. destruct ds as [|[] ds1].
    + injection Hr as <- <- <-. constructor.
    + rewrite run_block, run_seq_two in Hr.
      destruct (run (desugar b) ds1) as [[tr1 ds2] st1] eqn:E. apply Hb in E.
      destruct st1; try (injection Hr as <- <- <-; by apply uf_body_stops).
      destruct (run (desugar stp) ds2) as [[tr2 ds3] st2] eqn:E2. apply Hs in E2.
      destruct st2; try (injection Hr as <- <- <-; by eapply uf_step_stops).
      destruct (run_loop c (run (SBlock [desugar b; desugar stp])) fuel ds3) as [[tr3 ds4] st3] eqn:E3.
      injection Hr as <- <- <-. rewrite <- app_assoc.
      eapply uf_again; [exact E|exact E2|by apply IH].
    + injection Hr as <- <- <-. constructor.
Qed.

Theorem run_uexec u : complete_for u.
Proof.
  induction u as [id r|id|ss IH|ss IH|c b IH|c t e IHt IHe|i c stp b IHi IHs IHb] using usk_ind';
    intros ds tr ds' st Hr.
  - simpl in Hr. injection Hr as <- <- <-. constructor.
  - simpl in Hr. injection Hr as <- <- <-. constructor.
  - simpl desugar in Hr. rewrite run_init in Hr. constructor. by apply run_seq_useq.
  - simpl desugar in Hr. rewrite run_block in Hr. constructor. by apply run_seq_useq.
  - pose proof (not_diverged _ _ _ _ _ Hr) as Hnd. simpl desugar in Hr. rewrite run_while in Hr.
    constructor. by eapply run_loop_uwhile.
  - simpl in Hr. destruct ds as [|[] ds1].
    + injection Hr as <- <- <-. constructor.
    + destruct (run (desugar t) ds1) as [[tr1 ds2] st1] eqn:E. injection Hr as <- <- <-.
      apply ux_if_true. by apply IHt.
    + destruct e as [e|]; simpl in Hr.
      * destruct (run (desugar e) ds1) as [[tr1 ds2] st1] eqn:E. injection Hr as <- <- <-.
        apply ux_if_false_else. by apply IHe.
      * injection Hr as <- <- <-. constructor.
  - pose proof (not_diverged _ _ _ _ _ Hr) as Hnd.
    rewrite desugar_for, run_block, run_seq_two in Hr.
    destruct (run (desugar i) ds) as [[tr1 ds1] st1] eqn:E. apply IHi in E.
    destruct st1; try (injection Hr as <- <- <-; by apply ux_for_init_stops).
    destruct (run (SWhile c (SBlock [desugar b; desugar stp])) ds1) as [[tr2 ds2] st2] eqn:E2.
    injection Hr as <- <- <-. rewrite run_while in E2.
    eapply ux_for; [exact E|]. by eapply run_loop_ufor.
Qed.

Theorem uexec_iff_run u ds tr ds' st :
  uexec u ds tr ds' st <-> run (desugar u) ds = (tr, ds', st).
Proof. split; [apply uexec_run|apply run_uexec]. Qed.

Theorem uexec_total u ds : exists tr ds' st, uexec u ds tr ds' st /\ st <> Diverged.
Proof.
  destruct (run (desugar u) ds) as [[tr ds'] st] eqn:E. exists tr, ds', st.
  split; [by apply run_uexec|by eapply not_diverged].
Qed.

Theorem uexec_deterministic u ds tr1 ds1 st1 tr2 ds2 st2 :
  uexec u ds tr1 ds1 st1 -> uexec u ds tr2 ds2 st2 -> tr1 = tr2 /\ ds1 = ds2 /\ st1 = st2.
Proof.
  intros H1%uexec_run H2%uexec_run. rewrite H1 in H2. by injection H2 as <- <- <-.
Qed.

Theorem cfg_contains_surface_execution u g ds tr ds' st :
  lift (desugar u) = Ok g -> uexec u ds tr ds' st ->
  exists n0, forall n, n0 <= n -> tr `prefix_of` walk n g ds.
Proof.
  intros Hl Hx%uexec_run. destruct (cfg_contains_source _ _ ds Hl) as (n0 & Hn0).
  exists n0. intros n Hn. specialize (Hn0 n Hn). unfold trace in Hn0. by rewrite Hx in Hn0.
Qed.

Theorem cfg_equals_surface_execution_at_end u g ds tr ds' :
  lift (desugar u) = Ok g -> uexec u ds tr ds' Running ->
  exists n0, forall n, n0 <= n -> walk n g ds = tr.
Proof.
  intros Hl Hx%uexec_run.
  destruct (cfg_equals_source_at_end _ _ ds Hl) as (n0 & Hn0).
  { unfold final_status. by rewrite Hx. }
  exists n0. intros n Hn. specialize (Hn0 n Hn). unfold trace in Hn0. by rewrite Hx in Hn0.
Qed.
